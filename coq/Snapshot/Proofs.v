(* The round trip: for a state satisfying the reachable-state invariant, restoring its snapshot
   gives back the replicated state, with every service check carrying its service's current name. *)
From stdpp Require Import gmap strings.
From RecordUpdate Require Import RecordSet.
From Coq Require Import NArith.
From Verif Require Import Store.Model Store.Skeleton Snapshot.Model Snapshot.Lemmas Snapshot.Defs.
Import RecordSetNotations.
Local Open Scope N_scope.

Definition ins_all {V} (src : gmap string V) (l : list string) (m0 : gmap string V) : gmap string V :=
  fold_left (fun acc k => match src !! k with Some e => <[k := e]> acc | None => acc end) l m0.

Lemma ins_all_lookup {V} (src : gmap string V) l : forall m0 k,
  ins_all src l m0 !! k =
  match src !! k with Some e => if decide (k ∈ l) then Some e else m0 !! k | None => m0 !! k end.
Proof.
  unfold ins_all. induction l as [|x l IH]; intros m0 k; cbn [fold_left].
  - destruct (src !! k); [rewrite decide_False by (intros H; inversion H)|]; reflexivity.
  - rewrite IH. destruct (src !! k) as [e|] eqn:Ek.
    + destruct (decide (k ∈ l)) as [Hin|Hnin].
      * rewrite decide_True by (right; exact Hin). reflexivity.
      * destruct (decide (k = x)) as [->|Hne].
        -- rewrite decide_True by left. rewrite Ek, lookup_insert. reflexivity.
        -- rewrite decide_False by (intros H; apply elem_of_cons in H as [H|H]; contradiction).
           destruct (src !! x); [rewrite lookup_insert_ne by congruence|]; reflexivity.
    + destruct (src !! x) as [e|] eqn:Ex; [|reflexivity].
      rewrite lookup_insert_ne by (intros ->; congruence). reflexivity.
Qed.

Lemma ins_all_over {V} (src ix : gmap string V) : dom ix ⊆ dom src -> ins_all src (sorted_keys src) ix = src.
Proof.
  intros Hd. apply map_eq. intros k. rewrite ins_all_lookup. destruct (src !! k) as [e|] eqn:Ek.
  - rewrite decide_True; [reflexivity|]. apply elem_of_sorted_keys. rewrite Ek. eauto.
  - apply not_elem_of_dom. intros Hin. apply Hd in Hin. apply elem_of_dom in Hin as [? Hin]. congruence.
Qed.

Lemma ins_all_full {V} (src : gmap string V) : ins_all src (sorted_keys src) ∅ = src.
Proof. apply ins_all_over. rewrite dom_empty. apply empty_subseteq. Qed.

(* indexUpdateMaxTxn on the index map alone *)
Definition ium_ix (k : string) (v : N) (ix : gmap string N) : gmap string N :=
  match ix !! k with
  | Some cur => if bool_decide (v <= cur) then ix else <[k := v]> ix
  | None => <[k := v]> ix
  end.

Lemma ium_eq k v t : index_update_max k v t = t <| index := ium_ix k v (index t) |>.
Proof.
  unfold index_update_max, ium_ix, set_index. destruct t as [a b c d e f g h ix j]. cbn.
  destruct (ix !! k) as [cur|]; [destruct (bool_decide (v <= cur))|]; reflexivity.
Qed.

Lemma ium_ix_dom k v ix : dom (ium_ix k v ix) ⊆ {[k]} ∪ dom ix.
Proof.
  unfold ium_ix. destruct (ix !! k) as [cur|]; [destruct (bool_decide _)|]; try rewrite dom_insert; set_solver.
Qed.

Definition ix_all {V} (key : string) (val : string -> V -> N) (src : gmap string V) (l : list string)
           (ix : gmap string N) : gmap string N :=
  fold_left (fun acc k => match src !! k with Some e => ium_ix key (val k e) acc | None => acc end) l ix.

Lemma ix_all_dom {V} key val (src : gmap string V) l : forall ix, dom (ix_all key val src l ix) ⊆ {[key]} ∪ dom ix.
Proof.
  unfold ix_all. induction l as [|x l IH]; intros ix; cbn [fold_left]; [set_solver|].
  etrans; [apply IH|]. destruct (src !! x); [|set_solver].
  pose proof (ium_ix_dom key (val x v) ix). set_solver.
Qed.

Lemma ix_all_empty {V} key val (src : gmap string V) ix : src = ∅ -> ix_all key val src (sorted_keys src) ix = ix.
Proof. intros ->. unfold sorted_keys. rewrite dom_empty_L, elements_empty. reflexivity. Qed.

Lemma ix_all_within {V} key val (src : gmap string V) ix (D : gset string) :
  dom ix ⊆ D -> (src <> ∅ -> key ∈ D) -> dom (ix_all key val src (sorted_keys src) ix) ⊆ D.
Proof.
  intros Hix Hkey. destruct (decide (src = ∅)) as [He|Hne]; [rewrite ix_all_empty by exact He; exact Hix|].
  etrans; [apply ix_all_dom|]. apply union_subseteq. split; [apply singleton_subseteq_l, Hkey, Hne|exact Hix].
Qed.

Lemma sub_lookup {K V} `{Countable K} (m src : gmap K V) k v :
  m ⊆ src -> src !! k = Some v -> m !! k = None \/ m !! k = Some v.
Proof.
  intros Hsub Hv. destruct (m !! k) as [x|] eqn:E; [right|left; reflexivity].
  rewrite (lookup_weaken _ _ _ _ E Hsub) in Hv. exact Hv.
Qed.

Lemma check_same_refl c : check_same c c = true.
Proof. unfold check_same. rewrite !bool_decide_eq_true_2 by reflexivity. reflexivity. Qed.

Lemma grows_insert {K V} `{Countable K} (m src : gmap K V) k v : m ⊆ src -> src !! k = Some v -> m ⊆ <[k := v]> m.
Proof.
  intros Hsub Hv. destruct (sub_lookup m src k v Hsub Hv) as [Hn|Ht]; [apply insert_subseteq, Hn|rewrite insert_id by exact Ht; reflexivity].
Qed.

Lemma omap_concat {A B} (f : A -> option B) l :
  omap f l = concat ((fun a => match f a with Some b => [b] | None => [] end) <$> l).
Proof. induction l as [|a l IH]; [reflexivity|]. cbn. destruct (f a); cbn; rewrite IH; reflexivity. Qed.

Lemma sub_full {K V} `{Countable K} (m src : gmap K V) :
  m ⊆ src -> (forall k v, src !! k = Some v -> m !! k = Some v) -> m = src.
Proof.
  intros Hsub Hall. apply map_eq. intros k. destruct (src !! k) as [v|] eqn:E; [apply Hall, E|].
  destruct (m !! k) as [x|] eqn:Em; [|reflexivity]. rewrite (lookup_weaken _ _ _ _ Em Hsub) in E. discriminate.
Qed.

Lemma refresh_lookup s k : checks (refresh s) !! k = refresh_check s k.1 <$> checks s !! k.
Proof. cbn. rewrite map_lookup_imap. destruct (checks s !! k); reflexivity. Qed.

Section roundtrip.
Context (li : N) (s : st).
Hypothesis HI : Inv s.

(* the store under construction while the registration records are replayed: only catalog rows,
   and each of them a row of [refresh s] *)
Record RS (t : st) : Prop := {
  rs_kvs : kvs t = ∅; rs_tombs : tombs t = ∅; rs_sessions : sessions t = ∅; rs_schecks : schecks t = ∅;
  rs_queries : queries t = ∅; rs_index : index t = ∅; rs_delay : lockdelay t = ∅;
  rs_n : nodes t ⊆ nodes s; rs_s : services t ⊆ services s; rs_c : checks t ⊆ checks (refresh s) }.

Lemma RS_st0 : RS st0.
Proof. split; try reflexivity; apply map_empty_subseteq. Qed.

Lemma reg_node_there t nd n svc chk :
  nodes t !! nd = Some n ->
  restore_registration li nd n svc chk t =
  (s2 ← (match svc with
        | None => Ok t
        | Some (sid, sv) =>
          match services t !! (nd, sid) with
          | Some x => if bool_decide (sv_name x = sv_name sv) && bool_decide (sv_port x = sv_port sv) then Ok t
                      else ensure_service_p nd sid sv t
          | None => ensure_service_p nd sid sv t
          end
        end);
  match chk with None => Ok s2 | Some (cid, c) => ensure_check_p true li nd cid c s2 end).
Proof.
  intros Hn. unfold restore_registration. rewrite Hn. cbn [changes_node].
  rewrite !bool_decide_eq_true_2 by reflexivity. reflexivity.
Qed.

Lemma step_node t nd n :
  RS t -> nodes s !! nd = Some n ->
  exists t', restore_rec li t (SNode nd n) = Ok t' /\ t' = t <| nodes ::= <[nd := n]> |>.
Proof.
  intros HR Hn. destruct HI as (Huniq & Hpos & _). eexists. split; [|reflexivity].
  cbn [restore_rec]. destruct (sub_lookup _ _ nd n (rs_n _ HR) Hn) as [Hnone|Hthere].
  2: { rewrite (reg_node_there _ _ _ _ _ Hthere). cbn. f_equal. destruct t; unfold set; cbn in *.
       rewrite insert_id by exact Hthere. reflexivity. }
  unfold restore_registration. rewrite Hnone. cbn [changes_node]. unfold ensure_node_p.
  assert (Hfirst : (if bool_decide (n_id n = "") then Ok (None, t) else
            match node_by_id (n_id n) t with
            | Some (oname, on) =>
              if bool_decide (oname = nd) then Ok (Some on, t)
              else if similar_clash false nd (n_id n) t then Err ESimilarName t
              else s' ← delete_node li oname t; Ok (Some on, s')
            | None => if similar_clash true nd (n_id n) t then Err ESimilarName t else Ok (None, t)
            end) = (Ok (None, t) : result (option node * st))).
  { destruct (bool_decide (n_id n = "")) eqn:Eid; [reflexivity|]. apply bool_decide_eq_false in Eid.
    rewrite (proj2 (node_by_id_None (n_id n) t)).
    - unfold similar_clash. rewrite Hnone. reflexivity.
    - (* a node of t with this id is a node of s with this id, hence nd itself *)
      intros nm n' Hnm Hid. assert (Hs := lookup_weaken _ _ _ _ Hnm (rs_n _ HR)).
      assert (nm = nd) by (eapply (Huniq nm nd n' n); [exact Hs|exact Hn|exact Hid|rewrite Hid; exact Eid]).
      subst. congruence. }
  rewrite Hfirst. cbn. rewrite Hnone.
  rewrite bool_decide_eq_false_2 by (eapply Hpos; exact Hn).
  rewrite node_eta. reflexivity.
Qed.

Lemma step_service t nd n sid sv :
  RS t -> nodes t !! nd = Some n -> services s !! (nd, sid) = Some sv ->
  restore_rec li t (SService nd n sid sv) = Ok (t <| services ::= <[(nd, sid) := sv]> |>).
Proof.
  intros HR Hn Hsv. cbn [restore_rec]. rewrite (reg_node_there _ _ _ _ _ Hn).
  destruct (sub_lookup _ _ _ _ (rs_s _ HR) Hsv) as [Hnone|Hthere].
  - rewrite Hnone. unfold ensure_service_p. rewrite Hn, Hnone. reflexivity.
  - rewrite Hthere, !bool_decide_eq_true_2 by reflexivity. cbn. f_equal. destruct t; unfold set; cbn in *.
    rewrite insert_id by exact Hthere. reflexivity.
Qed.

Lemma sessions_of_check_nil nd cid t : schecks t = ∅ -> sessions_of_check nd cid t = [].
Proof. intros H. unfold sessions_of_check. rewrite H, elements_empty. reflexivity. Qed.

Lemma step_check t nd n cid c :
  RS t -> nodes t !! nd = Some n -> checks s !! (nd, cid) = Some c ->
  (forall sv, c_service c <> "" -> services s !! (nd, c_service c) = Some sv -> services t !! (nd, c_service c) = Some sv) ->
  restore_rec li t (SCheck nd n cid c) = Ok (t <| checks ::= <[(nd, cid) := refresh_check s nd c]> |>).
Proof.
  intros HR Hn Hc Hsvc. destruct HI as (_ & _ & _ & Href & _).
  cbn [restore_rec]. rewrite (reg_node_there _ _ _ _ _ Hn). cbn.
  unfold ensure_check_p, ensure_check_with. rewrite Hn.
  assert (Hres : resolve_service nd c t = Ok (refresh_check s nd c)).
  { unfold resolve_service, refresh_check. destruct (bool_decide (c_service c = "")) eqn:E; [reflexivity|].
    apply bool_decide_eq_false in E. destruct (proj2 (Href nd cid c Hc) E) as [sv Hsv].
    rewrite (Hsvc sv E Hsv), Hsv. reflexivity. }
  rewrite Hres, bind_Ok.
  assert (Hinv : invalidate_if_critical (fun i sid s' => delete_session (fuel_of s') i sid s') li nd cid
                   (refresh_check s nd c) t = Ok t).
  { unfold invalidate_if_critical. destruct (bool_decide _); [|reflexivity].
    rewrite sessions_of_check_nil by (apply (rs_schecks _ HR)). reflexivity. }
  rewrite Hinv, bind_Ok. f_equal. unfold store_check.
  assert (Hrc : checks (refresh s) !! (nd, cid) = Some (refresh_check s nd c)) by (rewrite refresh_lookup, Hc; reflexivity).
  destruct (sub_lookup _ _ _ _ (rs_c _ HR) Hrc) as [Hnone|Hthere].
  - rewrite Hnone. cbn. rewrite check_set_same. reflexivity.
  - rewrite Hthere, check_same_refl. cbn. destruct t; unfold set; cbn in *. rewrite insert_id by exact Hthere. reflexivity.
Qed.

Definition grows (t t' : st) : Prop :=
  nodes t ⊆ nodes t' /\ services t ⊆ services t' /\ checks t ⊆ checks t'.

Lemma grows_refl t : grows t t.
Proof. split; [|split]; reflexivity. Qed.
Lemma grows_trans a b c : grows a b -> grows b c -> grows a c.
Proof. intros (A1 & A2 & A3) (B1 & B2 & B3). split; [|split]; etrans; eassumption. Qed.

Lemma RS_put_node t nd n : RS t -> nodes s !! nd = Some n -> RS (t <| nodes ::= <[nd := n]> |>).
Proof. intros [] Hn. split; try assumption. cbn. apply insert_subseteq_l; assumption. Qed.
Lemma RS_put_service t k sv : RS t -> services s !! k = Some sv -> RS (t <| services ::= <[k := sv]> |>).
Proof. intros [] Hn. split; try assumption. cbn. apply insert_subseteq_l; assumption. Qed.
Lemma RS_put_check t nd cid c :
  RS t -> checks s !! (nd, cid) = Some c -> RS (t <| checks ::= <[(nd, cid) := refresh_check s nd c]> |>).
Proof.
  intros [] Hc. split; try assumption. cbn [checks set]. apply insert_subseteq_l; [|assumption].
  rewrite refresh_lookup, Hc. reflexivity.
Qed.

(* Sub-lists of records replayed one after the other: [Pre] is what they need of the store,
   [Post a] what the records of [a] leave in it; both survive later puts. *)
Lemma phases {A} (recs : A -> list rec) (Pre : st -> Prop) (Post : A -> st -> Prop) l :
  (forall a t, RS t -> Pre t ->
     exists t', rfold (restore_rec li) (recs a) t = Ok t' /\ RS t' /\ grows t t' /\ Post a t') ->
  (forall t t', grows t t' -> Pre t -> Pre t') -> (forall a t t', grows t t' -> Post a t -> Post a t') ->
  forall t, RS t -> Pre t ->
  exists t', rfold (restore_rec li) (concat (recs <$> l)) t = Ok t' /\ RS t' /\ grows t t' /\ forall a, a ∈ l -> Post a t'.
Proof.
  intros Hstep HPre HPost. induction l as [|a l IH]; intros t HR Hp.
  - exists t. split; [reflexivity|]. split; [exact HR|]. split; [apply grows_refl|]. intros a Ha. inversion Ha.
  - cbn [fmap list_fmap concat]. rewrite rfold_app.
    destruct (Hstep a t HR Hp) as (t1 & -> & HR1 & G1 & P1). rewrite bind_Ok.
    destruct (IH t1 HR1 (HPre t t1 G1 Hp)) as (t2 & -> & HR2 & G2 & P2).
    exists t2. split; [reflexivity|]. split; [exact HR2|]. split; [exact (grows_trans _ _ _ G1 G2)|].
    intros b [->|Hb]%elem_of_cons; [exact (HPost _ _ _ G2 P1)|exact (P2 b Hb)].
Qed.

(* what the records of node [nd] leave in the store: every catalog row of [nd] *)
Definition node_done (nd : string) (t : st) : Prop :=
  (forall n, nodes s !! nd = Some n -> nodes t !! nd = Some n) /\
  (forall sid sv, services s !! (nd, sid) = Some sv -> services t !! (nd, sid) = Some sv) /\
  (forall cid c, checks s !! (nd, cid) = Some c -> checks t !! (nd, cid) = Some (refresh_check s nd c)).

Lemma node_phase t nd :
  RS t -> exists t', rfold (restore_rec li) (snap_node s nd) t = Ok t' /\ RS t' /\ grows t t' /\ node_done nd t'.
Proof.
  intros HR. destruct HI as (_ & _ & Hsn & Href & _). unfold snap_node.
  destruct (nodes s !! nd) as [n|] eqn:Hn.
  2: { exists t. split; [reflexivity|]. split; [exact HR|]. split; [apply grows_refl|].
       split; [intros n Hn'; congruence|]. split; [intros sid sv Hsv|intros cid c Hc].
       - destruct (Hsn _ _ _ Hsv) as [x Hx]. congruence.
       - destruct (proj1 (Href _ _ _ Hc)) as [x Hx]. congruence. }
  rewrite rfold_cons. destruct (step_node t nd n HR Hn) as (t1 & -> & ->). rewrite bind_Ok, rfold_app, !omap_concat.
  set (t1 := t <| nodes ::= <[nd := n]> |>).
  assert (HR1 : RS t1) by (apply RS_put_node; assumption).
  assert (G1 : grows t t1) by (split; [exact (grows_insert _ _ _ _ (rs_n _ HR) Hn)|split; reflexivity]).
  assert (Hnode : forall t', grows t1 t' -> nodes t' !! nd = Some n).
  { intros t' (G & _). eapply lookup_weaken; [|exact G]. apply lookup_insert. }
  (* the services of nd *)
  destruct (phases (fun sid => match SService nd n sid <$> services s !! (nd, sid) with Some b => [b] | None => [] end)
              (fun t' => nodes t' !! nd = Some n)
              (fun sid t' => forall sv, services s !! (nd, sid) = Some sv -> services t' !! (nd, sid) = Some sv)
              (services_of_node nd s)) with (t := t1) as (t2 & -> & HR2 & G2 & P2); [| | |exact HR1| |].
  { intros sid t' HR' Hn'. destruct (services s !! (nd, sid)) as [sv|] eqn:Hsv; cbn [fmap option_fmap option_map].
    - rewrite rfold_cons, (step_service t' nd n sid sv HR' Hn' Hsv), bind_Ok. eexists. split; [reflexivity|].
      split; [apply RS_put_service; assumption|].
      split; [split; [reflexivity|split; [exact (grows_insert _ _ _ _ (rs_s _ HR') Hsv)|reflexivity]]|].
      intros sv' [= <-]. apply lookup_insert.
    - exists t'. split; [reflexivity|]. split; [exact HR'|]. split; [apply grows_refl|discriminate]. }
  { intros a b (G & _) H. exact (lookup_weaken _ _ _ _ H G). }
  { intros sid a b (_ & G & _) H sv Hsv. exact (lookup_weaken _ _ _ _ (H sv Hsv) G). }
  { apply Hnode, grows_refl. }
  rewrite bind_Ok.
  assert (Hsvcs : forall t', grows t2 t' -> forall sid sv, services s !! (nd, sid) = Some sv -> services t' !! (nd, sid) = Some sv).
  { intros t' (_ & G & _) sid sv Hsv. eapply lookup_weaken; [|exact G].
    apply (P2 sid); [apply elem_of_services_of_node; eauto|exact Hsv]. }
  (* its checks *)
  destruct (phases (fun cid => match SCheck nd n cid <$> checks s !! (nd, cid) with Some b => [b] | None => [] end)
              (fun t' => grows t2 t')
              (fun cid t' => forall c, checks s !! (nd, cid) = Some c -> checks t' !! (nd, cid) = Some (refresh_check s nd c))
              (checks_of_node nd s)) with (t := t2) as (t3 & -> & HR3 & G3 & P3); [| | |exact HR2| |].
  { intros cid t' HR' G'. destruct (checks s !! (nd, cid)) as [c|] eqn:Hc; cbn [fmap option_fmap option_map].
    - rewrite rfold_cons, (step_check t' nd n cid c HR' (Hnode _ (grows_trans _ _ _ G2 G')) Hc), bind_Ok
        by (intros sv _; apply (Hsvcs _ G')).
      eexists. split; [reflexivity|]. split; [apply RS_put_check; assumption|].
      assert (Hrc : checks (refresh s) !! (nd, cid) = Some (refresh_check s nd c)) by (rewrite refresh_lookup, Hc; reflexivity).
      split; [split; [reflexivity|split; [reflexivity|exact (grows_insert _ _ _ _ (rs_c _ HR') Hrc)]]|].
      intros c' [= <-]. apply lookup_insert.
    - exists t'. split; [reflexivity|]. split; [exact HR'|]. split; [apply grows_refl|discriminate]. }
  { intros a b G H. exact (grows_trans _ _ _ H G). }
  { intros cid a b (_ & _ & G) H c Hc. exact (lookup_weaken _ _ _ _ (H c Hc) G). }
  { apply grows_refl. }
  exists t3. split; [reflexivity|]. split; [exact HR3|]. split; [exact (grows_trans _ _ _ G1 (grows_trans _ _ _ G2 G3))|].
  split; [intros n' Hn'; replace n' with n by congruence; apply Hnode, (grows_trans _ _ _ G2 G3)|]. split; [apply (Hsvcs _ G3)|].
  intros cid c Hc. apply (P3 cid); [apply elem_of_checks_of_node; eauto|exact Hc].
Qed.

Definition reg_state : st := St ∅ ∅ ∅ ∅ ∅ (nodes s) (services s) (checks (refresh s)) ∅ ∅.

Lemma reg_phase : rfold (restore_rec li) (snap_nodes s) st0 = Ok reg_state.
Proof.
  destruct HI as (_ & _ & Hsn & Href & _).
  destruct (phases (snap_node s) (fun _ => True) node_done (sorted_keys (nodes s))) with (t := st0)
    as (t & Ht & [] & _ & Hdone); [|auto|auto|exact RS_st0|auto|].
  { intros nd t HR _. apply node_phase, HR. }
  { intros nd a b (G1 & G2 & G3) (D1 & D2 & D3).
    split; [intros n Hn; exact (lookup_weaken _ _ _ _ (D1 n Hn) G1)|].
    split; [intros sid sv Hsv; exact (lookup_weaken _ _ _ _ (D2 sid sv Hsv) G2)|].
    intros cid c Hc; exact (lookup_weaken _ _ _ _ (D3 cid c Hc) G3). }
  unfold snap_nodes. rewrite Ht. f_equal.
  assert (Hkey : forall nd, is_Some (nodes s !! nd) -> node_done nd t) by (intros nd Hs; apply Hdone, elem_of_sorted_keys, Hs).
  destruct t as [kv tb se sc qu no sv ch ix ld]. cbn in *. subst. unfold reg_state. f_equal; apply sub_full; try assumption.
  - intros nd n Hn. apply (Hkey nd); eauto.
  - intros [nd sid] x Hx. apply (Hkey nd); [exact (Hsn _ _ _ Hx)|exact Hx].
  - intros [nd cid] x. rewrite refresh_lookup. destruct (checks s !! (nd, cid)) as [c|] eqn:Hc; [|discriminate].
    cbn. intros [= <-]. apply (Hkey nd); [exact (proj1 (Href _ _ _ Hc))|exact Hc].
Qed.

Definition links (sid : string) (ss : session) : gset (string * string * string) :=
  list_to_set ((fun cid => (s_node ss, cid, sid)) <$> s_checks ss).
Definition sc_all (l : list string) (sc : gset (string * string * string)) : gset (string * string * string) :=
  fold_left (fun acc sid => match sessions s !! sid with Some ss => links sid ss ∪ acc | None => acc end) l sc.

Lemma elem_of_sc_all l : forall sc m,
  m ∈ sc_all l sc <-> m ∈ sc \/ exists sid ss, sid ∈ l /\ sessions s !! sid = Some ss /\ m ∈ links sid ss.
Proof.
  unfold sc_all. induction l as [|x l IH]; intros sc m; cbn [fold_left].
  - split; [intros H; left; exact H|intros [H|(sid & ss & H & _)]; [exact H|inversion H]].
  - rewrite IH. split.
    + intros [H|(sid & ss & H1 & H2 & H3)].
      * destruct (sessions s !! x) as [ss|] eqn:Ex; [|left; exact H].
        apply elem_of_union in H as [H|H]; [right; exists x, ss; split; [left|split; [exact Ex|exact H]]|left; exact H].
      * right. exists sid, ss. split; [right; exact H1|split; assumption].
    + intros [H|(sid & ss & H1 & H2 & H3)].
      * left. destruct (sessions s !! x); [apply elem_of_union; right|]; exact H.
      * apply elem_of_cons in H1 as [->|H1].
        -- left. rewrite H2. apply elem_of_union. left. exact H3.
        -- right. exists sid, ss. split; [exact H1|split; assumption].
Qed.

(* the rows of one table, replayed in the order of a key list: every restorer call succeeds with
   the state [put] gives *)
Lemma table_phase {V} (src : gmap string V) (mk : string -> V -> rec) (put : string -> V -> st -> st) l :
  (forall k v t, restore_rec li t (mk k v) = Ok (put k v t)) -> forall t,
  rfold (restore_rec li) (omap (fun k => mk k <$> src !! k) l) t =
  Ok (fold_left (fun acc k => match src !! k with Some v => put k v acc | None => acc end) l t).
Proof.
  intros Hput. induction l as [|x l IH]; intros t; [reflexivity|]. cbn [omap list_omap fold_left].
  destruct (src !! x) as [v|]; cbn [fmap option_fmap option_map]; [|apply IH].
  rewrite rfold_cons, Hput, bind_Ok. apply IH.
Qed.

Lemma sess_phase l : forall kv tb se sc qu no sv ch ix ld,
  rfold (restore_rec li) (omap (fun sid => SSession sid <$> sessions s !! sid) l) (St kv tb se sc qu no sv ch ix ld) =
  Ok (St kv tb (ins_all (sessions s) l se) (sc_all l sc) qu no sv ch
         (ix_all "sessions" (fun _ ss => s_create ss) (sessions s) l ix) ld).
Proof.
  intros. erewrite table_phase by reflexivity. f_equal. revert se sc ix.
  unfold ins_all, sc_all, ix_all. induction l as [|x l IH]; intros; [reflexivity|]. cbn [fold_left].
  destruct (sessions s !! x); [rewrite ium_eq|]; apply IH.
Qed.

Lemma kv_phase l : forall kv tb se sc qu no sv ch ix ld,
  rfold (restore_rec li) (omap (fun k => SKV k <$> kvs s !! k) l) (St kv tb se sc qu no sv ch ix ld) =
  Ok (St (ins_all (kvs s) l kv) tb se sc qu no sv ch
         (ix_all "kvs" (fun _ e => kv_modify e) (kvs s) l ix) ld).
Proof.
  intros. erewrite table_phase by reflexivity. f_equal. revert kv ix.
  unfold ins_all, ix_all. induction l as [|x l IH]; intros; [reflexivity|]. cbn [fold_left].
  destruct (kvs s !! x); [rewrite ium_eq|]; apply IH.
Qed.

Lemma tomb_phase l : forall kv tb se sc qu no sv ch ix ld,
  rfold (restore_rec li) (omap (fun k => STomb k <$> tombs s !! k) l) (St kv tb se sc qu no sv ch ix ld) =
  Ok (St kv (ins_all (tombs s) l tb) se sc qu no sv ch
         (ix_all "tombstones" (fun _ i => i) (tombs s) l ix) ld).
Proof.
  intros. erewrite table_phase by reflexivity. f_equal. revert tb ix.
  unfold ins_all, ix_all. induction l as [|x l IH]; intros; [reflexivity|]. cbn [fold_left].
  destruct (tombs s !! x); [rewrite ium_eq|]; apply IH.
Qed.

Lemma query_phase (qm : string -> N) l : forall kv tb se sc qu no sv ch ix ld,
  rfold (restore_rec li) (omap (fun q => (fun sess => SQuery q sess (qm q)) <$> queries s !! q) l)
        (St kv tb se sc qu no sv ch ix ld) =
  Ok (St kv tb se sc (ins_all (queries s) l qu) no sv ch
         (ix_all "prepared-queries" (fun q _ => qm q) (queries s) l ix) ld).
Proof.
  intros. erewrite (table_phase (queries s) (fun q sess => SQuery q sess (qm q))) by reflexivity. f_equal. revert qu ix.
  unfold ins_all, ix_all. induction l as [|x l IH]; intros; [reflexivity|]. cbn [fold_left].
  destruct (queries s !! x); [rewrite ium_eq|]; apply IH.
Qed.

Lemma index_phase l : forall kv tb se sc qu no sv ch ix ld,
  rfold (restore_rec li) (omap (fun k => SIndex k <$> index s !! k) l) (St kv tb se sc qu no sv ch ix ld) =
  Ok (St kv tb se sc qu no sv ch (ins_all (index s) l ix) ld).
Proof.
  intros. erewrite table_phase by reflexivity. f_equal. revert ix.
  unfold ins_all. induction l as [|x l IH]; intros; [reflexivity|]. cbn [fold_left].
  destruct (index s !! x); apply IH.
Qed.

Lemma sc_all_full : sc_all (sorted_keys (sessions s)) ∅ = schecks s.
Proof.
  destruct HI as (_ & _ & _ & _ & Hex & _).
  apply sets.set_eq. intros [[n c] sid]. split.
  - intros H. apply elem_of_sc_all in H as [H|(sid' & ss & H1 & H2 & H3)]; [set_solver|].
    unfold links in H3. apply elem_of_list_to_set, elem_of_list_fmap in H3 as (cid & Heq & Hin).
    injection Heq as -> -> ->. apply Hex. exists ss. split; [exact H2|split; [reflexivity|exact Hin]].
  - intros H. apply Hex in H as (ss & H1 & H2 & H3). apply elem_of_sc_all. right. exists sid, ss.
    split; [apply elem_of_sorted_keys; rewrite H1; eauto|].
    split; [exact H1|]. unfold links. apply elem_of_list_to_set, elem_of_list_fmap. exists c. subst. split; [reflexivity|exact H3].
Qed.

Theorem roundtrip_general (qm : string -> N) : restore li (snapshot qm s) = Ok (refresh (repl s)).
Proof.
  pose proof HI as (_ & _ & _ & _ & _ & Hk & Ht & Hs & Hq).
  unfold restore, snapshot. rewrite rfold_app, reg_phase, bind_Ok. unfold reg_state.
  unfold snap_sessions. rewrite rfold_app, sess_phase, bind_Ok.
  unfold snap_kvs. rewrite rfold_app, kv_phase, bind_Ok.
  unfold snap_tombs. rewrite rfold_app, tomb_phase, bind_Ok.
  unfold snap_queries. rewrite rfold_app, query_phase, bind_Ok.
  unfold snap_index. rewrite index_phase.
  rewrite !ins_all_full, sc_all_full. rewrite ins_all_over.
  - destruct s; reflexivity.
  - (* every index row an updateMax created is a row of the snapshot's index table *)
    apply ix_all_within; [|intros H; apply elem_of_dom, Hq, H].
    apply ix_all_within; [|intros H; apply elem_of_dom, Ht, H].
    apply ix_all_within; [|intros H; apply elem_of_dom, Hk, H].
    apply ix_all_within; [|intros H; apply elem_of_dom, Hs, H].
    rewrite dom_empty_L. set_solver.
Qed.

End roundtrip.

Lemma refresh_check_fresh s nd cid c : Fresh s -> checks s !! (nd, cid) = Some c -> refresh_check s nd c = c.
Proof.
  intros Hf Hc. unfold refresh_check. destruct (bool_decide (c_service c = "")) eqn:E; [reflexivity|].
  apply bool_decide_eq_false in E. destruct (services s !! (nd, c_service c)) as [sv|] eqn:Esv; [|reflexivity].
  rewrite <- (Hf nd cid c sv Hc E Esv). destruct c; reflexivity.
Qed.

Lemma refresh_fresh s : Fresh s -> refresh s = s.
Proof.
  intros Hf.
  assert (Hc : map_imap (fun (k : string * string) c => Some (refresh_check s k.1 c)) (checks s) = checks s).
  { apply map_eq. intros [nd cid]. rewrite map_lookup_imap. destruct (checks s !! (nd, cid)) as [c|] eqn:Ec; [|reflexivity].
    cbn. f_equal. exact (refresh_check_fresh _ nd cid c Hf Ec). }
  assert (E : forall (t : st) f, f (checks t) = checks t -> t <| checks ::= f |> = t)
    by (intros [kv tb se sc qu no sv ch ix ld] f H; cbn in H; unfold set; cbn; rewrite H; reflexivity).
  unfold refresh. apply E. exact Hc.
Qed.

Lemma Fresh_repl s : Fresh s -> Fresh (repl s).
Proof. intros Hf. exact Hf. Qed.

Theorem roundtrip li qm s : Inv s -> Fresh s -> restore li (snapshot qm s) = Ok (repl s).
Proof.
  intros HI Hf. rewrite (roundtrip_general li s HI qm). f_equal. apply refresh_fresh. exact Hf.
Qed.
