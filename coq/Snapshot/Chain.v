(* What [refresh] and [repl] do field by field; the restored state satisfies the invariant and is
   Fresh, hence is a fixed point of snapshot-then-restore (second generation: a snapshot OF a
   restored server), and a later snapshot of it restarts the rest of the history (chained). *)
From stdpp Require Import gmap strings.
From RecordUpdate Require Import RecordSet.
From Coq Require Import NArith.
From Verif Require Import Store.Model Snapshot.Model Snapshot.Defs Snapshot.Proofs Snapshot.Inv Snapshot.Cut.
Import RecordSetNotations.
Local Open Scope N_scope.

Lemma refresh_fields s :
  kvs (refresh s) = kvs s /\ tombs (refresh s) = tombs s /\ sessions (refresh s) = sessions s /\
  schecks (refresh s) = schecks s /\ queries (refresh s) = queries s /\ nodes (refresh s) = nodes s /\
  services (refresh s) = services s /\ index (refresh s) = index s /\ lockdelay (refresh s) = lockdelay s.
Proof. destruct s; repeat split; reflexivity. Qed.

Lemma refresh_check_service s nd c : c_service (refresh_check s nd c) = c_service c.
Proof.
  unfold refresh_check. destruct (bool_decide (c_service c = "")); [reflexivity|].
  destruct (services s !! (nd, c_service c)); [|reflexivity]. destruct c; reflexivity.
Qed.

Lemma repl_fields s :
  kvs (repl s) = kvs s /\ tombs (repl s) = tombs s /\ sessions (repl s) = sessions s /\
  schecks (repl s) = schecks s /\ queries (repl s) = queries s /\ nodes (repl s) = nodes s /\
  services (repl s) = services s /\ checks (repl s) = checks s /\ index (repl s) = index s /\
  lockdelay (repl s) = ∅.
Proof. destruct s; repeat split; reflexivity. Qed.

Lemma Inv_repl s : Inv s -> Inv (repl s).
Proof. destruct s. intros H. exact H. Qed.

Lemma Inv_refresh s : Inv s -> Inv (refresh s).
Proof.
  intros (H1 & H2 & H3 & H4 & H5 & H6).
  destruct (refresh_fields s) as (Ek & Et & Es & Esc & Eq & En & Esv & Ei & _).
  unfold Inv, NodeIdUniq, NodeCreatePos, SvcNode, ChkRef, SCheckExact, IdxPresence.
  rewrite Ek, Et, Es, Esc, Eq, En, Esv, Ei.
  split; [exact H1|]. split; [exact H2|]. split; [exact H3|]. split; [|split; [exact H5|exact H6]].
  intros nd cid c Hc. rewrite refresh_lookup in Hc.
  destruct (checks s !! (nd, cid)) as [c0|] eqn:E0; [|discriminate]. cbn in Hc. injection Hc as <-.
  rewrite refresh_check_service. exact (H4 nd cid c0 E0).
Qed.

Lemma Fresh_refresh s : Fresh (refresh s).
Proof.
  intros nd cid c sv Hc Hne Hsv.
  destruct (refresh_fields s) as (_ & _ & _ & _ & _ & _ & Esv & _). rewrite Esv in Hsv.
  rewrite refresh_lookup in Hc. destruct (checks s !! (nd, cid)) as [c0|] eqn:E0; [|discriminate].
  cbn in Hc. injection Hc as <-. rewrite refresh_check_service in Hne, Hsv.
  unfold refresh_check. rewrite bool_decide_eq_false_2 by exact Hne. rewrite Hsv. destruct c0; reflexivity.
Qed.

Lemma repl_refresh_repl s : repl (refresh (repl s)) = refresh (repl s).
Proof. destruct s; reflexivity. Qed.

(* The state a restore produces is a fixed point: its own snapshot restores to exactly itself, for
   ALL header indexes and query indexes of the second snapshot -- no [Fresh] hypothesis, because a
   restore leaves every check fresh. *)
Theorem second_generation li qm li2 qm2 s r :
  Inv s -> restore li (snapshot qm s) = Ok r ->
  Inv r /\ Fresh r /\ restore li2 (snapshot qm2 r) = Ok r.
Proof.
  intros HI Hr. rewrite (roundtrip_general li s HI qm) in Hr. injection Hr as <-.
  assert (HI2 : Inv (refresh (repl s))) by (apply Inv_refresh, Inv_repl; exact HI).
  assert (HF2 : Fresh (refresh (repl s))) by apply Fresh_refresh.
  split; [exact HI2|]. split; [exact HF2|].
  rewrite (roundtrip li2 qm2 _ HI2 HF2). f_equal.
Qed.

(* ... and the rest of the history runs alike on the restored server and on a server restored from
   the restored server's snapshot taken [j] commands later (the chained cycle of the oracle). *)
Theorem chained li qm li2 qm2 s r (rest : list (N * cmd)) (j : nat) :
  Inv s -> restore li (snapshot qm s) = Ok r -> wf_log (firstn j rest) r ->
  let m := (run (firstn j rest) r).1 in
  Fresh m ->
  exists r2, restore li2 (snapshot qm2 m) = Ok r2 /\ r2 = repl m /\
    (run (skipn j rest) r2).2 = (run (skipn j rest) m).2 /\
    repl (run (skipn j rest) r2).1 = repl (run (skipn j rest) m).1.
Proof.
  intros HI Hr Hwf m Hf.
  destruct (second_generation li qm li2 qm2 s r HI Hr) as (HIr & _ & _).
  assert (HIm : Inv m) by (apply run_Inv; [exact Hwf|exact HIr]).
  destruct (restart li2 qm2 m (skipn j rest) HIm Hf) as (Hrt & Hres & Hst).
  exists (repl m). split; [exact Hrt|]. split; [reflexivity|]. split; [exact Hres|exact Hst].
Qed.
