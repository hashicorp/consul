(* Small lemmas shared by the snapshot/restore proofs: the key listings a snapshot iterates over
   have no duplicates, rfold over appended lists, record eta. *)
From stdpp Require Import gmap strings.
From RecordUpdate Require Import RecordSet.
From Coq Require Import NArith.
From Verif Require Import Store.Model Store.Facts Store.Skeleton Snapshot.Model.
Import RecordSetNotations.
Local Open Scope N_scope.

Lemma elem_of_sorted_keys {V} (m : gmap string V) k : k ∈ sorted_keys m <-> is_Some (m !! k).
Proof. unfold sorted_keys. rewrite elem_of_ssort, elem_of_elements, elem_of_dom. reflexivity. Qed.

Lemma NoDup_sorted_keys {V} (m : gmap string V) : NoDup (sorted_keys m).
Proof. apply NoDup_ssort, NoDup_elements. Qed.

Lemma NoDup_services_of_node nd s : NoDup (services_of_node nd s).
Proof. apply (NoDup_node_keys _ nd). intros n i v x. case_bool_decide; naive_solver. Qed.

Lemma NoDup_checks_of_node nd s : NoDup (checks_of_node nd s).
Proof. apply (NoDup_node_keys _ nd). intros n i v x. case_bool_decide; naive_solver. Qed.

Lemma elem_of_sessions_of_check nd cid sid s :
  sid ∈ sessions_of_check nd cid s <-> (nd, cid, sid) ∈ schecks s.
Proof. apply Facts.elem_of_sessions_of_check. Qed.

Lemma bind_Ok {A B} (a : A) (f : A -> result B) : Ok a ≫= f = f a.
Proof. reflexivity. Qed.
Lemma Ok_inj {A} (a b : A) : Ok a = Ok b -> a = b.
Proof. intros [= ->]. reflexivity. Qed.

Lemma rfold_cons {A S} (f : S -> A -> result S) x l s : rfold f (x :: l) s = f s x ≫= rfold f l.
Proof. reflexivity. Qed.

Lemma rfold_app {A S} (f : S -> A -> result S) l1 l2 s :
  rfold f (l1 ++ l2) s = rfold f l1 s ≫= rfold f l2.
Proof.
  revert s. induction l1 as [|x l1 IH]; intros s; cbn; [reflexivity|].
  destruct (f s x) as [s'|e p]; cbn; [apply IH|reflexivity].
Qed.

Definition outcome {A} (P : st -> Prop) (proj : A -> st) (r : result A) : Prop :=
  match r with Ok a => P (proj a) | Err _ p => P p end.

Lemma node_eta n : Node (n_id n) (n_addr n) (n_create n) (n_modify n) = n.
Proof. destruct n; reflexivity. Qed.
Lemma check_set_same (c : check) : c <| c_create := c_create c |> <| c_modify := c_modify c |> = c.
Proof. destruct c; reflexivity. Qed.
