(* Concrete histories: a state that does NOT round-trip (a check that still carries the name its
   service had before it was re-registered under another name), why session ids must be unused,
   and a non-trivial state that meets every hypothesis of the theorems. *)
From stdpp Require Import gmap strings.
From RecordUpdate Require Import RecordSet.
From Coq Require Import NArith.
From Verif Require Import Store.Model Snapshot.Model Snapshot.Lemmas Snapshot.Defs Snapshot.Proofs Snapshot.Inv.
Import RecordSetNotations.
Local Open Scope N_scope.

Fixpoint wf_logb (log : list (N * cmd)) (s : st) : bool :=
  match log with
  | [] => true
  | (idx, c) :: rest =>
    bool_decide (0 < idx) &&
    match c with SessionCreate sid _ => bool_decide (sessions s !! sid = None) | _ => true end &&
    wf_logb rest (apply idx c s).1
  end.

Lemma wf_logb_spec log : forall s, wf_logb log s = true <-> wf_log log s.
Proof.
  induction log as [|[idx c] log IH]; intros s; cbn; [tauto|].
  rewrite !andb_true_iff, bool_decide_eq_true, IH. unfold wf_cmd.
  destruct c; rewrite ?bool_decide_eq_true; intuition.
Qed.

Definition freshb (s : st) : bool :=
  forallb (fun '((nd, cid), c) =>
             bool_decide (c_service c = "") ||
             match services s !! (nd, c_service c) with
             | Some sv => bool_decide (c_svcname c = sv_name sv) | None => true end)
          (map_to_list (checks s)).

Lemma freshb_ok s : freshb s = true -> Fresh s.
Proof.
  intros H nd cid c sv Hc Hne Hsv. unfold freshb in H. rewrite forallb_forall in H.
  specialize (H ((nd, cid), c)). cbn in H. rewrite Hsv in H.
  assert (Hin : In ((nd, cid), c) (map_to_list (checks s))) by (apply elem_of_list_In, elem_of_map_to_list; exact Hc).
  specialize (H Hin). apply orb_true_iff in H as [H|H]; apply bool_decide_eq_true in H; [contradiction|exact H].
Qed.

(* register service s1 as "web" with a check on it, then re-register s1 as "db": the check still
   says "web"; the restore re-runs ensureCheckTxn, which copies "db" into it *)
Definition stale_log : list (N * cmd) :=
  [ (1, Register "n1" "" 1 false (Some ("s1", "web", 80)) [CheckReq "n1" "c1" 0 "s1" false "" 0 0]);
    (2, Register "n1" "" 1 false (Some ("s1", "db", 80)) []) ].
Definition stale_state : st := (run stale_log st0).1.

Lemma stale_facts :
  wf_logb stale_log st0 = true /\
  sv_name <$> services stale_state !! ("n1", "s1") = Some "db" /\
  c_svcname <$> checks (repl stale_state) !! ("n1", "c1") = Some "web" /\
  c_svcname <$> checks (refresh (repl stale_state)) !! ("n1", "c1") = Some "db".
Proof. vm_compute. repeat split. Qed.

Lemma stale_wf : wf_log stale_log st0.
Proof. apply wf_logb_spec, stale_facts. Qed.

(* the restore succeeds because the state is reachable; the check's copied name tells its result
   from the donor *)
Lemma stale_restore :
  restore 2 (snapshot (fun _ => 0) stale_state) = Ok (refresh (repl stale_state)) /\
  refresh (repl stale_state) <> repl stale_state.
Proof.
  split; [apply roundtrip_general, run_Inv; [exact stale_wf|exact Inv_st0]|].
  destruct stale_facts as (_ & _ & Hweb & Hdb). intros E.
  apply (f_equal (fun t => c_svcname <$> checks t !! ("n1", "c1"))) in E. cbv beta in E.
  rewrite Hweb, Hdb in E. discriminate E.
Qed.

(* the same id created twice (never emitted by Session.Apply): the second create overwrites the
   session row, the link of the first stays in session_checks; a restore rebuilds the links from
   the rows *)
Definition reuse_log : list (N * cmd) :=
  [ (1, Register "n1" "" 1 false None [CheckReq "n1" "c1" 0 "" false "" 0 0]);
    (2, SessionCreate "s1" (Sess "n1" "" false ["c1"] false 0));
    (3, SessionCreate "s1" (Sess "n1" "" false [] false 0)) ].

Definition links_of (r : result st) : option nat :=
  match r with Ok t => Some (size (schecks t)) | Err _ _ => None end.

Lemma reuse_facts :
  let s := (run reuse_log st0).1 in
  freshb s = true /\ wf_logb reuse_log st0 = false /\
  links_of (restore 3 (snapshot (fun _ => 0) s)) <> links_of (Ok (repl s)).
Proof. vm_compute. split; [reflexivity|]. split; [reflexivity|discriminate]. Qed.

(* two nodes (one with an id), a service with a service check, a node check bound to a session
   that holds a lock, a session-type check, a deleted key (tombstone), a prepared query bound to
   the session *)
Definition rich_log : list (N * cmd) :=
  [ (1, Register "n1" "11111111-1111-1111-1111-111111111111" 1 false (Some ("s1", "web", 80))
                 [CheckReq "n1" "c1" 0 "s1" false "" 0 0; CheckReq "n1" "c2" 0 "" false "" 1 0;
                  CheckReq "n1" "sc1" 2 "" true "lockA" 0 0]);
    (3, Register "n2" "" 2 false None [CheckReq "n2" "serfHealth" 0 "" false "" 0 0]);
    (4, SessionCreate "aaaa" (Sess "n1" "lockA" false ["c2"] true 0));
    (6, KVS VLock (KVReq "a/b" [1; 2] 7 "aaaa" 0 0));
    (7, KVS VSet (KVReq "b" [] 0 "" 0 0));
    (9, KVS VDelete (KVReq "b" [] 0 "" 0 0));
    (10, QuerySet "q1" "aaaa");
    (12, Txn [TKV VSet (KVReq "a" [3] 0 "" 0 0); TService CSet "n2" "s2" "db" 81 0]) ].
Definition rich_state : st := (run rich_log st0).1.

Lemma rich_facts :
  wf_logb rich_log st0 = true /\ freshb rich_state = true /\
  size (kvs rich_state) = 2%nat /\ size (tombs rich_state) = 1%nat /\ size (sessions rich_state) = 1%nat /\
  size (schecks rich_state) = 1%nat /\ size (queries rich_state) = 1%nat /\ size (nodes rich_state) = 2%nat /\
  size (services rich_state) = 2%nat /\ size (checks rich_state) = 4%nat /\ size (index rich_state) = 4%nat /\
  kv_session <$> kvs rich_state !! "a/b" = Some "aaaa" /\
  List.length (snapshot (fun _ => 0) rich_state) = 17%nat.
Proof. vm_compute. repeat split. Qed.

Lemma rich_wf : wf_log rich_log st0.
Proof. apply wf_logb_spec, rich_facts. Qed.
Lemma rich_fresh : Fresh rich_state.
Proof. apply freshb_ok, rich_facts. Qed.
