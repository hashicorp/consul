(* Cutting a history at any point: the store restored from the snapshot taken there behaves, for
   the rest of the history, exactly like the store that took the snapshot.  The lock-delay map is
   local and not restored; that it never flows into replicated state or results is property C01
   (FSM/NonInterference.v: run_sim), reused here. *)
From stdpp Require Import gmap strings.
From RecordUpdate Require Import RecordSet.
From Coq Require Import NArith.
From Verif Require Import Store.Model FSM.NonInterference Snapshot.Model Snapshot.Defs Snapshot.Proofs Snapshot.Inv.
Import RecordSetNotations.
Local Open Scope N_scope.

Lemma run_app l1 l2 s :
  run (l1 ++ l2) s = let '(s1, r1) := run l1 s in let '(s2, r2) := run l2 s1 in (s2, r1 ++ r2).
Proof.
  revert s. induction l1 as [|[idx c] l1 IH]; intros s; cbn.
  - destruct (run l2 s); reflexivity.
  - destruct (apply idx c s) as [s' r]. rewrite IH. destruct (run l1 s') as [s1 r1].
    destruct (run l2 s1) as [s2 r2]. reflexivity.
Qed.

Lemma wf_log_app l1 l2 s : wf_log (l1 ++ l2) s <-> wf_log l1 s /\ wf_log l2 (run l1 s).1.
Proof.
  revert s. induction l1 as [|[idx c] l1 IH]; intros s; cbn; [tauto|].
  rewrite IH. destruct (apply idx c s) as [s' r]; cbn. destruct (run l1 s') as [s1 r1]; cbn. tauto.
Qed.

Lemma repl_idem s : repl (repl s) = repl s.
Proof. destruct s; reflexivity. Qed.

(* a server restored from the snapshot of [s] is [repl s], and runs any history like [s] does *)
Lemma restart li qm s rest :
  Inv s -> Fresh s ->
  restore li (snapshot qm s) = Ok (repl s) /\
  (run rest (repl s)).2 = (run rest s).2 /\ repl (run rest (repl s)).1 = repl (run rest s).1.
Proof.
  intros HI Hf. split; [apply roundtrip; assumption|].
  destruct (run_sim rest (repl s) s (repl_idem s)) as [Hs Hr]. split; assumption.
Qed.

Theorem cut li qm h k :
  wf_log h st0 ->
  let s := (run (firstn k h) st0).1 in
  Fresh s ->
  exists r, restore li (snapshot qm s) = Ok r /\ r = repl s /\
            (run (skipn k h) r).2 = (run (skipn k h) s).2 /\
            repl (run (skipn k h) r).1 = repl (run (skipn k h) s).1 /\
            (run h st0).2 = (run (firstn k h) st0).2 ++ (run (skipn k h) r).2 /\
            repl (run h st0).1 = repl (run (skipn k h) r).1.
Proof.
  intros Hwf s Hf.
  rewrite <- (firstn_skipn k h) in Hwf. apply wf_log_app in Hwf as [Hwf1 Hwf2].
  assert (HI : Inv s) by (apply run_Inv; [exact Hwf1|apply Inv_st0]).
  destruct (restart li qm s (skipn k h) HI Hf) as (Hrt & Hr & Hs).
  exists (repl s). split; [exact Hrt|]. split; [reflexivity|]. split; [exact Hr|]. split; [exact Hs|].
  assert (Hrun : run h st0 = let '(s1, r1) := run (firstn k h) st0 in
                             let '(s2, r2) := run (skipn k h) s1 in (s2, r1 ++ r2)).
  { rewrite <- (firstn_skipn k h) at 1. apply run_app. }
  rewrite Hrun. subst s.
  destruct (run (firstn k h) st0) as [s' r1] eqn:E1. cbn [fst snd] in *.
  destruct (run (skipn k h) s') as [s2 r2] eqn:E2. cbn [fst snd] in *. rewrite Hr. split; [reflexivity|]. symmetry. exact Hs.
Qed.

Lemma run_query_repl q s : run_query q (repl s) = run_query q s.
Proof. destruct s; destruct q; reflexivity. Qed.
