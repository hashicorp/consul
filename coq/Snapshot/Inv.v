(* The reachable-state invariant [Inv] (Snapshot/Defs.v) holds after every well-formed history.
   It has three parts, each preserved for its own reason:
   - the node rows (ids unique, create indexes positive) read [nodes] only, which every verb but
     ensureNodeTxn leaves alone or cuts down;
   - orphan freedom is Catalog/StoreOrphans.v;
   - the session links and the index rows ([Q]) ignore the catalog rows altogether. *)
From stdpp Require Import gmap strings.
From RecordUpdate Require Import RecordSet.
From Coq Require Import NArith.
From Verif Require Import Store.Model Store.Walk Store.Skeleton Store.Lift Catalog.StoreOrphans Snapshot.Lemmas Snapshot.Defs.
Import RecordSetNotations.
Local Open Scope N_scope.

Lemma run_inv_wf (P : st -> Prop) :
  (forall idx c s, wf_cmd idx c s -> P s -> P (apply idx c s).1) ->
  forall log s, wf_log log s -> P s -> P (run log s).1.
Proof.
  intros Hstep. induction log as [|[idx c] log IH]; intros s Hwf Hs; cbn; [exact Hs|].
  destruct Hwf as [Hc Hrest]. pose proof (Hstep idx c s Hc Hs) as Ha.
  destruct (apply idx c s) as [s' r]. cbn in *. specialize (IH s' Hrest Ha).
  destruct (run log s') as [s'' rs]. exact IH.
Qed.

Definition NodeOK (s : st) : Prop := NodeIdUniq s /\ NodeCreatePos s.

Lemma NodeOK_nodes s p : nodes p = nodes s -> NodeOK s -> NodeOK p.
Proof. unfold NodeOK, NodeIdUniq, NodeCreatePos. intros ->. tauto. Qed.

Lemma NodeOK_delete s p nd : nodes p = delete nd (nodes s) -> NodeOK s -> NodeOK p.
Proof.
  intros Hn [A B]. split.
  - intros n1 n2 a b. rewrite Hn, !lookup_delete_Some. intros [_ H1] [_ H2]. exact (A n1 n2 a b H1 H2).
  - intros n a. rewrite Hn, lookup_delete_Some. intros [_ H]. exact (B n a H).
Qed.

Lemma NodeOK_insert s nd id addr c m :
  c <> 0 -> (id <> "" -> forall nm x, nodes s !! nm = Some x -> nm <> nd -> n_id x <> id) ->
  NodeOK s -> NodeOK (s <| nodes ::= <[nd := Node id addr c m]> |>).
Proof.
  intros Hc Hid [A B]. unfold NodeOK, NodeIdUniq, NodeCreatePos. cbn. split.
  - intros n1 n2 a b H1 H2 Hab Hne.
    destruct (decide (n1 = nd)) as [->|N1]; destruct (decide (n2 = nd)) as [->|N2]; [reflexivity| | |].
    + rewrite lookup_insert in H1. injection H1 as <-. rewrite lookup_insert_ne in H2 by congruence.
      cbn in *. exfalso. eapply (Hid Hne n2 b H2 N2). symmetry; exact Hab.
    + rewrite lookup_insert in H2. injection H2 as <-. rewrite lookup_insert_ne in H1 by congruence.
      cbn in *. exfalso. eapply (Hid (eq_ind _ (fun i => i <> "") Hne _ Hab) n1 a H1 N1). exact Hab.
    + rewrite lookup_insert_ne in H1, H2 by congruence. eapply A; eassumption.
  - intros n a H. destruct (decide (n = nd)) as [->|N]; [rewrite lookup_insert in H; injection H as <-; exact Hc|].
    rewrite lookup_insert_ne in H by congruence. eapply B; eassumption.
Qed.

(* ensureNodeTxn: a non-empty id stood nowhere, on the row written, or on the one row that was
   deregistered first; the create index is new or that of an old row *)
Lemma ensure_node_NodeOK idx nd id addr : idx <> 0 -> keeps_ok NodeOK (ensure_node idx nd id addr).
Proof.
  intros Hidx s s' He HOK. apply ensure_node_Ok in He as (s1 & c & Hs' & Hc & Hs1).
  assert (H1 : NodeOK s1 /\ (id <> "" -> forall nm x, nodes s1 !! nm = Some x -> nm <> nd -> n_id x <> id)).
  { destruct Hs1 as [[-> Hid]|(oname & on & Hne & Hby & Hd)].
    - split; [exact HOK|]. intros Hid0 nm x Hx Hnm Hxid. destruct Hid as [->|[Hnone|[on Hby]]]; [contradiction| |].
      + exact (proj1 (node_by_id_None _ _) Hnone nm x Hx Hxid).
      + apply node_by_id_Some in Hby as [Hon Honid]. apply Hnm.
        eapply (proj1 HOK nm nd x on); [exact Hx|exact Hon|congruence|congruence].
    - apply node_by_id_Some in Hby as [Hon Honid].
      apply delete_node_shape in Hd as [[Hnone _]|(Hn & _)]; [congruence|].
      split; [exact (NodeOK_delete _ _ _ Hn HOK)|]. intros Hid0 nm x Hx Hnm Hxid.
      rewrite Hn in Hx. apply lookup_delete_Some in Hx as [Hno Hx]. apply Hno. symmetry.
      eapply (proj1 HOK nm oname x on); [exact Hx|exact Hon|congruence|congruence]. }
  destruct H1 as [H1 Hoth]. destruct Hs' as [-> | ->]; [exact H1|]. apply NodeOK_insert; [|exact Hoth|exact H1].
  destruct Hc as [->|(nm & x & [Hx|Hx] & <-)]; [exact Hidx|exact (proj2 HOK _ _ Hx)|exact (proj2 H1 _ _ Hx)].
Qed.

Theorem apply_NodeOK idx c s : idx <> 0 -> NodeOK s -> NodeOK (apply idx c s).1.
Proof.
  intros Hidx. apply (apply_lift_skel NodeOK idx).
  - intros a b (Hn & _). apply NodeOK_nodes, Hn.
  - intros nd id addr. apply ensure_node_NodeOK, Hidx.
  - intros nd svc name port a b He. apply ensure_service_Ok in He as [_ [-> |[x ->]]]; [tauto|apply NodeOK_nodes; reflexivity].
  - intros pre nd cid hc a b He. apply ensure_check_p_shape in He as (Hn & _). apply NodeOK_nodes, Hn.
  - intros nd a b He. apply delete_node_shape in He as [[_ ->]|(Hn & _)]; [tauto|exact (NodeOK_delete _ _ _ Hn)].
  - intros nd svc a b He. apply delete_service_shape in He as [[_ ->]|(Hn & _)]; [tauto|apply NodeOK_nodes, Hn].
  - intros nd cid a b He. apply delete_check_shape in He as (Hn & _). apply NodeOK_nodes, Hn.
Qed.

Definition Q (s : st) : Prop := SCheckExact s /\ IdxPresence s.

Lemma ne_sub {K} `{Countable K} {V} (m' m : gmap K V) : m' ⊆ m -> m' <> ∅ -> m <> ∅.
Proof.
  intros Hsub Hne ->. apply Hne. apply map_empty. intros k. apply eq_None_not_Some. intros [v Hv].
  eapply lookup_weaken in Hv; [|exact Hsub]. rewrite lookup_empty in Hv. discriminate.
Qed.

(* every writer of the model sets a table's index row when it rewrites the table
   ([set_index row idx (s <| table ::= f |>)]): the table may then be anything *)
Lemma IdxPresence_set row idx s t :
  index t = index s ->
  (row = "kvs" \/ kvs t = kvs s) -> (row = "tombstones" \/ tombs t = tombs s) ->
  (row = "sessions" \/ sessions t = sessions s) -> (row = "prepared-queries" \/ queries t = queries s) ->
  IdxPresence s -> IdxPresence (set_index row idx t).
Proof.
  intros Hi Hk Ht Hs Hq (A & B & C & D). unfold IdxPresence, set_index. cbn. rewrite Hi.
  assert (Hup : forall k, is_Some (index s !! k) -> is_Some (<[row := idx]> (index s) !! k)).
  { intros k Hk'. destruct (decide (k = row)) as [->|Hne];
      [rewrite lookup_insert; eauto|rewrite lookup_insert_ne by congruence; exact Hk']. }
  repeat split; intros Hne.
  - destruct Hk as [->|E]; [rewrite lookup_insert; eauto|apply Hup, A; rewrite <- E; exact Hne].
  - destruct Ht as [->|E]; [rewrite lookup_insert; eauto|apply Hup, B; rewrite <- E; exact Hne].
  - destruct Hs as [->|E]; [rewrite lookup_insert; eauto|apply Hup, C; rewrite <- E; exact Hne].
  - destruct Hq as [->|E]; [rewrite lookup_insert; eauto|apply Hup, D; rewrite <- E; exact Hne].
Qed.

Lemma IdxPresence_sub s p :
  index p = index s -> kvs p ⊆ kvs s -> tombs p ⊆ tombs s -> sessions p ⊆ sessions s -> queries p ⊆ queries s ->
  IdxPresence s -> IdxPresence p.
Proof.
  intros Hi Hk Ht Hs Hq (A & B & C & D). unfold IdxPresence. rewrite Hi.
  repeat split; intros Hne; [apply A|apply B|apply C|apply D]; (eapply ne_sub; [|exact Hne]); assumption.
Qed.

Lemma Q_frame s p :
  sessions p = sessions s -> schecks p = schecks s -> kvs p = kvs s -> tombs p = tombs s ->
  queries p = queries s -> index p = index s -> Q s -> Q p.
Proof.
  intros A B C D E F [H1 H2]. split.
  - unfold SCheckExact. rewrite A, B. exact H1.
  - unfold IdxPresence. rewrite A, C, D, E, F. exact H2.
Qed.

Lemma Q_cf_checks s f : Q s -> Q (s <| checks ::= f |>).
Proof. apply Q_frame; reflexivity. Qed.
Lemma Q_cf_nodes s f : Q s -> Q (s <| nodes ::= f |>).
Proof. apply Q_frame; reflexivity. Qed.
Lemma Q_cf_services s f : Q s -> Q (s <| services ::= f |>).
Proof. apply Q_frame; reflexivity. Qed.

(* the keys step of a session's removal: deleted keys leave tombstones, released keys are rewritten *)
Lemma release_or_delete_keys_IdxPresence idx sid ss s :
  IdxPresence s -> IdxPresence (release_or_delete_keys idx sid ss s).
Proof.
  intros Hs. unfold release_or_delete_keys. destruct (bool_decide _); [exact Hs|].
  set (held := filter (fun kv : string * kvent => kv_session kv.2 = sid) (kvs s)).
  assert (Hdel : IdxPresence (set_index "kvs" idx
           (set_index "tombstones" idx
              (s <| tombs ::= fun t => ((fun _ => idx) <$> held) ∪ t |>
                 <| kvs ::= filter (fun kv => kv_session kv.2 <> sid) |>)))).
  { apply (IdxPresence_set "kvs" idx (set_index "tombstones" idx (s <| tombs ::= fun t => ((fun _ => idx) <$> held) ∪ t |>))); auto.
    apply (IdxPresence_set _ _ s); auto. }
  assert (Hrel : IdxPresence (set_index "kvs" idx
           (s <| kvs ::= fmap (fun e => if bool_decide (kv_session e = sid)
                                        then KV (kv_value e) (kv_flags e) "" (kv_lock e) (kv_create e) idx
                                        else e) |>))).
  { apply (IdxPresence_set _ _ s); auto. }
  destruct (s_delete ss); destruct (s_delay ss); assumption.
Qed.

Lemma Q_drop idx s sid ss : Q s -> sessions s !! sid = Some ss -> Q (drop_session idx sid ss s).
Proof.
  intros [Hex Hip] Hss. split.
  - (* links *)
    intros n c sd. rewrite (proj2 (proj2 (proj2 (drop_session_frame idx sid ss s)))), drop_session_sessions. split.
    + intros Hin. apply elem_of_filter in Hin as [Hne Hin]. cbn in Hne.
      apply Hex in Hin as (ss' & H1 & H2 & H3). exists ss'. split; [|split; assumption].
      rewrite lookup_delete_ne by congruence. exact H1.
    + intros (ss' & H1 & H2 & H3). apply lookup_delete_Some in H1 as [Hne H1].
      apply elem_of_filter. split; [cbn; congruence|]. apply Hex. exists ss'. split; [exact H1|split; assumption].
  - (* index rows *)
    unfold drop_session. cbn zeta.
    assert (H2 : IdxPresence (release_or_delete_keys idx sid ss (set_index "sessions" idx (s <| sessions ::= delete sid |>)))).
    { apply release_or_delete_keys_IdxPresence. apply (IdxPresence_set _ _ s); auto. }
    match goal with |- context [bool_decide ?P] => destruct (bool_decide P) end; [exact H2|].
    apply (IdxPresence_set _ _ (release_or_delete_keys idx sid ss (set_index "sessions" idx (s <| sessions ::= delete sid |>)))); auto.
Qed.

Lemma Q_idx s p : sessions p = sessions s -> schecks p = schecks s -> IdxPresence p -> Q s -> Q p.
Proof. intros A B Hp [H1 _]. split; [|exact Hp]. unfold SCheckExact. rewrite A, B. exact H1. Qed.

Lemma kvs_set_Q idx k e upd s : Q s -> Q (kvs_set idx k e upd s).1.
Proof.
  intros HQ. unfold kvs_set.
  destruct (kvs s !! k) as [x|]; [destruct (kv_same x _); cbn; [exact HQ|]|cbn];
    (apply (Q_idx s); [reflexivity|reflexivity| |exact HQ]; apply (IdxPresence_set _ _ s); auto; apply HQ).
Qed.

Lemma kvs_delete_Q idx k s : Q s -> Q (kvs_delete idx k s).
Proof.
  intros HQ. unfold kvs_delete. destruct (kvs s !! k); [|exact HQ].
  apply (Q_idx s); [reflexivity|reflexivity| |exact HQ].
  apply (IdxPresence_set "kvs" idx (set_index "tombstones" idx (s <| tombs ::= <[k := idx]> |>))); auto.
  apply (IdxPresence_set _ _ s); auto. apply HQ.
Qed.

Lemma kvs_delete_tree_Q idx p s : Q s -> Q (kvs_delete_tree idx p s).
Proof.
  intros HQ. unfold kvs_delete_tree. destruct (bool_decide _); [exact HQ|].
  apply (Q_idx s); [destruct (bool_decide (p = "")); reflexivity|destruct (bool_decide (p = "")); reflexivity| |exact HQ].
  set (s1 := s <| tombs ::= filter (fun kt => has_prefix p kt.1 = false) |>).
  destruct (bool_decide (p = "")).
  - apply (IdxPresence_set "kvs" idx s1); auto.
    apply (IdxPresence_sub s); try reflexivity; [apply map_filter_subseteq|apply HQ].
  - apply (IdxPresence_set "kvs" idx (set_index "tombstones" idx (s <| tombs ::= fun t => <[p := idx]> (filter (fun kt => has_prefix p kt.1 = false) t) |>))); auto.
    apply (IdxPresence_set _ _ s); auto. apply HQ.
Qed.

Lemma reap_Q upto s : Q s -> Q (reap_tombstones upto s).
Proof.
  intros HQ. apply (Q_idx s); [reflexivity|reflexivity| |exact HQ].
  apply (IdxPresence_sub s); try reflexivity; [apply map_filter_subseteq|apply HQ].
Qed.

Lemma session_row_Q idx sid ss s : sessions s !! sid = None -> Q s -> Q (session_row idx sid ss s).
Proof.
  intros Hfresh HQ. unfold session_row.
  destruct HQ as [Hex Hip]. split.
  + intros n0 c sd. cbn. rewrite elem_of_union, elem_of_list_to_set, elem_of_list_fmap. split.
    * intros [(cid & Heq & Hin)|Hin].
      -- injection Heq as -> -> ->. exists (ss <| s_create := idx |>). rewrite lookup_insert. repeat split. exact Hin.
      -- apply Hex in Hin as (ss' & H1 & H2 & H3). exists ss'. split; [|split; assumption].
         rewrite lookup_insert_ne by (intros ->; congruence). exact H1.
    * intros (ss' & H1 & H2 & H3). destruct (decide (sd = sid)) as [->|Hne].
      -- rewrite lookup_insert in H1. injection H1 as <-. cbn in *. left. exists c. subst. split; [reflexivity|exact H3].
      -- rewrite lookup_insert_ne in H1 by congruence. right. apply Hex. exists ss'. split; [exact H1|split; assumption].
  + apply (IdxPresence_set _ _ s); auto.
Qed.

Lemma query_set_Q idx qid sess s : Q s -> rpost (nofuel Q) Q (query_set idx qid sess s).
Proof.
  intros HQ. unfold query_set. destruct (_ || _); [|split; [discriminate|exact HQ]]. cbn.
  apply (Q_idx s); [reflexivity|reflexivity| |exact HQ]. apply (IdxPresence_set _ _ s); auto. apply HQ.
Qed.

Lemma query_delete_Q idx qid s : Q s -> Q (query_delete idx qid s).
Proof.
  intros HQ. unfold query_delete. destruct (queries s !! qid); [|exact HQ].
  apply (Q_idx s); [reflexivity|reflexivity| |exact HQ]. apply (IdxPresence_set _ _ s); auto. apply HQ.
Qed.

Lemma Q_casc idx : casc_at idx (fun _ _ => True) Q.
Proof.
  split; [|intros; exact I|intros; apply Q_drop; assumption|intros; exact I].
  intros s s1 pre nd cid hc _ Hs1 _. unfold store_check.
  destruct (match checks s !! (nd, cid) with Some x => negb (check_same x hc) | None => true end);
    [apply Q_cf_checks|]; exact Hs1.
Qed.

Lemma Q_rows idx : rows_at idx Q.
Proof. split; intros; first [apply Q_cf_checks|apply Q_cf_services|apply Q_cf_nodes]; assumption. Qed.

Theorem apply_Q idx c s : wf_cmd idx c s -> Q s -> Q (apply idx c s).1.
Proof.
  intros [_ Hwf]. apply (walk_apply Q (nofuel Q) idx (fun sid t => sessions t !! sid = None)).
  - (* Hkv *) intros a b Ha Hk. destruct Hk; [exact Ha|apply kvs_set_Q|apply kvs_delete_Q|apply kvs_delete_tree_Q]; exact Ha.
  - (* Hcat *) intros a r Ha Hr. exact (cat_step_casc idx _ Q (Q_casc idx) (Q_rows idx) a r (fun _ => I) Ha Hr).
  - (* Hnf *) intros e a Ha He. split; assumption.
  - (* Hsc *) intros sid ss a Hfresh Ha. apply session_create_rpost; [intros e He; split; assumption|]. intros _ _ _.
    split; [apply session_row_Q; assumption|].
    intros s' cid c' Hs' _. apply (ensure_check_p_casc idx (fun _ _ => True) Q); [apply Q_casc|exact I|exact Hs'].
  - (* Hqs *) intros qid sess a. apply query_set_Q.
  - (* Hqd *) intros qid a. apply query_delete_Q.
  - (* Hreap *) intros upto a. apply reap_Q.
  - (* F *) intros sid ss ->. exact Hwf.
Qed.

(* the same lifting for a predicate given by what each primitive does to it (failures included) *)
Section compose.
Context (P : st -> Prop).
Hypothesis bb_node : forall idx nd nid addr s, idx <> 0 -> P s -> outcome P id (ensure_node idx nd nid addr s).
Hypothesis bb_service : forall idx nd svc name port s, P s -> outcome P id (ensure_service idx nd svc name port s).
Hypothesis bb_check : forall pre idx nd cid hc s, P s -> outcome P id (ensure_check_p pre idx nd cid hc s).
Hypothesis bb_del_node : forall idx nd s, P s -> outcome P id (delete_node idx nd s).
Hypothesis bb_del_service : forall idx nd svc s, P s -> outcome P id (delete_service idx nd svc s).
Hypothesis bb_del_check : forall idx nd cid s, P s -> outcome P id (delete_check idx nd cid s).
Hypothesis bb_del_session : forall idx sid s, P s -> outcome P id (delete_session_top idx sid s).
Hypothesis bb_kvs_set : forall idx k e upd s, P s -> P (kvs_set idx k e upd s).1.
Hypothesis bb_kvs_delete : forall idx k s, P s -> P (kvs_delete idx k s).
Hypothesis bb_kvs_delete_tree : forall idx p s, P s -> P (kvs_delete_tree idx p s).
Hypothesis bb_kvs_delete_cas : forall idx cidx k s, P s -> P (kvs_delete_cas idx cidx k s).2.
Hypothesis bb_kvs_set_cas : forall idx k e s, P s -> P (kvs_set_cas idx k e s).2.1.
Hypothesis bb_kvs_lock : forall idx k e s, P s -> outcome P (fun r => r.2.1) (kvs_lock idx k e s).
Hypothesis bb_kvs_unlock : forall idx k e s, P s -> outcome P (fun r => r.2.1) (kvs_unlock idx k e s).
Hypothesis bb_reap : forall upto s, P s -> P (reap_tombstones upto s).
Hypothesis bb_session_create : forall idx sid ss s, sessions s !! sid = None -> P s -> outcome P id (session_create idx sid ss s).
Hypothesis bb_query_set : forall idx qid sess s, P s -> outcome P id (query_set idx qid sess s).
Hypothesis bb_query_delete : forall idx qid s, P s -> P (query_delete idx qid s).

Theorem c_apply idx c s : wf_cmd idx c s -> P s -> P (apply idx c s).1.
Proof.
  intros [Hpos Hwf]. assert (Hidx : idx <> 0) by lia.
  apply (walk_apply P (fun _ p => P p) idx (fun sid t => sessions t !! sid = None)).
  - (* Hkv *) intros a b Ha Hk. destruct Hk; [exact Ha|apply bb_kvs_set|apply bb_kvs_delete|apply bb_kvs_delete_tree]; exact Ha.
  - (* Hcat *) intros a r Ha Hr. destruct Hr.
    + exact (bb_node idx nd id addr a Hidx Ha).
    + exact (bb_service idx nd svc name port a Ha).
    + exact (bb_check false idx nd cid hc a Ha).
    + exact (bb_del_node idx nd a Ha).
    + exact (bb_del_service idx nd svc a Ha).
    + exact (bb_del_check idx nd cid a Ha).
    + exact (bb_del_session idx sid a Ha).
  - (* Hnf *) intros e a Ha _. exact Ha.
  - (* Hsc *) intros sid ss a Hfresh Ha. exact (bb_session_create idx sid ss a Hfresh Ha).
  - (* Hqs *) intros qid sess a Ha. exact (bb_query_set idx qid sess a Ha).
  - (* Hqd *) intros qid a. apply bb_query_delete.
  - (* Hreap *) intros upto a. apply bb_reap.
  - (* F *) intros sid ss ->. exact Hwf.
Qed.

Theorem c_run log : forall s, wf_log log s -> P s -> P (run log s).1.
Proof using All. apply run_inv_wf, c_apply. Qed.
End compose.

Lemma Inv_iff s : Inv s <-> NodeOK s /\ NoOrphans s /\ Q s.
Proof. unfold Inv, NodeOK, NoOrphans, Q, SvcNode, ChkRef. tauto. Qed.

Theorem apply_Inv idx c s : wf_cmd idx c s -> Inv s -> Inv (apply idx c s).1.
Proof.
  intros Hwf. rewrite !Inv_iff. intros (HN & HO & HQ).
  split; [apply apply_NodeOK; [destruct Hwf; lia|exact HN]|]. split; [apply apply_NoOrphans, HO|apply apply_Q; assumption].
Qed.

Theorem run_Inv log : forall s, wf_log log s -> Inv s -> Inv (run log s).1.
Proof. apply run_inv_wf, apply_Inv. Qed.

Lemma Inv_st0 : Inv st0.
Proof.
  unfold Inv. split; [|split; [|split; [|split; [|split]]]].
  - intros n1 n2 a b H. cbn in H. rewrite lookup_empty in H. discriminate.
  - intros n a H. cbn in H. rewrite lookup_empty in H. discriminate.
  - intros nd sid sv H. cbn in H. rewrite lookup_empty in H. discriminate.
  - intros nd cid c H. cbn in H. rewrite lookup_empty in H. discriminate.
  - intros n c sid. split; [intros H; exfalso; exact (not_elem_of_empty _ H)|intros (ss & H & _); cbn in H; rewrite lookup_empty in H; discriminate].
  - unfold IdxPresence. repeat split; intros H; contradiction.
Qed.

Theorem reachable_Inv s : reachable s -> Inv s.
Proof. intros (log & Hwf & ->). apply run_Inv; [exact Hwf|apply Inv_st0]. Qed.
