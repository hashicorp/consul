(* mesh-topology: what registration does to the references of a pair (the content of /repo acb191c):
   a proxy that lists an upstream is ADDED to the pair's references; nobody else's reference is lost. *)
From stdpp Require Import gmap strings.
From RecordUpdate Require Import RecordSet.
From Coq Require Import NArith.
From Verif Require Import Catalog.Model.
Import RecordSetNotations.
Local Open Scope N_scope.

Definition refs_of (s : st) (p : string * string) : gset (string * string) := default ∅ (topo s !! p).

Lemma add_refs_lookup (key : string * string) (dest : string) (ups : list string) : forall s p,
  topo (foldl (fun s' u => s' <| topo ::= <[(u, dest) := {[ key ]} ∪ default ∅ (topo s' !! (u, dest))]> |>) s ups) !! p =
  if decide (p.2 = dest /\ p.1 ∈ ups) then Some ({[ key ]} ∪ refs_of s p) else topo s !! p.
Proof.
  induction ups as [|u ups IH]; intros s p; cbn [foldl].
  - symmetry. apply decide_False. intros [_ Hp]. inversion Hp.
  - rewrite IH. unfold refs_of. cbn. destruct (decide (p = (u, dest))) as [->|Hne].
    + rewrite lookup_insert, (decide_True (P := _ /\ _ ∈ _ :: _)) by (split; [reflexivity|left]).
      destruct (decide _); [cbn; rewrite (assoc_L (∪)), union_idemp_L|]; reflexivity.
    + rewrite lookup_insert_ne by congruence. apply decide_ext. rewrite elem_of_cons.
      destruct p as [u' d]. cbn. split; [tauto|]. intros [-> [->|Hu]]; [contradiction|tauto].
Qed.

Lemma drop_old_lookup (dest : string) (ups old : list string) : forall s p,
  topo (foldl (fun s' u => if bool_decide (u ∈ ups) then s' else s' <| topo ::= delete (u, dest) |>) s old) !! p =
  if decide (p.2 = dest /\ p.1 ∈ old /\ p.1 ∉ ups) then None else topo s !! p.
Proof.
  induction old as [|u old IH]; intros s p; cbn [foldl].
  - symmetry. apply decide_False. intros (_ & Hp & _). inversion Hp.
  - rewrite IH. case_bool_decide as Hu.
    + apply decide_ext. rewrite elem_of_cons. split; [tauto|]. intros (Hd & [->|Ho] & Hn); [contradiction|tauto].
    + cbn. destruct (decide (p = (u, dest))) as [->|Hne].
      * rewrite lookup_delete, (decide_True (P := _ /\ _ ∈ _ :: _ /\ _)) by (split; [reflexivity|split; [left|exact Hu]]).
        destruct (decide _); reflexivity.
      * rewrite lookup_delete_ne by congruence. apply decide_ext. rewrite elem_of_cons.
        destruct p as [u' d]. cbn. split; [tauto|]. intros (-> & [->|Ho] & Hn); [contradiction|tauto].
Qed.

Lemma update_mesh_topology_lookup nd sid dest ups existing s p :
  topo (update_mesh_topology nd sid dest ups existing s) !! p =
  if decide (p.2 = dest /\ p.1 ∈ ups) then Some ({[ (nd, sid) ]} ∪ refs_of s p)
  else if decide (p.2 = dest /\ p.1 ∈ match existing with Some e => sv_ups e | None => [] end) then None
  else topo s !! p.
Proof.
  unfold update_mesh_topology. rewrite drop_old_lookup, add_refs_lookup.
  destruct (decide (p.2 = dest /\ p.1 ∈ ups)) as [Hu|Hu]; [apply decide_False|apply decide_ext]; tauto.
Qed.
