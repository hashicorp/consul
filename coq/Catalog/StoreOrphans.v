(* C07 over the core store model (Store/Model.v: the catalog verbs together with sessions, KV and
   transactions): orphan freedom and the deregistration cascades.

   Orphan freedom reads the catalog skeleton only (Store/Skeleton.v: nodes, services, and for
   every check its service id), which the session cascade keeps; it follows from what each
   catalog verb does to the skeleton. *)
From stdpp Require Import gmap strings.
From RecordUpdate Require Import RecordSet.
From Coq Require Import NArith.
From Verif Require Import Store.Model Store.Walk Store.Skeleton Store.Lift.
Import RecordSetNotations.
Local Open Scope N_scope.

Lemma bind_ok {A B} (m : result A) (k : A -> result B) (b : B) :
  m ≫= k = Ok b -> exists a, m = Ok a /\ k a = Ok b.
Proof. destruct m as [a|e p]; cbn; [eauto|discriminate]. Qed.

Definition NoOrphans (s : st) : Prop :=
  (forall nd sid v, services s !! (nd, sid) = Some v -> is_Some (nodes s !! nd)) /\
  (forall nd cid c, checks s !! (nd, cid) = Some c ->
     is_Some (nodes s !! nd) /\ (c_service c ≠ "" -> is_Some (services s !! (nd, c_service c)))).

Definition refs_ok (no : gmap string node) (sv : gmap (string * string) service)
           (cm : gmap (string * string) string) : Prop :=
  (forall k v, sv !! k = Some v -> is_Some (no !! k.1)) /\
  (forall k x, cm !! k = Some x -> is_Some (no !! k.1) /\ (x ≠ "" -> is_Some (sv !! (k.1, x)))).

Lemma NoOrphans_skel s : NoOrphans s <-> refs_ok (nodes s) (services s) (cmap s).
Proof.
  unfold NoOrphans, refs_ok. split; intros [H1 H2]; split.
  - intros [nd sid]. apply H1.
  - intros [nd cid] x Hx. apply cmap_lookup_Some in Hx as (c & Hc & ->). exact (H2 nd cid c Hc).
  - intros nd sid. apply (H1 (nd, sid)).
  - intros nd cid c Hc. apply (H2 (nd, cid)). apply cmap_lookup_Some. eauto.
Qed.

Lemma NoOrphans_shape s p : shape_eq s p -> NoOrphans s -> NoOrphans p.
Proof. intros (Hn & Hs & Hc). rewrite !NoOrphans_skel, Hn, Hs, Hc. tauto. Qed.

Lemma ensure_check_p_NoOrphans pre idx nd cid hc : keeps_ok NoOrphans (ensure_check_p pre idx nd cid hc).
Proof.
  intros s s' He. apply ensure_check_p_shape in He as (Hn & Hs & Hc & Hnd & Hsv).
  rewrite !NoOrphans_skel, Hn, Hs, Hc. intros [H1 H2]. split; [exact H1|]. intros k x.
  destruct (decide (k = (nd, cid))) as [->|Hne].
  - rewrite lookup_insert. intros [= <-]. split; assumption.
  - rewrite lookup_insert_ne by congruence. apply H2.
Qed.

Lemma delete_check_NoOrphans idx nd cid : keeps_ok NoOrphans (delete_check idx nd cid).
Proof.
  intros s s' Hd. apply delete_check_shape in Hd as (Hn & Hs & Hc).
  rewrite !NoOrphans_skel, Hn, Hs, Hc. intros [H1 H2]. split; [exact H1|].
  intros k x Hx. apply lookup_delete_Some in Hx as [_ Hx]. exact (H2 k x Hx).
Qed.

(* no check that survives names the deleted instance *)
Lemma delete_service_NoOrphans idx nd svc : keeps_ok NoOrphans (delete_service idx nd svc).
Proof.
  intros s s' Hd. apply delete_service_shape in Hd as [[_ ->]|(Hn & Hs & Hc)]; [tauto|].
  rewrite !NoOrphans_skel, Hn, Hs. intros [H1 H2]. split.
  - intros k v Hv. apply lookup_delete_Some in Hv as [_ Hv]. exact (H1 k v Hv).
  - intros k x Hx. apply Hc in Hx as [Hx Hnot]. destruct (H2 k x Hx) as [Ha Hb]. split; [exact Ha|].
    intros Hne. rewrite lookup_delete_ne; [exact (Hb Hne)|]. intros [= Hk ->]. apply Hnot. auto.
Qed.

(* a surviving check is on another node, and so is the service it names *)
Lemma delete_node_NoOrphans idx nd : keeps_ok NoOrphans (delete_node idx nd).
Proof.
  intros s s' Hd. apply delete_node_shape in Hd as [[_ ->]|(Hn & Hs & Hc)]; [tauto|].
  rewrite !NoOrphans_skel, Hn. intros [H1 H2]. split.
  - intros k v Hv. apply Hs in Hv as [Hv Hne]. rewrite lookup_delete_ne by congruence. exact (H1 k v Hv).
  - intros k x Hx. apply Hc in Hx as [Hx Hne]. destruct (H2 k x Hx) as [Ha Hb].
    rewrite lookup_delete_ne by congruence. split; [exact Ha|].
    intros Hx0. destruct (Hb Hx0) as [v Hv]. exists v. apply Hs. split; [exact Hv|exact Hne].
Qed.

Lemma NoOrphans_insert_node s nd n : NoOrphans s -> NoOrphans (s <| nodes ::= <[nd := n]> |>).
Proof.
  assert (Hin : forall k, is_Some (nodes s !! k) -> is_Some (<[nd := n]> (nodes s) !! k)).
  { intros k Hk. destruct (decide (k = nd)) as [->|Hne]; [rewrite lookup_insert; eauto|rewrite lookup_insert_ne by congruence; exact Hk]. }
  intros [H1 H2]. split; cbn.
  - intros n' sid v Hv. eapply Hin, H1, Hv.
  - intros n' cid c Hc. destruct (H2 n' cid c Hc) as [Hx Hy]. split; [apply Hin, Hx|exact Hy].
Qed.

Lemma ensure_node_NoOrphans idx nd id addr : keeps_ok NoOrphans (ensure_node idx nd id addr).
Proof.
  intros s s' He Hno. apply ensure_node_Ok in He as (s1 & c & Hs' & _ & Hs1).
  assert (H1 : NoOrphans s1).
  { destruct Hs1 as [[-> _]|(oname & on & _ & _ & Hd)]; [exact Hno|exact (delete_node_NoOrphans _ _ _ _ Hd Hno)]. }
  destruct Hs' as [-> | ->]; [exact H1|apply NoOrphans_insert_node, H1].
Qed.

Lemma ensure_service_NoOrphans idx nd svc name port : keeps_ok NoOrphans (ensure_service idx nd svc name port).
Proof.
  intros s s' He Hno. apply ensure_service_Ok in He as [Hnd [-> |[x ->]]]; [exact Hno|].
  destruct Hno as [H1 H2]. split; cbn.
  - intros n' sid v' Hv. destruct (decide ((n', sid) = (nd, svc))) as [[= -> ->]|Hne];
      [exact Hnd|rewrite lookup_insert_ne in Hv by congruence; eapply H1; exact Hv].
  - intros n' cid c Hc. destruct (H2 n' cid c Hc) as [Hx Hy]. split; [exact Hx|]. intros Hne.
    destruct (decide ((n', c_service c) = (nd, svc))) as [Heq|Hq];
      [rewrite Heq, lookup_insert; eauto|rewrite lookup_insert_ne by congruence; apply Hy; exact Hne].
Qed.

Theorem apply_NoOrphans idx c s : NoOrphans s -> NoOrphans (apply idx c s).1.
Proof.
  apply (apply_lift_skel NoOrphans idx NoOrphans_shape).
  - apply ensure_node_NoOrphans.
  - apply ensure_service_NoOrphans.
  - intros pre. apply ensure_check_p_NoOrphans.
  - apply delete_node_NoOrphans.
  - apply delete_service_NoOrphans.
  - apply delete_check_NoOrphans.
Qed.

Lemma NoOrphans_st0 : NoOrphans st0.
Proof. split; intros ? ? ? H; cbn in H; rewrite lookup_empty in H; discriminate. Qed.

Theorem run_NoOrphans log : forall s, NoOrphans s -> NoOrphans (run log s).1.
Proof. apply walk_run. intros idx c s. apply apply_NoOrphans. Qed.

(* a successful node deregistration leaves no row of that node *)
Theorem deregister_node_cascade idx nd s s' :
  NoOrphans s -> apply idx (Deregister nd "" "") s = (s', CNil) ->
  nodes s' !! nd = None /\
  (forall sid, services s' !! (nd, sid) = None) /\
  (forall cid, checks s' !! (nd, cid) = None).
Proof.
  intros Hno. cbn. destruct (delete_node idx nd s) as [s1|e p] eqn:E; cbn; [|discriminate].
  intros [= <-]. apply delete_node_shape in E as [[Hnone ->]|(Hn & Hs & Hc)].
  - (* the node was not there: nor, by orphan freedom, anything on it *)
    destruct Hno as [H1 H2]. split; [exact Hnone|]. split.
    + intros sid. destruct (services s !! (nd, sid)) as [v|] eqn:Ev; [|reflexivity].
      destruct (H1 _ _ _ Ev) as [n Hn]. congruence.
    + intros cid. destruct (checks s !! (nd, cid)) as [c|] eqn:Ec; [|reflexivity].
      destruct (H2 _ _ _ Ec) as [[n Hn] _]. congruence.
  - split; [rewrite Hn; apply lookup_delete|]. split.
    + intros sid. apply eq_None_not_Some. intros [v Hv]. apply Hs in Hv as [_ Hne]. exact (Hne eq_refl).
    + intros cid. apply eq_None_not_Some. intros [c Hck].
      destruct (Hc (nd, cid) (c_service c)) as [_ Hne]; [apply cmap_lookup_Some; eauto|exact (Hne eq_refl)].
Qed.

(* a successful service deregistration leaves neither the instance nor any check that names it *)
Theorem deregister_service_cascade idx nd svc cid0 s s' :
  svc ≠ "" -> NoOrphans s -> apply idx (Deregister nd svc cid0) s = (s', CNil) ->
  services s' !! (nd, svc) = None /\
  (forall cid c, checks s' !! (nd, cid) = Some c -> c_service c ≠ svc).
Proof.
  intros Hsvc Hno. cbn. rewrite bool_decide_eq_false_2 by exact Hsvc. cbn.
  destruct (delete_service idx nd svc s) as [s1|e p] eqn:E; cbn; [|discriminate].
  intros [= <-]. apply delete_service_shape in E as [[Hnone ->]|(Hn & Hs & Hc)].
  - split; [exact Hnone|]. intros cid c Hck Heq. destruct Hno as [_ H2].
    destruct (H2 _ _ _ Hck) as [_ Hy]. rewrite Heq in Hy. destruct (Hy Hsvc) as [v Hv]. congruence.
  - split; [rewrite Hs; apply lookup_delete|]. intros cid c Hck Heq.
    destruct (Hc (nd, cid) (c_service c)) as [[_ Hnot] _]; [apply cmap_lookup_Some; eauto|]. apply Hnot. auto.
Qed.

Inductive SReach : st -> Prop :=
| SReach_init : SReach st0
| SReach_step idx c s : SReach s -> SReach (apply idx c s).1.

Theorem SReach_NoOrphans s : SReach s -> NoOrphans s.
Proof. induction 1 as [|idx c s _ IH]; [apply NoOrphans_st0|apply apply_NoOrphans; exact IH]. Qed.

Lemma SReach_run log : SReach (run log st0).1.
Proof. apply walk_run; [intros idx c s; apply SReach_step|constructor]. Qed.

(* a non-trivial reachable state: a node with an ID, a service, a service check, a node check, a
   session bound to the node check holding a key; then the node is renamed by ID (which deregisters
   the old name with everything on it) and re-registered *)
Definition orphan_log : list (N * cmd) :=
  [ (1, Register "n1" "id1" 1 false (Some ("s1", "web", 80)) [CheckReq "n1" "c1" 0 "s1" false "" 0 0; CheckReq "n1" "c2" 0 "" false "" 0 0]);
    (2, SessionCreate "sess" (Sess "n1" "" false ["c2"] false 0));
    (3, KVS VLock (KVReq "k" [] 0 "sess" 0 0));
    (4, Register "n2" "" 2 false (Some ("s1", "db", 80)) [CheckReq "n2" "c1" 0 "s1" false "" 0 0]) ].

Example orphan_example :
  let s := (run orphan_log st0).1 in
  SReach s /\
  is_Some (services s !! ("n1", "s1")) /\ is_Some (checks s !! ("n1", "c1")) /\ is_Some (sessions s !! "sess") /\
  (* renaming node id1 from n1 to n3 succeeds and leaves nothing of n1 behind, session included *)
  let s' := (apply 5 (Register "n3" "id1" 1 false None []) s).1 in
  nodes s' !! "n1" = None /\ is_Some (nodes s' !! "n3") /\ services s' !! ("n1", "s1") = None /\
  checks s' !! ("n1", "c1") = None /\ sessions s' !! "sess" = None /\ is_Some (services s' !! ("n2", "s1")) /\
  (* and an explicit deregistration of n2 succeeds *)
  (apply 6 (Deregister "n2" "" "") s').2 = CNil.
Proof. cbv zeta. split; [apply SReach_run|]. vm_compute. repeat split; eauto. Qed.

(* a service deregistration that succeeds: the instance and the check that names it go, the node
   and its node-level check stay *)
Example service_dereg_example :
  let s := (run orphan_log st0).1 in
  (apply 5 (Deregister "n1" "s1" "") s).2 = CNil /\
  let s' := (apply 5 (Deregister "n1" "s1" "") s).1 in
  services s' !! ("n1", "s1") = None /\ checks s' !! ("n1", "c1") = None /\
  is_Some (checks s' !! ("n1", "c2")) /\ is_Some (nodes s' !! "n1").
Proof. vm_compute. repeat split; eauto. Qed.
