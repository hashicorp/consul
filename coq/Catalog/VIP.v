(* Virtual IPs in the catalog model: the assignment is injective in every reachable state, and the
   virtual IP any instance advertises is the current assignment of its service (for a sidecar proxy:
   of its destination; freeServiceVirtualIP looks at the connect index, /repo 8e1bd1c). *)
From stdpp Require Import gmap strings.
From RecordUpdate Require Import RecordSet.
From Coq Require Import NArith.
From Verif Require Import Catalog.Model Catalog.Frames.
Import RecordSetNotations.
Local Open Scope N_scope.

Definition VI (s : st) : Prop :=
  (forall n1 n2 ip m1 m2, vips s !! n1 = Some (ip, m1) -> vips s !! n2 = Some (ip, m2) -> n1 = n2) /\
  (forall n ip m, vips s !! n = Some (ip, m) -> 0 < ip <= counter s /\ ip ∉ free s) /\
  (forall ip, ip ∈ free s -> 0 < ip <= counter s).

(* an instance that advertises a virtual IP is in the connect index, and the address is the current
   assignment of the service it is indexed under *)
Definition AD (s : st) : Prop :=
  forall k v ip, services s !! k = Some v -> sv_vip v = Some ip ->
    exists n m, connect_name v = Some n /\ vips s !! n = Some (ip, m).

Definition INV (s : st) : Prop := VI s /\ AD s.

Lemma INV_ext a b : services a = services b -> pool a = pool b -> INV b -> INV a.
Proof. intros Hs [= Hv Hf Hc] H. unfold INV, VI, AD. rewrite Hs, Hv, Hf, Hc. exact H. Qed.

Lemma INV_st0 : INV st0.
Proof.
  split; [split; [|split]|].
  - intros n1 n2 ip m1 m2 H. cbn in H. rewrite lookup_empty in H. discriminate.
  - intros n ip m H. cbn in H. rewrite lookup_empty in H. discriminate.
  - intros ip H. cbn in H. set_solver.
  - intros k v ip H. cbn in H. rewrite lookup_empty in H. discriminate.
Qed.

Lemma insert_fresh name ip s s' :
  INV s -> (forall n ip2 m, vips s !! n = Some (ip2, m) -> ip2 ≠ ip) ->
  vips s !! name = None -> vips s' = <[name := (ip, [])]> (vips s) -> services s' = services s ->
  (forall n1 n2 ip2 m1 m2, vips s' !! n1 = Some (ip2, m1) -> vips s' !! n2 = Some (ip2, m2) -> n1 = n2) /\ AD s'.
Proof.
  intros [(Hinj & _ & _) Had] Hfresh Hnone Hv Hs. split.
  - intros n1 n2 ip2 m1 m2. rewrite Hv. intros H1 H2.
    destruct (decide (n1 = name)) as [->|Hn1], (decide (n2 = name)) as [->|Hn2]; [reflexivity|..].
    + rewrite lookup_insert in H1. injection H1 as <- <-. rewrite lookup_insert_ne in H2 by congruence.
      exfalso. eapply Hfresh; [exact H2|reflexivity].
    + rewrite lookup_insert in H2. injection H2 as <- <-. rewrite lookup_insert_ne in H1 by congruence.
      exfalso. eapply Hfresh; [exact H1|reflexivity].
    + rewrite lookup_insert_ne in H1, H2 by congruence. eapply Hinj; eassumption.
  - intros k v ip2 Hk Hvip. rewrite Hs in Hk. destruct (Had k v ip2 Hk Hvip) as (n & m & Hcn & Hm).
    exists n. rewrite Hv. rewrite lookup_insert_ne by congruence. eauto.
Qed.

(* a new address is the freed one (in range, held by nobody) or the one after the counter (beyond
   every assigned one) *)
Lemma INV_alloc name ip s s' :
  INV s -> alloc name ip s s' -> services s' = services s -> INV s' /\ exists m, vips s' !! name = Some (ip, m).
Proof.
  intros Hinv Ha Hs. destruct Ha as [m Hn E|Hn Hin E|Hn Hemp Hip E].
  { split; [apply (INV_ext _ s Hs E Hinv)|]. injection E as -> _ _. eauto. }
  all: pose proof Hinv as [(_ & Hrange & Hfree) _]; injection E as Ev Ef Ec.
  all: (split; [|rewrite Ev, lookup_insert; eauto]).
  - destruct (insert_fresh name ip s s' Hinv) as [Hinj' Had']; [|exact Hn|exact Ev|exact Hs|].
    { intros n ip2 m Hm ->. destruct (Hrange _ _ _ Hm) as [_ Hnf]. contradiction. }
    split; [split; [exact Hinj'|split]|exact Had']; rewrite ?Ev, Ef, Ec.
    + intros n ip2 m Hm. destruct (decide (n = name)) as [->|Hne].
      * rewrite lookup_insert in Hm. injection Hm as <- <-. split; [apply Hfree; exact Hin|set_solver].
      * rewrite lookup_insert_ne in Hm by congruence. destruct (Hrange _ _ _ Hm) as [Hr Hnf]. split; [exact Hr|set_solver].
    + intros ip2 Hip. apply Hfree. set_solver.
  - destruct (insert_fresh name ip s s' Hinv) as [Hinj' Had']; [|exact Hn|exact Ev|exact Hs|].
    { intros n ip2 m Hm ->. destruct (Hrange _ _ _ Hm) as [Hr _]. lia. }
    split; [split; [exact Hinj'|split]|exact Had']; rewrite ?Ev, Ef, Ec, Hemp.
    + intros n ip2 m Hm. destruct (decide (n = name)) as [->|Hne].
      * rewrite lookup_insert in Hm. injection Hm as <- <-. split; [lia|set_solver].
      * rewrite lookup_insert_ne in Hm by congruence. destruct (Hrange _ _ _ Hm) as [Hr Hnf]. rewrite Hemp in Hnf. split; [lia|exact Hnf].
    + intros ip2 Hip2. set_solver.
Qed.

Lemma has_instance_false name s k v : has_instance name s = false -> services s !! k = Some v -> sv_name v ≠ name.
Proof.
  unfold has_instance. intros Hf Hk Heq. apply bool_decide_eq_false in Hf. apply Hf.
  exists k, v. split; assumption.
Qed.

(* an address is only taken back when no instance is indexed under the name (/repo 8e1bd1c) *)
Lemma INV_freed name s s' : INV s -> freed name s s' -> services s' = services s -> INV s'.
Proof.
  intros [(Hinj & Hrange & Hfree) Had] (ip & m & Ev & Ehc & [= Hv Hf Hc]) Hs. unfold INV, VI, AD. rewrite Hs, Hv, Hf, Hc.
  split; [split; [|split]|].
  - intros n1 n2 ip2 m1 m2 H1 H2. apply lookup_delete_Some in H1 as [_ H1], H2 as [_ H2]. eapply Hinj; eassumption.
  - intros n ip2 m2 Hn. apply lookup_delete_Some in Hn as [Hne Hn]. destruct (Hrange _ _ _ Hn) as [Hr _].
    split; [exact Hr|]. intros Hin. apply elem_of_singleton in Hin. subst ip2. apply Hne. symmetry. eapply Hinj; eassumption.
  - intros ip2 Hin. apply elem_of_singleton in Hin. subst ip2. apply (Hrange _ _ _ Ev).
  - intros k v ip2 Hk Hvip. destruct (Had k v ip2 Hk Hvip) as (n & m2 & Hcn & Hm2).
    exists n, m2. split; [exact Hcn|]. rewrite lookup_delete_ne; [exact Hm2|].
    intros Heq. apply (proj1 (has_connect_instance_false _ _) Ehc). exists k, v. split; [exact Hk|congruence].
Qed.

Lemma INV_delete_row k s s' : INV s -> services s' = delete k (services s) -> pool s' = pool s -> INV s'.
Proof.
  intros [Hvi Had] Hs [= Hv Hf Hc]. unfold INV, VI, AD. rewrite Hs, Hv, Hf, Hc. split; [exact Hvi|].
  intros k' v ip Hk. apply lookup_delete_Some in Hk as [_ Hk]. apply (Had k' v ip Hk).
Qed.

Lemma INV_insert_row k v s s' :
  INV s -> services s' = <[k := v]> (services s) -> pool s' = pool s ->
  (forall ip, sv_vip v = Some ip -> exists n m, connect_name v = Some n /\ vips s !! n = Some (ip, m)) ->
  INV s'.
Proof.
  intros [Hvi Had] Hs [= Hv Hf Hc] Hnew. unfold INV, VI, AD. rewrite Hs, Hv, Hf, Hc. split; [exact Hvi|].
  intros k' v' ip Hk. destruct (decide (k' = k)) as [->|Hne].
  - rewrite lookup_insert in Hk. injection Hk as <-. apply Hnew.
  - rewrite lookup_insert_ne in Hk by congruence. apply (Had k' v' ip Hk).
Qed.

Lemma ensure_service_INV idx nd r s s' : ensure_service idx nd r s = Ok s' -> INV s -> INV s'.
Proof.
  intros He Hinv. apply ensure_service_spec in He as (_ & vip & c & m & Hva & Hs).
  set (t := pool_of s' s).
  assert (Ht : INV t /\ forall ip, vip = Some ip -> is_connect r = true /\ exists m', vips t !! connect_target r = Some (ip, m')).
  { destruct vip as [ip|]; cbn in Hva.
    - destruct Hva as [Hic Ha]. destruct (INV_alloc (connect_target r) ip s t Hinv) as [Hinv' Hm]; [|reflexivity|].
      + apply (alloc_ext _ _ s s'); [reflexivity|reflexivity|exact Ha].
      + split; [exact Hinv'|]. intros ip' [= <-]. split; assumption.
    - subst t. rewrite pool_of_same by exact Hva. split; [exact Hinv|discriminate]. }
  destruct Ht as [Ht Hvip].
  apply (INV_insert_row (nd, sr_id r) (row_of r vip c m) t); [exact Ht|exact (strip_services _ _ Hs)|reflexivity|].
  intros ip Hip. destruct (Hvip ip Hip) as [Hic [m' Hm']]. exists (connect_target r), m'.
  rewrite connect_name_row, Hic. split; [reflexivity|exact Hm'].
Qed.

Lemma delete_service_INV nd sid s : INV s -> INV (delete_service nd sid s).
Proof.
  intros Hinv. destruct (services s !! (nd, sid)) as [v|] eqn:Ev; [|rewrite delete_service_None by exact Ev; exact Hinv].
  destruct (delete_service_spec nd sid s v Ev) as [Hp Hs]. cbn zeta in Hp, Hs.
  set (s' := delete_service nd sid s) in *. clearbody s'. set (sd := s <| services ::= delete (nd, sid) |>) in *.
  assert (Hd : INV sd) by (apply (INV_delete_row (nd, sid) s); [exact Hinv|reflexivity|reflexivity]).
  destruct Hp as [Hp|Hf].
  - apply (INV_ext _ sd); [exact (strip_services _ _ Hs)|exact Hp|exact Hd].
  - apply (INV_freed _ sd s' Hd Hf). exact (strip_services _ _ Hs).
Qed.

Lemma conf_set_INV name c s s' : conf_set name c s = Ok s' -> INV s -> INV s'.
Proof.
  intros He Hinv. apply conf_set_spec in He as [[Hp|(_ & ip & Ha)] Hs].
  - apply (INV_ext _ s); [exact (strip_services _ _ Hs)|exact Hp|exact Hinv].
  - apply (INV_alloc _ _ _ _ Hinv Ha). exact (strip_services _ _ Hs).
Qed.

Lemma conf_delete_INV kind name s : INV s -> INV (conf_delete kind name s).
Proof.
  intros Hinv. destruct (confs s !! (kind, name)) as [c|] eqn:Ec; [|rewrite conf_delete_None by exact Ec; exact Hinv].
  destruct (conf_delete_spec kind name s c Ec) as [[Hp|Hf] Hs]; cbn zeta in *.
  - apply (INV_ext _ s); [exact (strip_services _ _ Hs)|exact Hp|exact Hinv].
  - apply (INV_freed _ _ _ Hinv Hf). exact (strip_services _ _ Hs).
Qed.

(* manual virtual IPs only rewrite the list of manual addresses *)
Definition ipmap (s : st) : gmap string N := fst <$> vips s.
Lemma ipmap_lookup s n ip m : vips s !! n = Some (ip, m) -> ipmap s !! n = Some ip.
Proof. intros H. unfold ipmap. rewrite lookup_fmap, H. reflexivity. Qed.
Lemma ipmap_lookup_inv s n ip : ipmap s !! n = Some ip -> exists m, vips s !! n = Some (ip, m).
Proof. unfold ipmap. rewrite lookup_fmap. destruct (vips s !! n) as [[a m]|]; cbn; [|discriminate]. intros [= <-]. eauto. Qed.

Lemma INV_ipmap a b :
  services a = services b -> ipmap a = ipmap b -> free a = free b -> counter a = counter b -> INV b -> INV a.
Proof.
  intros Hs Hi Hf Hc [(Hinj & Hrange & Hfree) Had]. split; [split; [|split]|].
  - intros n1 n2 ip m1 m2 H1 H2. apply ipmap_lookup in H1, H2. rewrite Hi in H1, H2.
    apply ipmap_lookup_inv in H1 as [m1' H1], H2 as [m2' H2]. eapply Hinj; eassumption.
  - intros n ip m H. apply ipmap_lookup in H. rewrite Hi in H. apply ipmap_lookup_inv in H as [m' H].
    rewrite Hf, Hc. eapply Hrange; exact H.
  - rewrite Hf, Hc. exact Hfree.
  - intros k v ip Hk Hvip. rewrite Hs in Hk. destruct (Had k v ip Hk Hvip) as (n & m & Hcn & Hm).
    apply ipmap_lookup in Hm. rewrite <- Hi in Hm. apply ipmap_lookup_inv in Hm as [m' Hm']. eauto.
Qed.

Lemma assign_manual_INV name ips s : INV s -> INV (assign_manual name ips s).2.
Proof.
  intros H. pose proof (assign_manual_vips name ips s) as Hv. cbn zeta in Hv.
  assert (Hi : ipmap (assign_manual name ips s).2 = ipmap s).
  { apply (assign_manual_ind (fun s1 => ipmap s1 = ipmap s)); [reflexivity|]. intros s1 n a m l <- En.
    unfold ipmap. cbn. rewrite fmap_insert. apply insert_id. rewrite lookup_fmap, En. reflexivity. }
  set (s' := (assign_manual name ips s).2) in *. clearbody s'.
  apply (INV_ipmap _ s); [rewrite Hv; reflexivity|exact Hi|rewrite Hv; reflexivity|rewrite Hv; reflexivity|exact H].
Qed.

Theorem apply_INV idx c s : INV s -> INV (apply idx c s).1.
Proof.
  apply (apply_lift_view INV (fun _ _ => True) (fun _ _ => True)); [..|apply cmd_okP_trivial].
  - intros a b Hv. apply INV_ext; [apply view_services, Hv|apply view_pool, Hv].
  - intros idx' nd r s0 s' _. apply ensure_service_INV.
  - apply delete_service_INV.
  - intros n c0 s0 s' _. apply conf_set_INV.
  - apply conf_delete_INV.
  - apply assign_manual_INV.
Qed.

Theorem run_INV log : forall s, INV s -> INV (run log s).1.
Proof. apply run_keeps. intros idx c s. apply apply_INV. Qed.
