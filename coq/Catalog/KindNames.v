(* The invariant J under which kind-service-names equals its recomputation, kept by every command of a
   naming discipline ([CReachD_J]); [elem_of_recompute_ksn] is the other half (J's condition is
   membership in the recomputation), and Properties/C07.v puts the two together.  The discipline:
   every instance key (node, service id) is always registered with the same name / kind / native flag
   / destination, and a service-defaults entry of a name either always or never carries a
   destination.  A name may be shared by instances of several kinds (since /repo 0bb54ea).
   (Without the discipline: Refuted.v.) *)
From stdpp Require Import gmap strings.
From RecordUpdate Require Import RecordSet.
From Coq Require Import NArith.
From Verif Require Import Catalog.Model Catalog.Frames Catalog.Spec.
Import RecordSetNotations.
Local Open Scope N_scope.

Lemma free_vip_services name s : services (free_vip name s) = services s.
Proof. exact (f_equal services (proj2 (free_vip_spec name s))). Qed.
Lemma has_instance_services a b name : services a = services b -> has_instance name a = has_instance name b.
Proof. intros H. unfold has_instance. rewrite H. reflexivity. Qed.
Lemma has_connect_instance_services a b name : services a = services b -> has_connect_instance name a = has_connect_instance name b.
Proof. intros H. unfold has_connect_instance. rewrite H. reflexivity. Qed.

Record discipline := Discipline {
  d_def : string * string -> string * skind * bool * string;  (* instance key -> name, kind, native, destination *)
  d_dest : string -> bool                                     (* does the name's service-defaults entry carry a destination *)
}.

Section discipline.
Variable D : discipline.

Definition fields (v : svc) : string * skind * bool * string := (sv_name v, sv_kind v, sv_native v, sv_dest v).
Definition req_ok (nd : string) (r : svcreq) : Prop :=
  d_def D (nd, sr_id r) = (sr_name r, sr_kind r, sr_native r, sr_dest r).
Definition op_ok (op : txnop) : Prop :=
  match op with
  | TService VSet nd r | TService VCAS nd r => req_ok nd r
  | _ => True
  end.
Definition cmd_ok (c : cmd) : Prop :=
  match c with
  | Register nd _ _ _ (Some r) _ => req_ok nd r
  | Txn ops => Forall op_ok ops
  | ConfSet name (CDefaults d) => d = d_dest D name
  | _ => True
  end.

Definition Disc (s : st) : Prop :=
  (forall k v, services s !! k = Some v -> fields v = d_def D k) /\
  (forall k n c, confs s !! (k, n) = Some c -> k = conf_kind c /\ (forall d, c = CDefaults d -> d = d_dest D n)).

Definition justified (s : st) (p : string * string) : Prop :=
  (exists key v, services s !! key = Some v /\ kind_str (sv_kind v) = p.1 /\ sv_name v = p.2) \/
  (p.1 = connect_enabled /\ p.2 ≠ "" /\ exists key v, services s !! key = Some v /\ connect_name v = Some p.2) \/
  (p.1 = destination_kind /\ confs s !! ("service-defaults", p.2) = Some (CDefaults true)).

Definition KN (s : st) : Prop := forall p, p ∈ ksn s <-> justified s p.

Definition J (s : st) : Prop := Disc s /\ KN s.

Lemma J_ext a b : services a = services b -> confs a = confs b -> ksn a = ksn b -> J b -> J a.
Proof. intros Hs Hc Hk H. unfold J, Disc, KN, justified. rewrite Hs, Hc, Hk. exact H. Qed.

Lemma J_strip a b : strip a = strip b -> J b -> J a.
Proof. intros H. apply J_ext; [exact (strip_services _ _ H)|exact (f_equal confs H)|exact (f_equal ksn H)]. Qed.

Lemma J_st0 : J st0.
Proof.
  split; [split|].
  - intros k v H. cbn in H. rewrite lookup_empty in H. discriminate.
  - intros k n c H. cbn in H. rewrite lookup_empty in H. discriminate.
  - intros p. split.
    + intros H. cbn in H. set_solver.
    + intros [(key & v & H & _)|[(_ & _ & key & v & H & _)|(_ & H)]]; cbn in H; rewrite lookup_empty in H; discriminate.
Qed.

Lemma kind_str_not_special k : kind_str k ≠ connect_enabled /\ kind_str k ≠ destination_kind.
Proof. destruct k; split; discriminate. Qed.
Lemma kind_str_inj k1 k2 : kind_str k1 = kind_str k2 -> k1 = k2.
Proof. destruct k1, k2; try reflexivity; discriminate. Qed.

(* the pairs one instance justifies: its (kind, name), and (connect-enabled, n) for the name n it has
   in the connect index, unless that is empty *)
Definition pairs_of (v : svc) : gset (string * string) :=
  {[ (kind_str (sv_kind v), sv_name v) ]} ∪
  match connect_name v with
  | Some n => if bool_decide (n = "") then ∅ else {[ (connect_enabled, n) ]}
  | None => ∅
  end.
Definition svc_just (m : gmap (string * string) svc) (p : string * string) : Prop :=
  exists key v, m !! key = Some v /\ p ∈ pairs_of v.
Definition dest_just (cf : gmap (string * string) conf) (p : string * string) : Prop :=
  p.1 = destination_kind /\ cf !! ("service-defaults", p.2) = Some (CDefaults true).

Lemma elem_of_pairs_of v p :
  p ∈ pairs_of v <-> (kind_str (sv_kind v) = p.1 /\ sv_name v = p.2) \/
                     (p.1 = connect_enabled /\ p.2 ≠ "" /\ connect_name v = Some p.2).
Proof.
  destruct p as [k n]. unfold pairs_of. rewrite elem_of_union, elem_of_singleton. cbn [fst snd].
  destruct (connect_name v) as [c|]; [case_bool_decide as Hc|];
    rewrite ?elem_of_singleton, ?elem_of_empty; naive_solver.
Qed.

Lemma justified_split s p : justified s p <-> svc_just (services s) p \/ dest_just (confs s) p.
Proof.
  unfold justified, svc_just, dest_just. setoid_rewrite elem_of_pairs_of. split.
  - intros [(k & v & Hv & H)|[(H1 & H2 & k & v & Hv & Hc)|H]]; [left; exists k, v; tauto|left; exists k, v; tauto|right; exact H].
  - intros [(k & v & Hv & [H|(H1 & H2 & Hc)])|H]; [left; exists k, v; tauto|right; left; eauto 8|right; right; exact H].
Qed.

Lemma pairs_of_row r vip c m : pairs_of (row_of r vip c m) = new_pairs r.
Proof.
  unfold pairs_of, new_pairs. rewrite connect_name_row, (comm_L (∪)). cbn [row_of sv_kind sv_name].
  destruct (is_connect r); [destruct (bool_decide _)|]; reflexivity.
Qed.

Lemma pairs_of_fields v1 v2 : fields v1 = fields v2 -> pairs_of v1 = pairs_of v2.
Proof. unfold pairs_of, connect_name, fields. intros [= -> -> -> ->]. reflexivity. Qed.

Lemma svc_just_insert m key v' p :
  (forall x, m !! key = Some x -> pairs_of x = pairs_of v') ->
  svc_just (<[key := v']> m) p <-> p ∈ pairs_of v' \/ svc_just m p.
Proof.
  intros Hold. split.
  - intros (k & v & Hv & Hp). destruct (decide (k = key)) as [->|Hne].
    + rewrite lookup_insert in Hv. injection Hv as <-. left. exact Hp.
    + rewrite lookup_insert_ne in Hv by congruence. right. exists k, v. split; assumption.
  - intros [Hp|(k & v & Hv & Hp)]; [exists key, v'; rewrite lookup_insert; split; [reflexivity|exact Hp]|].
    destruct (decide (k = key)) as [->|Hne].
    + exists key, v'. rewrite lookup_insert, <- (Hold v Hv). split; [reflexivity|exact Hp].
    + exists k, v. rewrite lookup_insert_ne by congruence. split; assumption.
Qed.

Lemma svc_just_delete m key v p : m !! key = Some v -> svc_just m p <-> p ∈ pairs_of v \/ svc_just (delete key m) p.
Proof.
  intros Hv. split.
  - intros (k & x & Hx & Hp). destruct (decide (k = key)) as [->|Hne].
    + left. rewrite Hv in Hx. injection Hx as <-. exact Hp.
    + right. exists k, x. rewrite lookup_delete_ne by congruence. split; assumption.
  - intros [Hp|(k & x & Hx & Hp)]; [exists key, v; split; assumption|].
    apply lookup_delete_Some in Hx as [_ Hx]. exists k, x. split; assumption.
Qed.

(* what a deregistration takes out of the table is justified by no remaining instance and is not a
   destination pair; a pair of the deregistered instance that stays is justified by another instance *)
Lemma gone_unjustified v sd p :
  p ∈ gone_kind v sd ∪ gone_connect v sd -> ~ svc_just (services sd) p /\ p.1 ≠ destination_kind.
Proof.
  intros [Hp|Hp]%elem_of_union.
  - unfold gone_kind in Hp. destruct (has_instance_kind (sv_name v) (sv_kind v) sd) eqn:Eh; [set_solver|].
    apply elem_of_singleton in Hp as ->. split; [|apply kind_str_not_special].
    intros (k & x & Hx & [[Hk Hn]|(Hk & _)]%elem_of_pairs_of); cbn [fst snd] in *.
    + apply (proj1 (has_instance_kind_false _ _ _) Eh). exists k, x. split; [exact Hx|]. split; [exact Hn|apply kind_str_inj, Hk].
    + destruct (kind_str_not_special (sv_kind v)) as [Hq _]. contradiction.
  - unfold gone_connect in Hp. destruct (connect_name v) as [sn|]; [|set_solver].
    destruct (has_connect_instance sn sd) eqn:Eh; [set_solver|]. apply elem_of_singleton in Hp as ->. split; [|discriminate].
    intros (k & x & Hx & [[Hk _]|(_ & _ & Hc)]%elem_of_pairs_of); cbn [fst snd] in *.
    + destruct (kind_str_not_special (sv_kind x)) as [Hq _]. contradiction.
    + apply (proj1 (has_connect_instance_false _ _) Eh). eauto.
Qed.

Lemma kept_justified v sd p :
  p ∈ pairs_of v -> p ∉ gone_kind v sd -> p ∉ gone_connect v sd -> svc_just (services sd) p.
Proof.
  destruct p as [k n]. intros Hp HnA HnB. apply elem_of_pairs_of in Hp. cbn [fst snd] in Hp.
  destruct Hp as [[<- <-]|(-> & Hne & Hc)].
  - unfold gone_kind in HnA. destruct (has_instance_kind (sv_name v) (sv_kind v) sd) eqn:Eh; [|set_solver].
    apply has_instance_kind_true in Eh as (key & x & Hx & Hn & Hk). exists key, x. split; [exact Hx|].
    apply elem_of_pairs_of. left. cbn. rewrite Hk, Hn. split; reflexivity.
  - unfold gone_connect in HnB. rewrite Hc in HnB. destruct (has_connect_instance n sd) eqn:Eh; [|set_solver].
    apply has_connect_instance_true in Eh as (key & x & Hx & Hcx). exists key, x. split; [exact Hx|].
    apply elem_of_pairs_of. right. repeat split; assumption.
Qed.

(* the row is written over a row with the same fields (or none): what was justified stays so, and the
   row justifies exactly its own pairs *)
Lemma J_register nd r (s s' : st) vip c m :
  req_ok nd r -> J s ->
  services s' = <[(nd, sr_id r) := row_of r vip c m]> (services s) -> confs s' = confs s -> ksn s' = new_pairs r ∪ ksn s ->
  J s'.
Proof.
  intros Hdef [[D1 D2] HK] Hs Hc Hk. set (key := (nd, sr_id r)) in *.
  assert (Hold : forall x, services s !! key = Some x -> pairs_of x = pairs_of (row_of r vip c m)).
  { intros x Hx. apply pairs_of_fields. rewrite (D1 key x Hx). subst key. rewrite Hdef. reflexivity. }
  split; [split|].
  - intros k v Hv. rewrite Hs in Hv. destruct (decide (k = key)) as [->|Hne].
    + rewrite lookup_insert in Hv. injection Hv as <-. symmetry; exact Hdef.
    + rewrite lookup_insert_ne in Hv by congruence. apply D1; exact Hv.
  - intros k n cf Hcf. rewrite Hc in Hcf. apply D2; exact Hcf.
  - intros p. rewrite Hk, elem_of_union, (HK p), !justified_split, Hs, Hc, (svc_just_insert _ _ _ _ Hold), pairs_of_row. tauto.
Qed.

Lemma ensure_service_J idx nd r s s' : ensure_service idx nd r s = Ok s' -> req_ok nd r -> J s -> J s'.
Proof.
  intros He Hreq HJ. apply ensure_service_spec in He as (_ & vip & c & m & _ & Hs).
  apply (J_register nd r s s' vip c m Hreq HJ); [exact (strip_services _ _ Hs)|exact (f_equal confs Hs)|exact (f_equal ksn Hs)].
Qed.

Lemma delete_service_J nd sid s : J s -> J (delete_service nd sid s).
Proof.
  intros HJ. destruct (services s !! (nd, sid)) as [v|] eqn:Ev; [|rewrite delete_service_None by exact Ev; exact HJ].
  destruct (delete_service_spec nd sid s v Ev) as [_ Hs]. cbn zeta in Hs. apply (J_strip _ _ Hs). clear Hs.
  set (key := (nd, sid)) in *. set (sd := s <| services ::= delete key |>).
  set (A := gone_kind v sd). set (B := gone_connect v sd).
  apply (J_ext _ (s <| services := delete key (services s) |> <| ksn := ksn s ∖ A ∖ B |>)); [reflexivity..|].
  destruct HJ as [[D1 D2] HK]. split; [split|].
  - intros k x Hx. cbn in Hx. apply lookup_delete_Some in Hx as [_ Hx]. apply D1; exact Hx.
  - intros k n c Hc. apply D2; exact Hc.
  - intros p. cbn [ksn set]. rewrite !elem_of_difference, (HK p), !justified_split. cbn [services confs set].
    rewrite (svc_just_delete (services s) key v p Ev). split.
    + intros [[[[Hp|Hj]|Hd] HnA] HnB]; [left; apply (kept_justified v sd p Hp HnA HnB)|left; exact Hj|right; exact Hd].
    + intros Hj.
      assert (Hn : p ∉ A ∪ B).
      { intros Hin. destruct (gone_unjustified v sd p Hin) as [H1 H2]. destruct Hj as [Hj|[Hd _]]; [exact (H1 Hj)|exact (H2 Hd)]. }
      split; [split|]; [destruct Hj; [left; right|right]; assumption|intros H; apply Hn, elem_of_union_l, H|intros H; apply Hn, elem_of_union_r, H].
Qed.

Lemma conf_set_J name c s s' :
  conf_set name c s = Ok s' -> (forall d, c = CDefaults d -> d = d_dest D name) -> J s -> J s'.
Proof.
  intros He Hd HJ. apply conf_set_spec in He as [_ Hs].
  set (P := if bool_decide (c = CDefaults true) then ({[ (destination_kind, name) ]} : gset (string * string)) else ∅).
  assert (H3s : services s' = services s) by exact (strip_services _ _ Hs).
  assert (H3c : confs s' = <[(conf_kind c, name) := c]> (confs s)) by exact (f_equal confs Hs).
  assert (H3k : ksn s' = ksn s ∪ P).
  { pose proof (f_equal ksn Hs : ksn s' = conf_set_ksn name c s) as ->. unfold conf_set_ksn. subst P.
    destruct c as [| |[]|]; [| |rewrite bool_decide_eq_true_2 by reflexivity; apply (comm_L (∪))|..];
      rewrite bool_decide_eq_false_2 by discriminate; rewrite (right_id_L ∅ (∪)); try reflexivity.
    (* under the discipline an entry written without a Destination never meets a stored one that has it *)
    destruct (dest_conf name s) eqn:Ed; [|reflexivity]. apply bool_decide_eq_true in Ed.
    destruct HJ as [[_ D2] _]. destruct (D2 _ _ _ Ed) as [_ Hdd]. specialize (Hdd true eq_refl).
    specialize (Hd false eq_refl). congruence. }
  clear Hs.
  destruct HJ as [[D1 D2] HK]. split; [split|].
  - intros k v Hv. rewrite H3s in Hv. apply D1; exact Hv.
  - intros k n cf Hcf. rewrite H3c in Hcf. destruct (decide ((k, n) = (conf_kind c, name))) as [[= -> ->]|Hne].
    + rewrite lookup_insert in Hcf. injection Hcf as <-. split; [reflexivity|exact Hd].
    + rewrite lookup_insert_ne in Hcf by congruence. apply D2; exact Hcf.
  - intros p. rewrite H3k, elem_of_union, (HK p), !justified_split, H3s, H3c.
    (* the entry written is the only one that can change what is a destination *)
    assert (Hcf : dest_just (<[(conf_kind c, name) := c]> (confs s)) p <-> dest_just (confs s) p \/ p ∈ P).
    { destruct p as [k n]. unfold dest_just. cbn [fst snd]. subst P.
      destruct (decide (("service-defaults", n) = (conf_kind c, name))) as [Heq|Hne].
      - rewrite Heq, lookup_insert. injection Heq as Hk ->. split.
        + intros [-> [= ->]]. right. rewrite bool_decide_eq_true_2 by reflexivity. apply elem_of_singleton. reflexivity.
        + intros [[-> Hold]|Hin].
          * split; [reflexivity|]. destruct (D2 _ _ _ Hold) as [_ Hdd]. specialize (Hdd true eq_refl).
            destruct c as [| |d|]; try discriminate Hk. rewrite (Hd d eq_refl), <- Hdd. reflexivity.
          * case_bool_decide as Eb; [|set_solver]. apply elem_of_singleton in Hin. injection Hin as ->. rewrite Eb. split; reflexivity.
      - rewrite lookup_insert_ne by congruence. split; [tauto|]. intros [Hold|Hin]; [exact Hold|].
        case_bool_decide as Eb; [|set_solver]. subst c. apply elem_of_singleton in Hin. injection Hin as -> ->.
        contradiction Hne. reflexivity. }
    rewrite Hcf. tauto.
Qed.

Lemma conf_delete_J kind name s : J s -> J (conf_delete kind name s).
Proof.
  intros HJ. destruct (confs s !! (kind, name)) as [c|] eqn:Ec; [|rewrite conf_delete_None by exact Ec; exact HJ].
  destruct (conf_delete_spec kind name s c Ec) as [_ Hs]. cbn zeta in Hs. apply (J_strip _ _ Hs). clear Hs.
  set (P := if bool_decide (c = CDefaults true) then ({[ (destination_kind, name) ]} : gset (string * string)) else ∅).
  set (s4 := _ <| confs := delete (kind, name) (confs s) |>).
  assert (H4s : services s4 = services s) by reflexivity.
  assert (H4c : confs s4 = delete (kind, name) (confs s)) by reflexivity.
  assert (H4k : ksn s4 = ksn s ∖ P) by (subst s4 P; cbn; destruct (bool_decide _); [reflexivity|rewrite difference_empty_L; reflexivity]).
  clearbody s4.
  destruct HJ as [[D1 D2] HK]. destruct (D2 _ _ _ Ec) as [Hkind _]. split; [split|].
  - intros k v Hv. rewrite H4s in Hv. apply D1; exact Hv.
  - intros k n cf Hcf. rewrite H4c in Hcf. apply lookup_delete_Some in Hcf as [_ Hcf]. apply D2; exact Hcf.
  - intros p. rewrite H4k, elem_of_difference, (HK p), !justified_split, H4s, H4c.
    assert (Hd : dest_just (delete (kind, name) (confs s)) p <-> dest_just (confs s) p /\ p ∉ P).
    { destruct p as [k n]. unfold dest_just. cbn [fst snd]. subst P. split.
      - intros [-> Hj]. apply lookup_delete_Some in Hj as [Hne Hj]. split; [split; [reflexivity|exact Hj]|].
        case_bool_decide as Eb; [|set_solver]. subst c. intros [= ->]%elem_of_singleton. apply Hne. rewrite Hkind. reflexivity.
      - intros [[-> Hj] HnP]. split; [reflexivity|]. rewrite lookup_delete_ne; [exact Hj|].
        intros [= -> ->]. apply HnP. rewrite Ec in Hj. injection Hj as ->.
        rewrite bool_decide_eq_true_2 by reflexivity. apply elem_of_singleton. reflexivity. }
    assert (Hs : svc_just (services s) p -> p ∉ P).
    { intros (k & x & _ & Hp) Hin. subst P. case_bool_decide; [|set_solver]. apply elem_of_singleton in Hin. subst p.
      apply elem_of_pairs_of in Hp as [[Hk _]|(Hk & _)]; cbn in Hk; [|discriminate].
      destruct (kind_str_not_special (sv_kind x)) as [_ Hq]. contradiction. }
    rewrite Hd. tauto.
Qed.

Lemma apply_J idx c s : cmd_ok c -> J s -> J (apply idx c s).1.
Proof.
  intros Hok. apply (apply_lift_view J req_ok (fun n c => forall d, c = CDefaults d -> d = d_dest D n)).
  - intros a b Hv. apply J_ext; [apply view_services, Hv|apply view_confs, Hv|apply view_ksn, Hv].
  - intros idx' nd r s0 s' Hreq He. apply (ensure_service_J _ _ _ _ _ He Hreq).
  - apply delete_service_J.
  - intros n c0 s0 s' Hc He. apply (conf_set_J _ _ _ _ He Hc).
  - apply conf_delete_J.
  - intros n ips s0 H. rewrite assign_manual_vips. revert H. apply J_ext; reflexivity.
  - destruct c as [| ? ? ? ? [r|] ?| |ops|n cf| | | |]; try exact I; try exact Hok. cbn. intros d ->. exact Hok.
Qed.

Inductive CReachD : st -> Prop :=
| CReachD_init : CReachD st0
| CReachD_step idx c s : CReachD s -> cmd_ok c -> CReachD (apply idx c s).1.

Theorem CReachD_J s : CReachD s -> J s.
Proof. induction 1 as [|idx c s _ IH Hok]; [apply J_st0|apply apply_J; assumption]. Qed.

End discipline.

Lemma elem_of_recompute_ksn s p : p ∈ recompute_ksn s <-> justified s p.
Proof.
  unfold recompute_ksn, justified. rewrite !elem_of_union, !elem_of_list_to_set, elem_of_list_fmap, !elem_of_list_omap.
  split.
  - intros [[([k v] & -> & Hin)|([k v] & Hin & Hf)]|([[k n] c] & Hin & Hf)].
    + apply elem_of_map_to_list in Hin. left. exists k, v. repeat split. exact Hin.
    + apply elem_of_map_to_list in Hin. cbn in Hf. destruct (connect_name v) as [n|] eqn:Ec; [|discriminate].
      destruct (bool_decide (n = "")) eqn:En; [discriminate|]. injection Hf as <-. apply bool_decide_eq_false in En.
      right; left. repeat split; try assumption. exists k, v. split; assumption.
    + apply elem_of_map_to_list in Hin. cbn in Hf.
      destruct (bool_decide (k = "service-defaults")) eqn:E1; cbn in Hf; [|discriminate].
      destruct (bool_decide (c = CDefaults true)) eqn:E2; cbn in Hf; [|discriminate]. injection Hf as <-.
      apply bool_decide_eq_true in E1, E2. subst. right; right. split; [reflexivity|exact Hin].
  - intros [(k & v & Hv & Hp1 & Hp2)|[(Hp1 & Hp2 & k & v & Hv & Hc)|(Hp1 & Hc)]].
    + left; left. exists (k, v). split; [destruct p; cbn in *; congruence|apply elem_of_map_to_list; exact Hv].
    + left; right. exists (k, v). split; [apply elem_of_map_to_list; exact Hv|]. cbn. rewrite Hc.
      rewrite bool_decide_eq_false_2 by exact Hp2. destruct p; cbn in *; congruence.
    + right. exists (("service-defaults", p.2), CDefaults true). split; [apply elem_of_map_to_list; exact Hc|]. cbn.
      rewrite !bool_decide_eq_true_2 by reflexivity. cbn. destruct p; cbn in *; congruence.
Qed.

Lemma CReachD_run D log : Forall (fun ic => cmd_ok D ic.2) log -> CReachD D (run log st0).1.
Proof.
  assert (H : forall s, CReachD D s -> Forall (fun ic => cmd_ok D ic.2) log -> CReachD D (run log s).1).
  { induction log as [|[idx c] log IH]; intros s Hs Hok; cbn; [exact Hs|].
    inversion Hok as [|? ? Hc Hrest]; subst. cbn in Hc.
    pose proof (CReachD_step D idx c s Hs Hc) as Ha. destruct (apply idx c s) as [s' r].
    specialize (IH s' Ha Hrest). destruct (run log s') as [s'' rs]. exact IH. }
  intros Hok. apply H; [constructor|exact Hok].
Qed.

(* a discipline and a history under it: a service, its sidecar proxy, a connect-native service on
   another node, a destination, a wildcard terminating gateway, a proxy registered under the NAME of
   the service "web" (a name shared by two kinds); then the plain instance, the node of the native
   service, the destination and the second proxy go away again *)
Definition example_discipline : discipline :=
  Discipline
    (fun k => if bool_decide (k = ("n1", "s1")) then ("web", KTypical, false, "")
              else if bool_decide (k = ("n1", "s2")) then ("web-proxy", KProxy, false, "web")
              else if bool_decide (k = ("n2", "s1")) then ("db", KTypical, true, "")
              else if bool_decide (k = ("n3", "s1")) then ("web", KProxy, false, "db")   (* a proxy named like the service "web" *)
              else ("", KTypical, false, ""))
    (fun n => bool_decide (n = "ext")).

Definition kn_example_log : list (N * cmd) :=
  [ (2, SysMeta true);
    (3, Register "n1" "" 1 false (Some (SvcReq "s1" "web" KTypical false "" 80 [] true 0)) []);
    (4, Register "n1" "" 1 false (Some (SvcReq "s2" "web-proxy" KProxy false "web" 81 ["db"] true 0)) []);
    (5, Txn [TService VSet "n2" (SvcReq "s1" "db" KTypical true "" 80 [] false 0)]);
    (6, Register "n2" "" 2 false None []);
    (7, Txn [TService VSet "n2" (SvcReq "s1" "db" KTypical true "" 80 [] false 0)]);
    (8, ConfSet "ext" (CDefaults true));
    (9, ConfSet "tgw" (CTermGW ["*"]));
    (10, Register "n3" "" 3 false (Some (SvcReq "s1" "web" KProxy false "db" 82 [] true 0)) []);
    (11, Deregister "n1" "s1" "");
    (12, Deregister "n2" "" "");
    (13, ConfDelete "service-defaults" "ext");
    (14, Deregister "n3" "" "") ].

Example kn_example :
  CReachD example_discipline (run (take 8%nat kn_example_log) st0).1 /\
  ksn (run (take 8%nat kn_example_log) st0).1 =
    {[ ("", "web"); ("connect-proxy", "web-proxy"); ("connect-enabled", "web"); ("", "db"); ("connect-enabled", "db");
       ("destination", "ext") ]} /\
  CReachD example_discipline (run kn_example_log st0).1 /\
  ksn (run kn_example_log st0).1 = {[ ("connect-proxy", "web-proxy"); ("connect-enabled", "web") ]}.
Proof.
  assert (Hok : Forall (fun ic => cmd_ok example_discipline ic.2) kn_example_log).
  { repeat constructor; try (split; vm_compute; reflexivity); vm_compute; reflexivity. }
  split; [apply CReachD_run; apply Forall_take; exact Hok|].
  split; [eapply bool_decide_eq_true_1; vm_compute; reflexivity|].
  split; [apply CReachD_run; exact Hok|].
  eapply bool_decide_eq_true_1; vm_compute; reflexivity.
Qed.
