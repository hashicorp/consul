(* What the verbs of the catalog model do to the state, said once.
   - The functions that maintain gateway-services and mesh-topology touch nothing else ([strip]).
   - Each verb that the invariants of C07 have to follow gets one lemma that describes its result by
     the rows, names and virtual-IP pool it ends with; the invariants are proved against these.
   - [Section lift]: a predicate kept by the verbs is kept by every command ([apply_lift]; [apply_lift_view]
     when it reads only the instances, the config entries, kind-service-names and the virtual-IP pool). *)
From stdpp Require Import gmap strings.
From RecordUpdate Require Import RecordSet.
From Coq Require Import NArith.
From Verif Require Import Base.Sorting Catalog.Model.
Import RecordSetNotations.
Local Open Scope N_scope.

Lemma res_bind_ok {A B} (m : res A) (k : A -> res B) (b : B) :
  m ≫= k = Ok b -> exists a, m = Ok a /\ k a = Ok b.
Proof. destruct m as [a|e]; cbn; [eauto|discriminate]. Qed.

Lemma ssort_isort : insertion_sort String.leb sinsert ssort.
Proof. split; reflexivity. Qed.
Lemma elem_of_ssort (x : string) l : x ∈ ssort l <-> x ∈ l.
Proof. rewrite (isort_perm ssort_isort l). reflexivity. Qed.

(* a decidable fact about closed values, decided by evaluation: each value is computed once and only a
   bool is compared; the instance makes "exists v, m !! k = Some v /\ P v" decidable *)
Lemma decide_at {A} (x : A) (P : A -> Prop) `{forall y, Decision (P y)} :
  (let y := x in bool_decide (P y)) = true -> P x.
Proof. apply bool_decide_eq_true_1. Qed.
Lemma decide_at2 {A B} (x : A) (y : B) (P : A -> B -> Prop) `{forall a b, Decision (P a b)} :
  (let a := x in let b := y in bool_decide (P a b)) = true -> P x y.
Proof. apply bool_decide_eq_true_1. Qed.
#[export] Instance exists_lookup_dec {A} (mx : option A) (P : A -> Prop) `{forall v, Decision (P v)} :
  Decision (exists v, mx = Some v /\ P v).
Proof. destruct mx as [v|]; [refine (cast_if (decide (P v)))|right]; abstract naive_solver. Defined.

Definition same_core (a b : st) : Prop :=
  nodes a = nodes b /\ services a = services b /\ checks a = checks b /\ coords a = coords b /\
  confs a = confs b /\ vips a = vips b /\ free a = free b /\ counter a = counter b /\
  vips_on a = vips_on b /\ usage a = usage b.

Lemma same_core_trans a b c : same_core a b -> same_core b c -> same_core a c.
Proof. unfold same_core. intuition congruence. Qed.
Lemma same_core_sym a b : same_core a b -> same_core b a.
Proof. unfold same_core. intuition congruence. Qed.

Lemma has_instance_core a b name : same_core a b -> has_instance name a = has_instance name b.
Proof. intros (_ & Hs & _). unfold has_instance. rewrite Hs. reflexivity. Qed.
Lemma has_connect_instance_core a b name : same_core a b -> has_connect_instance name a = has_connect_instance name b.
Proof. intros (_ & Hs & _). unfold has_connect_instance. rewrite Hs. reflexivity. Qed.

(* [strip a = strip b] says that a and b agree on every other table; a field of it is read off by
   [f_equal], and an update of another field commutes with [strip] by computation. *)
Definition strip (s : st) : st := s <| gws := ∅ |> <| topo := ∅ |>.

Lemma strip_core a b : strip a = strip b -> same_core a b.
Proof.
  intros H. repeat split;
    [exact (f_equal nodes H)|exact (f_equal services H)|exact (f_equal checks H)|exact (f_equal coords H)
    |exact (f_equal confs H)|exact (f_equal vips H)|exact (f_equal free H)|exact (f_equal counter H)
    |exact (f_equal vips_on H)|exact (f_equal usage H)].
Qed.

Lemma strip_services a b : strip a = strip b -> services a = services b.
Proof. intros H. exact (f_equal services H). Qed.

(* an update of another table, inside or outside [strip]; stated for a variable so that no two deep
   record terms ever have to be compared by conversion *)
Lemma strip_set_services x f : strip x <| services ::= f |> = strip (x <| services := f (services x) |>).
Proof. reflexivity. Qed.
Lemma strip_set_confs x f : strip x <| confs ::= f |> = strip (x <| confs := f (confs x) |>).
Proof. reflexivity. Qed.
Lemma strip_upd_services x f : strip (x <| services ::= f |>) = strip x <| services ::= f |>.
Proof. reflexivity. Qed.
Lemma strip_upd_confs x f : strip (x <| confs ::= f |>) = strip x <| confs ::= f |>.
Proof. reflexivity. Qed.
Lemma strip_set_ksn x k : strip (x <| ksn := k |>) = strip x <| ksn := k |>.
Proof. reflexivity. Qed.
Lemma strip_upsert_ksn k n x : strip (upsert_ksn k n x) = upsert_ksn k n (strip x).
Proof. reflexivity. Qed.
Lemma strip_cleanup_ksn k n x : strip (cleanup_ksn k n x) = cleanup_ksn k n (strip x).
Proof. reflexivity. Qed.

Lemma foldl_strip {A} (g : st -> A -> st) l :
  (forall s x, strip (g s x) = strip s) -> forall s, strip (foldl g s l) = strip s.
Proof. intros Hg. induction l as [|x l IH]; intros s; cbn; [reflexivity|]. rewrite IH. apply Hg. Qed.

Lemma insert_gw_topology_strip gw sv r s : strip (insert_gw_topology gw sv r s) = strip s.
Proof. unfold insert_gw_topology. destruct (_ && _); reflexivity. Qed.
Lemma delete_gw_topology_strip gw sv r s : strip (delete_gw_topology gw sv r s) = strip s.
Proof. unfold delete_gw_topology. destruct (bool_decide _); reflexivity. Qed.

Lemma update_gateway_service_strip gw sv port r s : strip (update_gateway_service gw sv port r s) = strip s.
Proof.
  unfold update_gateway_service. destruct (bool_decide _); [reflexivity|]. rewrite insert_gw_topology_strip. reflexivity.
Qed.

Lemma check_gateway_wildcards_and_update_strip name ns kind s :
  strip (check_gateway_wildcards_and_update name ns kind s) = strip s.
Proof.
  unfold check_gateway_wildcards_and_update.
  destruct (service_has_connect_instances name s) as [hc0 hn0].
  destruct (match ns with Some (k, native) => _ | None => _ end) as [hc hn].
  apply foldl_strip. intros s' key. destruct (gws s !! key) as [w|]; [|reflexivity].
  destruct (_ && _); [reflexivity|]. destruct (_ && _); [reflexivity|].
  destruct (gws s' !! _) as [listed|]; [destruct (negb (g_wild listed)); [reflexivity|]|]; apply update_gateway_service_strip.
Qed.

Lemma check_gateway_and_update_strip name kind s : strip (check_gateway_and_update name kind s) = strip s.
Proof.
  unfold check_gateway_and_update. apply foldl_strip. intros s' key.
  destruct (gws s !! key); [apply update_gateway_service_strip|reflexivity].
Qed.

Lemma cleanup_gateway_wildcards_strip name cd s : strip (cleanup_gateway_wildcards name cd s) = strip s.
Proof.
  unfold cleanup_gateway_wildcards. destruct (service_has_connect_instances name s) as [hc hn].
  apply foldl_strip. intros s' key. destruct (gws s !! key) as [m|]; [|reflexivity].
  destruct (g_wild m); [|apply check_gateway_and_update_strip].
  destruct (_ && _); [reflexivity|]. destruct (_ && _); [reflexivity|]. rewrite delete_gw_topology_strip. reflexivity.
Qed.

Lemma update_gateway_namespace_strip gw port r s : strip (update_gateway_namespace gw port r s) = strip s.
Proof.
  unfold update_gateway_namespace. rewrite update_gateway_service_strip, !foldl_strip; [reflexivity|..].
  - intros s' name. destruct (bool_decide (name = consul_name)); [reflexivity|].
    destruct (service_has_connect_instances name s') as [hc hn].
    destruct (_ && _); [reflexivity|]. destruct (_ && _); [reflexivity|].
    destruct (bool_decide _); [reflexivity|apply update_gateway_service_strip].
  - intros s' name. destruct (bool_decide _); [reflexivity|apply update_gateway_service_strip].
Qed.

Lemma update_gateway_services_strip name c s : strip (update_gateway_services name c s) = strip s.
Proof.
  unfold update_gateway_services. destruct (bool_decide _); [reflexivity|]. rewrite foldl_strip.
  - destruct c; reflexivity.
  - intros s' [[sv port] r]. destruct (bool_decide _); [apply update_gateway_namespace_strip|apply update_gateway_service_strip].
Qed.

Lemma update_mesh_topology_strip nd sid dest ups ex s : strip (update_mesh_topology nd sid dest ups ex s) = strip s.
Proof.
  unfold update_mesh_topology. rewrite !foldl_strip; [reflexivity|..].
  - intros s' u. reflexivity.
  - intros s' u. destruct (bool_decide _); reflexivity.
Qed.

Lemma cleanup_mesh_topology_strip nd sid v s : strip (cleanup_mesh_topology nd sid v s) = strip s.
Proof. unfold cleanup_mesh_topology. destruct (negb _); reflexivity. Qed.

(* what conf_delete, and since /repo 0d0f3e6 an update that drops the Destination, run for a destination *)
Lemma drop_destination_strip name k s :
  strip (cleanup_ksn destination_kind name
           (check_gateway_and_update name k
              (cleanup_gateway_wildcards name true (check_gateway_wildcards_and_update name None k s)))) =
  cleanup_ksn destination_kind name (strip s).
Proof.
  rewrite strip_cleanup_ksn.
  rewrite check_gateway_and_update_strip, cleanup_gateway_wildcards_strip, check_gateway_wildcards_and_update_strip.
  reflexivity.
Qed.

Lemma drop_destination_core name k s :
  same_core (cleanup_ksn destination_kind name
               (check_gateway_and_update name k
                  (cleanup_gateway_wildcards name true (check_gateway_wildcards_and_update name None k s)))) s.
Proof.
  apply (same_core_trans _ (cleanup_ksn destination_kind name s)); [apply strip_core|repeat split].
  rewrite drop_destination_strip. reflexivity.
Qed.

Lemma has_instance_true name s : has_instance name s = true <-> exists k v, services s !! k = Some v /\ sv_name v = name.
Proof. unfold has_instance. rewrite bool_decide_eq_true. unfold map_Exists. reflexivity. Qed.
Lemma has_connect_instance_true name s :
  has_connect_instance name s = true <-> exists k v, services s !! k = Some v /\ connect_name v = Some name.
Proof. unfold has_connect_instance. rewrite bool_decide_eq_true. unfold map_Exists. reflexivity. Qed.
Lemma has_instance_kind_true name k s :
  has_instance_kind name k s = true <-> exists key v, services s !! key = Some v /\ sv_name v = name /\ sv_kind v = k.
Proof. unfold has_instance_kind. rewrite bool_decide_eq_true. unfold map_Exists. reflexivity. Qed.

Lemma has_connect_instance_false name s :
  has_connect_instance name s = false <-> ~ exists k v, services s !! k = Some v /\ connect_name v = Some name.
Proof. rewrite <- has_connect_instance_true. destruct (has_connect_instance name s); split; congruence. Qed.
Lemma has_instance_kind_false name k s :
  has_instance_kind name k s = false <-> ~ exists key v, services s !! key = Some v /\ sv_name v = name /\ sv_kind v = k.
Proof. rewrite <- has_instance_kind_true. destruct (has_instance_kind name k s); split; congruence. Qed.

Lemma has_instance_kind_instance name k s : has_instance name s = false -> has_instance_kind name k s = false.
Proof.
  intros H. apply not_true_is_false. rewrite has_instance_kind_true. intros (key & v & Hv & Hn & _).
  apply not_true_iff_false in H. apply H, has_instance_true. eauto.
Qed.

Definition pool (s : st) : gmap string (N * list string) * gset N * N := (vips s, free s, counter s).

(* b with the pool of a.  The specs below describe the state s' a verb ends in as
   [strip s' = strip (pool_of s' s <| .. |>)]: s with the updates listed and with whatever pool s' has;
   what the pool of s' is, is said beside it by [alloc] / [freed] / an equation *)
Definition pool_of (a b : st) : st := b <| vips := vips a |> <| free := free a |> <| counter := counter a |>.

Lemma pool_of_ext a a' b : pool a = pool a' -> pool_of a b = pool_of a' b.
Proof. intros [= Hv Hf Hc]. unfold pool_of. rewrite Hv, Hf, Hc. reflexivity. Qed.

Lemma pool_of_same a b : pool a = pool b -> pool_of a b = b.
Proof. intros [= Hv Hf Hc]. unfold pool_of. rewrite Hv, Hf, Hc. destruct b; reflexivity. Qed.

Lemma strip_pool_of a b : strip (pool_of a b) = pool_of a (strip b).
Proof. reflexivity. Qed.

(* assignServiceVirtualIP gave [name] the address [ip]: the one it had, the freed one, or the next *)
Inductive alloc (name : string) (ip : N) (s s' : st) : Prop :=
| alloc_kept m : vips s !! name = Some (ip, m) -> pool s' = pool s -> alloc name ip s s'
| alloc_freed : vips s !! name = None -> ip ∈ free s ->
    pool s' = (<[name := (ip, [])]> (vips s), free s ∖ {[ ip ]}, counter s) -> alloc name ip s s'
| alloc_next : vips s !! name = None -> free s = ∅ -> ip = counter s + 1 ->
    pool s' = (<[name := (ip, [])]> (vips s), free s, ip) -> alloc name ip s s'.

Lemma alloc_ext name ip a a' b b' : pool a = pool b -> pool a' = pool b' -> alloc name ip a a' -> alloc name ip b b'.
Proof.
  intros Hp Hp' Ha. pose proof Hp as [= Hv Hf Hc].
  destruct Ha as [m Hn E|Hn Hin E|Hn Hf0 Hip E]; rewrite Hp' in E; rewrite ?Hv, ?Hf, ?Hc in *;
    [eapply alloc_kept|eapply alloc_freed|eapply alloc_next]; try eassumption; congruence.
Qed.

Lemma alloc_vips name ip s s' : alloc name ip s s' -> vips s' = vips s \/ vips s' = <[name := (ip, [])]> (vips s).
Proof. intros [m _ [= Hv _ _]|_ _ [= Hv _ _]|_ _ _ [= Hv _ _]]; [left|right..]; exact Hv. Qed.

Lemma foldr_min_in x l : foldr N.min x l ∈ x :: l.
Proof.
  induction l as [|y l IH]; cbn; [left|].
  destruct (N.min_spec y (foldr N.min x l)) as [[_ ->]|[_ ->]]; [right; left|].
  apply elem_of_cons in IH as [IH|IH]; [rewrite IH; left|right; right; exact IH].
Qed.

Lemma assign_vip_spec name s ip s' : assign_vip name s = Ok (ip, s') -> alloc name ip s s' /\ s' = pool_of s' s.
Proof.
  unfold assign_vip. destruct (vips s !! name) as [[ip0 m0]|] eqn:Ev.
  { intros [= <- <-]. split; [eapply alloc_kept; [exact Ev|reflexivity]|symmetry; apply pool_of_same; reflexivity]. }
  unfold min_free. destruct (elements (free s)) as [|x l] eqn:E.
  - destruct (bool_decide _); [discriminate|]. intros [= <- <-]. split; [|destruct s; reflexivity].
    apply alloc_next; [exact Ev|apply leibniz_equiv, elements_empty_inv; exact E|reflexivity|reflexivity].
  - intros [= <- <-]. split; [|destruct s; reflexivity].
    apply alloc_freed; [exact Ev| |reflexivity]. apply elem_of_elements. rewrite E. apply foldr_min_in.
Qed.

(* freeServiceVirtualIP took the address of [name] back: no instance is indexed under the name any more *)
Definition freed (name : string) (s s' : st) : Prop :=
  exists ip m, vips s !! name = Some (ip, m) /\ has_connect_instance name s = false /\
               pool s' = (delete name (vips s), {[ ip ]}, counter s).

Lemma freed_vips name s s' : freed name s s' -> vips s' = delete name (vips s).
Proof. intros (ip & m & _ & _ & [= Hv _ _]). exact Hv. Qed.

Lemma free_vip_spec name s :
  let s' := free_vip name s in (pool s' = pool s \/ freed name s s') /\ s' = pool_of s' s.
Proof.
  cbn zeta. assert (Hid : (pool s = pool s \/ freed name s s) /\ s = pool_of s s)
    by (split; [left; reflexivity|symmetry; apply pool_of_same; reflexivity]).
  unfold free_vip. destruct (negb _); [exact Hid|]. destruct (has_instance name s); [exact Hid|].
  destruct (has_connect_instance name s) eqn:Ehc; [exact Hid|]. destruct (existsb _ _); [exact Hid|].
  destruct (vips s !! name) as [[ip m]|] eqn:Ev; [|exact Hid].
  split; [right; exists ip, m; repeat split; assumption|destruct s; reflexivity].
Qed.

Definition row_of (r : svcreq) (vip : option N) (c m : N) : svc :=
  Svc (sr_name r) (sr_kind r) (sr_native r) (sr_dest r) (sr_port r) (sr_ups r) vip c m.

Lemma connect_name_row r vip c m :
  connect_name (row_of r vip c m) = if is_connect r then Some (connect_target r) else None.
Proof.
  unfold connect_name, row_of, is_connect, connect_target. cbn.
  destruct (bool_decide (sr_kind r = KProxy)); cbn; [reflexivity|]. destruct (sr_native r); reflexivity.
Qed.

Lemma same_service_row x r vip : same_service x r vip = true -> x = row_of r vip (sv_create x) (sv_modify x).
Proof.
  unfold same_service. rewrite !andb_true_iff, !bool_decide_eq_true. destruct x; cbn.
  intros [[[[[[-> ->] ->] ->] ->] ->] ->]. reflexivity.
Qed.

Definition new_pairs (r : svcreq) : gset (string * string) :=
  (if is_connect r && negb (bool_decide (connect_target r = "")) then {[ (connect_enabled, connect_target r) ]} else ∅) ∪
  {[ (kind_str (sr_kind r), sr_name r) ]}.

Definition vip_alloc (r : svcreq) (vip : option N) (s s' : st) : Prop :=
  match vip with
  | None => pool s' = pool s
  | Some ip => is_connect r = true /\ alloc (connect_target r) ip s s'
  end.

Lemma vip_alloc_ext r vip a a' b b' : pool a = pool b -> pool a' = pool b' -> vip_alloc r vip a a' -> vip_alloc r vip b b'.
Proof.
  intros Hp Hp'. destruct vip as [ip|]; cbn [vip_alloc]; [intros [Hc Ha]; split; [exact Hc|]; apply (alloc_ext _ _ a a'); assumption|].
  intros H. rewrite <- Hp, <- Hp'. exact H.
Qed.

(* the row is written as requested, with the virtual IP of the service it is indexed under (a stored
   row found equal is that row) *)
Lemma ensure_service_spec idx nd r s s' : ensure_service idx nd r s = Ok s' ->
  is_Some (nodes s !! nd) /\ exists vip c m,
    vip_alloc r vip s s' /\
    strip s' = strip (pool_of s' s <| ksn := new_pairs r ∪ ksn s |>
                                   <| services := <[(nd, sr_id r) := row_of r vip c m]> (services s) |>).
Proof.
  unfold ensure_service. intros He. apply res_bind_ok in He as ([vip s7] & E3 & He).
  set (s1 := if bool_decide (sr_kind r = KTypical) && negb (bool_decide (sr_name r = consul_name)) then _ else s) in E3.
  assert (H1 : strip s1 = strip s).
  { subst s1. destruct (bool_decide (sr_kind r = KTypical) && negb (bool_decide (sr_name r = consul_name))); [|reflexivity].
    rewrite check_gateway_and_update_strip. apply check_gateway_wildcards_and_update_strip. }
  clearbody s1.
  assert (H7 : vip_alloc r vip s s7 /\ strip s7 = strip (pool_of s7 s <| ksn := new_pairs r ∪ ksn s |>)).
  { unfold new_pairs. destruct (is_connect r) eqn:Ec; cbn [andb].
    2:{ injection E3 as <- <-. split; [exact (f_equal pool H1)|].
        rewrite strip_upsert_ksn. rewrite H1.
        rewrite (left_id_L ∅ (∪)). rewrite pool_of_same by exact (f_equal pool H1). reflexivity. }
    cbn zeta in E3.
    set (s5 := if bool_decide (connect_target r = "") then _ else _) in E3.
    assert (H5 : strip s5 = strip (s <| ksn := new_pairs r ∪ ksn s |>)).
    { unfold new_pairs. rewrite Ec. cbn [andb]. subst s5. destruct (bool_decide (connect_target r = "")); cbn [negb].
      - rewrite check_gateway_wildcards_and_update_strip, update_mesh_topology_strip.
        rewrite strip_upsert_ksn. rewrite H1, (left_id_L ∅ (∪)). reflexivity.
      - rewrite strip_upsert_ksn.
        rewrite check_gateway_wildcards_and_update_strip, update_mesh_topology_strip.
        rewrite strip_upsert_ksn. rewrite H1.
        rewrite <- (assoc_L (∪)). reflexivity. }
    unfold new_pairs in H5. rewrite Ec in H5. cbn [andb] in H5. clearbody s5.
    destruct (vips_on s5 && negb (bool_decide (connect_target r = ""))).
    - apply res_bind_ok in E3 as ([ip s6] & Ea & E3). injection E3 as <- <-.
      apply assign_vip_spec in Ea as [Ha Hs6]. split.
      + split; [exact Ec|]. apply (alloc_ext _ _ s5 s6); [exact (f_equal pool H5)|reflexivity|exact Ha].
      + rewrite Hs6 at 1. rewrite strip_pool_of. rewrite H5. reflexivity.
    - injection E3 as <- <-. split; [exact (f_equal pool H5)|].
      rewrite H5. rewrite pool_of_same by exact (f_equal pool H5). reflexivity. }
  destruct H7 as [Hva H7]. pose proof (f_equal nodes H7) as Hn. cbn in Hn. rewrite Hn in He.
  destruct (nodes s !! nd) as [n|]; [|discriminate]. split; [eauto|]. exists vip.
  assert (Hrow : forall c m, strip (s7 <| services ::= <[(nd, sr_id r) := row_of r vip c m]> |>) =
    strip (pool_of s7 s <| ksn := new_pairs r ∪ ksn s |> <| services := <[(nd, sr_id r) := row_of r vip c m]> (services s) |>)).
  { intros c m. rewrite strip_upd_services.
    rewrite H7, strip_set_services. reflexivity. }
  destruct (services s !! (nd, sr_id r)) as [x|] eqn:Ex.
  - destruct (same_service x r vip) eqn:Esame; injection He as <-.
    + exists (sv_create x), (sv_modify x). split; [exact Hva|]. rewrite H7.
      rewrite <- (same_service_row _ _ _ Esame). cbn. rewrite insert_id by exact Ex. reflexivity.
    + exists (sv_create x), idx. split; [|apply Hrow].
      apply (vip_alloc_ext r vip s s7); [reflexivity|reflexivity|exact Hva].
  - injection He as <-. exists idx, idx. split; [|apply Hrow].
    apply (vip_alloc_ext r vip s s7); [reflexivity|reflexivity|exact Hva].
Qed.

Lemma ensure_check_spec idx c s s' : ensure_check idx c s = Ok s' ->
  is_Some (nodes s !! cr_node c) /\ (cr_service c ≠ "" -> is_Some (services s !! (cr_node c, cr_service c))) /\
  (s' = s \/ exists ck, c_service ck = cr_service c /\ s' = s <| checks ::= <[(cr_node c, cr_id c) := ck]> |>).
Proof.
  unfold ensure_check. destruct (nodes s !! cr_node c) as [n|]; [|discriminate].
  intros He. apply res_bind_ok in He as (svcname & Esv & He). split; [eauto|]. split.
  - intros Hne. rewrite bool_decide_eq_false_2 in Esv by exact Hne. destruct (services s !! _); [eauto|discriminate].
  - destruct (checks s !! _) as [x|]; [destruct (_ && _)|]; injection He as <-;
      [left; reflexivity|right; eexists; split; [|reflexivity]; reflexivity..].
Qed.

Lemma elem_of_listing {A} (t : string -> A -> bool) (m : gmap (string * string) A) x :
  x ∈ ssort (omap (fun '((n, i), v) => if t n v then Some i else None) (map_to_list m)) <->
  exists n v, m !! (n, x) = Some v /\ t n v = true.
Proof.
  rewrite elem_of_ssort, elem_of_list_omap. split.
  - intros ([[n i] v] & Hin & Hf). apply elem_of_map_to_list in Hin. destruct (t n v) eqn:E; [|discriminate].
    injection Hf as <-. eauto.
  - intros (n & v & Hv & Ht). exists ((n, x), v). split; [apply elem_of_map_to_list; exact Hv|]. rewrite Ht. reflexivity.
Qed.

Lemma checks_of_service_spec nd sid s cid :
  cid ∈ checks_of_service nd sid s <-> exists c, checks s !! (nd, cid) = Some c /\ c_service c = sid.
Proof.
  unfold checks_of_service. rewrite (elem_of_listing (fun n c => bool_decide (n = nd) && bool_decide (c_service c = sid))). split.
  - intros (n & c & Hc & Ht). apply andb_true_iff in Ht as [->%bool_decide_eq_true Hsv%bool_decide_eq_true]. eauto.
  - intros (c & Hc & Hsv). exists nd, c. rewrite !bool_decide_eq_true_2 by assumption || reflexivity. eauto.
Qed.

Lemma checks_of_node_spec nd s cid : cid ∈ checks_of_node nd s <-> is_Some (checks s !! (nd, cid)).
Proof.
  unfold checks_of_node. rewrite (elem_of_listing (fun n _ => bool_decide (n = nd))). split.
  - intros (n & c & Hc & ->%bool_decide_eq_true). eauto.
  - intros [c Hc]. exists nd, c. rewrite bool_decide_eq_true_2 by reflexivity. eauto.
Qed.

Lemma services_of_node_spec nd s sid : sid ∈ services_of_node nd s <-> is_Some (services s !! (nd, sid)).
Proof.
  unfold services_of_node. rewrite (elem_of_listing (fun n _ => bool_decide (n = nd))). split.
  - intros (n & v & Hv & ->%bool_decide_eq_true). eauto.
  - intros [v Hv]. exists nd, v. rewrite bool_decide_eq_true_2 by reflexivity. eauto.
Qed.

Lemma foldl_delete_filter {A} nd l : forall m : gmap (string * string) A,
  foldl (fun m cid => delete (nd, cid) m) m l = filter (fun kc => ~ (kc.1.1 = nd /\ kc.1.2 ∈ l)) m.
Proof.
  induction l as [|cid l IH]; intros m; cbn [foldl].
  - symmetry. apply map_filter_id. intros k c _ [_ Hin]. inversion Hin.
  - rewrite IH. apply map_eq. intros [n i]. apply option_eq. intros c.
    rewrite !map_filter_lookup_Some, lookup_delete_Some. cbn. rewrite elem_of_cons. split.
    + intros [[Hne Hk] Hnot]. split; [exact Hk|]. intros [-> [->|Hin]]; [apply Hne; reflexivity|apply Hnot; split; [reflexivity|exact Hin]].
    + intros [Hk Hnot]. split; [split; [|exact Hk]|]; [intros [= -> ->]; apply Hnot; split; [reflexivity|left; reflexivity]|].
      intros [-> Hin]. apply Hnot. split; [reflexivity|right; exact Hin].
Qed.

Lemma foldl_delete_check nd l s :
  foldl (fun s' cid => delete_check nd cid s') s l =
  s <| checks := filter (fun kc => ~ (kc.1.1 = nd /\ kc.1.2 ∈ l)) (checks s) |>.
Proof.
  rewrite <- foldl_delete_filter. revert s. induction l as [|cid l IH]; intros s; cbn [foldl]; [destruct s; reflexivity|].
  rewrite IH. reflexivity.
Qed.

Lemma freed_ext name a a' b b' :
  pool a = pool b -> services a = services b -> pool a' = pool b' -> freed name a a' -> freed name b b'.
Proof.
  intros [= Hv Hf Hc] Hs Hp' (ip & m & Hn & Hci & E). exists ip, m. unfold has_connect_instance in *.
  rewrite <- Hv, <- Hc, <- Hs, <- Hp'. repeat split; assumption.
Qed.

Definition gone_kind (v : svc) (s : st) : gset (string * string) :=
  if has_instance_kind (sv_name v) (sv_kind v) s then ∅ else {[ (kind_str (sv_kind v), sv_name v) ]}.
Definition gone_connect (v : svc) (s : st) : gset (string * string) :=
  match connect_name v with
  | Some sn => if has_connect_instance sn s then ∅ else {[ (connect_enabled, sn) ]}
  | None => ∅
  end.

Lemma delete_service_None nd sid s : services s !! (nd, sid) = None -> delete_service nd sid s = s.
Proof. intros H. unfold delete_service. rewrite H. reflexivity. Qed.

Lemma set_ksn_twice (x : st) a b : x <| ksn := a |> <| ksn := b |> = x <| ksn := b |>.
Proof. reflexivity. Qed.

Lemma cleanup_kind_spec v s :
  let s' := if has_instance (sv_name v) s
            then (if has_instance_kind (sv_name v) (sv_kind v) s then s else cleanup_ksn (kind_str (sv_kind v)) (sv_name v) s)
            else cleanup_ksn (kind_str (sv_kind v)) (sv_name v) (free_vip (sv_name v) s) in
  (pool s' = pool s \/ freed (sv_name v) s s') /\ s' = pool_of s' s <| ksn := ksn s ∖ gone_kind v s |>.
Proof.
  cbn zeta. unfold gone_kind. destruct (has_instance (sv_name v) s) eqn:Ehi.
  - destruct (has_instance_kind _ _ s); (split; [left; reflexivity|]).
    + rewrite (difference_empty_L (ksn s)). destruct s; reflexivity.
    + destruct s; reflexivity.
  - rewrite (has_instance_kind_instance _ _ _ Ehi). destruct (free_vip_spec (sv_name v) s) as [Hf Hfv]. cbn zeta in Hf, Hfv.
    set (fv := free_vip (sv_name v) s) in *. clearbody fv. split; [exact Hf|]. rewrite Hfv. destruct s; reflexivity.
Qed.

Lemma cleanup_connect_spec v s :
  let s' := match connect_name v with
            | Some sn => if has_connect_instance sn s then s else cleanup_gateway_wildcards sn false (cleanup_ksn connect_enabled sn s)
            | None => s
            end in
  strip s' = strip s <| ksn := ksn s ∖ gone_connect v s |>.
Proof.
  cbn zeta. unfold gone_connect. destruct (connect_name v) as [sn|]; [destruct (has_connect_instance sn s)|];
    rewrite ?cleanup_gateway_wildcards_strip, ?(difference_empty_L (ksn s)); destruct s; reflexivity.
Qed.

(* the instance and the checks that name it go; the tests are made with the instance already gone *)
Lemma delete_service_spec nd sid s v : services s !! (nd, sid) = Some v ->
  let sd := s <| services ::= delete (nd, sid) |> in
  let s' := delete_service nd sid s in
  (pool s' = pool s \/ freed (sv_name v) sd s') /\
  strip s' = strip (pool_of s' (s <| checks := filter (fun kc => ~ (kc.1.1 = nd /\ c_service kc.2 = sid)) (checks s) |>
                                  <| services ::= delete (nd, sid) |>)
                      <| ksn := ksn s ∖ gone_kind v sd ∖ gone_connect v sd |>).
Proof.
  intros Ev. cbn zeta. unfold delete_service. rewrite Ev, foldl_delete_check.
  assert (Hflt : filter (fun kc => ~ (kc.1.1 = nd /\ kc.1.2 ∈ checks_of_service nd sid s)) (checks s) =
                 filter (fun kc => ~ (kc.1.1 = nd /\ c_service kc.2 = sid)) (checks s)).
  { apply map_filter_ext. intros [n cid] c Hc. cbn. rewrite checks_of_service_spec. split; intros Hnot [-> Hx]; apply Hnot; (split; [reflexivity|]).
    - eauto.
    - destruct Hx as (c' & Hc' & Hsv). congruence. }
  rewrite Hflt. clear Hflt.
  set (sd := s <| services ::= delete (nd, sid) |>). set (F := filter _ (checks s)).
  set (t := s <| checks := F |> <| services ::= delete (nd, sid) |>).
  set (s3 := cleanup_mesh_topology nd sid v t).
  assert (H3 : strip s3 = strip t) by apply cleanup_mesh_topology_strip. clearbody s3.
  assert (Hs3 : services s3 = services sd) by exact (strip_services _ _ H3).
  destruct (cleanup_kind_spec v s3) as [Hp4 H4]. cbn zeta in Hp4, H4.
  set (s4 := if has_instance (sv_name v) s3 then _ else _) in *. clearbody s4.
  pose proof (cleanup_connect_spec v s4) as H5. cbn zeta in H5.
  set (s5 := match connect_name v with Some sn => _ | None => s4 end) in *. clearbody s5.
  pose proof (cleanup_gateway_wildcards_strip (sv_name v) false s5) as Hf.
  set (sf := cleanup_gateway_wildcards _ _ s5) in *. clearbody sf.
  assert (Hs4 : services s4 = services sd) by (rewrite H4; exact Hs3).
  assert (Hgk : gone_kind v s3 = gone_kind v sd) by (unfold gone_kind, has_instance_kind; rewrite Hs3; reflexivity).
  assert (Hgc : gone_connect v s4 = gone_connect v sd) by (unfold gone_connect, has_connect_instance; rewrite Hs4; reflexivity).
  assert (Hpf : pool sf = pool s4) by exact (eq_trans (f_equal pool Hf) (f_equal pool H5)).
  split.
  - destruct Hp4 as [Hp4|Hp4]; [left; rewrite Hpf, Hp4; exact (f_equal pool H3)|right].
    apply (freed_ext _ s3 s4); [exact (f_equal pool H3)|exact Hs3|symmetry; exact Hpf|exact Hp4].
  - change (strip sf = pool_of sf (strip t) <| ksn := ksn s ∖ gone_kind v sd ∖ gone_connect v sd |>).
    assert (Hk3 : ksn s3 = ksn s) by exact (f_equal ksn H3).
    assert (Hk4 : ksn s4 = ksn s ∖ gone_kind v sd) by (rewrite <- Hgk, <- Hk3; exact (f_equal ksn H4)).
    rewrite Hf, H5, Hgc, Hk4, (pool_of_ext sf s4 _ Hpf). rewrite H4 at 1.
    rewrite strip_set_ksn, strip_pool_of. rewrite H3.
    apply set_ksn_twice.
Qed.

(* kind-service-names after a write: a Destination adds its pair; since /repo 0d0f3e6 an entry written
   without one over a stored entry that has it takes the pair away *)
Definition conf_set_ksn (name : string) (c : conf) (s : st) : gset (string * string) :=
  match c with
  | CDefaults true => {[ (destination_kind, name) ]} ∪ ksn s
  | CDefaults false => if dest_conf name s then ksn s ∖ {[ (destination_kind, name) ]} else ksn s
  | _ => ksn s
  end.

Lemma conf_set_spec name c s s' : conf_set name c s = Ok s' ->
  (pool s' = pool s \/ conf_has_vip c = true /\ exists ip, alloc name ip s s') /\
  strip s' = strip (pool_of s' s <| ksn := conf_set_ksn name c s |>
                                 <| confs := <[(conf_kind c, name) := c]> (confs s) |>).
Proof.
  unfold conf_set. intros He. apply res_bind_ok in He as (s3 & E3 & He). injection He as <-.
  set (s1 := match c with CTermGW _ | CIngressGW _ => _ | _ => s end) in E3.
  assert (H1 : strip s1 = strip s) by (subst s1; destruct c; try reflexivity; apply update_gateway_services_strip).
  clearbody s1.
  set (s2 := match c with CDefaults true => _ | CDefaults false => _ | _ => s1 end) in E3.
  assert (H2 : strip s2 = strip (s <| ksn := conf_set_ksn name c s |>)).
  { subst s2. destruct c as [| |[]|]; try exact H1; cbv zeta; unfold conf_set_ksn.
    - rewrite strip_upsert_ksn.
      rewrite check_gateway_and_update_strip, check_gateway_wildcards_and_update_strip, H1. reflexivity.
    - change (bool_decide (confs s1 !! ("service-defaults", name) = Some (CDefaults true))) with (dest_conf name s1).
      replace (dest_conf name s1) with (dest_conf name s) by (unfold dest_conf; rewrite (f_equal confs H1 : confs s1 = confs s); reflexivity).
      destruct (dest_conf name s); [|exact H1]. rewrite drop_destination_strip, H1. reflexivity. }
  clearbody s2.
  assert (H3 : (pool s3 = pool s \/ conf_has_vip c = true /\ exists ip, alloc name ip s s3) /\
               strip s3 = strip (pool_of s3 s <| ksn := conf_set_ksn name c s |>)).
  { destruct (vips_on s2 && conf_has_vip c && negb (bool_decide (name = ""))) eqn:Et.
    - apply res_bind_ok in E3 as ([ip s6] & Ea & E3). injection E3 as <-.
      apply assign_vip_spec in Ea as [Ha Hs6]. split.
      + right. apply andb_true_iff in Et as [Et _]. apply andb_true_iff in Et as [_ Et]. split; [exact Et|].
        exists ip. apply (alloc_ext _ _ s2 s6); [exact (f_equal pool H2)|reflexivity|exact Ha].
      + rewrite Hs6 at 1. rewrite strip_pool_of. rewrite H2. reflexivity.
    - injection E3 as <-. split; [left; exact (f_equal pool H2)|].
      rewrite H2, pool_of_same by exact (f_equal pool H2). reflexivity. }
  destruct H3 as [Hp H3]. split.
  - destruct Hp as [Hp|(Hv & ip & Ha)]; [left; exact Hp|right]. split; [exact Hv|]. exists ip.
    apply (alloc_ext _ _ s s3); [reflexivity|reflexivity|exact Ha].
  - rewrite (pool_of_ext (s3 <| confs ::= <[(conf_kind c, name) := c]> |>) s3 s eq_refl).
    rewrite strip_upd_confs. rewrite H3, strip_set_confs. reflexivity.
Qed.

Lemma conf_delete_None kind name s : confs s !! (kind, name) = None -> conf_delete kind name s = s.
Proof. intros H. unfold conf_delete. rewrite H. reflexivity. Qed.

Lemma conf_delete_spec kind name s c : confs s !! (kind, name) = Some c ->
  let s' := conf_delete kind name s in
  (pool s' = pool s \/ freed name s s') /\
  strip s' = strip (pool_of s' s <| ksn := if bool_decide (c = CDefaults true) then ksn s ∖ {[ (destination_kind, name) ]} else ksn s |>
                                 <| confs := delete (kind, name) (confs s) |>).
Proof.
  intros Ec. cbn zeta. unfold conf_delete. rewrite Ec.
  set (s1 := if bool_decide (kind = "terminating-gateway") || bool_decide (kind = "ingress-gateway") then _ else s).
  assert (H1 : strip s1 = strip s) by (subst s1; destruct (_ || _); reflexivity). clearbody s1.
  set (s2 := match c with CDefaults true => _ | _ => s1 end).
  assert (H2 : strip s2 = strip (s <| ksn := if bool_decide (c = CDefaults true) then ksn s ∖ {[ (destination_kind, name) ]} else ksn s |>)).
  { subst s2. destruct c as [| |[]|]; try exact H1. cbv zeta. rewrite drop_destination_strip, H1. reflexivity. }
  clearbody s2.
  set (s3 := if bool_decide (kind = "ingress-gateway") then _ else s2).
  assert (H3 : strip s3 = strip s2) by (subst s3; destruct (bool_decide (kind = "ingress-gateway")); reflexivity).
  clearbody s3.
  set (s4 := s3 <| confs ::= delete (kind, name) |>).
  assert (H4 : strip s4 = strip (s <| ksn := if bool_decide (c = CDefaults true) then ksn s ∖ {[ (destination_kind, name) ]} else ksn s |>
                                   <| confs := delete (kind, name) (confs s) |>)).
  { subst s4. rewrite strip_upd_confs. rewrite H3, H2. reflexivity. }
  clearbody s4.
  destruct (conf_has_vip c && negb (bool_decide (name = ""))).
  - destruct (free_vip_spec name s4) as [Hf Hfv]. cbn zeta in Hf, Hfv. set (fv := free_vip name s4) in *. clearbody fv. split.
    + destruct Hf as [Hf|Hf]; [left; exact (eq_trans Hf (f_equal pool H4))|right].
      apply (freed_ext _ s4 fv); [exact (f_equal pool H4)|exact (strip_services _ _ H4)|reflexivity|exact Hf].
    + rewrite Hfv at 1. rewrite strip_pool_of. rewrite H4. reflexivity.
  - split; [left; exact (f_equal pool H4)|]. rewrite H4, pool_of_same by exact (f_equal pool H4). reflexivity.
Qed.

(* it only rewrites the manual lists of rows that exist: a fact kept by these rewrites holds afterwards *)
Lemma assign_manual_ind (Q : st -> Prop) name ips s :
  Q s ->
  (forall s1 n a m l, Q s1 -> vips s1 !! n = Some (a, m) -> Q (s1 <| vips ::= <[n := (a, l)]> |>)) ->
  Q (assign_manual name ips s).2.
Proof.
  intros Hs Hset. unfold assign_manual.
  set (step := fun '(s', from) ip => _).
  assert (Hfold : forall l (acc : st * list string), Q acc.1 -> Q (foldl step acc l).1).
  { induction l as [|ip l IH]; intros acc Hacc; cbn [foldl]; [exact Hacc|]. apply IH. destruct acc as [s1 from]. cbn in Hacc |- *.
    destruct (manual_holder ip s1) as [n|]; [|exact Hacc]. destruct (bool_decide (n = name)); [exact Hacc|].
    destruct (vips s1 !! n) as [[a m]|] eqn:En; [|exact Hacc]. cbn. apply (Hset _ _ _ _ _ Hacc En). }
  specialize (Hfold (dedup_sorted (ssort ips)) (s, []) Hs).
  destruct (foldl step (s, []) (dedup_sorted (ssort ips))) as [s1 from]. cbn in Hfold.
  destruct (vips s1 !! name) as [[a m]|] eqn:En; cbn; [|exact Hs]. destruct (_ && _); cbn; [exact Hfold|].
  apply (Hset _ _ _ _ _ Hfold En).
Qed.

Lemma assign_manual_vips name ips s : let s' := (assign_manual name ips s).2 in s' = s <| vips := vips s' |>.
Proof.
  cbn zeta. apply (assign_manual_ind (fun s1 => s1 = s <| vips := vips s1 |>)); [destruct s; reflexivity|].
  intros s1 n a m l Hs1 _. rewrite Hs1 at 1. reflexivity.
Qed.

Lemma foldl_keeps {A} (P : st -> Prop) (g : st -> A -> st) l :
  (forall s x, P s -> P (g s x)) -> forall s, P s -> P (foldl g s l).
Proof. intros Hg. induction l as [|x l IH]; intros s Hs; cbn; [exact Hs|]. apply IH, Hg, Hs. Qed.

(* deleteNodeTxn, for a predicate that does not need the cascade to be complete *)
Lemma delete_node_keeps (P : st -> Prop) nd s :
  (forall sid s, P s -> P (delete_service nd sid s)) -> (forall cid s, P s -> P (delete_check nd cid s)) ->
  (forall s, P s -> P (s <| coords ::= fun c => c ∖ {[ nd ]} |> <| nodes ::= delete nd |>)) ->
  P s -> P (delete_node nd s).
Proof.
  intros Hs Hc Hn H. unfold delete_node. destruct (nodes s !! nd); [|exact H].
  apply Hn, foldl_keeps; [intros; apply Hc; assumption|]. apply foldl_keeps; [intros; apply Hs; assumption|exact H].
Qed.

Section lift.
  Context (P : st -> Prop) (okr : string -> svcreq -> Prop) (okc : string -> conf -> Prop).
  Hypothesis P_svc : forall idx nd r s s', okr nd r -> ensure_service idx nd r s = Ok s' -> P s -> P s'.
  Hypothesis P_chk : forall idx c s s', ensure_check idx c s = Ok s' -> P s -> P s'.
  Hypothesis P_dsvc : forall nd sid s, P s -> P (delete_service nd sid s).
  Hypothesis P_dchk : forall nd cid s, P s -> P (delete_check nd cid s).
  Hypothesis P_dnode : forall nd s, P s -> P (delete_node nd s).
  Hypothesis P_node : forall nd n s, P s -> P (s <| nodes ::= <[nd := n]> |>).
  Hypothesis P_cset : forall n c s s', okc n c -> conf_set n c s = Ok s' -> P s -> P s'.
  Hypothesis P_cdel : forall k n s, P s -> P (conf_delete k n s).
  Hypothesis P_man : forall n ips s, P s -> P (assign_manual n ips s).2.
  Hypothesis P_coord : forall nd s, is_Some (nodes s !! nd) -> P s -> P (s <| coords ::= fun c => {[ nd ]} ∪ c |>).
  Hypothesis P_meta : forall on s, P s -> P (s <| vips_on := on |>).
  Hypothesis P_usage : forall u s, P s -> P (s <| usage := u |>).

  Definition op_okP (op : txnop) : Prop :=
    match op with
    | TService VSet nd r | TService VCAS nd r => okr nd r
    | _ => True
    end.
  Definition cmd_okP (c : cmd) : Prop :=
    match c with
    | Register nd _ _ _ (Some r) _ => okr nd r
    | Txn ops => Forall op_okP ops
    | ConfSet name c => okc name c
    | _ => True
    end.

  Lemma ensure_node_lift idx nd id addr s s' : ensure_node idx nd id addr s = Ok s' -> P s -> P s'.
  Proof.
    unfold ensure_node. intros He Hs. apply res_bind_ok in He as ([n0 s1] & E1 & E2).
    assert (H1 : P s1).
    { destruct (bool_decide (id = "")); [injection E1 as _ <-; exact Hs|].
      destruct (node_by_id id s) as [[oname on]|].
      - destruct (bool_decide (oname = nd)); [injection E1 as _ <-; exact Hs|].
        destruct (similar_clash false nd id s); [discriminate|]. injection E1 as _ <-. apply P_dnode; exact Hs.
      - destruct (similar_clash true nd id s); [discriminate|]. injection E1 as _ <-; exact Hs. }
    cbn zeta in E2. destruct (match n0 with Some x => Some x | None => nodes s1 !! nd end) as [x|].
    - destruct (_ && _); injection E2 as <-; [exact H1|apply P_node; exact H1].
    - injection E2 as <-. apply P_node; exact H1.
  Qed.

  Lemma rfold_lift {A} (f : st -> A -> res st) l :
    (forall x a b, f a x = Ok b -> P a -> P b) -> forall s s', rfold f l s = Ok s' -> P s -> P s'.
  Proof.
    intros Hf. induction l as [|x l IH]; intros s s'; cbn [rfold]; [intros [= <-]; tauto|].
    intros Hr Hs. apply res_bind_ok in Hr as (s1 & E & Hr). apply (IH _ _ Hr), (Hf _ _ _ E Hs).
  Qed.

  Lemma ensure_registration_lift idx nd id addr skip sv cks s s' :
    ensure_registration idx nd id addr skip sv cks s = Ok s' -> (forall r, sv = Some r -> okr nd r) -> P s -> P s'.
  Proof.
    unfold ensure_registration. intros He Hok Hs.
    apply res_bind_ok in He as (s1 & E1 & He). apply res_bind_ok in He as (s2 & E2 & He).
    assert (H1 : P s1).
    { destruct (changes_node _ _ _ _); [apply (ensure_node_lift _ _ _ _ _ _ E1 Hs)|injection E1 as <-; exact Hs]. }
    assert (H2 : P s2).
    { destruct sv as [r|]; [|injection E2 as <-; exact H1].
      destruct (services s1 !! (nd, sr_id r)) as [x|]; [destruct (_ && _); [injection E2 as <-; exact H1|]|];
        apply (P_svc _ _ _ _ _ (Hok r eq_refl) E2 H1). }
    revert He H2. apply rfold_lift. intros c a b. destruct (bool_decide _); [apply P_chk|discriminate].
  Qed.

  Lemma txn_op_lift idx op s s' : txn_op idx op s = Ok s' -> op_okP op -> P s -> P s'.
  Proof.
    destruct op as [v nd id addr cidx|v nd r|v c]; cbn [txn_op op_okP]; intros He Hok Hs.
    - destruct v.
      + destruct (bool_decide (id = "")); destruct (bool_decide _); try discriminate; injection He as <-; exact Hs.
      + apply (ensure_node_lift _ _ _ _ _ _ He Hs).
      + destruct (cas_ok _ _ _); [apply (ensure_node_lift _ _ _ _ _ _ He Hs)|discriminate].
      + injection He as <-. apply P_dnode, Hs.
      + destruct (nodes s !! nd); [|discriminate]. destruct (bool_decide _); [|discriminate]. injection He as <-. apply P_dnode, Hs.
    - destruct v.
      + destruct (bool_decide _); [|discriminate]. injection He as <-; exact Hs.
      + apply (P_svc _ _ _ _ _ Hok He Hs).
      + destruct (cas_ok _ _ _); [apply (P_svc _ _ _ _ _ Hok He Hs)|discriminate].
      + injection He as <-. apply P_dsvc, Hs.
      + destruct (services s !! _); [|discriminate]. destruct (bool_decide _); [|discriminate]. injection He as <-. apply P_dsvc, Hs.
    - destruct v.
      + destruct (bool_decide _); [|discriminate]. injection He as <-; exact Hs.
      + apply (P_chk _ _ _ _ He Hs).
      + destruct (cas_ok _ _ _); [apply (P_chk _ _ _ _ He Hs)|discriminate].
      + injection He as <-. apply P_dchk, Hs.
      + destruct (checks s !! _); [|discriminate]. destruct (bool_decide _); [|discriminate]. injection He as <-. apply P_dchk, Hs.
  Qed.

  Lemma txn_dispatch_lift idx ops : forall i s s', txn_dispatch idx i ops s = inl s' -> Forall op_okP ops -> P s -> P s'.
  Proof.
    induction ops as [|op ops IH]; intros i s s'; cbn; [intros [= <-]; tauto|].
    destruct (txn_op idx op s) as [s1|e] eqn:E; [|discriminate].
    intros Hd Hok Hs. inversion Hok as [|? ? Hop Hrest]; subst. apply (IH _ _ _ Hd Hrest), (txn_op_lift _ _ _ _ E Hop Hs).
  Qed.

  Lemma exec_lift idx c s : cmd_okP c -> P s -> P (exec idx c s).1.
  Proof.
    intros Hok Hs. destruct c; cbn [exec cmd_okP] in *.
    - apply P_meta, Hs.
    - destruct (ensure_registration _ _ _ _ _ _ _ s) as [s'|e] eqn:E; cbn; [|exact Hs].
      apply (ensure_registration_lift _ _ _ _ _ _ _ _ _ E); [intros r ->; exact Hok|exact Hs].
    - destruct (negb _); cbn; [apply P_dsvc, Hs|]. destruct (negb _); cbn; [apply P_dchk, Hs|apply P_dnode, Hs].
    - destruct (txn_dispatch idx 0 ops s) as [s'|[i e]] eqn:E; cbn; [|exact Hs]. apply (txn_dispatch_lift _ _ _ _ _ E Hok Hs).
    - destruct (conf_set name c s) as [s'|e] eqn:E; cbn; [|exact Hs]. apply (P_cset _ _ _ _ Hok E Hs).
    - apply P_cdel, Hs.
    - pose proof (P_man name ips s Hs) as H. destruct (assign_manual name ips s) as [[found from] s']. exact H.
    - cbn. destruct (bool_decide (is_Some (nodes s !! nd))) eqn:Eb; [|exact Hs]. apply bool_decide_eq_true in Eb. apply P_coord; assumption.
    - exact Hs.
  Qed.

  Theorem apply_lift idx c s : cmd_okP c -> P s -> P (apply idx c s).1.
  Proof.
    intros Hok Hs. unfold apply. pose proof (exec_lift idx c s Hok Hs) as H. destruct (exec idx c s) as [s' r]. apply P_usage, H.
  Qed.
End lift.

Lemma cmd_okP_trivial c : cmd_okP (fun _ _ => True) (fun _ _ => True) c.
Proof.
  destruct c as [| ? ? ? ? [r|] ?| |ops| | | | |]; cbn; try exact I.
  apply Forall_forall. intros [|[]|] _; exact I.
Qed.

(* A predicate that reads only the instances, the config entries, kind-service-names and the
   virtual-IP pool: five verbs can change what it sees. *)
Definition view (s : st) := (services s, confs s, ksn s, pool s).

Lemma view_services a b : view a = view b -> services a = services b.
Proof. intros H. exact (f_equal (fun x => x.1.1.1) H). Qed.
Lemma view_confs a b : view a = view b -> confs a = confs b.
Proof. intros H. exact (f_equal (fun x => x.1.1.2) H). Qed.
Lemma view_ksn a b : view a = view b -> ksn a = ksn b.
Proof. intros H. exact (f_equal (fun x => x.1.2) H). Qed.
Lemma view_pool a b : view a = view b -> pool a = pool b.
Proof. intros H. exact (f_equal snd H). Qed.

Theorem apply_lift_view (P : st -> Prop) (okr : string -> svcreq -> Prop) (okc : string -> conf -> Prop) :
  (forall a b, view a = view b -> P b -> P a) ->
  (forall idx nd r s s', okr nd r -> ensure_service idx nd r s = Ok s' -> P s -> P s') ->
  (forall nd sid s, P s -> P (delete_service nd sid s)) ->
  (forall n c s s', okc n c -> conf_set n c s = Ok s' -> P s -> P s') ->
  (forall k n s, P s -> P (conf_delete k n s)) ->
  (forall n ips s, P s -> P (assign_manual n ips s).2) ->
  forall idx c s, cmd_okP okr okc c -> P s -> P (apply idx c s).1.
Proof.
  intros Hext Hsvc Hdsvc Hcset Hcdel Hman idx c s. apply (apply_lift P okr okc); try assumption.
  - intros idx' ck s0 s' He. apply ensure_check_spec in He as (_ & _ & [->|(x & _ & ->)]); [tauto|]. apply Hext; reflexivity.
  - intros nd cid s0. apply Hext; reflexivity.
  - intros nd s0. apply delete_node_keeps; [intros; apply Hdsvc; assumption|intros ? ?|intros ?]; apply Hext; reflexivity.
  - intros nd n s0. apply Hext; reflexivity.
  - intros nd s0 _. apply Hext; reflexivity.
  - intros on s0. apply Hext; reflexivity.
  - intros u s0. apply Hext; reflexivity.
Qed.

Lemma run_cons idx c log s : (run ((idx, c) :: log) s).1 = (run log (apply idx c s).1).1.
Proof. cbn [run]. destruct (apply idx c s) as [s' r]. cbn [fst]. destruct (run log s') as [s'' rs]. reflexivity. Qed.

Lemma run_keeps (P : st -> Prop) :
  (forall idx c s, P s -> P (apply idx c s).1) -> forall log s, P s -> P (run log s).1.
Proof.
  intros Hstep. induction log as [|[idx c] log IH]; intros s Hs; [exact Hs|]. rewrite run_cons. apply IH, Hstep, Hs.
Qed.
