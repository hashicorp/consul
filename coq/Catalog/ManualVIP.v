(* Manual virtual IPs: in every reachable state no address is in the manual lists of two services.
   Two parts:
   - every command other than ManualVIPs leaves the manual lists alone: a service-virtual-ips row is
     only created with the empty list, deleted, or kept (relation VR below);
   - AssignManualServiceVIPs takes each address of the request away from its (unique) holder before
     it gives the list to the requested service. *)
From stdpp Require Import gmap strings.
From RecordUpdate Require Import RecordSet.
From Coq Require Import NArith.
From Verif Require Import Catalog.Model Catalog.Frames Catalog.Reach.
Import RecordSetNotations.
Local Open Scope N_scope.

Definition MU (s : st) : Prop :=
  forall n1 n2 a1 m1 a2 m2 (x : string),
    vips s !! n1 = Some (a1, m1) -> vips s !! n2 = Some (a2, m2) -> x ∈ m1 -> x ∈ m2 -> n1 = n2.

(* [VR a b], a (the later state) against b (the earlier): every manual list of [a] is a sub-list (as a
   set) of the list the same service had in [b] *)
Definition VR (a b : st) : Prop :=
  forall n ip (m : list string), vips a !! n = Some (ip, m) ->
    m = [] \/ exists ip' m', vips b !! n = Some (ip', m') /\ (forall x, x ∈ m -> x ∈ m').

Lemma VR_refl a : VR a a.
Proof. intros n ip m H. right. eauto. Qed.

Lemma VR_trans a b c : VR a b -> VR b c -> VR a c.
Proof.
  intros Hab Hbc n ip m H. destruct (Hab n ip m H) as [->|(ip' & m' & H' & Hsub)]; [left; reflexivity|].
  destruct (Hbc n ip' m' H') as [->|(ip'' & m'' & H'' & Hsub')].
  - left. destruct m as [|x m]; [reflexivity|]. specialize (Hsub x ltac:(left)). inversion Hsub.
  - right. exists ip'', m''. split; [exact H''|]. intros x Hx. apply Hsub', Hsub, Hx.
Qed.

Lemma VR_eq a b : vips a = vips b -> VR a b.
Proof. intros E n ip m H. rewrite E in H. right. eauto. Qed.

Lemma MU_VR a b : VR a b -> MU b -> MU a.
Proof.
  intros Hr Hb n1 n2 a1 m1 a2 m2 x H1 H2 X1 X2.
  destruct (Hr n1 a1 m1 H1) as [->|(i1 & l1 & B1 & S1)]; [inversion X1|].
  destruct (Hr n2 a2 m2 H2) as [->|(i2 & l2 & B2 & S2)]; [inversion X2|].
  apply (Hb n1 n2 i1 l1 i2 l2 x B1 B2 (S1 x X1) (S2 x X2)).
Qed.

Lemma VR_vips s s' :
  vips s' = vips s \/ (exists name ip, vips s' = <[name := (ip, [])]> (vips s)) \/ (exists name, vips s' = delete name (vips s)) ->
  VR s' s.
Proof.
  intros [Hv|[(name & ip & Hv)|(name & Hv)]]; [apply VR_eq, Hv| |]; intros n j m H; rewrite Hv in H.
  - destruct (decide (n = name)) as [->|Hne].
    + rewrite lookup_insert in H. injection H as <- <-. left. reflexivity.
    + rewrite lookup_insert_ne in H by congruence. right. eauto.
  - apply lookup_delete_Some in H as [_ H]. right. eauto.
Qed.

Lemma VR_alloc name ip s s' : alloc name ip s s' -> VR s' s.
Proof. intros Ha. apply VR_vips. destruct (alloc_vips _ _ _ _ Ha) as [H|H]; eauto. Qed.

Lemma ensure_service_VR idx nd r s s' : ensure_service idx nd r s = Ok s' -> VR s' s.
Proof.
  intros He. apply ensure_service_spec in He as (_ & [ip|] & c & m & Hva & _).
  - apply (VR_alloc _ _ _ _ (proj2 Hva)).
  - apply VR_eq. injection Hva as Hv _ _. exact Hv.
Qed.

Lemma delete_service_VR nd sid s : VR (delete_service nd sid s) s.
Proof.
  destruct (services s !! (nd, sid)) as [v|] eqn:Ev; [|rewrite delete_service_None by exact Ev; apply VR_refl].
  apply VR_vips. destruct (delete_service_spec nd sid s v Ev) as [[[= Hv _ _]|Hf] _]; [left; exact Hv|right; right].
  exists (sv_name v). apply (freed_vips _ _ _ Hf).
Qed.

Lemma conf_set_VR name c s s' : conf_set name c s = Ok s' -> VR s' s.
Proof.
  intros He. apply conf_set_spec in He as [[[= Hv _ _]|(_ & ip & Ha)] _]; [apply VR_eq, Hv|apply (VR_alloc _ _ _ _ Ha)].
Qed.

Lemma conf_delete_VR kind name s : VR (conf_delete kind name s) s.
Proof.
  destruct (confs s !! (kind, name)) as [c|] eqn:Ec; [|rewrite conf_delete_None by exact Ec; apply VR_refl].
  apply VR_vips. destruct (conf_delete_spec kind name s c Ec) as [[[= Hv _ _]|Hf] _]; [left; exact Hv|right; right].
  exists name. apply (freed_vips _ _ _ Hf).
Qed.

Lemma elem_of_dedup_sorted (x : string) l : x ∈ dedup_sorted l <-> x ∈ l.
Proof.
  induction l as [|y l IH]; [reflexivity|]. destruct l as [|z l]; [reflexivity|].
  change (dedup_sorted (y :: z :: l)) with (if bool_decide (y = z) then dedup_sorted (z :: l) else y :: dedup_sorted (z :: l)).
  destruct (bool_decide (y = z)) eqn:E.
  - apply bool_decide_eq_true in E as ->. rewrite IH, !elem_of_cons. tauto.
  - rewrite elem_of_cons, IH, (elem_of_cons (z :: l)). reflexivity.
Qed.

Lemma manual_holder_Some ip s n : manual_holder ip s = Some n -> exists a m, vips s !! n = Some (a, m) /\ ip ∈ m.
Proof.
  unfold manual_holder. set (l := omap _ _). destruct (ssort l) as [|n0 rest] eqn:E; [discriminate|]. intros [= ->].
  assert (Hin : n ∈ l) by (apply elem_of_ssort; rewrite E; left).
  subst l. apply elem_of_list_omap in Hin as ([n' [a m]] & Hin & Hf). apply elem_of_map_to_list in Hin.
  destruct (bool_decide (ip ∈ m)) eqn:Eb; [|discriminate]. injection Hf as ->. apply bool_decide_eq_true in Eb. eauto.
Qed.

Lemma manual_holder_None ip s : manual_holder ip s = None -> forall n a m, vips s !! n = Some (a, m) -> ip ∉ m.
Proof.
  unfold manual_holder. set (l := omap _ _). destruct (ssort l) as [|n0 rest] eqn:E; [|discriminate]. intros _ n a m Hn Hin.
  assert (Hl : n ∈ l).
  { subst l. apply elem_of_list_omap. exists (n, (a, m)). split; [apply elem_of_map_to_list; exact Hn|].
    cbn. rewrite bool_decide_eq_true_2 by exact Hin. reflexivity. }
  apply elem_of_ssort in Hl. rewrite E in Hl. inversion Hl.
Qed.

Definition others_free (name x : string) (s : st) : Prop :=
  forall n a m, n ≠ name -> vips s !! n = Some (a, m) -> x ∉ m.

Lemma others_free_VR name x a b : VR a b -> others_free name x b -> others_free name x a.
Proof.
  intros Hr Hb n ip m Hn Hv Hin. destruct (Hr n ip m Hv) as [->|(ip' & m' & Hv' & Hsub)]; [inversion Hin|].
  exact (Hb n ip' m' Hn Hv' (Hsub x Hin)).
Qed.

(* One round of the loop takes the address from its holder, who is unique, if that is another service;
   the lists only shrink, so what a round achieved for its address holds at the end. *)
Lemma assign_manual_MU name ips s : MU s -> MU (assign_manual name ips s).2.
Proof.
  intros HM. unfold assign_manual.
  set (step := fun '(s', from) ip => _).
  assert (Hround : forall s1 from ip, MU s1 -> ip ∈ ips ->
            VR (step (s1, from) ip).1 s1 /\ others_free name ip (step (s1, from) ip).1).
  { intros s1 from ip HM1 Hip. cbn. destruct (manual_holder ip s1) as [n|] eqn:Eh.
    2:{ split; [apply VR_refl|]. intros n' a' m' _ H'. exact (manual_holder_None _ _ Eh n' a' m' H'). }
    destruct (manual_holder_Some _ _ _ Eh) as (a & m & En & Hin). destruct (bool_decide (n = name)) eqn:Enn.
    - apply bool_decide_eq_true in Enn as ->. split; [apply VR_refl|].
      intros n' a' m' Hn' H' Hin'. apply Hn'. exact (HM1 n' name a' m' a m ip H' En Hin' Hin).
    - rewrite En. cbn. split.
      + intros n' j l' H'. cbn in H'. destruct (decide (n' = n)) as [->|Hne].
        * rewrite lookup_insert in H'. injection H' as <- <-. right. exists a, m. split; [exact En|].
          intros x Hx. apply elem_of_list_filter in Hx as [_ Hx]. exact Hx.
        * rewrite lookup_insert_ne in H' by congruence. right. eauto.
      + intros n' a' m' Hn' H' Hin'. cbn in H'. destruct (decide (n' = n)) as [->|Hne].
        * rewrite lookup_insert in H'. injection H' as <- <-. apply elem_of_list_filter in Hin' as [Hnot _]. exact (Hnot Hip).
        * rewrite lookup_insert_ne in H' by congruence. apply Hne. exact (HM1 n' n a' m' a m ip H' En Hin' Hin). }
  assert (Hfold : forall l (acc : st * list string) (seen : list string),
    VR acc.1 s -> Forall (fun x => others_free name x acc.1) seen -> (forall x, x ∈ l -> x ∈ ips) ->
    let r := foldl step acc l in VR r.1 s /\ Forall (fun x => others_free name x r.1) (seen ++ l)).
  { induction l as [|ip l IH]; intros [s1 from] seen Hvr Hseen Hl; cbn [foldl].
    - rewrite app_nil_r. split; assumption.
    - replace (seen ++ ip :: l) with ((seen ++ [ip]) ++ l) by (rewrite <- app_assoc; reflexivity).
      destruct (Hround s1 from ip (MU_VR _ s Hvr HM) (Hl ip ltac:(left))) as [Hvr1 Hfree].
      apply IH; [exact (VR_trans _ _ _ Hvr1 Hvr)| |intros x Hx; apply Hl; right; exact Hx].
      apply Forall_app. split; [|apply Forall_singleton; exact Hfree].
      eapply Forall_impl; [exact Hseen|]. intros x. apply others_free_VR, Hvr1. }
  specialize (Hfold (dedup_sorted (ssort ips)) (s, []) [] (VR_refl s) (Forall_nil_2 _)
                    ltac:(intros x Hx; rewrite elem_of_dedup_sorted, elem_of_ssort in Hx; exact Hx)).
  cbn zeta in Hfold. destruct (foldl step (s, []) (dedup_sorted (ssort ips))) as [s1 from]. cbn in Hfold.
  destruct Hfold as [Hvr Hnone]. rewrite Forall_forall in Hnone.
  destruct (vips s1 !! name) as [[a m]|] eqn:En; cbn; [|exact HM].
  assert (HM1 : MU s1) by (apply (MU_VR _ s Hvr HM)).
  destruct (_ && _); cbn; [exact HM1|].
  (* the requested list goes to [name]; nobody else holds one of its addresses *)
  assert (Hreq : forall x, x ∈ ssort ips -> others_free name x s1).
  { intros x Hx. apply Hnone. rewrite elem_of_dedup_sorted. exact Hx. }
  intros n1 n2 a1 m1 a2 m2 x H1 H2 X1 X2. cbn in H1, H2.
  destruct (decide (n1 = name)) as [->|N1], (decide (n2 = name)) as [->|N2]; [reflexivity| | |].
  - rewrite lookup_insert in H1. injection H1 as <- <-. rewrite lookup_insert_ne in H2 by congruence.
    destruct (Hreq x X1 n2 a2 m2 N2 H2 X2).
  - rewrite lookup_insert in H2. injection H2 as <- <-. rewrite lookup_insert_ne in H1 by congruence.
    destruct (Hreq x X2 n1 a1 m1 N1 H1 X1).
  - rewrite lookup_insert_ne in H1, H2 by congruence. apply (HM1 n1 n2 a1 m1 a2 m2 x H1 H2 X1 X2).
Qed.

Lemma MU_st0 : MU st0.
Proof. intros n1 n2 a1 m1 a2 m2 x H. cbn in H. rewrite lookup_empty in H. discriminate. Qed.

Theorem apply_MU idx c s : MU s -> MU (apply idx c s).1.
Proof.
  apply (apply_lift_view MU (fun _ _ => True) (fun _ _ => True)); [..|apply cmd_okP_trivial].
  - intros a b Hv. apply MU_VR, VR_eq. exact (f_equal (fun x => x.1.1) (view_pool a b Hv)).
  - intros idx' nd r s0 s' _ He. apply MU_VR, (ensure_service_VR _ _ _ _ _ He).
  - intros nd sid s0. apply MU_VR, delete_service_VR.
  - intros n c0 s0 s' _ He. apply MU_VR, (conf_set_VR _ _ _ _ He).
  - intros k n s0. apply MU_VR, conf_delete_VR.
  - apply assign_manual_MU.
Qed.

(* non-vacuity: two services with manual addresses; the second request takes one away from the first *)
Definition manual_log : list (N * cmd) :=
  [ (2, SysMeta true);
    (3, Register "n1" "" 1 false (Some (SvcReq "s1" "web" KTypical true "" 80 [] true 0)) []);
    (4, Register "n1" "" 1 false (Some (SvcReq "s2" "db" KTypical true "" 80 [] true 0)) []);
    (5, ManualVIPs "web" ["1.1.1.1"; "2.2.2.2"]);
    (6, ManualVIPs "db" ["2.2.2.2"; "3.3.3.3"]) ].

Example manual_example :
  let s := (run manual_log st0).1 in
  CReach s /\ vips s !! "web" = Some (1, ["1.1.1.1"]) /\ vips s !! "db" = Some (2, ["2.2.2.2"; "3.3.3.3"]).
Proof. intros s. split; [apply CReach_run|]. pattern s; eapply decide_at; vm_compute; reflexivity. Qed.
