(* Reachable states of the catalog model; INV and NoOrph hold in all of them (MU: Properties/C07.v from
   ManualVIP.apply_MU; ConfKeyed and the counters: ConfUsage.usage_ok; J: KindNames.CReachD_J). *)
From stdpp Require Import gmap strings.
From Coq Require Import NArith.
From Verif Require Import Catalog.Model Catalog.Frames Catalog.VIP Catalog.Orphans.
Local Open Scope N_scope.

Inductive CReach : st -> Prop :=
| CReach_init : CReach st0
| CReach_step idx c s : CReach s -> CReach (apply idx c s).1.

Lemma CReach_run log : CReach (run log st0).1.
Proof. apply run_keeps; [intros idx c s; apply CReach_step|apply CReach_init]. Qed.

Lemma CReach_witness log (P : st -> Prop) `{forall s, Decision (P s)} :
  (let s := (run log st0).1 in bool_decide (P s)) = true -> exists s, CReach s /\ P s.
Proof. intros Hb. exists (run log st0).1. split; [apply CReach_run|exact (decide_at _ P Hb)]. Qed.

Theorem CReach_INV s : CReach s -> INV s.
Proof. induction 1 as [|idx c s _ IH]; [apply INV_st0|apply apply_INV; exact IH]. Qed.

Theorem CReach_NoOrph s : CReach s -> NoOrph s.
Proof. induction 1 as [|idx c s _ IH]; [apply NoOrph_st0|apply apply_NoOrph; exact IH]. Qed.
