(* Orphan freedom and the deregistration cascades in the catalog extension model (service kinds,
   proxies, gateways, coordinates; no sessions — those are in Catalog/StoreOrphans.v over the core
   store model). *)
From stdpp Require Import gmap strings.
From RecordUpdate Require Import RecordSet.
From Coq Require Import NArith.
From Verif Require Import Catalog.Model Catalog.Frames.
Import RecordSetNotations.
Local Open Scope N_scope.

Definition NoOrph (s : st) : Prop :=
  (forall nd sid v, services s !! (nd, sid) = Some v -> is_Some (nodes s !! nd)) /\
  (forall nd cid c, checks s !! (nd, cid) = Some c ->
     is_Some (nodes s !! nd) /\ (c_service c ≠ "" -> is_Some (services s !! (nd, c_service c)))) /\
  (forall nd, nd ∈ coords s -> is_Some (nodes s !! nd)).

Lemma NoOrph_ext a b :
  nodes a = nodes b -> services a = services b -> checks a = checks b -> coords a = coords b -> NoOrph b -> NoOrph a.
Proof. intros Hn Hs Hc Hco H. unfold NoOrph. rewrite Hn, Hs, Hc, Hco. exact H. Qed.

Lemma NoOrph_core a b : same_core a b -> NoOrph b -> NoOrph a.
Proof. intros (Hn & Hs & Hc & Hco & _). apply NoOrph_ext; assumption. Qed.

Lemma NoOrph_strip a b : strip a = strip b -> NoOrph b -> NoOrph a.
Proof. intros H. apply NoOrph_core, strip_core, H. Qed.

Lemma NoOrph_st0 : NoOrph st0.
Proof.
  split; [|split].
  - intros nd sid v H. cbn in H. rewrite lookup_empty in H. discriminate.
  - intros nd cid c H. cbn in H. rewrite lookup_empty in H. discriminate.
  - intros nd H. cbn in H. set_solver.
Qed.

Lemma delete_service_rows nd sid s :
  let s' := delete_service nd sid s in
  nodes s' = nodes s /\ coords s' = coords s /\ services s' = delete (nd, sid) (services s) /\
  (services s !! (nd, sid) = None /\ checks s' = checks s \/
   is_Some (services s !! (nd, sid)) /\ checks s' = filter (fun kc => ~ (kc.1.1 = nd /\ c_service kc.2 = sid)) (checks s)).
Proof.
  cbn zeta. destruct (services s !! (nd, sid)) as [v|] eqn:Ev.
  - destruct (delete_service_spec nd sid s v Ev) as [_ Hs]. cbn zeta in Hs.
    repeat split; [exact (f_equal nodes Hs)|exact (f_equal coords Hs)|exact (strip_services _ _ Hs)|right; split; [eauto|exact (f_equal checks Hs)]].
  - rewrite delete_service_None, delete_notin by exact Ev. repeat split. left. split; reflexivity.
Qed.

Lemma delete_node_rows nd s : is_Some (nodes s !! nd) ->
  let s' := delete_node nd s in
  nodes s' = delete nd (nodes s) /\ coords s' = coords s ∖ {[ nd ]} /\
  services s' = filter (fun kv => kv.1.1 ≠ nd) (services s) /\ checks s' = filter (fun kc => kc.1.1 ≠ nd) (checks s).
Proof.
  intros [n En]. cbn zeta. unfold delete_node. rewrite En.
  (* the instances of the node, one by one: the checks of other nodes stay *)
  assert (H1 : forall l s1,
    let s' := foldl (fun s' sid => delete_service nd sid s') s1 l in
    nodes s' = nodes s1 /\ coords s' = coords s1 /\
    services s' = foldl (fun m sid => delete (nd, sid) m) (services s1) l /\
    filter (fun kc => kc.1.1 ≠ nd) (checks s') = filter (fun kc => kc.1.1 ≠ nd) (checks s1)).
  { induction l as [|sid l IH]; intros s1; cbn [foldl]; [repeat split|].
    destruct (IH (delete_service nd sid s1)) as (Hn & Hco & Hs & Hc). cbn zeta in *.
    destruct (delete_service_rows nd sid s1) as (Hn1 & Hco1 & Hs1 & Hc1). cbn zeta in *.
    rewrite Hn, Hco, Hs, Hc, Hn1, Hco1, Hs1. repeat split.
    destruct Hc1 as [[_ ->]|[_ ->]]; [reflexivity|]. apply map_filter_filter_l. intros [n' cid] c _ Hne [Heq _]. contradiction. }
  destruct (H1 (services_of_node nd s) s) as (Hn1 & Hco1 & Hs1 & Hc1). cbn zeta in *.
  set (s1 := foldl _ s (services_of_node nd s)) in *. clearbody s1.
  rewrite foldl_delete_check. cbn. rewrite Hn1, Hco1, Hs1, foldl_delete_filter. repeat split.
  - apply map_filter_ext. intros [n' sid] v Hv. cbn. rewrite services_of_node_spec. split.
    + intros Hnot ->. apply Hnot. eauto.
    + intros Hne [-> _]. contradiction.
  - rewrite <- Hc1. apply map_filter_ext. intros [n' cid] c Hc. cbn. rewrite checks_of_node_spec. split.
    + intros Hnot ->. apply Hnot. eauto.
    + intros Hne [-> _]. contradiction.
Qed.

Lemma delete_node_None nd s : nodes s !! nd = None -> delete_node nd s = s.
Proof. intros H. unfold delete_node. rewrite H. reflexivity. Qed.

Lemma delete_check_NoOrph nd cid s : NoOrph s -> NoOrph (delete_check nd cid s).
Proof.
  intros (H1 & H2 & H3). split; [exact H1|split; [|exact H3]]. intros n' c' c Hc. cbn in Hc.
  apply lookup_delete_Some in Hc as [_ Hc]. apply (H2 _ _ _ Hc).
Qed.

Lemma delete_service_NoOrph nd sid s : NoOrph s -> NoOrph (delete_service nd sid s).
Proof.
  intros (H1 & H2 & H3). destruct (delete_service_rows nd sid s) as (Hn & Hco & Hs & Hc). cbn zeta in *.
  unfold NoOrph. rewrite Hn, Hco, Hs. split; [|split; [|exact H3]].
  - intros n i v Hv. apply lookup_delete_Some in Hv as [_ Hv]. eapply H1; exact Hv.
  - destruct Hc as [[Hnone ->]|[_ ->]]; intros n cid c Hck.
    + destruct (H2 n cid c Hck) as [Hx Hy]. split; [exact Hx|]. intros Hne. rewrite lookup_delete_ne; [apply Hy, Hne|].
      intros [= -> Hsv]. destruct (Hy Hne) as [v Hv]. congruence.
    + apply map_filter_lookup_Some in Hck as [Hck Hnot]. destruct (H2 n cid c Hck) as [Hx Hy]. split; [exact Hx|]. intros Hne.
      rewrite lookup_delete_ne; [apply Hy, Hne|]. intros [= -> Hsv]. apply Hnot. cbn. split; [reflexivity|congruence].
Qed.

Lemma delete_node_NoOrph nd s : NoOrph s -> NoOrph (delete_node nd s).
Proof.
  intros (H1 & H2 & H3). destruct (nodes s !! nd) as [n|] eqn:En; [|rewrite delete_node_None by exact En; exact (conj H1 (conj H2 H3))].
  destruct (delete_node_rows nd s) as (Hn & Hco & Hs & Hc); [eauto|]. cbn zeta in *. unfold NoOrph. rewrite Hn, Hco, Hs, Hc.
  split; [|split].
  - intros n' sid v Hv. apply map_filter_lookup_Some in Hv as [Hv Hne]. cbn in Hne.
    rewrite lookup_delete_ne by congruence. eapply H1; exact Hv.
  - intros n' cid c Hk. apply map_filter_lookup_Some in Hk as [Hk Hne]. cbn in Hne. destruct (H2 _ _ _ Hk) as [Hx Hy].
    rewrite lookup_delete_ne by congruence. split; [exact Hx|]. intros Hsv. destruct (Hy Hsv) as [v Hv].
    exists v. apply map_filter_lookup_Some. split; [exact Hv|exact Hne].
  - intros n' Hin. apply elem_of_difference in Hin as [Hin Hne]. rewrite lookup_delete_ne by set_solver. apply H3, Hin.
Qed.

Lemma NoOrph_insert_node s nd n : NoOrph s -> NoOrph (s <| nodes ::= <[nd := n]> |>).
Proof.
  intros (H1 & H2 & H3). split; [|split]; cbn.
  - intros n' sid v Hv. destruct (decide (n' = nd)) as [->|Hne];
      [rewrite lookup_insert; eauto|rewrite lookup_insert_ne by congruence; eapply H1; exact Hv].
  - intros n' cid c Hc. destruct (H2 n' cid c Hc) as [Hx Hy]. split; [|exact Hy].
    destruct (decide (n' = nd)) as [->|Hne]; [rewrite lookup_insert; eauto|rewrite lookup_insert_ne by congruence; exact Hx].
  - intros n' Hin. destruct (decide (n' = nd)) as [->|Hne]; [rewrite lookup_insert; eauto|rewrite lookup_insert_ne by congruence; apply H3; exact Hin].
Qed.

Lemma ensure_check_NoOrph idx c s s' : ensure_check idx c s = Ok s' -> NoOrph s -> NoOrph s'.
Proof.
  intros He (H1 & H2 & H3). apply ensure_check_spec in He as (Hnd & Hsv & [->|(ck & Hck & ->)]); [exact (conj H1 (conj H2 H3))|].
  split; [exact H1|split; [|exact H3]]. intros n' cid c' Hc'. cbn in Hc'.
  destruct (decide ((n', cid) = (cr_node c, cr_id c))) as [[= -> ->]|Hne].
  - rewrite lookup_insert in Hc'. injection Hc' as <-. cbn. rewrite Hck. split; assumption.
  - rewrite lookup_insert_ne in Hc' by congruence. apply (H2 _ _ _ Hc').
Qed.

Lemma ensure_service_NoOrph idx nd r s s' : ensure_service idx nd r s = Ok s' -> NoOrph s -> NoOrph s'.
Proof.
  intros He (A1 & A2 & A3). apply ensure_service_spec in He as (Hnd & vip & c & m & _ & Hs).
  apply (NoOrph_strip _ _ Hs). split; [|split; [|exact A3]]; cbn.
  - intros n' sid v' Hv. destruct (decide ((n', sid) = (nd, sr_id r))) as [[= -> ->]|Hne];
      [exact Hnd|rewrite lookup_insert_ne in Hv by congruence; eapply A1; exact Hv].
  - intros n' cid ck Hc. destruct (A2 n' cid ck Hc) as [Hx Hy]. split; [exact Hx|]. intros Hne.
    destruct (decide ((n', c_service ck) = (nd, sr_id r))) as [Heq|Hq];
      [rewrite Heq, lookup_insert; eauto|rewrite lookup_insert_ne by congruence; apply Hy; exact Hne].
Qed.

Lemma conf_set_NoOrph name c s s' : conf_set name c s = Ok s' -> NoOrph s -> NoOrph s'.
Proof. intros He H. apply conf_set_spec in He as [_ Hs]. apply (NoOrph_strip _ _ Hs). exact H. Qed.

Lemma conf_delete_NoOrph kind name s : NoOrph s -> NoOrph (conf_delete kind name s).
Proof.
  intros H. destruct (confs s !! (kind, name)) as [c|] eqn:Ec; [|rewrite conf_delete_None by exact Ec; exact H].
  destruct (conf_delete_spec kind name s c Ec) as [_ Hs]. apply (NoOrph_strip _ _ Hs). exact H.
Qed.

Theorem apply_NoOrph idx c s : NoOrph s -> NoOrph (apply idx c s).1.
Proof.
  apply (apply_lift NoOrph (fun _ _ => True) (fun _ _ => True)); [..|apply cmd_okP_trivial].
  - intros idx' nd r s0 s' _. apply ensure_service_NoOrph.
  - apply ensure_check_NoOrph.
  - apply delete_service_NoOrph.
  - apply delete_check_NoOrph.
  - apply delete_node_NoOrph.
  - intros nd n s0. apply NoOrph_insert_node.
  - intros n c0 s0 s' _. apply conf_set_NoOrph.
  - apply conf_delete_NoOrph.
  - intros n ips s0 H. rewrite assign_manual_vips. exact H.
  - intros nd s0 Hnd (H1 & H2 & H3). split; [exact H1|split; [exact H2|]]. intros n' Hin. cbn in Hin.
    apply elem_of_union in Hin as [Hin|Hin]; [apply elem_of_singleton in Hin; subst; exact Hnd|apply H3; exact Hin].
  - intros on s0 H. exact H.
  - intros u s0 H. exact H.
Qed.

Theorem deregister_node_cascade idx nd s :
  NoOrph s ->
  let s' := (apply idx (Deregister nd "" "") s).1 in
  nodes s' !! nd = None /\ nd ∉ coords s' /\
  (forall sid, services s' !! (nd, sid) = None) /\ (forall cid, checks s' !! (nd, cid) = None).
Proof.
  intros (H1 & H2 & H3). cbn zeta. change (apply idx (Deregister nd "" "") s).1 with (commit_usage s (delete_node nd s)).
  unfold commit_usage. cbn [nodes coords services checks set]. destruct (nodes s !! nd) as [n|] eqn:En.
  - destruct (delete_node_rows nd s) as (Hn & Hco & Hs & Hc); [eauto|]. cbn zeta in *. rewrite Hn, Hco, Hs, Hc.
    split; [apply lookup_delete|]. split; [set_solver|]. split; intros i; apply map_filter_lookup_None; right; intros x _ Hne; apply Hne; reflexivity.
  - rewrite delete_node_None by exact En. split; [exact En|]. split; [|split].
    + intros Hin. destruct (H3 _ Hin) as [n Hn]. congruence.
    + intros sid. destruct (services s !! (nd, sid)) as [v|] eqn:Ev; [|reflexivity]. destruct (H1 _ _ _ Ev) as [n Hn]. congruence.
    + intros cid. destruct (checks s !! (nd, cid)) as [c|] eqn:Ec; [|reflexivity]. destruct (H2 _ _ _ Ec) as [[n Hn] _]. congruence.
Qed.

Theorem deregister_service_cascade idx nd sid cid0 s :
  sid ≠ "" -> NoOrph s ->
  let s' := (apply idx (Deregister nd sid cid0) s).1 in
  services s' !! (nd, sid) = None /\ (forall cid c, checks s' !! (nd, cid) = Some c -> c_service c ≠ sid).
Proof.
  intros Hsid (_ & H2 & _). cbn zeta. unfold apply. cbn [exec]. rewrite bool_decide_eq_false_2 by exact Hsid. cbn [negb fst].
  unfold commit_usage. cbn [services checks set].
  destruct (delete_service_rows nd sid s) as (_ & _ & Hs & Hc). cbn zeta in *. rewrite Hs. split; [apply lookup_delete|].
  intros cid c Hck Heqs. destruct Hc as [[Hnone Hc]|[_ Hc]]; rewrite Hc in Hck.
  - destruct (H2 _ _ _ Hck) as [_ Hy]. rewrite Heqs in Hy. destruct (Hy Hsid) as [v Hv]. congruence.
  - apply map_filter_lookup_Some in Hck as [_ Hnot]. apply Hnot. split; [reflexivity|exact Heqs].
Qed.
