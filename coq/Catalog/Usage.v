(* The usage counters of the catalog model: what commit adds to each counter from the transaction's
   change set is exactly the change of the recomputed count, so the stored counters equal the counts
   recomputed from the node, service and config-entry rows; for the config-entry counters as long as
   an entry replaced in place keeps its kind ([conf_kinds_kept]).  (Until /repo 10e7cca the billable
   count went wrong when an instance was renamed to or from "consul".) *)
From stdpp Require Import gmap strings.
From RecordUpdate Require Import RecordSet.
From Coq Require Import NArith ZArith Lia.
From Verif Require Import Catalog.Model Catalog.Spec.
Import RecordSetNotations.
Local Open Scope Z_scope.

Section keysum.
  Context {K A : Type} `{Countable K}.

  Definition keysum (g : option A -> Z) (m : gmap K A) (L : list K) : Z :=
    foldr (fun k acc => acc + g (m !! k)) 0 L.

  Lemma keysum_perm g m L1 L2 : L1 ≡ₚ L2 -> keysum g m L1 = keysum g m L2.
  Proof. unfold keysum. induction 1; cbn; lia. Qed.

  Lemma keysum_ext g m1 m2 L : (forall k, k ∈ L -> m1 !! k = m2 !! k) -> keysum g m1 L = keysum g m2 L.
  Proof.
    unfold keysum. induction L as [|k L IH]; intros Hx; cbn; [reflexivity|].
    rewrite IH by (intros k' Hk'; apply Hx; right; exact Hk'). rewrite (Hx k) by left. reflexivity.
  Qed.

  Lemma keysum_none g m L : g None = 0 -> (forall k, k ∈ L -> m !! k = None) -> keysum g m L = 0.
  Proof.
    intros Hg. unfold keysum. induction L as [|k L IH]; intros Hx; cbn; [reflexivity|].
    rewrite IH by (intros k' Hk'; apply Hx; right; exact Hk'). rewrite (Hx k) by left. lia.
  Qed.

  Definition indo (P : A -> bool) (o : option A) : Z := match o with Some v => if P v then 1 else 0 | None => 0 end.

  Lemma keysum_count (P : A -> bool) (m : gmap K A) : forall X : gset K, dom m ⊆ X ->
    keysum (indo P) m (elements X) = Z.of_nat (size (filter (fun kv => P kv.2 = true) m)).
  Proof.
    induction m as [|i x m Hi IH] using map_ind; intros X HX.
    - rewrite keysum_none; [|reflexivity|intros k _; apply lookup_empty].
      rewrite map_filter_empty, map_size_empty. reflexivity.
    - assert (HiX : i ∈ X) by (apply HX, elem_of_dom; rewrite lookup_insert; eauto).
      set (Y := X ∖ {[i]}).
      assert (HXY : X = {[i]} ∪ Y) by (subst Y; apply union_difference_singleton_L; exact HiX).
      assert (HiY : i ∉ Y) by (subst Y; rewrite elem_of_difference, elem_of_singleton; tauto).
      rewrite HXY, (keysum_perm _ _ _ _ (elements_union_singleton Y i HiY)).
      change (keysum (indo P) (<[i:=x]> m) (i :: elements Y))
        with (keysum (indo P) (<[i:=x]> m) (elements Y) + indo P (<[i:=x]> m !! i)).
      rewrite lookup_insert. cbn [indo].
      rewrite (keysum_ext _ (<[i:=x]> m) m) by (intros k Hk; apply lookup_insert_ne; intros <-; apply HiY, elem_of_elements, Hk).
      rewrite IH.
      2:{ subst Y. intros k Hk. apply elem_of_difference. split; [apply HX; rewrite dom_insert; apply elem_of_union_r, Hk|].
          intros Hki. apply elem_of_singleton in Hki. subst k. apply elem_of_dom in Hk as [y Hy]. congruence. }
      rewrite map_filter_insert. destruct (decide (P (i, x).2 = true)) as [Hp|Hp]; cbn in Hp.
      + rewrite Hp. rewrite map_size_insert_None by (apply map_filter_lookup_None; left; exact Hi). lia.
      + destruct (P x); [congruence|]. rewrite delete_notin by exact Hi. lia.
  Qed.
End keysum.

Lemma sum_changes_keys {K A} `{Countable K} `{EqDecision A} (f : option A -> option A -> Z) (P : A -> bool)
      (before after : gmap K A) (L : list K) :
  (forall k, f (before !! k) (after !! k) = indo P (after !! k) - indo P (before !! k)) ->
  sum_changes f (omap (fun k => if bool_decide (before !! k = after !! k) then None else Some (before !! k, after !! k)) L) =
  keysum (indo P) after L - keysum (indo P) before L.
Proof.
  intros Hf. unfold sum_changes, keysum. induction L as [|k L IH]; cbn; [reflexivity|].
  destruct (bool_decide (before !! k = after !! k)) eqn:Eb.
  - apply bool_decide_eq_true in Eb. rewrite IH, Eb. lia.
  - cbn. rewrite IH, Hf. lia.
Qed.

Lemma sum_changes_count {K A} `{Countable K} `{EqDecision A} (f : option A -> option A -> Z) (P : A -> bool)
      (before after : gmap K A) :
  (forall k, f (before !! k) (after !! k) = indo P (after !! k) - indo P (before !! k)) ->
  sum_changes f (diff_rows before after) =
  Z.of_nat (size (filter (fun kv => P kv.2 = true) after)) - Z.of_nat (size (filter (fun kv => P kv.2 = true) before)).
Proof.
  intros Hf.
  rewrite <- (keysum_count P after (dom before ∪ dom after)) by set_solver.
  rewrite <- (keysum_count P before (dom before ∪ dom after)) by set_solver.
  apply (sum_changes_keys f P before after _ Hf).
Qed.

Lemma sum_changes_zero {A} (f : option A -> option A -> Z) l :
  (forall b a, (b, a) ∈ l -> f b a = 0) -> sum_changes f l = 0.
Proof.
  unfold sum_changes. induction l as [|[b a] l IH]; intros Hx; cbn; [reflexivity|].
  rewrite IH by (intros b' a' Hin; apply Hx; right; exact Hin). rewrite (Hx b a) by left. reflexivity.
Qed.

Lemma elem_of_diff_rows {K A} `{Countable K} `{EqDecision A} (before after : gmap K A) b a :
  (b, a) ∈ diff_rows before after -> exists k, b = before !! k /\ a = after !! k /\ b ≠ a.
Proof.
  unfold diff_rows. rewrite elem_of_list_omap. intros (k & _ & Hk).
  destruct (bool_decide (before !! k = after !! k)) eqn:Eb; [discriminate|].
  apply bool_decide_eq_false in Eb. injection Hk as <- <-. eauto.
Qed.

Lemma count_ext {K A} `{Countable K} (P Q : A -> bool) (m : gmap K A) : (forall v, P v = Q v) -> count P m = count Q m.
Proof. intros HPQ. unfold count. do 2 f_equal. apply map_filter_ext. intros k v _. cbn. rewrite HPQ. reflexivity. Qed.

Lemma count_const {K A} `{Countable K} (b : bool) (m : gmap K A) :
  count (fun _ => b) m = if b then N.of_nat (size m) else 0%N.
Proof.
  unfold count. destruct b.
  - rewrite map_filter_id; [reflexivity|]. intros; reflexivity.
  - rewrite (proj2 (map_filter_empty_iff _ m)), map_size_empty; [reflexivity|]. intros k v _. discriminate.
Qed.

Lemma count_none {K A} `{Countable K} (P : A -> bool) (m : gmap K A) : (forall v, P v = false) -> count P m = 0%N.
Proof. intros HP. rewrite (count_ext P (fun _ => false)) by exact HP. exact (count_const false m). Qed.

Lemma sum_changes_N {K A} `{Countable K} `{EqDecision A} (f : option A -> option A -> Z) (P : A -> bool)
      (before after : gmap K A) :
  (forall k, f (before !! k) (after !! k) = indo P (after !! k) - indo P (before !! k)) ->
  sum_changes f (diff_rows before after) = Z.of_N (count P after) - Z.of_N (count P before).
Proof. intros Hf. unfold count. rewrite !nat_N_Z. apply sum_changes_count, Hf. Qed.

Definition names_set (m : gmap (string * string) svc) : gset string :=
  list_to_set ((fun kv => sv_name kv.2) <$> map_to_list m).

Section names.
Implicit Types (n : string) (m before after : gmap (string * string) svc).

Lemma names_of_set s : names_of s = names_set (services s).
Proof. reflexivity. Qed.

Lemma elem_of_names_set n m : n ∈ names_set m <-> exists k v, m !! k = Some v /\ sv_name v = n.
Proof.
  unfold names_set. rewrite elem_of_list_to_set, elem_of_list_fmap. split.
  - intros ([k v] & -> & Hin). apply elem_of_map_to_list in Hin. eauto.
  - intros (k & v & Hk & <-). exists (k, v). split; [reflexivity|apply elem_of_map_to_list; exact Hk].
Qed.

Lemma instances_named_zero n m : instances_named n m = 0 <-> n ∉ names_set m.
Proof.
  rewrite elem_of_names_set. unfold instances_named.
  transitivity (filter (fun kv => sv_name kv.2 = n) m = ∅); [rewrite <- map_size_empty_iff; lia|].
  rewrite map_filter_empty_iff. split.
  - intros Hall (k & v & Hk & Hv). exact (Hall k v Hk Hv).
  - intros Hno k v Hk Hv. apply Hno. eauto.
Qed.

Lemma name_changes_sum n before after :
  sum_changes (name_contrib n) (diff_rows before after) = instances_named n after - instances_named n before.
Proof.
  rewrite (sum_changes_count _ (fun v => bool_decide (sv_name v = n))).
  - unfold instances_named. f_equal; f_equal; f_equal; apply map_filter_ext; intros k v _; cbn;
      rewrite bool_decide_eq_true; reflexivity.
  - intros k. unfold name_contrib, indo, ind. destruct (after !! k), (before !! k); lia.
Qed.

Lemma elem_of_changed_names n (l : list (option svc * option svc)) :
  n ∈ changed_names l <->
  exists b a, (b, a) ∈ l /\ ((exists x, b = Some x /\ sv_name x = n) \/ (exists y, a = Some y /\ sv_name y = n)).
Proof.
  unfold changed_names. rewrite elem_of_remove_dups, elem_of_list_join. split.
  - intros (l' & Hn & Hl'). apply elem_of_list_fmap in Hl' as ([b a] & -> & Hin). exists b, a. split; [exact Hin|].
    apply elem_of_app in Hn as [Hn|Hn].
    + destruct b as [x|]; [|inversion Hn]. apply elem_of_list_singleton in Hn. left. eauto.
    + destruct a as [y|]; [|inversion Hn]. apply elem_of_list_singleton in Hn. right. eauto.
  - intros (b & a & Hin & Hn). eexists. split; [|apply elem_of_list_fmap; exists (b, a); split; [reflexivity|exact Hin]].
    cbn. apply elem_of_app. destruct Hn as [(x & -> & <-)|(y & -> & <-)]; [left|right]; apply elem_of_list_singleton; reflexivity.
Qed.

Lemma unchanged_name n before after :
  n ∉ changed_names (diff_rows before after) -> instances_named n after = instances_named n before.
Proof.
  intros Hn. pose proof (name_changes_sum n before after) as Hs. rewrite sum_changes_zero in Hs; [lia|].
  intros b a Hin.
  assert (Hno : forall o, o = b \/ o = a -> match o with Some x => bool_decide (sv_name x = n) | None => false end = false).
  { intros [x|] Ho; [|reflexivity]. apply bool_decide_eq_false_2. intros Hx. apply Hn, elem_of_changed_names.
    exists b, a. split; [exact Hin|]. destruct Ho as [<-|<-]; eauto. }
  unfold name_contrib. rewrite (Hno a), (Hno b) by auto. reflexivity.
Qed.

Lemma unchanged_name_elem n before after :
  n ∉ changed_names (diff_rows before after) -> n ∉ names_set after <-> n ∉ names_set before.
Proof. intros Hn. rewrite <- !instances_named_zero, (unchanged_name n before after Hn). reflexivity. Qed.

Lemma changed_name_present n before after :
  n ∈ changed_names (diff_rows before after) -> n ∈ names_set before \/ n ∈ names_set after.
Proof.
  intros Hn. apply elem_of_changed_names in Hn as (b & a & Hin & Hn).
  apply elem_of_diff_rows in Hin as (k & -> & -> & _).
  destruct Hn as [(x & Hx & Hnm)|(y & Hy & Hnm)]; [left|right]; apply elem_of_names_set; eauto.
Qed.

Definition inset (n : string) (X : gset string) : Z := if bool_decide (n ∈ X) then 1 else 0.

Lemma sum_inset (X : gset string) (T : list string) : NoDup T ->
  foldr (fun n acc => acc + inset n X) 0 T = Z.of_nat (size (X ∩ list_to_set T)).
Proof.
  induction 1 as [|t T Ht Hnd IH]; cbn.
  - rewrite (right_absorb_L ∅ (∩)), size_empty. reflexivity.
  - rewrite IH. unfold inset. destruct (bool_decide (t ∈ X)) eqn:Et.
    + apply bool_decide_eq_true in Et.
      replace (X ∩ ({[t]} ∪ list_to_set T)) with ({[t]} ∪ X ∩ list_to_set T) by set_solver.
      assert (Hd : ({[t]} : gset string) ## X ∩ list_to_set T).
      { intros z Hz1 Hz2. apply elem_of_singleton in Hz1. subst z. apply Ht.
        apply elem_of_intersection in Hz2 as [_ Hz2]. apply elem_of_list_to_set in Hz2. exact Hz2. }
      rewrite (size_union _ _ Hd), size_singleton. lia.
    + apply bool_decide_eq_false in Et.
      replace (X ∩ ({[t]} ∪ list_to_set T)) with (X ∩ list_to_set T) by set_solver. lia.
Qed.

Lemma size_split (X TT : gset string) : size X = (size (X ∩ TT) + size (X ∖ TT))%nat.
Proof.
  assert (Hd : X ∩ TT ## X ∖ TT) by set_solver.
  rewrite <- (size_union _ _ Hd). f_equal. apply leibniz_equiv. intros z. destruct (decide (z ∈ TT)); set_solver.
Qed.

Lemma inset_names n m : inset n (names_set m) = if bool_decide (instances_named n m = 0) then 0 else 1.
Proof.
  unfold inset. rewrite (bool_decide_ext _ _ (instances_named_zero n m)), bool_decide_not.
  destruct (bool_decide _); reflexivity.
Qed.

(* over the touched names T the delta sums "present after" minus "present before" ([sum_inset]); a name
   outside T is present in both states or in neither ([unchanged_name_elem]); [size_split] glues the
   two parts *)
Lemma names_delta_spec before after :
  service_names_delta after (diff_rows before after) =
  Z.of_nat (size (names_set after)) - Z.of_nat (size (names_set before)).
Proof.
  set (l := diff_rows before after). set (T := changed_names l).
  assert (Hterm : service_names_delta after l =
                  foldr (fun n acc => acc + inset n (names_set after)) 0 T - foldr (fun n acc => acc + inset n (names_set before)) 0 T).
  { unfold service_names_delta. fold T.
    assert (Hall : forall n, n ∈ T -> n ∈ changed_names l) by tauto. revert Hall.
    generalize T. intros T0. induction T0 as [|n T0 IH]; intros Hall; cbn; [reflexivity|].
    rewrite IH by (intros n' Hn'; apply Hall; right; exact Hn').
    assert (Hpres : ~ (instances_named n after = 0 /\ instances_named n before = 0)).
    { rewrite !instances_named_zero. destruct (changed_name_present n before after) as [?|?]; [apply Hall; left|tauto..]. }
    subst l. rewrite name_changes_sum, !inset_names.
    rewrite (bool_decide_ext (_ = _ - _) (instances_named n before = 0)) by lia.
    repeat case_bool_decide; lia. }
  rewrite Hterm, !sum_inset by apply NoDup_remove_dups.
  rewrite (size_split (names_set after) (list_to_set T)), (size_split (names_set before) (list_to_set T)).
  assert (Hrest : names_set after ∖ list_to_set T = names_set before ∖ list_to_set T).
  { apply leibniz_equiv. intros n. rewrite !elem_of_difference, elem_of_list_to_set.
    split; intros [Hin Hnt]; (split; [|exact Hnt]); apply dec_stable; intros Hno;
      apply (unchanged_name_elem n before after Hnt) in Hno; exact (Hno Hin). }
  rewrite Hrest. lia.
Qed.

End names.

Definition billable (v : svc) : bool := bool_decide (sv_kind v = KTypical) && negb (bool_decide (sv_name v = consul_name)).

Definition svc_pred (id : string) (v : svc) : bool :=
  is_id id "services" || is_id id (connect_usage (sv_kind v)) && negb (typical v) ||
  is_id id native_usage && sv_native v || is_id id billable_usage && billable v.
Definition conf_pred (id : string) (c : conf) : bool := is_id id (conf_usage (conf_kind c)).

Lemma is_id_ne id x : id ≠ x -> is_id id x = false.
Proof. apply bool_decide_eq_false_2. Qed.

Lemma node_contrib_pred id b a :
  node_contrib id b a = indo (fun _ => is_id id "nodes") a - indo (fun _ => is_id id "nodes") b.
Proof. unfold node_contrib, indo. destruct (is_id id "nodes"), b, a; reflexivity. Qed.

Lemma conf_contrib_pred id b a : (forall x y, b = Some x -> a = Some y -> conf_pred id x = conf_pred id y) ->
  conf_contrib id b a = indo (conf_pred id) a - indo (conf_pred id) b.
Proof.
  intros Hk. destruct b as [x|], a as [y|]; cbn; [rewrite (Hk x y eq_refl eq_refl)|..]; unfold ind, conf_pred; lia.
Qed.

Lemma native_not_connect k : is_id native_usage (connect_usage k) = false.
Proof. destruct k; reflexivity. Qed.

(* the four tests of [svc_pred] exclude each other (of the pairs, only native vs connect-kind depends
   on the kind: [native_not_connect]) *)
Lemma indo_svc_pred id v : indo (svc_pred id) (Some v) =
  ind (is_id id "services") + ind (is_id id (connect_usage (sv_kind v)) && negb (typical v))
  + ind (is_id id native_usage && sv_native v) + ind (is_id id billable_usage && typical v && negb (is_consul v)).
Proof.
  unfold indo, svc_pred.
  destruct (decide (id = "services")) as [->|H1]; [reflexivity|].
  destruct (decide (id = native_usage)) as [->|H2]; [rewrite native_not_connect; destruct (sv_native v); reflexivity|].
  destruct (decide (id = billable_usage)) as [->|H3]; [reflexivity|].
  rewrite (is_id_ne _ _ H1), (is_id_ne _ _ H2), (is_id_ne _ _ H3). destruct (_ && _); reflexivity.
Qed.

(* a flag that changes from p to q, as the code computes the two steps *)
Lemma native_step (f p q : bool) :
  (if f then (if bool_decide (p = q) then 0 else if p then -1 else 1) else 0) = ind (f && q) - ind (f && p).
Proof. destruct f, p, q; reflexivity. Qed.
Lemma billable_step (f p q : bool) :
  (if f then (if negb p && q then 1 else if p && negb q then -1 else 0) else 0) = ind (f && q) - ind (f && p).
Proof. destruct f, p, q; reflexivity. Qed.

Lemma svc_contrib_pred id b a : svc_contrib id b a = indo (svc_pred id) a - indo (svc_pred id) b.
Proof.
  destruct b as [x|], a as [y|]; cbn [svc_contrib]; rewrite ?indo_svc_pred; cbn [indo]; [|lia..].
  rewrite native_step, billable_step, !andb_assoc. lia.
Qed.

Section tables.
Implicit Types (m : gmap (string * string) svc) (mc : gmap (string * string) conf).

Lemma svc_count_connect k m : k ≠ KTypical ->
  count (svc_pred (connect_usage k)) m = count (fun v => bool_decide (sv_kind v = k)) m.
Proof. intros Hk. apply count_ext. intros v. unfold svc_pred, typical. destruct k, (sv_kind v); try contradiction; reflexivity. Qed.

Lemma svc_count_native m : count (svc_pred native_usage) m = count sv_native m.
Proof.
  apply count_ext. intros v. unfold svc_pred. rewrite native_not_connect. destruct (sv_native v); reflexivity.
Qed.

Lemma conf_count_kind kind mc : count (conf_pred (conf_usage kind)) mc = count (fun c => bool_decide (conf_kind c = kind)) mc.
Proof.
  apply count_ext. intros c. apply bool_decide_ext. split; [intros Hk; symmetry; exact (inj _ _ _ Hk)|intros ->; reflexivity].
Qed.

Lemma svc_count_other id m : id ∉ usage_ids -> count (svc_pred id) m = 0%N.
Proof.
  intros Hn. apply count_none. intros v. unfold svc_pred, typical.
  rewrite (is_id_ne id "services"), (is_id_ne id native_usage), (is_id_ne id billable_usage)
    by (intros ->; apply Hn; compute_done).
  case_bool_decide as Hv; [cbn [negb]; rewrite andb_false_r; reflexivity|]. rewrite is_id_ne; [reflexivity|].
  intros ->. apply Hn. destruct (sv_kind v); [contradiction|compute_done..].
Qed.

Lemma conf_count_other id mc : id ∉ usage_ids -> count (conf_pred id) mc = 0%N.
Proof. intros Hn. apply count_none. intros c. apply is_id_ne. intros ->. apply Hn. destruct c; compute_done. Qed.

End tables.

Lemma if_id_ne {A} (id c : string) (x y z : A) : id ≠ c -> y = z -> (if bool_decide (id = c) then x else y) = z.
Proof. intros Hne <-. rewrite bool_decide_eq_false_2 by exact Hne. reflexivity. Qed.

Lemma recompute_usage_other s id : id ∉ usage_ids -> recompute_usage s id = 0%N.
Proof.
  intros Hn. unfold recompute_usage.
  repeat (apply if_id_ne; [intros ->; apply Hn; compute_done|]). reflexivity.
Qed.

(* The table over the closed ids.  A test of [svc_pred] or [conf_pred] on a closed id is decided by a
   prefix of the two strings, so e.g. [svc_pred "nodes"] and [conf_pred billable_usage] are convertible
   to [fun _ => false] and [svc_pred "services"] to [fun _ => true]: [count_const] rewrites them. *)
Lemma recompute_usage_sum s id : recompute_usage s id =
  ((if is_id id "nodes" then N.of_nat (size (nodes s)) else 0) + count (svc_pred id) (services s) +
   count (conf_pred id) (confs s) + (if is_id id "service-names" then N.of_nat (size (names_of s)) else 0))%N.
Proof.
  destruct (decide (id ∈ usage_ids)) as [Hin|Hn].
  - revert id Hin. apply Forall_forall. repeat apply Forall_cons_2; [..|apply Forall_nil_2]; cbv beta.
    1: rewrite (is_id_ne _ "service-names"), !(count_const false) by compute_done.
    2: rewrite !is_id_ne, (count_const true), (count_const false) by compute_done.
    3: rewrite (is_id_ne _ "nodes"), !(count_const false) by compute_done.
    4-7: rewrite !is_id_ne, svc_count_connect, (count_const false) by compute_done.
    8: rewrite !is_id_ne, svc_count_native, (count_const false) by compute_done.
    9: rewrite !is_id_ne, (count_const false) by compute_done.
    10-13: rewrite !is_id_ne, (count_const false), conf_count_kind by compute_done.
    all: cbv iota; rewrite ?N.add_0_r; reflexivity.
  - rewrite recompute_usage_other, svc_count_other, conf_count_other by assumption.
    rewrite !is_id_ne by (intros ->; apply Hn; compute_done). reflexivity.
Qed.

Definition conf_kinds_kept (id : string) (before after : st) : Prop :=
  forall k x y, confs before !! k = Some x -> confs after !! k = Some y -> conf_pred id x = conf_pred id y.

Lemma usage_delta_spec before after id : conf_kinds_kept id before after ->
  usage_delta before after id = Z.of_N (recompute_usage after id) - Z.of_N (recompute_usage before id).
Proof.
  intros Hk. rewrite !recompute_usage_sum, <- !(count_const (is_id id "nodes")), !N2Z.inj_add, !names_of_set.
  unfold usage_delta.
  rewrite (sum_changes_N _ (fun _ => is_id id "nodes")) by (intros; apply node_contrib_pred).
  rewrite (sum_changes_N _ (svc_pred id)) by (intros; apply svc_contrib_pred).
  rewrite (sum_changes_N _ (conf_pred id)) by (intros k; apply conf_contrib_pred, Hk).
  destruct (is_id id "service-names"); [rewrite names_delta_spec, !nat_N_Z|]; lia.
Qed.

Lemma lookup_list_to_map_fn (l : list string) (g : string -> N) id :
  (list_to_map ((fun i => (i, g i)) <$> l) : gmap string N) !! id = if decide (id ∈ l) then Some (g id) else None.
Proof.
  induction l as [|i l IH]; cbn.
  - rewrite decide_False by apply not_elem_of_nil. apply lookup_empty.
  - destruct (decide (id = i)) as [->|Hne].
    + rewrite lookup_insert, decide_True by left. reflexivity.
    + rewrite lookup_insert_ne, IH by congruence. apply decide_ext. rewrite elem_of_cons. tauto.
Qed.

Lemma usage_commit before after : usage (commit_usage before after) =
  list_to_map ((fun id => (id, Z.to_N (Z.max 0 (Z.of_N (stored_usage before id) + usage_delta before after id)))) <$> usage_ids).
Proof. reflexivity. Qed.

Lemma stored_usage_commit before after id : stored_usage (commit_usage before after) id =
  if decide (id ∈ usage_ids) then Z.to_N (Z.max 0 (Z.of_N (stored_usage before id) + usage_delta before after id)) else 0%N.
Proof. unfold stored_usage at 1. rewrite usage_commit, lookup_list_to_map_fn. destruct (decide _); reflexivity. Qed.

Lemma recompute_usage_commit before after id : recompute_usage (commit_usage before after) id = recompute_usage after id.
Proof. reflexivity. Qed.

Theorem commit_usage_at before after id : conf_kinds_kept id before after ->
  stored_usage before id = recompute_usage before id ->
  stored_usage (commit_usage before after) id = recompute_usage (commit_usage before after) id.
Proof.
  intros Hk Hb. rewrite stored_usage_commit, recompute_usage_commit. destruct (decide (id ∈ usage_ids)) as [Hin|Hn].
  - rewrite (usage_delta_spec _ _ _ Hk), Hb. lia.
  - symmetry. apply recompute_usage_other, Hn.
Qed.

Lemma usage_st0 id : stored_usage st0 id = recompute_usage st0 id.
Proof. rewrite recompute_usage_sum. destruct (is_id id "nodes"), (is_id id "service-names"); reflexivity. Qed.

(* the ids before the four config-entries-<kind> ids of [usage_ids]: no config entry counts for them, so
   their commit step needs no key invariant ([svc_ids_no_conf]) *)
Definition svc_usage_ids : list string := take 9 usage_ids.

Lemma svc_ids_no_conf id : id ∈ svc_usage_ids -> forall c, conf_pred id c = false.
Proof. intros Hin c. revert id Hin. apply Forall_forall. repeat constructor. Qed.
