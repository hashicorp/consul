(* Concrete histories for C07, replayed by the harness on the real store: those on which the faithful
   model violates a full-strength statement (marked STILL FALSE), and the regression cases of classes
   repaired in /repo, on which the statements hold. *)
From stdpp Require Import gmap strings.
From Coq Require Import NArith.
From Verif Require Import Catalog.Model.
Local Open Scope N_scope.

Definition proxy (id name dest : string) (ups : list string) : svcreq := SvcReq id name KProxy false dest 80 ups true 0.
Definition plain (id name : string) : svcreq := SvcReq id name KTypical false "" 80 [] true 0.
Definition native (id name : string) : svcreq := SvcReq id name KTypical true "" 80 [] true 0.

(* the proxy of "web" is registered (web gets address 1 and the proxy advertises it); a
   service-defaults entry for web is written and deleted again.  Before /repo 8e1bd1c the deletion
   freed web's address although the proxy still advertised it, and the next connect service, "db",
   was given address 1 too.  Now web keeps address 1 and db gets 2 (kept as a regression case: the
   harness corpus replays it on the real store on every run). *)
Definition vip_log : list (N * cmd) :=
  [ (2, SysMeta true);
    (3, Register "n1" "" 1 false (Some (proxy "s1" "web-proxy" "web" [])) []);
    (4, ConfSet "web" (CDefaults false));
    (5, ConfDelete "service-defaults" "web");
    (6, Register "n1" "" 1 false (Some (native "s2" "db")) []) ].

(* a name used by instances of two kinds (a proxy named "web" and a service "web"); the proxy's node is
   deregistered.  Before /repo 0bb54ea the (connect-proxy, web) row stayed; now the table agrees with
   the recomputation (regression case, replayed by the harness corpus). *)
Definition ksn_log : list (N * cmd) :=
  [ (3, Register "n2" "" 1 false (Some (proxy "s1" "web" "db" [])) []);
    (4, Register "n3" "" 1 false (Some (plain "s1" "web")) []);
    (5, Deregister "n2" "" "") ].

(* STILL FALSE (kind-service-names): an instance re-registered under another name (or kind): the old pair stays,
   because a re-registration never passes through deleteServiceTxn *)
Definition ksn_log2 : list (N * cmd) :=
  [ (3, Register "n1" "" 1 false (Some (plain "s1" "db")) []);
    (4, Register "n1" "" 1 false (Some (plain "s1" "web")) []) ].

(* a service-defaults entry loses its Destination by an update.  Before /repo 0d0f3e6 only the delete
   path removed the (destination, name) pair (and the gateway associations of the destination); now
   the update undoes them too (regression case, replayed by the harness corpus). *)
Definition ksn_log3 : list (N * cmd) :=
  [ (3, ConfSet "ext" (CDefaults true)); (4, ConfSet "ext" (CDefaults false)) ].

(* the same under a terminating wildcard: the wildcard row of the destination goes with it *)
Definition gws_dest_log : list (N * cmd) :=
  [ (3, ConfSet "tgw" (CTermGW ["*"])); (4, ConfSet "ext" (CDefaults true)); (5, ConfSet "ext" (CDefaults false)) ].

(* two proxy instances declare the same upstream; the second is deregistered.  Before /repo acb191c
   the row kept only the latest instance as its reference and disappeared with it; now it agrees with
   the recomputation after every step (regression case, replayed by the harness corpus). *)
Definition topo_log : list (N * cmd) :=
  [ (3, Register "n1" "" 1 false (Some (proxy "s1" "web-proxy" "web" ["db"])) []);
    (4, Register "n2" "" 1 false (Some (proxy "s1" "web-proxy" "web" ["db"])) []);
    (5, Deregister "n2" "s1" "") ].

(* STILL FALSE (mesh-topology 1): an instance that stops listing an upstream deletes the pair although another
   instance still declares it (updateMeshTopology: DeleteAll by (upstream, downstream)) *)
Definition topo_drop_log : list (N * cmd) :=
  [ (3, Register "n1" "" 1 false (Some (proxy "s1" "web-proxy" "web" ["db"])) []);
    (4, Register "n2" "" 1 false (Some (proxy "s1" "web-proxy" "web" ["db"])) []);
    (5, Register "n2" "" 1 false (Some (proxy "s1" "web-proxy" "web" [])) []) ].

(* STILL FALSE (mesh-topology 2): an instance re-registered as something that is not a proxy keeps its pairs
   (updateMeshTopology is only called for proxies and natives; nothing cleans the old rows) *)
Definition topo_redef_log : list (N * cmd) :=
  [ (3, Register "n1" "" 1 false (Some (proxy "s1" "web-proxy" "web" ["db"])) []);
    (4, Register "n1" "" 1 false (Some (plain "s1" "web-proxy")) []) ].

(* STILL FALSE (mesh-topology 3): an ingress gateway lists "web" on one listener and "*" on another; when the last
   connect instance of web goes, cleanupGatewayWildcards removes the wildcard-derived association and
   with it the (web, igw) pair, although the listed association still implies it *)
Definition topo_gw_log : list (N * cmd) :=
  [ (3, ConfSet "igw" (CIngressGW [(8080, ["web"]); (8081, ["*"])]));
    (4, Register "n1" "" 1 false (Some (native "s1" "web")) []);
    (5, Deregister "n1" "s1" "") ].

(* STILL FALSE (mesh-topology 4): a connect-native service registered with upstreams (Catalog.Register accepts it)
   gets pairs (upstream, "") -- the "downstream" is the proxy destination, empty for a native
   service -- and cleanupMeshTopology returns at once for anything that is not a connect-proxy: the
   pair and its reference outlive the instance *)
Definition topo_native_log : list (N * cmd) :=
  [ (3, Register "n1" "" 1 false (Some (SvcReq "s1" "web" KTypical true "" 80 ["db"] true 0)) []);
    (4, Deregister "n1" "s1" "") ].

(* a service listed next to the wildcard of the same entry registers and deregisters.  Before /repo
   a882280 the listed row became FromWildcard on registration and disappeared on deregistration; now
   it stays the listed row throughout (regression case, replayed by the harness corpus). *)
Definition gws_log : list (N * cmd) :=
  [ (3, ConfSet "tgw" (CTermGW ["web"; "*"]));
    (4, Register "n1" "" 1 false (Some (plain "s1" "web")) []);
    (5, Deregister "n1" "s1" "") ].

(* two terminating gateways list "ext"; a service-defaults entry with a destination is written.
   Before /repo 948377c only the first row learnt the new kind; now both do. *)
Definition gws_rows_log : list (N * cmd) :=
  [ (3, ConfSet "tgw" (CTermGW ["ext"])); (4, ConfSet "tgw2" (CTermGW ["ext"])); (5, ConfSet "ext" (CDefaults true)) ].

(* STILL FALSE (gateway-services; the logs of (1) and (2) are written out in Properties/C07.v from
   igw_conf / igw_proxy below): the table depends on the ORDER of writes when an INGRESS gateway has a wildcard.
   (1) the same two commands in both orders — a sidecar proxy of "db" (no instance named db) and an
       ingress entry with "*": the association (igw, db) exists only if the proxy registers AFTER the
       entry is written (registration path: any connect instance; config path: only names with a
       typical instance);
   (2) a service-defaults destination written BEFORE the wildcard ingress entry gets an association
       (updateGatewayNamespace adds destinations whatever the gateway kind), written after it does
       not. *)
Definition igw_conf : cmd := ConfSet "igw" (CIngressGW [(8080, ["*"])]).
Definition igw_proxy : cmd := Register "n1" "" 1 false (Some (proxy "s1" "db-proxy" "db" [])) [].

(* (3) an instance re-registered under another name leaves the wildcard-derived association of the old
   name behind (the cleanup runs only in deleteServiceTxn) *)
Definition gws_redef_log : list (N * cmd) :=
  [ (3, ConfSet "tgw" (CTermGW ["*"]));
    (4, Register "n1" "" 1 false (Some (plain "s1" "api")) []);
    (5, Register "n1" "" 1 false (Some (plain "s1" "web")) []) ].

(* a plain "web" (billable) and a proxy that is then renamed to "consul".  Before /repo 10e7cca the
   rename decremented the billable count to 0; now it stays 1 (regression case in the corpus). *)
Definition usage_log : list (N * cmd) :=
  [ (3, Register "n1" "" 1 false (Some (plain "s1" "web")) []);
    (4, Register "n1" "" 1 false (Some (proxy "s2" "p" "web" [])) []);
    (5, Register "n1" "" 1 false (Some (proxy "s2" "consul" "web" [])) []) ].

