(* Every counter of the usage table equals the count recomputed from the rows, in every reachable
   state.  For the config-entry counters (config-entries-<kind>) this needs a frame: only a
   config-entry write / delete changes the config-entry table, and a write stores the entry under the
   key (its own kind, its name); so the key of every stored entry names its kind, an update in place
   keeps the kind, and adds nothing to a counter. *)
From stdpp Require Import gmap strings.
From RecordUpdate Require Import RecordSet.
From Coq Require Import NArith.
From Verif Require Import Catalog.Model Catalog.Frames Catalog.Spec Catalog.Usage Catalog.Reach.
Import RecordSetNotations.
Local Open Scope N_scope.

Definition ConfKeyed (s : st) : Prop := forall k n c, confs s !! (k, n) = Some c -> k = conf_kind c.

Lemma ConfKeyed_ext a b : confs a = confs b -> ConfKeyed b -> ConfKeyed a.
Proof. unfold ConfKeyed. intros -> H. exact H. Qed.

Lemma ConfKeyed_st0 : ConfKeyed st0.
Proof. intros k n c H. cbn in H. rewrite lookup_empty in H. discriminate. Qed.

Theorem apply_ConfKeyed idx c s : ConfKeyed s -> ConfKeyed (apply idx c s).1.
Proof.
  apply (apply_lift_view ConfKeyed (fun _ _ => True) (fun _ _ => True)); [..|apply cmd_okP_trivial].
  - intros a b Hv. apply ConfKeyed_ext, view_confs, Hv.
  - intros idx' nd r s0 s' _ He. apply ensure_service_spec in He as (_ & vip & c0 & m & _ & Hs).
    apply ConfKeyed_ext. exact (f_equal confs Hs).
  - intros nd sid s0. destruct (services s0 !! (nd, sid)) as [v|] eqn:Ev; [|rewrite delete_service_None by exact Ev; tauto].
    destruct (delete_service_spec nd sid s0 v Ev) as [_ Hs]. apply ConfKeyed_ext. exact (f_equal confs Hs).
  - intros n c0 s0 s' _ He HK k n' c' Hc. apply conf_set_spec in He as [_ Hs].
    assert (Hcf : confs s' = <[(conf_kind c0, n) := c0]> (confs s0)) by exact (f_equal confs Hs).
    rewrite Hcf in Hc. apply lookup_insert_Some in Hc as [[[= <- <-] <-]|[_ Hc]]; [reflexivity|apply (HK k n' c' Hc)].
  - intros k n s0 HK. destruct (confs s0 !! (k, n)) as [c0|] eqn:Ec; [|rewrite conf_delete_None by exact Ec; exact HK].
    destruct (conf_delete_spec k n s0 c0 Ec) as [_ Hs]. cbn zeta in Hs. intros k' n' c' Hc.
    assert (Hcf : confs (conf_delete k n s0) = delete (k, n) (confs s0)) by exact (f_equal confs Hs).
    rewrite Hcf in Hc.
    apply lookup_delete_Some in Hc as [_ Hc]. apply (HK k' n' c' Hc).
  - intros n ips s0 H. rewrite assign_manual_vips. exact H.
Qed.

Definition conf_kinds : list string := ["terminating-gateway"; "ingress-gateway"; "service-defaults"; "service-resolver"].

Lemma ConfKeyed_kinds_kept id before after : ConfKeyed before -> ConfKeyed after -> conf_kinds_kept id before after.
Proof. intros Hb Ha [k n] x y Hx Hy. unfold conf_pred. rewrite <- (Hb k n x Hx), <- (Ha k n y Hy). reflexivity. Qed.

(* every row of the usage table, and every id it has no row for *)
Theorem usage_ok s : CReach s -> ConfKeyed s /\ forall id, stored_usage s id = recompute_usage s id.
Proof.
  induction 1 as [|idx c s _ [HK IH]]; [split; [apply ConfKeyed_st0|apply usage_st0]|].
  pose proof (apply_ConfKeyed idx c s HK) as HK'. split; [exact HK'|]. intros id. revert HK'. unfold apply.
  destruct (exec idx c s) as [s' r]. cbn [fst]. intros HK'.
  apply commit_usage_at; [|apply IH]. apply ConfKeyed_kinds_kept; [exact HK|exact HK'].
Qed.

(* non-vacuity: entries of three kinds written, one overwritten in place, one deleted; a counter
   that went up and came down again *)
Definition conf_usage_log : list (N * cmd) :=
  [ (3, ConfSet "tgw" (CTermGW ["web"; "*"]));
    (4, ConfSet "igw" (CIngressGW [(8080, ["web"])]));
    (5, ConfSet "ext" (CDefaults true));
    (6, ConfSet "web" (CDefaults false));
    (7, ConfSet "ext" (CDefaults false));
    (8, ConfSet "web" CResolver);
    (9, ConfDelete "ingress-gateway" "igw") ].

Example conf_usage_example :
  let s := (run conf_usage_log st0).1 in
  CReach s /\ stored_usage s (conf_usage "terminating-gateway") = 1 /\ stored_usage s (conf_usage "ingress-gateway") = 0 /\
  stored_usage s (conf_usage "service-defaults") = 2 /\ stored_usage s (conf_usage "service-resolver") = 1 /\
  stored_usage (run (take 2 conf_usage_log) st0).1 (conf_usage "ingress-gateway") = 1.
Proof.
  intros s. split; [apply CReach_run|].
  pattern s, (run (take 2 conf_usage_log) st0).1; eapply decide_at2; vm_compute; reflexivity.
Qed.
