(* C10 -- every conditional command of CAS/Model.v as an instance of the schema of CAS/Spec.v,
   at the FSM layer (what a client of the command sees), for ALL states and requests: per command
   the record W_.. and the equation or specification of its store function.  Honesty follows from
   these by [honest_attempt]; it is proved here where another file needs it, otherwise under the
   statement in Properties/C10.v.  Then: no stored index exceeds the index of the last command. *)
From stdpp Require Import gmap strings.
From RecordUpdate Require Import RecordSet.
From Coq Require Import NArith.
From Verif Require Import CAS.Model CAS.Spec.
Import RecordSetNotations.
Local Open Scope N_scope.

Definition att_state (a : attempt) (s : st) : st := match a with Applied s' => s' | _ => s end.
Definition att_ok (a : attempt) : bool := match a with Applied _ => true | _ => false end.
Definition is_true (r : res) : bool := match r with RBool true => true | _ => false end.
Definition is_nil (r : res) : bool := match r with RNil => true | _ => false end.

(* SPECIFICATION of "the expected index e matches": zero means "must not exist", anything else
   "must exist with exactly this modify index" (the documented set-if-not-exists convention) *)
Definition expect {A} (modify : A -> N) (ex : option A) (e : N) : bool :=
  match ex with
  | Some x => negb (bool_decide (e = 0)) && bool_decide (e = modify x)
  | None => bool_decide (e = 0)
  end.
(* the index a reader is shown: zero for an absent entity *)
Definition cur_index {A} (modify : A -> N) (ex : option A) : N :=
  match ex with Some x => modify x | None => 0 end.

(* the two notions agree on every state a Raft log can produce (stored rows carry an index >= 1) *)
Lemma expect_is_equality {A} (modify : A -> N) ex e :
  (forall x, ex = Some x -> modify x ≠ 0) -> expect modify ex e = bool_decide (cur_index modify ex = e).
Proof.
  intros Hpos. destruct ex as [x|]; cbn.
  - specialize (Hpos x eq_refl). repeat case_bool_decide; cbn; congruence.
  - repeat case_bool_decide; congruence.
Qed.

Lemma bool_result_fsm a s : (bool_result a s).1 = att_state a s /\ is_true (bool_result a s).2 = att_ok a.
Proof. destruct a; split; reflexivity. Qed.

(* The instances below have this shape: the command's state and report are those of an attempt of the
   store, and that attempt is applied exactly when the index matched and the write is acceptable,
   and then it is the write. *)
Lemma honest_attempt {C} (P : st -> C -> Prop) (W : cond_write st C) (att : st -> C -> attempt) :
  (forall s c, P s c -> cw_post W s c = att_state (att s c) s /\ cw_ok W s c = att_ok (att s c)) ->
  (forall s c, P s c -> match att s c with
                        | Applied s' => cw_matched W s c = true /\ cw_valid W s c = true /\ cw_write W s c = s'
                        | _ => cw_matched W s c = false \/ cw_valid W s c = false
                        end) ->
  honest_on P W.
Proof.
  intros Hfsm Hatt. apply honest_cases. intros s c Hp.
  destruct (Hfsm s c Hp) as [-> ->]. specialize (Hatt s c Hp).
  destruct (att s c); cbn; [destruct Hatt as (? & ? & ->)|..]; auto.
Qed.

(* the common case: the store function is "the write [w] if the index matched, else declined" *)
Lemma guarded_attempt (m : bool) (w : attempt) (s : st) :
  match (if m then w else Mismatch) with
  | Applied s' => m = true /\ att_ok w = true /\ att_state w s = s'
  | _ => m = false \/ att_ok w = false
  end.
Proof. destruct m; [destruct w|]; cbn; auto. Qed.

(* Visibility: every unconditional write stamps the command's index on the row it writes, so on a state
   whose stamp there is lower the write is not a rewrite of identical content. *)
Lemma stamped_effective {S C} (W : cond_write S C) (stamp : S -> option N) idx s c :
  stamp (cw_write W s c) = Some idx -> (forall n, stamp s = Some n -> n < idx) -> effective W s c.
Proof. intros Hw Hf Heq. rewrite Heq in Hw. specialize (Hf _ Hw). lia. Qed.

Lemma fresh_stamp {A} (f : A -> N) (o : option A) idx :
  (forall x, o = Some x -> f x < idx) -> forall n, f <$> o = Some n -> n < idx.
Proof. intros H n Hn. destruct o as [x|]; [|discriminate]. injection Hn as <-. apply H. reflexivity. Qed.

Lemma cfg_index_max k idx s : cfg (index_max k idx s) = cfg s.
Proof. unfold index_max. destruct (index s !! k); [destruct (_ <=? _)|]; reflexivity. Qed.

Section ConfigEntries.
  Variable graph_ok : gmap ckey centry -> ckey -> bool.

  (* upsert-cas and upsert-with-status-cas *)
  Record ureq := UReq { u_idx : N; u_key : ckey; u_content : N; u_status : N; u_cidx : N; u_with_status : bool }.
  Definition ucmd (c : ureq) : cmd :=
    if u_with_status c then CfgUpsertStatusCAS (u_key c) (u_content c) (u_status c) (u_cidx c)
    else CfgUpsertCAS (u_key c) (u_content c) (u_cidx c).
  Definition uwrite (c : ureq) (s : st) : attempt :=
    ensure_cfg graph_ok (u_idx c) (u_with_status c) (u_key c) (u_content c) (if u_with_status c then u_status c else 0) s.

  Definition W_cfg_upsert : cond_write st ureq :=
    CW (fun s c => (apply graph_ok (u_idx c) (ucmd c) s).1)
       (fun s c => is_true (apply graph_ok (u_idx c) (ucmd c) s).2)
       (fun s c => expect ce_modify (cfg s !! u_key c) (u_cidx c))
       (fun s c => att_ok (uwrite c s))
       (fun s c => att_state (uwrite c s) s).

  (* the three refusals of EnsureConfigEntryCAS together are "the expected index does not match" *)
  Lemma ensure_cfg_cas_eq idx cidx su k content status s :
    ensure_cfg_cas graph_ok idx cidx su k content status s =
    if expect ce_modify (cfg s !! k) cidx then ensure_cfg graph_ok idx su k content status s else Mismatch.
  Proof.
    unfold ensure_cfg_cas, expect. destruct (cfg s !! k) as [x|]; cbn;
      destruct (bool_decide (cidx = 0)); cbn; try reflexivity. destruct (bool_decide _); reflexivity.
  Qed.

  Theorem cfg_upsert_honest : honest W_cfg_upsert.
  Proof.
    apply (honest_attempt _ _ (fun s c => ensure_cfg_cas graph_ok (u_idx c) (u_cidx c) (u_with_status c) (u_key c)
                                            (u_content c) (if u_with_status c then u_status c else 0) s)).
    - intros s [idx k content status cidx []] _; apply (bool_result_fsm _ s).
    - intros s c _. rewrite ensure_cfg_cas_eq. apply (guarded_attempt _ _ s).
  Qed.

  (* delete-cas: there is something to delete and its index is the expected one *)
  Record dreq := DReq { d_idx : N; d_key : ckey; d_cidx : N }.
  Definition W_cfg_delete : cond_write st dreq :=
    CW (fun s c => (apply graph_ok (d_idx c) (CfgDeleteCAS (d_key c) (d_cidx c)) s).1)
       (fun s c => is_true (apply graph_ok (d_idx c) (CfgDeleteCAS (d_key c) (d_cidx c)) s).2)
       (fun s c => match cfg s !! d_key c with Some x => bool_decide (ce_modify x = d_cidx c) | None => false end)
       (fun s c => att_ok (delete_cfg graph_ok (d_idx c) (d_key c) s))
       (fun s c => att_state (delete_cfg graph_ok (d_idx c) (d_key c) s) s).

  Lemma delete_cfg_cas_eq idx cidx k s :
    delete_cfg_cas graph_ok idx cidx k s =
    if match cfg s !! k with Some x => bool_decide (ce_modify x = cidx) | None => false end
    then delete_cfg graph_ok idx k s else Mismatch.
  Proof. unfold delete_cfg_cas. destruct (cfg s !! k); [destruct (bool_decide _)|]; reflexivity. Qed.

  (* visibility: at a fresh index an accepted upsert always changes the entry (ModifyIndex := idx) *)
  Lemma ensure_cfg_stamp idx su k content status s s' :
    ensure_cfg graph_ok idx su k content status s = Applied s' -> ce_modify <$> cfg s' !! k = Some idx.
  Proof.
    unfold ensure_cfg. destruct (graph_ok _ _); [|discriminate]. intros H; injection H as <-.
    rewrite cfg_index_max. cbn. rewrite lookup_insert. reflexivity.
  Qed.

  Lemma ensure_cfg_decides idx su k content status s : ensure_cfg graph_ok idx su k content status s <> Mismatch.
  Proof. unfold ensure_cfg. destruct (graph_ok _ _); discriminate. Qed.

  Theorem cfg_upsert_effective s c :
    (forall x, cfg s !! u_key c = Some x -> ce_modify x < u_idx c) ->
    cw_valid W_cfg_upsert s c = true -> effective W_cfg_upsert s c.
  Proof.
    cbn. intros Hfresh Hv.
    apply (stamped_effective _ (fun t => ce_modify <$> cfg t !! u_key c) (u_idx c)); [|apply fresh_stamp, Hfresh].
    cbn. destruct (uwrite c s) eqn:E; [|discriminate..]. apply (ensure_cfg_stamp _ _ _ _ _ _ _ E).
  Qed.

  (* the RPC endpoints: what a client of ConfigEntry.Apply / Delete is told *)
  (* The unconditional write of this layer is ConfigEntry.Apply with a plain upsert, which itself is a
     no-op when the stored entry already equals the submitted one. *)
  Definition rcmd (c : ureq) : cmd := RpcCfgApply true (u_key c) (u_content c) (u_status c) (u_cidx c).
  Definition rplain (c : ureq) : cmd := RpcCfgApply false (u_key c) (u_content c) (u_status c) 0.
  Definition W_rpc_cfg_upsert : cond_write st ureq :=
    CW (fun s c => (apply graph_ok (u_idx c) (rcmd c) s).1)
       (fun s c => is_true (apply graph_ok (u_idx c) (rcmd c) s).2)
       (fun s c => expect ce_modify (cfg s !! u_key c) (u_cidx c))
       (fun s c => is_true (apply graph_ok (u_idx c) (rplain c) s).2)
       (fun s c => (apply graph_ok (u_idx c) (rplain c) s).1).
  (* stored rows carry a Raft index, which is never zero *)
  Definition stored_positive (s : st) (c : ureq) : Prop := forall x, cfg s !! u_key c = Some x -> ce_modify x <> 0.

  (* an upsert-cas is skipped when the plain upsert would be and its index is the stored one *)
  Lemma rpc_skip_upsert_cas cidx k content status s :
    rpc_skip_upsert true cidx k content status s =
    match cfg s !! k with Some x => bool_decide (cidx = ce_modify x) | None => false end
    && rpc_skip_upsert false 0 k content status s.
  Proof. unfold rpc_skip_upsert. destruct (cfg s !! k); [|reflexivity]. cbn. destruct (bool_decide _); reflexivity. Qed.

  (* Skipped: the index is the stored one, which is not zero, so it matched, and the plain upsert is
     skipped as well.  Not skipped: the FSM command decides, and on a match the plain upsert is not
     skipped either (it would be only for the stored index). *)
  Theorem rpc_cfg_upsert_honest : honest_on stored_positive W_rpc_cfg_upsert.
  Proof.
    apply (honest_attempt _ _ (fun s c =>
             if rpc_skip_upsert true (u_cidx c) (u_key c) (u_content c) (u_status c) s then Applied s
             else ensure_cfg_cas graph_ok (u_idx c) (u_cidx c) false (u_key c) (u_content c) 0 s)).
    - intros s c _. cbn. destruct (rpc_skip_upsert true _ _ _ _ _); [split; reflexivity|apply (bool_result_fsm _ s)].
    - intros s [idx k content status cidx ws] Hp. unfold stored_positive in Hp. cbn in *.
      rewrite rpc_skip_upsert_cas, ensure_cfg_cas_eq. unfold expect.
      destruct (cfg s !! k) as [x|] eqn:Ek.
      + specialize (Hp x eq_refl). case_bool_decide as Ec; cbn; [|rewrite andb_false_r; auto].
        rewrite (bool_decide_eq_false_2 (cidx = 0)) by congruence. cbn.
        destruct (rpc_skip_upsert false 0 k content status s); cbn; [auto|].
        unfold ensure_cfg. destruct (graph_ok _ _); cbn; auto.
      + unfold rpc_skip_upsert. rewrite Ek. cbn. destruct (bool_decide (cidx = 0)); cbn; [|auto].
        unfold ensure_cfg. destruct (graph_ok _ _); cbn; auto.
  Qed.

  Record rdreq := RDReq { rd_idx : N; rd_key : ckey; rd_cidx : N }.
  Definition W_rpc_cfg_delete : cond_write st rdreq :=
    CW (fun s c => (apply graph_ok (rd_idx c) (RpcCfgDelete true (rd_key c) (rd_cidx c)) s).1)
       (fun s c => is_true (apply graph_ok (rd_idx c) (RpcCfgDelete true (rd_key c) (rd_cidx c)) s).2)
       (fun s c => match cfg s !! rd_key c with Some x => bool_decide (ce_modify x = rd_cidx c) | None => false end)
       (fun s c => att_ok (delete_cfg graph_ok (rd_idx c) (rd_key c) s))
       (fun s c => att_state (delete_cfg graph_ok (rd_idx c) (rd_key c) s) s).

End ConfigEntries.

(* regression: the two inputs that were answered "true" before fbf8c12 *)
Definition rpc_witness_state : st := (apply (fun _ _ => true) 5 (CfgUpsert ("service-defaults", "web") 1) st0).1.
Definition rpc_witness_cmd : ureq := UReq 9 ("service-defaults", "web") 1 0 3 false.   (* expects index 3; the entry is at 5 *)

Example rpc_regression :
  apply (fun _ _ => true) 9 (rcmd rpc_witness_cmd) rpc_witness_state = (rpc_witness_state, RBool false) /\
  apply (fun _ _ => true) 9 (RpcCfgApply true ("service-defaults", "web") 1 0 0) rpc_witness_state = (rpc_witness_state, RBool false) /\
  apply (fun _ _ => true) 9 (RpcCfgApply true ("service-defaults", "web") 1 0 5) rpc_witness_state = (rpc_witness_state, RBool true) /\
  apply (fun _ _ => true) 5 (RpcCfgDelete true ("service-defaults", "web") 3) st0 = (st0, RBool false) /\
  stored_positive rpc_witness_state rpc_witness_cmd.
Proof.
  repeat split; try (vm_compute; reflexivity).
  intros x Hx. vm_compute in Hx. injection Hx as <-. discriminate.
Qed.

Record careq := CAReq { ca_idx : N; ca_cluster : string; ca_provider : N; ca_cidx : N }.
Definition cacmd (c : careq) : cmd := CASetConfig (ca_cluster c) (ca_provider c) (ca_cidx c).

(* caCheckConfigIndexTxn compares with the index a reader is shown *)
Lemma ca_check_index_eq cidx s : ca_check_index cidx s = bool_decide (cur_index cc_modify (ca_config s) = cidx).
Proof. unfold ca_check_index. destruct (ca_config s); [reflexivity|]. apply bool_decide_ext. cbn. split; congruence. Qed.

(* the store method CACheckAndSetConfig: mismatch is an error, never a silent no-op *)
Theorem ca_check_and_set_config_spec idx cidx cluster provider s :
  match ca_check_and_set_config idx cidx cluster provider s with
  | Applied s' => cur_index cc_modify (ca_config s) = cidx /\ s' = ca_set_config_txn idx cluster provider s
  | Mismatch => False
  | Failed e => e = ECAConfigIndex /\ cur_index cc_modify (ca_config s) ≠ cidx
  end.
Proof.
  unfold ca_check_and_set_config. rewrite ca_check_index_eq. case_bool_decide; auto.
Qed.

(* the FSM command: an expected index of zero means "no check" (unconditional write, result nil) *)
Definition W_ca_config : cond_write st careq :=
  CW (fun s c => (apply (fun _ _ => true) (ca_idx c) (cacmd c) s).1)
     (fun s c => let r := (apply (fun _ _ => true) (ca_idx c) (cacmd c) s).2 in is_true r || is_nil r)
     (fun s c => bool_decide (ca_cidx c = 0) || bool_decide (cur_index cc_modify (ca_config s) = ca_cidx c))
     (fun _ _ => true)
     (fun s c => ca_set_config_txn (ca_idx c) (ca_cluster c) (ca_provider c) s).

(* the FSM's dispatch on the expected index, as one attempt *)
Lemma ca_config_apply c s :
  apply (fun _ _ => true) (ca_idx c) (cacmd c) s =
  let w := ca_set_config_txn (ca_idx c) (ca_cluster c) (ca_provider c) s in
  if bool_decide (ca_cidx c = 0) then (w, RNil)
  else if bool_decide (cur_index cc_modify (ca_config s) = ca_cidx c) then (w, RBool true)
  else (s, RErr ECAConfigIndex).
Proof.
  cbn. unfold ca_check_and_set_config. rewrite ca_check_index_eq.
  destruct (bool_decide (ca_cidx c = 0)); [|destruct (bool_decide _)]; reflexivity.
Qed.

Record rreq := RReq { rr_idx : N; rr_cidx : N; rr_roots : list rootreq }.
Definition roots_valid (rs : list rootreq) : bool :=
  bool_decide (count_active rs = 1%nat) && negb (active_overwritten rs) && negb (existsb (fun r => bool_decide (r.1 = "")) rs).
Definition roots_write (idx : N) (rs : list rootreq) (s : st) : st :=
  index_set ix_roots idx (s <| ca_roots := insert_roots idx (ca_roots s) rs |>).

Definition W_ca_roots : cond_write st rreq :=
  CW (fun s c => (apply (fun _ _ => true) (rr_idx c) (CASetRoots (rr_cidx c) (rr_roots c)) s).1)
     (fun s c => is_true (apply (fun _ _ => true) (rr_idx c) (CASetRoots (rr_cidx c) (rr_roots c)) s).2)
     (fun s c => bool_decide (max_index ix_roots s = rr_cidx c))
     (fun s c => roots_valid (rr_roots c))
     (fun s c => if roots_valid (rr_roots c) then roots_write (rr_idx c) (rr_roots c) s else s).

(* caRootCheckAndSetTxn validates the list on both sides of the index comparison: it fails only on an
   invalid list, declines only on a stale index, and otherwise is the write *)
Lemma ca_root_check_and_set_spec idx cidx rs s :
  match ca_root_check_and_set idx cidx rs s with
  | Applied s' => max_index ix_roots s = cidx /\ roots_valid rs = true /\ s' = roots_write idx rs s
  | Mismatch => max_index ix_roots s <> cidx
  | Failed _ => roots_valid rs = false
  end.
Proof.
  unfold ca_root_check_and_set, roots_valid.
  case_bool_decide as Hn; cbn; [|reflexivity]. destruct (active_overwritten rs); cbn; [reflexivity|].
  case_bool_decide; cbn; [|auto]. destruct (existsb _ _); cbn; auto.
Qed.

Record rcreq := RCReq { rc_idx : N; rc_cidx : N; rc_roots : list rootreq;
                        rc_cluster : string; rc_provider : N; rc_cfgidx : N }.
Definition rccmd (c : rcreq) : cmd :=
  CASetRootsAndConfig (rc_cidx c) (rc_roots c) (rc_cluster c) (rc_provider c) (rc_cfgidx c).
Definition rc_write (c : rcreq) (s : st) : st :=
  ca_set_config_txn (rc_idx c) (rc_cluster c) (rc_provider c) (roots_write (rc_idx c) (rc_roots c) s).

Definition W_roots_config : cond_write st rcreq :=
  CW (fun s c => (apply (fun _ _ => true) (rc_idx c) (rccmd c) s).1)
     (fun s c => is_true (apply (fun _ _ => true) (rc_idx c) (rccmd c) s).2)
     (fun s c => bool_decide (max_index ix_roots s = rc_cidx c)
                 && bool_decide (cur_index cc_modify (ca_config s) = rc_cfgidx c))
     (fun s c => roots_valid (rc_roots c))
     (fun s c => if roots_valid (rc_roots c) then rc_write c s else s).

(* the composite looks at the configuration only once the roots part went through, and the roots
   write does not touch the configuration *)
Theorem roots_config_honest : honest W_roots_config.
Proof.
  apply (honest_attempt _ _ (fun s c => ca_roots_and_config_cas (rc_idx c) (rc_cidx c) (rc_roots c) (rc_cluster c)
                                          (rc_provider c) (rc_cfgidx c) s)).
  - intros s c _. apply (bool_result_fsm _ s).
  - intros s c _. cbn. unfold ca_roots_and_config_cas.
    pose proof (ca_root_check_and_set_spec (rc_idx c) (rc_cidx c) (rc_roots c) s) as H.
    destruct (ca_root_check_and_set _ _ _ s) as [s1| |e].
    + destruct H as (Hm & -> & ->). rewrite (bool_decide_eq_true_2 _ Hm), ca_check_index_eq. cbn.
      destruct (bool_decide _); cbn; auto.
    + left. rewrite (bool_decide_eq_false_2 _ H). reflexivity.
    + right. exact H.
Qed.

Definition roots_part (s : st) := (ca_roots s, index s !! ix_roots).

(* atomicity, stated on the two parts: whatever the two expected indexes and the request are, the
   roots were replaced iff the configuration was replaced *)
Theorem roots_config_atomic s c :
  (max_index ix_roots s < rc_idx c) -> (forall x, ca_config s = Some x -> cc_modify x < rc_idx c) ->
  let s' := cw_post W_roots_config s c in
  (roots_part s' ≠ roots_part s <-> ca_config s' ≠ ca_config s).
Proof.
  intros Hr Hc s'. subst s'.
  destruct (all_or_nothing _ _ s c roots_config_honest I) as [->| ->]; [tauto|]. cbn.
  destruct (roots_valid (rc_roots c)); [|tauto].
  (* the write stamps both parts with the command's index, which neither carries yet *)
  assert (H1 : cc_modify <$> ca_config (rc_write c s) = Some (rc_idx c)).
  { unfold rc_write, ca_set_config_txn. destruct (ca_config _); reflexivity. }
  assert (H2 : index (rc_write c s) !! ix_roots = Some (rc_idx c)).
  { unfold rc_write, ca_set_config_txn. destruct (ca_config _); apply lookup_insert. }
  split; intros _ Heq.
  - rewrite Heq in H1. apply (fresh_stamp _ _ _ Hc) in H1. lia.
  - injection Heq as _ Heq. rewrite Heq in H2. unfold max_index in Hr. rewrite H2 in Hr. cbn in Hr. lia.
Qed.

Record apreq := APReq { ar_idx : N; ar_payload : N; ar_cidx : N }.
Definition W_autopilot : cond_write st apreq :=
  CW (fun s c => (apply (fun _ _ => true) (ar_idx c) (Autopilot true (ar_payload c) (ar_cidx c)) s).1)
     (fun s c => is_true (apply (fun _ _ => true) (ar_idx c) (Autopilot true (ar_payload c) (ar_cidx c)) s).2)
     (fun s c => bool_decide (cur_index ap_modify (autopilot s) = ar_cidx c))
     (fun _ _ => true)
     (fun s c => autopilot_set_txn (ar_idx c) (ar_payload c) s).

(* index zero stands for "no configuration stored", as AutopilotConfig() shows it to a reader *)
Lemma autopilot_cas_eq idx cidx payload s :
  autopilot_cas idx cidx payload s =
  if bool_decide (cur_index ap_modify (autopilot s) = cidx) then Applied (autopilot_set_txn idx payload s) else Mismatch.
Proof.
  unfold autopilot_cas. destruct (autopilot s); cbn; [destruct (bool_decide _); reflexivity|].
  rewrite (bool_decide_ext (0 = cidx) (cidx = 0)) by (split; congruence). destruct (bool_decide _); reflexivity.
Qed.

(* ACL token set with the CAS option *)
Record tkreq := TKReq { tk_idx : N; tk_req : tokreq }.
Definition tkcmd (c : tkreq) : cmd := TokenSet true [tk_req c].

(* the write without the option: ACLTokenBatchSet with CAS = false *)
Definition token_write (c : tkreq) (s : st) : attempt := token_set_txn (tk_idx c) false (tk_req c) s.

Definition W_token : cond_write st tkreq :=
  CW (fun s c => (apply (fun _ _ => true) (tk_idx c) (tkcmd c) s).1)
     (fun s c => is_nil (apply (fun _ _ => true) (tk_idx c) (tkcmd c) s).2)
     (fun s c => expect t_modify (tokens s !! tq_accessor (tk_req c)) (tq_index (tk_req c)))
     (fun s c => att_ok (token_write c s))
     (fun s c => att_state (token_write c s) s).

Definition well_formed (q : tokreq) : Prop := tq_secret q ≠ "" /\ tq_accessor q ≠ "".

(* with the option the store function is guarded like the others; what differs is one level up, where
   ACLTokenBatchSet makes nothing of the refusal *)
Lemma token_set_cas_eq idx q s :
  well_formed q ->
  token_set_txn idx true q s =
  if expect t_modify (tokens s !! tq_accessor q) (tq_index q) then token_set_txn idx false q s else Mismatch.
Proof.
  intros [Hs Ha]. unfold token_set_txn, expect.
  rewrite (bool_decide_eq_false_2 _ Hs), (bool_decide_eq_false_2 _ Ha).
  destruct (tokens s !! tq_accessor q) as [o|]; cbn; destruct (bool_decide (tq_index q = 0)); cbn; try reflexivity.
  destruct (bool_decide (tq_index q = t_modify o)); reflexivity.
Qed.

(* without the option nothing is declined *)
Lemma token_set_plain_decides idx q s : token_set_txn idx false q s <> Mismatch.
Proof.
  unfold token_set_txn. destruct (bool_decide _); [discriminate|]. destruct (bool_decide _); [discriminate|]. cbn.
  destruct (tokens s !! tq_accessor q); [destruct (negb _)|]; discriminate.
Qed.

Definition tok_witness_state : st := (apply (fun _ _ => true) 5 (TokenSet false [TokReq "t1" "s1" 1 0]) st0).1.
Definition tok_witness_cmd : tkreq := TKReq 9 (TokReq "t1" "s1" 2 3).   (* expects index 3; the token is at 5 *)

(* in a batch the refused token is skipped silently while its neighbours are written *)
Example token_batch_skips :
  let s := tok_witness_state in
  let r := apply (fun _ _ => true) 9 (TokenSet true [TokReq "t1" "s1" 2 3; TokReq "t2" "s2" 7 0]) s in
  r.2 = RNil /\ tokens r.1 !! "t1" = tokens s !! "t1" /\ (t_descr <$> tokens r.1 !! "t2") = Some 7.
Proof. repeat split; vm_compute; reflexivity. Qed.

Record fgreq := FGReq { fg_idx : N; fg_pol : option N; fg_stat : option N; fg_epi : N; fg_esi : N }.
Definition fgcmd (c : fgreq) : cmd := FeatureGate (fg_pol c) (fg_stat c) (fg_epi c) (fg_esi c).
Definition fg_valid (c : fgreq) (s : st) : bool :=
  bool_decide (is_Some (fg_stat c)) && (bool_decide (is_Some (fg_pol c)) || bool_decide (is_Some (fg_policy s))).
(* the write: status always, policy when supplied; the status names the index of the policy it was
   resolved from *)
Definition fg_write (c : fgreq) (s : st) : st :=
  match fg_stat c with
  | None => s
  | Some sp =>
    let screate := match fg_status s with Some t => fs_create t | None => fg_idx c end in
    match fg_pol c with
    | Some pp =>
      s <| fg_policy := Some (FGP pp (match fg_policy s with Some p => fp_create p | None => fg_idx c end) (fg_idx c)) |>
        <| fg_status := Some (FGS sp (fg_idx c) screate (fg_idx c)) |>
    | None =>
      match fg_policy s with
      | Some p => s <| fg_status := Some (FGS sp (fp_modify p) screate (fg_idx c)) |>
      | None => s
      end
    end
  end.

Definition W_feature_gate : cond_write st fgreq :=
  CW (fun s c => (apply (fun _ _ => true) (fg_idx c) (fgcmd c) s).1)
     (fun s c => is_true (apply (fun _ _ => true) (fg_idx c) (fgcmd c) s).2)
     (fun s c => bool_decide (cur_index fp_modify (fg_policy s) = fg_epi c)
                 && bool_decide (cur_index fs_modify (fg_status s) = fg_esi c))
     (fun s c => fg_valid c s)
     (fun s c => fg_write c s).

(* Raft indexes only grow: no stored index exceeds that of the last command *)
Definition bounded (n : N) (s : st) : Prop :=
  map_Forall (fun _ x => ce_modify x <= n) (cfg s) /\
  from_option (fun x => cc_modify x <= n) True (ca_config s) /\
  map_Forall (fun _ x => r_modify x <= n) (ca_roots s) /\
  from_option (fun x => ap_modify x <= n) True (autopilot s) /\
  map_Forall (fun _ x => t_modify x <= n) (tokens s) /\
  from_option (fun x => fp_modify x <= n) True (fg_policy s) /\
  from_option (fun x => fs_modify x <= n) True (fg_status s) /\
  map_Forall (fun _ v => v <= n) (index s).

Lemma bounded_st0 n : bounded n st0.
Proof. repeat split; cbn; try apply map_Forall_empty; exact I. Qed.

Lemma from_option_le_mono {A} (f : A -> N) n m (o : option A) :
  n <= m -> from_option (fun x => f x <= n) True o -> from_option (fun x => f x <= m) True o.
Proof. intros Hle. destruct o; cbn; [lia|auto]. Qed.

Lemma bounded_mono n m s : n <= m -> bounded n s -> bounded m s.
Proof.
  intros Hle (H1 & H2 & H3 & H4 & H5 & H6 & H7 & H8).
  repeat split; first [eapply from_option_le_mono; eassumption
                      |eapply map_Forall_impl; [eassumption|cbn; intros; lia]].
Qed.

Lemma bounded_index_set k n s : bounded n s -> bounded n (index_set k n s).
Proof.
  intros (H1 & H2 & H3 & H4 & H5 & H6 & H7 & H8). repeat split; try assumption.
  cbn. apply map_Forall_insert_2; [lia|assumption].
Qed.

Lemma bounded_index_max k n s : bounded n s -> bounded n (index_max k n s).
Proof.
  intros Hb. unfold index_max. destruct (index s !! k); [destruct (_ <=? _)|]; try assumption;
    apply bounded_index_set; assumption.
Qed.

Ltac bounded_parts Hb :=
  let H1 := fresh "Hcfg" in let H2 := fresh "Hca" in let H3 := fresh "Hroots" in let H4 := fresh "Hap" in
  let H5 := fresh "Htok" in let H6 := fresh "Hfp" in let H7 := fresh "Hfs" in let H8 := fresh "Hix" in
  destruct Hb as (H1 & H2 & H3 & H4 & H5 & H6 & H7 & H8).

Lemma insert_roots_bounded idx old rs : map_Forall (fun _ x => r_modify x <= idx) (insert_roots idx old rs).
Proof.
  unfold insert_roots. generalize (∅ : gmap string root) (map_Forall_empty (fun (_ : string) x => r_modify x <= idx)).
  induction rs as [|r rs IH]; intros m Hm; cbn; [assumption|].
  apply IH. apply map_Forall_insert_2; [cbn; lia|assumption].
Qed.

Section Bounded.
  Variable graph_ok : gmap ckey centry -> ckey -> bool.

  Lemma cfg_insert_bounded idx k e s :
    bounded idx s -> ce_modify e <= idx -> bounded idx (index_max ix_config idx (s <| cfg ::= <[k := e]> |>)).
  Proof.
    intros Hb He. apply bounded_index_max. bounded_parts Hb; repeat split; try assumption.
    cbn. apply map_Forall_insert_2; assumption.
  Qed.
  Lemma cfg_delete_bounded idx k s :
    bounded idx s -> bounded idx (index_set ix_config idx (s <| cfg ::= delete k |>)).
  Proof.
    intros Hb. apply bounded_index_set. bounded_parts Hb; repeat split; try assumption. cbn. apply map_Forall_delete. assumption.
  Qed.
  Lemma token_insert_bounded idx a t s :
    bounded idx s -> t_modify t <= idx -> bounded idx (index_max ix_tokens idx (s <| tokens ::= <[a := t]> |>)).
  Proof.
    intros Hb Ht. apply bounded_index_max. bounded_parts Hb; repeat split; try assumption.
    cbn. apply map_Forall_insert_2; assumption.
  Qed.
  Lemma roots_write_bounded idx rs s : bounded idx s -> bounded idx (roots_write idx rs s).
  Proof.
    intros Hb. apply bounded_index_set. bounded_parts Hb; repeat split; try assumption. cbn. apply insert_roots_bounded.
  Qed.
  Lemma ca_set_config_bounded idx cl pr s : bounded idx s -> bounded idx (ca_set_config_txn idx cl pr s).
  Proof. intros Hb. unfold ca_set_config_txn. bounded_parts Hb. destruct (ca_config s); repeat split; try assumption; cbn; lia. Qed.
  Lemma autopilot_set_bounded idx payload s : bounded idx s -> bounded idx (autopilot_set_txn idx payload s).
  Proof. intros Hb. bounded_parts Hb. repeat split; try assumption; cbn; lia. Qed.

  Lemma ensure_cfg_bounded idx su k content status s s' :
    bounded idx s -> ensure_cfg graph_ok idx su k content status s = Applied s' -> bounded idx s'.
  Proof.
    intros Hb. unfold ensure_cfg. destruct (graph_ok _ _); [|discriminate]. intros [= <-].
    apply cfg_insert_bounded; [assumption|cbn; lia].
  Qed.
  Lemma ensure_cfg_cas_bounded idx cidx su k content status s s' :
    bounded idx s -> ensure_cfg_cas graph_ok idx cidx su k content status s = Applied s' -> bounded idx s'.
  Proof. intros Hb. rewrite ensure_cfg_cas_eq. destruct (expect _ _ _); [apply ensure_cfg_bounded, Hb|discriminate]. Qed.
  Lemma delete_cfg_bounded idx k s s' :
    bounded idx s -> delete_cfg graph_ok idx k s = Applied s' -> bounded idx s'.
  Proof.
    intros Hb. unfold delete_cfg. destruct (cfg s !! k); [|intros [= <-]; assumption].
    destruct (graph_ok _ _); [|discriminate]. intros [= <-]. apply cfg_delete_bounded, Hb.
  Qed.
  Lemma delete_cfg_cas_bounded idx cidx k s s' :
    bounded idx s -> delete_cfg_cas graph_ok idx cidx k s = Applied s' -> bounded idx s'.
  Proof.
    intros Hb. rewrite delete_cfg_cas_eq. destruct (match cfg s !! k with Some _ => _ | None => _ end);
      [apply delete_cfg_bounded, Hb|discriminate].
  Qed.
  Lemma ca_check_and_set_config_bounded idx cidx cl pr s s' :
    bounded idx s -> ca_check_and_set_config idx cidx cl pr s = Applied s' -> bounded idx s'.
  Proof.
    intros Hb. unfold ca_check_and_set_config. destruct (ca_check_index _ _); [|discriminate].
    intros [= <-]. apply ca_set_config_bounded, Hb.
  Qed.
  Lemma ca_root_bounded idx cidx rs s s' :
    bounded idx s -> ca_root_check_and_set idx cidx rs s = Applied s' -> bounded idx s'.
  Proof.
    intros Hb E. pose proof (ca_root_check_and_set_spec idx cidx rs s) as H. rewrite E in H.
    destruct H as (_ & _ & ->). apply roots_write_bounded, Hb.
  Qed.
  Lemma roots_and_config_bounded idx cidx rs cl pr cfgidx s s' :
    bounded idx s -> ca_roots_and_config_cas idx cidx rs cl pr cfgidx s = Applied s' -> bounded idx s'.
  Proof.
    intros Hb. unfold ca_roots_and_config_cas. destruct (ca_root_check_and_set idx cidx rs s) as [s1| |e] eqn:E; try discriminate.
    destruct (ca_check_index _ _); [|discriminate]. intros [= <-].
    apply ca_set_config_bounded, (ca_root_bounded _ _ _ _ _ Hb E).
  Qed.
  Lemma autopilot_cas_bounded idx cidx payload s s' :
    bounded idx s -> autopilot_cas idx cidx payload s = Applied s' -> bounded idx s'.
  Proof.
    intros Hb. rewrite autopilot_cas_eq. destruct (bool_decide _); [|discriminate].
    intros [= <-]. apply autopilot_set_bounded, Hb.
  Qed.
  Lemma token_set_bounded idx cas q s s' :
    bounded idx s -> token_set_txn idx cas q s = Applied s' -> bounded idx s'.
  Proof.
    intros Hb. unfold token_set_txn. do 2 (destruct (bool_decide _); [discriminate|]).
    destruct (_ && _); [discriminate|].
    destruct (tokens s !! tq_accessor q); [destruct (negb _); [discriminate|]|];
      intros [= <-]; apply token_insert_bounded; try assumption; cbn; lia.
  Qed.
  Lemma token_batch_bounded idx cas qs : forall s s',
    bounded idx s -> token_batch_set idx cas qs s = Applied s' -> bounded idx s'.
  Proof.
    induction qs as [|q qs IH]; intros s s' Hb; cbn.
    - intros [= <-]; assumption.
    - destruct (token_set_txn idx cas q s) as [s1| |e] eqn:E; try discriminate.
      + apply IH. eapply token_set_bounded; eassumption.
      + apply IH. assumption.
  Qed.
  Lemma token_delete_bounded idx accs : forall s, bounded idx s -> bounded idx (token_batch_delete idx accs s).
  Proof.
    unfold token_batch_delete. induction accs as [|a accs IH]; intros s Hb; cbn; [assumption|].
    apply IH. destruct (tokens s !! a); [|assumption].
    apply bounded_index_max. bounded_parts Hb; repeat split; try assumption. cbn. apply map_Forall_delete. assumption.
  Qed.
  Lemma feature_gate_bounded idx policy status epi esi s s' :
    bounded idx s -> feature_gate_update idx policy status epi esi s = Applied s' -> bounded idx s'.
  Proof.
    intros Hb. unfold feature_gate_update. destruct status as [sp|]; [|discriminate].
    destruct (negb _ || negb _); [discriminate|].
    destruct policy as [pp|]; [|destruct (fg_policy s) eqn:Ep; [|discriminate]]; intros [= <-];
      bounded_parts Hb; repeat split; try assumption; cbn; try lia; rewrite Ep; assumption.
  Qed.

  (* the FSM commits what was applied and nothing else, however it words the result *)
  Lemma bool_result_bounded idx a s :
    bounded idx s -> (forall s', a = Applied s' -> bounded idx s') -> bounded idx (bool_result a s).1.
  Proof. intros Hb H. destruct a; cbn; auto. Qed.
  Lemma nil_result_bounded idx a s :
    bounded idx s -> (forall s', a = Applied s' -> bounded idx s') -> bounded idx (nil_result a s).1.
  Proof. intros Hb H. destruct a; cbn; auto. Qed.
  Lemma plain_result_bounded idx a s :
    bounded idx s -> (forall s', a = Applied s' -> bounded idx s') ->
    bounded idx (match a with Applied s' => (s', RBool true) | Mismatch => (s, RBool true) | Failed e => (s, RErr e) end).1.
  Proof. intros Hb H. destruct a; cbn; auto. Qed.

  Theorem apply_bounded n idx c s : bounded n s -> n < idx -> bounded idx (apply graph_ok idx c s).1.
  Proof.
    intros Hb0 Hlt. assert (Hb : bounded idx s) by (eapply bounded_mono; [|eassumption]; lia). clear Hb0.
    destruct c; cbn [apply].
    - apply plain_result_bounded; eauto using ensure_cfg_bounded.
    - apply bool_result_bounded; eauto using ensure_cfg_cas_bounded.
    - apply bool_result_bounded; eauto using ensure_cfg_cas_bounded.
    - apply nil_result_bounded; eauto using delete_cfg_bounded.
    - apply bool_result_bounded; eauto using delete_cfg_cas_bounded.
    - destruct (negb _); [apply bool_result_bounded|]; eauto using ca_check_and_set_config_bounded, ca_set_config_bounded.
    - apply bool_result_bounded; eauto using ca_root_bounded.
    - apply bool_result_bounded; eauto using roots_and_config_bounded.
    - destruct cas; [apply bool_result_bounded|]; eauto using autopilot_cas_bounded, autopilot_set_bounded.
    - apply nil_result_bounded; eauto using token_batch_bounded.
    - apply token_delete_bounded, Hb.
    - apply bool_result_bounded; eauto using feature_gate_bounded.
    - destruct (rpc_skip_upsert _ _ _ _ _ _); [exact Hb|]. destruct cas;
        [apply bool_result_bounded|apply plain_result_bounded]; eauto using ensure_cfg_cas_bounded, ensure_cfg_bounded.
    - destruct (rpc_skip_delete _ _ _); [exact Hb|]. destruct cas;
        [apply bool_result_bounded|apply plain_result_bounded]; eauto using delete_cfg_cas_bounded, delete_cfg_bounded.
  Qed.

  (* the log Raft feeds the FSM: strictly increasing indexes *)
  Fixpoint increasing (n : N) (log : list (N * cmd)) : Prop :=
    match log with
    | [] => True
    | (idx, _) :: rest => n < idx /\ increasing idx rest
    end.

  Fixpoint final (log : list (N * cmd)) (s : st) : st :=
    match log with
    | [] => s
    | (idx, c) :: rest => final rest (apply graph_ok idx c s).1
    end.
  Fixpoint last_index (n : N) (log : list (N * cmd)) : N :=
    match log with [] => n | (idx, _) :: rest => last_index idx rest end.

  Theorem reachable_bounded log : forall n s,
    bounded n s -> increasing n log -> bounded (last_index n log) (final log s).
  Proof.
    induction log as [|[idx c] log IH]; intros n s Hb Hi; cbn; [assumption|].
    destruct Hi as [Hlt Hi]. apply IH; [|assumption]. eapply apply_bounded; eassumption.
  Qed.
End Bounded.
