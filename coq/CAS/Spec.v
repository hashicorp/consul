(* C10 -- the schema every conditional command is an instance of.

   A conditional write is described by five functions of the state and the command:
     cw_post     the state after the FSM applied the command
     cw_ok       the command result is the success value (true / nil / no transaction error)
     cw_matched  SPECIFICATION: the caller's expected index is the entity's current one
     cw_valid    the unconditional write of the same payload would be accepted
     cw_write    the state the unconditional write produces
   [honest] says: success is reported iff the index matched (and the write is acceptable); a
   reported success is exactly the unconditional write; anything else leaves the state -- all
   tables, all index rows -- untouched.  "Applied" is the observable notion: the state changed. *)
From stdpp Require Import base decidable.

Section Schema.
  Context {S C : Type} `{EqDecision S}.

  Record cond_write := CW {
    cw_post : S -> C -> S;
    cw_ok : S -> C -> bool;
    cw_matched : S -> C -> bool;
    cw_valid : S -> C -> bool;
    cw_write : S -> C -> S
  }.

  Definition applied (W : cond_write) (s : S) (c : C) : Prop := cw_post W s c ≠ s.
  Definition unchanged (W : cond_write) (s : S) (c : C) : Prop := cw_post W s c = s.
  (* the unconditional write would be visible (it is not a rewrite of identical content) *)
  Definition effective (W : cond_write) (s : S) (c : C) : Prop := cw_write W s c ≠ s.

  Record honest_on (P : S -> C -> Prop) (W : cond_write) : Prop := {
    h_reported : forall s c, P s c -> (cw_ok W s c = true <-> cw_matched W s c = true /\ cw_valid W s c = true);
    h_effect : forall s c, P s c -> cw_ok W s c = true -> cw_post W s c = cw_write W s c;
    h_unchanged : forall s c, P s c -> cw_ok W s c = false -> cw_post W s c = s
  }.
  Definition honest := honest_on (fun _ _ => True).

  (* Honesty read off one case analysis of the command: where it reports success the index matched,
     the write is acceptable and the state is the write's; where it does not, one of the two fails
     and the state is untouched.  Every instance is proved through this. *)
  Lemma honest_cases (P : S -> C -> Prop) W :
    (forall s c, P s c ->
       if cw_ok W s c then cw_matched W s c = true /\ cw_valid W s c = true /\ cw_post W s c = cw_write W s c
       else (cw_matched W s c = false \/ cw_valid W s c = false) /\ cw_post W s c = s) ->
    honest_on P W.
  Proof.
    intros H. split; intros s c Hp; specialize (H s c Hp); destruct (cw_ok W s c); intuition congruence.
  Qed.

  Lemma applied_matched P W s c :
    honest_on P W -> P s c -> applied W s c -> cw_matched W s c = true /\ cw_valid W s c = true.
  Proof.
    intros H Hp Ha. apply (h_reported P W H s c Hp).
    destruct (cw_ok W s c) eqn:E; [reflexivity|].
    exfalso. apply Ha. apply (h_unchanged P W H s c Hp E).
  Qed.

  Lemma matched_iff_applied P W s c :
    honest_on P W -> P s c -> effective W s c ->
    (cw_matched W s c = true /\ cw_valid W s c = true <-> applied W s c).
  Proof.
    intros H Hp He. split; [|apply (applied_matched P W s c H Hp)].
    intros Hm. apply (h_reported P W H s c Hp) in Hm.
    unfold applied. rewrite (h_effect P W H s c Hp Hm). exact He.
  Qed.

  Lemma reported_iff_applied P W s c :
    honest_on P W -> P s c -> effective W s c -> (cw_ok W s c = true <-> applied W s c).
  Proof.
    intros H Hp He. rewrite (h_reported P W H s c Hp). apply (matched_iff_applied P W s c H Hp He).
  Qed.

  (* needs no honesty, only that states can be compared *)
  Lemma not_applied_unchanged W s c : ~ applied W s c -> unchanged W s c.
  Proof. unfold applied, unchanged. intros Hn. destruct (decide (cw_post W s c = s)); [assumption|contradiction]. Qed.

  Lemma not_reported_unchanged P W s c : honest_on P W -> P s c -> cw_ok W s c = false -> unchanged W s c.
  Proof. intros H Hp. apply (h_unchanged P W H s c Hp). Qed.

  (* the two cases a concrete request falls under once its [cw_matched] is known *)
  Lemma matched_reported P W s c :
    honest_on P W -> P s c -> cw_matched W s c = true -> cw_valid W s c = true -> cw_ok W s c = true.
  Proof. intros H Hp Hm Hv. apply (h_reported P W H s c Hp). split; assumption. Qed.

  Lemma mismatch_refused P W s c :
    honest_on P W -> P s c -> cw_matched W s c = false -> cw_ok W s c = false /\ cw_post W s c = s.
  Proof.
    intros H Hp Hm. assert (E : cw_ok W s c = false).
    { destruct (cw_ok W s c) eqn:E; [|reflexivity]. apply (h_reported P W H s c Hp) in E as [E _]. congruence. }
    split; [exact E|apply (h_unchanged P W H s c Hp E)].
  Qed.

  Lemma all_or_nothing P W s c : honest_on P W -> P s c -> cw_post W s c = s \/ cw_post W s c = cw_write W s c.
  Proof.
    intros H Hp. destruct (cw_ok W s c) eqn:E.
    - right. apply (h_effect P W H s c Hp E).
    - left. apply (h_unchanged P W H s c Hp E).
  Qed.

  Lemma honest_weaken (P Q : S -> C -> Prop) W : (forall s c, Q s c -> P s c) -> honest_on P W -> honest_on Q W.
  Proof. intros HPQ [H1 H2 H3]. split; intros s c Hq; [apply H1|apply H2|apply H3]; apply HPQ, Hq. Qed.

  Lemma schema (P : S -> C -> Prop) (W : cond_write) :
    honest_on P W -> forall s c, P s c ->
    (effective W s c -> (cw_matched W s c = true /\ cw_valid W s c = true <-> applied W s c)) /\
    (effective W s c -> (cw_ok W s c = true <-> applied W s c)) /\
    (applied W s c -> cw_matched W s c = true /\ cw_valid W s c = true) /\
    (~ applied W s c -> cw_post W s c = s) /\
    (cw_matched W s c = false -> cw_post W s c = s) /\
    (cw_post W s c = s \/ cw_post W s c = cw_write W s c).
  Proof.
    intros H s c Hp. split; [|split; [|split; [|split; [|split]]]].
    - intros He. apply (matched_iff_applied P W s c H Hp He).
    - intros He. apply (reported_iff_applied P W s c H Hp He).
    - apply (applied_matched P W s c H Hp).
    - apply (not_applied_unchanged W s c).
    - intros Hm. apply (mismatch_refused P W s c H Hp Hm).
    - apply (all_or_nothing P W s c H Hp).
  Qed.
End Schema.

Arguments cond_write : clear implicits.
