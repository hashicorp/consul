(* C10 -- concrete states and requests meeting the hypotheses of the theorems (non-vacuity). *)
From stdpp Require Import gmap strings.
From Coq Require Import NArith.
From Verif Require Store.Model Store.Theorems.
From Verif Require Import CAS.Spec CAS.Model CAS.Proofs CAS.StoreProofs.
Local Open Scope N_scope.

(* a reachable, bounded, non-empty state: a config entry, a CA configuration, roots, an autopilot
   configuration, a token and feature gates, written by a log with increasing indexes *)
Definition ex_log10 : list (N * cmd) :=
  [ (2, CfgUpsert ("service-defaults", "web") 1); (3, CASetConfig "c1" 1 0); (4, CASetRoots 0 [("r1", true)]);
    (6, Autopilot false 1 0); (7, TokenSet false [TokReq "t1" "s1" 1 0]); (9, FeatureGate (Some 1) (Some 1) 0 0) ].
Definition ex_state10 : st := final (fun _ _ => true) ex_log10 st0.

Example example_bounded : increasing 0 ex_log10 /\ bounded 9 ex_state10 /\ is_Some (autopilot ex_state10).
Proof.
  split; [cbn; lia|]. split; [|vm_compute; eexists; reflexivity].
  apply (reachable_bounded (fun _ _ => true) ex_log10 0 st0 (bounded_st0 0)). cbn; lia.
Qed.

(* on [ex_state10]: a matching config-entry upsert is reported and applied, a stale one is neither *)
Example example_cfg :
  let W := W_cfg_upsert (fun _ _ => true) in
  let good := UReq 12 ("service-defaults", "web") 3 0 2 false in
  let stale := UReq 12 ("service-defaults", "web") 3 0 1 false in
  effective W ex_state10 good /\ cw_ok W ex_state10 good = true /\ applied W ex_state10 good /\
  cw_ok W ex_state10 stale = false /\ cw_post W ex_state10 stale = ex_state10.
Proof.
  intros W good stale. pose proof (cfg_upsert_honest (fun _ _ => true)) as Hh.
  destruct example_bounded as (_ & (Hcfg & _) & _).
  (* the stored entry is at index 2: only the two guards are evaluated *)
  assert (Hgood : cw_matched W ex_state10 good = true) by (vm_compute; reflexivity).
  assert (Hstale : cw_matched W ex_state10 stale = false) by (vm_compute; reflexivity).
  assert (He : effective W ex_state10 good).
  { apply cfg_upsert_effective; [|reflexivity]. intros x Hx. specialize (Hcfg _ _ Hx). change (ce_modify x < 12). cbn in Hcfg. lia. }
  pose proof (matched_reported _ _ _ _ Hh I Hgood eq_refl) as Hok.
  split; [exact He|]. split; [exact Hok|]. split; [apply (reported_iff_applied _ _ _ _ Hh I He), Hok|].
  apply (mismatch_refused _ _ _ _ Hh I Hstale).
Qed.

(* the composite with a matching roots index and a stale configuration index changes nothing *)
Example example_composite :
  let c := RCReq 12 4 [("r2", true)] "c1" 2 1 in
  cw_ok W_roots_config ex_state10 c = false /\ cw_post W_roots_config ex_state10 c = ex_state10 /\
  cw_ok W_roots_config ex_state10 (RCReq 12 4 [("r2", true)] "c1" 2 3) = true.
Proof.
  intros c. pose proof roots_config_honest as Hh.
  (* the roots index is 4, the configuration is at 3 *)
  assert (Hstale : cw_matched W_roots_config ex_state10 c = false) by (vm_compute; reflexivity).
  destruct (mismatch_refused _ _ _ _ Hh I Hstale) as [Hno Hsame].
  split; [exact Hno|]. split; [exact Hsame|]. apply (matched_reported _ _ _ _ Hh I); vm_compute; reflexivity.
Qed.

(* the hypotheses of the partial theorems are met by non-trivial requests *)
Example example_hypotheses :
  well_formed (tk_req tok_witness_cmd) /\ is_Some (tokens tok_witness_state !! "t1") /\
  is_cond (tx_op (TXC 7 (Store.Model.TNode Store.Model.CCAS "n1" "id1" 9 2))) = true /\
  cw_ok W_txn ex_state (TXC 7 (Store.Model.TNode Store.Model.CCAS "n1" "id1" 9 2)) = true /\
  effective W_txn ex_state (TXC 7 (Store.Model.TNode Store.Model.CCAS "n1" "id1" 9 2)).
Proof.
  split; [split; discriminate|]. split; [vm_compute; eexists; reflexivity|]. split; [reflexivity|].
  destruct ex_node_cas_matched as (H1 & H2 & _). split; assumption.
Qed.

