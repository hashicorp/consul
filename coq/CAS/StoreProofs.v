(* C10 -- the conditional verbs of the core store model (Store/Model.v, tied to the code by the
   correspondence checks of C03-C05 and of C10): KV set-cas / delete-cas as FSM commands and as
   transaction verbs, and the transaction verbs node / service / check cas and delete-cas, as
   instances of the schema of CAS/Spec.v.  For ALL states and requests. *)
From stdpp Require Import gmap strings.
From RecordUpdate Require Import RecordSet.
From Coq Require Import NArith.
From Verif Require Import Store.Model Store.Theorems CAS.Spec.
Import RecordSetNotations.
Local Open Scope N_scope.

#[global] Instance st_eq_dec : EqDecision st. Proof. solve_decision. Defined.

Definition is_ctrue (r : cres) : bool := match r with CBool true => true | _ => false end.
Definition txn_ok (r : cres) : bool := match r with CTxn _ [] => true | _ => false end.
Definition r_ok {A} (r : result A) : bool := match r with Ok _ => true | Err _ _ => false end.
Definition r_state (r : result st) (s : st) : st := match r with Ok s' => s' | Err _ _ => s end.

Definition r_err {A} (r : result A) : option err := match r with Ok _ => None | Err e _ => Some e end.

Lemma r_err_not_ok {A} (r : result A) e : r_err r = Some e -> r_ok r = false.
Proof. destruct r; [discriminate|reflexivity]. Qed.

(* the two store functions: the unconditional verb if the index matched, nothing otherwise *)
Lemma kvs_set_cas_eq idx k e s :
  kvs_set_cas idx k e s =
  if cas_ok kv_modify (kvs s !! k) (kv_modify e) then (true, kvs_set idx k e false s) else (false, (s, e)).
Proof. unfold kvs_set_cas, cas_ok. destruct (kvs s !! k); destruct (bool_decide (_ = 0)); reflexivity. Qed.

Lemma kvs_delete_cas_eq idx cidx k s :
  kvs_delete_cas idx cidx k s =
  if match kvs s !! k with Some e => bool_decide (kv_modify e = cidx) | None => true end
  then (true, kvs_delete idx k s) else (false, s).
Proof.
  unfold kvs_delete_cas, kvs_delete. destruct (kvs s !! k); [|reflexivity].
  destruct (bool_decide _); reflexivity.
Qed.

Record kvc := KVC { kc_idx : N; kc_req : kvreq }.

(* set-cas: expected index zero = "must not exist" (Store.Model.cas_ok is that specification) *)
Definition W_kv_cas : cond_write st kvc :=
  CW (fun s c => (apply_kvs (kc_idx c) VCAS (kc_req c) s).1)
     (fun s c => is_ctrue (apply_kvs (kc_idx c) VCAS (kc_req c) s).2)
     (fun s c => cas_ok kv_modify (kvs s !! q_key (kc_req c)) (q_index (kc_req c)))
     (fun _ _ => true)
     (fun s c => (kvs_set (kc_idx c) (q_key (kc_req c)) (ent_of (kc_req c)) false s).1).

Theorem kv_cas_honest : honest W_kv_cas.
Proof.
  apply honest_cases. intros s [idx q] _. cbn. unfold apply_kvs. rewrite kvs_set_cas_eq. cbn.
  destruct (cas_ok _ _ _); [destruct (kvs_set _ _ _ _ _)|]; cbn; auto.
Qed.

(* delete-cas: the variant upstream's tests pin -- an absent key is a success *)
Definition W_kv_delete_cas : cond_write st kvc :=
  CW (fun s c => (apply_kvs (kc_idx c) VDeleteCAS (kc_req c) s).1)
     (fun s c => is_ctrue (apply_kvs (kc_idx c) VDeleteCAS (kc_req c) s).2)
     (fun s c => match kvs s !! q_key (kc_req c) with
                 | Some e => bool_decide (kv_modify e = q_index (kc_req c))
                 | None => true
                 end)
     (fun _ _ => true)
     (fun s c => kvs_delete (kc_idx c) (q_key (kc_req c)) s).

Theorem kv_delete_cas_honest : honest W_kv_delete_cas.
Proof.
  apply honest_cases. intros s [idx q] _. cbn. unfold apply_kvs. rewrite kvs_delete_cas_eq.
  destruct (match kvs s !! q_key q with Some _ => _ | None => _ end); cbn; auto.
Qed.

Lemma kvs_delete_gone idx k s : kvs (kvs_delete idx k s) !! k = None.
Proof.
  unfold kvs_delete. destruct (kvs s !! k) eqn:E; [|assumption]. cbn. apply lookup_delete.
Qed.

Theorem kv_delete_cas_variant s c :
  cw_ok W_kv_delete_cas s c = true <->
  kvs (cw_post W_kv_delete_cas s c) !! q_key (kc_req c) = None /\
  (forall e, kvs s !! q_key (kc_req c) = Some e -> kv_modify e = q_index (kc_req c)).
Proof.
  destruct c as [idx q]. cbn. unfold apply_kvs. rewrite kvs_delete_cas_eq.
  destruct (kvs s !! q_key q) as [x|] eqn:Ek; [case_bool_decide as E|]; cbn.
  - split; [|reflexivity]. intros _. split; [apply kvs_delete_gone|]. intros e He. congruence.
  - split; [discriminate|]. intros [_ H]. destruct E. apply H. reflexivity.
  - split; [|reflexivity]. intros _. split; [apply kvs_delete_gone|discriminate].
Qed.

Lemma seq_ops_set idx q s :
  seq_ops idx [TKV VSet q] s =
  Ok ((kvs_set idx (q_key q) (ent_of q) false s).1, [RKV (q_key q) (kvs_set idx (q_key q) (ent_of q) false s).2 false]).
Proof. cbn. destruct (kvs_set _ _ _ _ _). reflexivity. Qed.

Lemma txn_rw_abort idx ops s : txn_ok (txn_rw idx ops s).2 = false -> (txn_rw idx ops s).1 = s.
Proof. unfold txn_rw. destruct (txn_dispatch idx 0 ops s) as [[s1 rs] [|e es]]; [discriminate|reflexivity]. Qed.

(* A transaction of any length is reported committed iff every operation succeeds when run in
   sequence (each on the state its predecessors produced), and then its state is that sequential
   composition; otherwise the state is untouched.  With [cond_op_spec]: every conditional
   operation of a committed transaction matched in ITS intermediate state. *)
Theorem txn_all_parts_or_none idx ops s :
  match seq_ops idx ops s with
  | Ok (s', _) => txn_ok (txn_rw idx ops s).2 = true /\ (txn_rw idx ops s).1 = s'
  | Err _ _ => txn_ok (txn_rw idx ops s).2 = false /\ (txn_rw idx ops s).1 = s
  end.
Proof.
  unfold txn_rw. pose proof (txn_dispatch_seq_ops idx ops 0%nat s) as H.
  destruct (seq_ops idx ops s) as [[s' rs]|e p]; [rewrite H; split; reflexivity|].
  destruct (txn_dispatch idx 0 ops s) as [[s1 rs] [|e1 es]]; [contradiction|split; reflexivity].
Qed.

Lemma seq_ops_app idx ops1 : forall ops2 s,
  seq_ops idx (ops1 ++ ops2) s =
  match seq_ops idx ops1 s with
  | Ok (s1, r1) => match seq_ops idx ops2 s1 with Ok (s2, r2) => Ok (s2, r1 ++ r2) | Err e p => Err e p end
  | Err e p => Err e p
  end.
Proof.
  induction ops1 as [|op ops1 IH]; intros ops2 s; cbn.
  - destruct (seq_ops idx ops2 s) as [[s2 r2]|e p]; reflexivity.
  - destruct (txn_op idx op s) as [[s1 r]|e p]; [|reflexivity].
    rewrite IH. destruct (seq_ops idx ops1 s1) as [[s2 r2]|e p]; [|reflexivity].
    destruct (seq_ops idx ops2 s2) as [[s3 r3]|e p]; [|reflexivity]. rewrite app_assoc. reflexivity.
Qed.

(* An operation anywhere in a transaction: if it fails in the state its predecessors produced,
   the whole transaction reports failure and NOTHING of it is applied -- not the operations
   before it, not those after it. *)
Theorem txn_failed_op_aborts idx ops1 op ops2 s s1 r1 :
  seq_ops idx ops1 s = Ok (s1, r1) -> r_ok (txn_op idx op s1) = false ->
  txn_ok (txn_rw idx (ops1 ++ op :: ops2) s).2 = false /\ (txn_rw idx (ops1 ++ op :: ops2) s).1 = s.
Proof.
  intros H1 Hop. pose proof (txn_all_parts_or_none idx (ops1 ++ op :: ops2) s) as H.
  rewrite seq_ops_app, H1 in H. cbn in H. destruct (txn_op idx op s1) as [[s2 r]|e p]; [discriminate|exact H].
Qed.

(* one conditional verb per transaction, as an instance of the schema *)
Record txc := TXC { tx_idx : N; tx_op : txnop }.
Definition txn1 (c : txc) (s : st) : st * cres := txn_rw (tx_idx c) [tx_op c] s.

Definition op_matched (op : txnop) (s : st) : bool :=
  match op with
  | TKV VCAS q => cas_ok kv_modify (kvs s !! q_key q) (q_index q)
  | TKV VDeleteCAS q => match kvs s !! q_key q with Some e => bool_decide (kv_modify e = q_index q) | None => true end
  (* the guard verbs make the whole transaction conditional; they write nothing themselves *)
  | TKV VCheckIndex q => match kvs s !! q_key q with Some e => bool_decide (kv_modify e = q_index q) | None => false end
  | TKV VCheckNotExists q => match kvs s !! q_key q with Some _ => false | None => true end
  | TKV VCheckSession q => match kvs s !! q_key q with Some e => bool_decide (kv_session e = q_session q) | None => false end
  | TNode CCAS nd _ _ cidx => cas_ok n_modify (nodes s !! nd) cidx
  | TNode CDeleteCAS nd _ _ cidx => match nodes s !! nd with Some x => bool_decide (n_modify x = cidx) | None => false end
  | TService CCAS nd svc _ _ cidx => cas_ok sv_modify (services s !! (nd, svc)) cidx
  | TService CDeleteCAS nd svc _ _ cidx =>
    match services s !! (nd, svc) with Some x => bool_decide (sv_modify x = cidx) | None => false end
  | TCheck CCAS c => cas_ok c_modify (checks s !! (cr_node c, cr_id c)) (cr_index c)
  | TCheck CDeleteCAS c =>
    match checks s !! (cr_node c, cr_id c) with Some x => bool_decide (c_modify x = cr_index c) | None => false end
  | _ => true
  end.

(* the unconditional verb each conditional one guards *)
Definition op_write (idx : N) (op : txnop) (s : st) : result st :=
  match op with
  | TKV VCAS q => Ok (kvs_set idx (q_key q) (ent_of q) false s).1
  | TKV VDeleteCAS q => Ok (kvs_delete idx (q_key q) s)
  | TNode CCAS nd id addr _ => ensure_node idx nd id addr s
  | TNode CDeleteCAS nd _ _ _ => delete_node idx nd s
  | TService CCAS nd svc name port _ => ensure_service idx nd svc name port s
  | TService CDeleteCAS nd svc _ _ _ => delete_service idx nd svc s
  | TCheck CCAS c => ensure_check idx (cr_node c) (cr_id c) (check_of c) s
  | TCheck CDeleteCAS c => delete_check idx (cr_node c) (cr_id c) s
  | _ => Ok s
  end.

Definition is_cond (op : txnop) : bool :=
  match op with
  | TKV VCAS _ | TKV VDeleteCAS _ | TKV VCheckIndex _ | TKV VCheckNotExists _ | TKV VCheckSession _
  | TNode CCAS _ _ _ _ | TNode CDeleteCAS _ _ _ _
  | TService CCAS _ _ _ _ _ | TService CDeleteCAS _ _ _ _ _ | TCheck CCAS _ | TCheck CDeleteCAS _ => true
  | _ => false
  end.

Definition is_guard (op : txnop) : bool :=
  match op with TKV VCheckIndex _ | TKV VCheckNotExists _ | TKV VCheckSession _ => true | _ => false end.
Definition mismatch_err (op : txnop) : err := if is_guard op then EGuard else EStale.

(* the heart: a conditional verb is its unconditional verb if the index matched (with that
   verb's error if it is rejected), and the mismatch error on the unchanged state otherwise *)
Lemma cond_op_spec idx op s :
  is_cond op = true ->
  if op_matched op s then
    match op_write idx op s with
    | Ok s' => exists r, txn_op idx op s = Ok (s', r)
    | Err e p => txn_op idx op s = Err e p
    end
  else txn_op idx op s = Err (mismatch_err op) s.
Proof.
  destruct op as [v q|v nd id addr cidx|v nd svc name port cidx|v c|sid]; try discriminate;
    destruct v; try discriminate; intros _;
    cbn [txn_op txn_kv txn_node txn_service txn_check op_matched op_write mismatch_err is_guard].
  - (* kv delete-cas *)
    rewrite kvs_delete_cas_eq. destruct (match kvs s !! q_key q with Some _ => _ | None => _ end); [eexists|]; reflexivity.
  - (* kv cas *)
    rewrite kvs_set_cas_eq. cbn [kv_modify ent_of]. destruct (cas_ok _ _ _); [|reflexivity].
    destruct (kvs_set _ _ _ _ _). eexists; reflexivity.
  - (* kv check-session *)
    destruct (kvs s !! q_key q) as [x|]; [|reflexivity]. destruct (bool_decide _); [eexists|]; reflexivity.
  - (* kv check-index *)
    destruct (kvs s !! q_key q) as [x|]; [|reflexivity]. destruct (bool_decide _); [eexists|]; reflexivity.
  - (* kv check-not-exists *)
    destruct (kvs s !! q_key q) as [x|]; [|eexists]; reflexivity.
  - (* node cas *)
    destruct (cas_ok _ _ _); [|reflexivity]. destruct (ensure_node idx nd id addr s) as [s1|e p]; cbn; [|reflexivity].
    destruct (if bool_decide (id = "") then _ else _) as [[nm n]|]; eexists; reflexivity.
  - (* node delete-cas *)
    destruct (nodes s !! nd) as [x|]; [|reflexivity]. destruct (bool_decide _); [|reflexivity].
    destruct (delete_node idx nd s) as [s1|e p]; [eexists|]; reflexivity.
  - (* service cas *)
    destruct (cas_ok _ _ _); [|reflexivity].
    destruct (ensure_service idx nd svc name port s) as [s1|e p]; cbn; [|reflexivity].
    destruct (services s1 !! (nd, svc)); eexists; reflexivity.
  - (* service delete-cas *)
    destruct (services s !! (nd, svc)) as [x|]; [|reflexivity]. destruct (bool_decide _); [|reflexivity].
    destruct (delete_service idx nd svc s) as [s1|e p]; [eexists|]; reflexivity.
  - (* check cas *)
    destruct (cas_ok _ _ _); [|reflexivity].
    destruct (ensure_check idx (cr_node c) (cr_id c) (check_of c) s) as [s1|e p]; cbn; [|reflexivity].
    destruct (checks s1 !! (cr_node c, cr_id c)); eexists; reflexivity.
  - (* check delete-cas *)
    destruct (checks s !! (cr_node c, cr_id c)) as [x|]; [|reflexivity]. destruct (bool_decide _); [|reflexivity].
    destruct (delete_check idx (cr_node c) (cr_id c) s) as [s1|e p]; [eexists|]; reflexivity.
Qed.

Lemma txn1_cond c s :
  is_cond (tx_op c) = true ->
  if op_matched (tx_op c) s then
    match op_write (tx_idx c) (tx_op c) s with
    | Ok s' => exists r, txn1 c s = (s', CTxn r [])
    | Err e _ => txn1 c s = (s, CTxn [] [(0%nat, e)])
    end
  else txn1 c s = (s, CTxn [] [(0%nat, mismatch_err (tx_op c))]).
Proof.
  destruct c as [idx op]. cbn. intros Hc. pose proof (cond_op_spec idx op s Hc) as H. unfold txn1, txn_rw. cbn.
  destruct (op_matched op s); [destruct (op_write idx op s) as [s'|e p]; [destruct H as [r H]|]|];
    rewrite H; [eexists|..]; reflexivity.
Qed.

Definition W_txn : cond_write st txc :=
  CW (fun s c => (txn1 c s).1)
     (fun s c => txn_ok (txn1 c s).2)
     (fun s c => op_matched (tx_op c) s)
     (fun s c => r_ok (op_write (tx_idx c) (tx_op c) s))
     (fun s c => r_state (op_write (tx_idx c) (tx_op c) s) s).

Theorem txn_cond_honest : honest_on (fun _ c => is_cond (tx_op c) = true) W_txn.
Proof.
  apply honest_cases. intros s c Hc. pose proof (txn1_cond c s Hc) as H. cbn.
  destruct (op_matched (tx_op c) s); [destruct (op_write _ _ s) as [s'|e p]; [destruct H as [r H]|]|];
    rewrite H; cbn; auto.
Qed.

(* a mismatch is reported as the "stale" (guard verbs: "guard failed") error of that operation *)
Theorem txn_cond_mismatch_is_stale s c :
  is_cond (tx_op c) = true -> op_matched (tx_op c) s = false ->
  txn1 c s = (s, CTxn [] [(0%nat, mismatch_err (tx_op c))]).
Proof. intros Hc Hm. pose proof (txn1_cond c s Hc) as H. rewrite Hm in H. exact H. Qed.

(* a matching index whose write is rejected: that write's error, nothing applied *)
Lemma txn_cond_rejected s c e :
  is_cond (tx_op c) = true -> op_matched (tx_op c) s = true -> r_err (op_write (tx_idx c) (tx_op c) s) = Some e ->
  txn1 c s = (s, CTxn [] [(0%nat, e)]).
Proof.
  intros Hc Hm He. pose proof (txn1_cond c s Hc) as H. rewrite Hm in H.
  destruct (op_write _ _ s); [discriminate|]. injection He as <-. exact H.
Qed.

Theorem txn_cond_mismatch_aborts idx ops1 op ops2 s s1 r1 :
  seq_ops idx ops1 s = Ok (s1, r1) -> is_cond op = true -> op_matched op s1 = false ->
  txn_ok (txn_rw idx (ops1 ++ op :: ops2) s).2 = false /\ (txn_rw idx (ops1 ++ op :: ops2) s).1 = s.
Proof.
  intros H1 Hc Hm. apply (txn_failed_op_aborts idx ops1 op ops2 s s1 r1 H1).
  pose proof (cond_op_spec idx op s1 Hc) as H. rewrite Hm in H. rewrite H. reflexivity.
Qed.

Theorem kv_cas_effective s c :
  (forall x, kvs s !! q_key (kc_req c) = Some x ->
             kv_same x (KV (q_value (kc_req c)) (q_flags (kc_req c)) (kv_session x) (q_lock (kc_req c)) (kv_create x) 0) = false) ->
  effective W_kv_cas s c.
Proof.
  destruct c as [idx q]. unfold effective, W_kv_cas, kvs_set; cbn. intros Hd.
  destruct (kvs s !! q_key q) as [x|] eqn:E.
  - specialize (Hd x eq_refl). rewrite (kv_same_irrel x _ _ _ _ _ _ (kv_create x) 0). rewrite Hd. cbn.
    intros Heq. apply (f_equal (fun t => kvs t !! q_key q)) in Heq. cbn in Heq. rewrite lookup_insert, E in Heq.
    injection Heq as Heq. rewrite <- Heq in Hd. cbn in Hd.
    unfold kv_same in Hd. cbn in Hd. repeat rewrite bool_decide_eq_true_2 in Hd by reflexivity. discriminate.
  - cbn. intros Heq. apply (f_equal (fun t => kvs t !! q_key q)) in Heq. cbn in Heq. rewrite lookup_insert, E in Heq. discriminate.
Qed.

Theorem kv_delete_cas_effective s c : is_Some (kvs s !! q_key (kc_req c)) -> effective W_kv_delete_cas s c.
Proof.
  destruct c as [idx q]. unfold effective, W_kv_delete_cas; cbn. intros [x Hx] Heq.
  pose proof (kvs_delete_gone idx (q_key q) s) as Hg. rewrite Heq in Hg. congruence.
Qed.

(* non-vacuity: concrete states on which every case of the schema occurs *)
Definition ex_log : list (N * cmd) :=
  [ (2, Register "n1" "id1" 1 false (Some ("s1", "web", 80)) [CheckReq "n1" "serfHealth" 0 "" false "" 0 0; CheckReq "n1" "c1" 1 "" false "" 0 0]);
    (3, KVS VSet (KVReq "a" [1] 0 "" 0 0)) ].
Definition ex_state : st := (run ex_log st0).1.

Example ex_node_cas_matched :
  let c := TXC 7 (TNode CCAS "n1" "id1" 9 2) in
  cw_ok W_txn ex_state c = true /\ effective W_txn ex_state c /\ applied W_txn ex_state c.
Proof.
  intros c.
  assert (Hok : cw_ok W_txn ex_state c = true) by (vm_compute; reflexivity).
  assert (He : effective W_txn ex_state c).
  { intros H. apply (f_equal (fun t => n_addr <$> nodes t !! "n1")) in H. vm_compute in H. discriminate. }
  split; [exact Hok|]. split; [exact He|]. apply (reported_iff_applied _ _ _ _ txn_cond_honest); [reflexivity|exact He|exact Hok].
Qed.

Example ex_node_cas_stale :
  let c := TXC 7 (TNode CCAS "n1" "id1" 9 1) in
  txn1 c ex_state = (ex_state, CTxn [] [(0%nat, EStale)]).
Proof. apply txn_cond_mismatch_is_stale; vm_compute; reflexivity. Qed.

(* the conditional verb is NOT first: [set a; cas a <index before the set>] -- the cas sees the set's
   write, so the old index is stale, and nothing of the transaction (the set included) survives *)
Example ex_txn_cond_not_first :
  let ops1 := [TKV VSet (KVReq "a" [7] 0 "" 0 0)] in
  let op := TKV VCAS (KVReq "a" [8] 0 "" 3 0) in
  (exists s1 r1, seq_ops 7 ops1 ex_state = Ok (s1, r1) /\ op_matched op s1 = false /\ op_matched op ex_state = true) /\
  txn_ok (txn_rw 7 (ops1 ++ op :: [TKV VSet (KVReq "t" [9] 0 "" 0 0)]) ex_state).2 = false /\
  (txn_rw 7 (ops1 ++ op :: [TKV VSet (KVReq "t" [9] 0 "" 0 0)]) ex_state).1 = ex_state.
Proof.
  intros ops1 op. pose proof (seq_ops_set 7 (KVReq "a" [7] 0 "" 0 0) ex_state) as H1.
  set (s1 := (kvs_set _ _ _ _ _).1) in H1.
  assert (Hm : op_matched op s1 = false) by (vm_compute; reflexivity).
  split; [|apply (txn_cond_mismatch_aborts 7 _ _ _ _ _ _ H1); [reflexivity|exact Hm]].
  eexists _, _. split; [exact H1|]. split; [exact Hm|vm_compute; reflexivity].
Qed.

(* a failing guard verb after a matching cas: nothing applied *)
Example ex_txn_guard_after_cas :
  let ops := [TKV VCAS (KVReq "a" [8] 0 "" 3 0); TKV VCheckIndex (KVReq "t" [] 0 "" 5 0)] in
  (txn_rw 7 ops ex_state).2 = CTxn [] [(1%nat, EGuard)] /\ (txn_rw 7 ops ex_state).1 = ex_state.
Proof.
  intros ops.
  assert (H2 : (txn_rw 7 ops ex_state).2 = CTxn [] [(1%nat, EGuard)]) by (vm_compute; reflexivity).
  split; [exact H2|]. apply txn_rw_abort. rewrite H2. reflexivity.
Qed.

(* a matching index whose write is rejected (another ID for the name of a healthy node): an error,
   not "stale", and nothing applied -- the case repaired by commit 0a9dcef *)
Example ex_node_cas_rejected :
  let c := TXC 7 (TNode CCAS "n1" "id2" 9 2) in
  cw_matched W_txn ex_state c = true /\ cw_valid W_txn ex_state c = false /\
  (txn1 c ex_state).2 = CTxn [] [(0%nat, ESimilarName)] /\ cw_post W_txn ex_state c = ex_state.
Proof.
  intros c.
  assert (Hm : op_matched (tx_op c) ex_state = true) by (vm_compute; reflexivity).
  assert (He : r_err (op_write 7 (tx_op c) ex_state) = Some ESimilarName) by (vm_compute; reflexivity).
  split; [exact Hm|]. split; [exact (r_err_not_ok _ _ He)|]. cbn [cw_post W_txn].
  rewrite (txn_cond_rejected ex_state c _ eq_refl Hm He). split; reflexivity.
Qed.

Example ex_check_cas_rejected :
  let c := TXC 7 (TCheck CCAS (CheckReq "n1" "c1" 1 "nosvc" false "" 5 2)) in
  cw_matched W_txn ex_state c = true /\ (txn1 c ex_state).2 = CTxn [] [(0%nat, EMissingService)] /\
  cw_post W_txn ex_state c = ex_state.
Proof.
  intros c.
  assert (Hm : op_matched (tx_op c) ex_state = true) by (vm_compute; reflexivity).
  assert (He : r_err (op_write 7 (tx_op c) ex_state) = Some EMissingService) by (vm_compute; reflexivity).
  split; [exact Hm|]. cbn [cw_post W_txn].
  rewrite (txn_cond_rejected ex_state c _ eq_refl Hm He). split; reflexivity.
Qed.
