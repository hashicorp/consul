(* Session validity (C04, second half): every trigger that must end a session has ended it.
   In every reachable state a live session's node exists, every check the session is bound to
   exists on that node, is linked to the session, and is not critical (unless it is a check of type
   "session", which sessionCreateTxn accepts in critical state).

   The invariant does not hold in the middle of a cascade (deleteCheckTxn removes the check row
   before it invalidates the sessions bound to it; deleteNodeTxn removes the node row before the
   node's sessions), so it is proved with exemption sets: [SV Xn Xc] excuses the sessions of the
   nodes in [Xn] from "node exists" and the bindings to the check keys in [Xc] from "check exists and
   is not critical"; the cascades preserve [SV Xn Xc] for every exemption, and each deleter ends by
   showing that nothing is left to be excused. *)
From stdpp Require Import gmap strings sorting.
From RecordUpdate Require Import RecordSet.
From Coq Require Import NArith.
From Verif Require Import Store.Model Store.Inv.
Import RecordSetNotations.
Local Open Scope N_scope.

Definition bound_ok (c : check) : Prop := c_status c = critical -> c_session_type c = true.

Definition SV (Xn : string -> Prop) (Xc : string * string -> Prop) (s : st) : Prop :=
  (forall sid ss, sessions s !! sid = Some ss -> Xn (s_node ss) \/ is_Some (nodes s !! s_node ss)) /\
  (forall sid ss cid, sessions s !! sid = Some ss -> cid ∈ s_checks ss ->
     (s_node ss, cid, sid) ∈ schecks s) /\
  (forall sid ss cid, sessions s !! sid = Some ss -> cid ∈ s_checks ss ->
     Xc (s_node ss, cid) \/ exists c, checks s !! (s_node ss, cid) = Some c /\ bound_ok c).

Definition none_n : string -> Prop := fun _ => False.
Definition none_c : string * string -> Prop := fun _ => False.
Definition SessValid : st -> Prop := SV none_n none_c.

Lemma SV_frame Xn Xc (s s' : st) :
  sessions s' = sessions s -> schecks s' = schecks s -> nodes s' = nodes s -> checks s' = checks s ->
  SV Xn Xc s -> SV Xn Xc s'.
Proof. intros H1 H2 H3 H4. unfold SV. rewrite H1, H2, H3, H4. exact id. Qed.

(* Weaker than [lock_only]: a check row may be written only with a status a bound session tolerates.
   This is [Walk.casc_at] with [G := bound_ok], at every index and whatever row was there before
   ([casc_casc_at]); [delete_all_gone] is stated with it. *)
Record casc (P : st -> Prop) : Prop := {
  ca_store : forall s pre idx nd cid hc ex, P s -> bound_ok hc -> P (store_check pre idx nd cid hc ex s);
  ca_drop : drop_ok P
}.

Lemma lock_only_casc P : lock_only P -> drop_ok P -> casc P.
Proof.
  intros HP Hd. split; [|exact Hd]. intros s pre idx nd cid hc ex Hs _. unfold store_check.
  destruct (match ex with Some x => negb (check_same x hc) | None => true end);
    [apply (lo_checks P HP); exact Hs|exact Hs].
Qed.

Lemma casc_and P Q : casc P -> casc Q -> casc (fun s => P s /\ Q s).
Proof.
  intros [Ps Pd] [Qs Qd]. split.
  - intros s pre idx nd cid hc ex [HP HQ] Hb. split; [apply Ps|apply Qs]; assumption.
  - intros s idx sid ss [HP HQ] Hs. split; [apply Pd|apply Qd]; assumption.
Qed.

Lemma casc_casc_at P idx : casc P -> casc_at idx (fun _ => bound_ok) P.
Proof.
  intros [Hst Hdr]. split.
  - intros s s1 pre nd cid hc _ Hs1 Hb. apply Hst; assumption.
  - intros pre hc n Hb. exact Hb.
  - intros s sid ss. apply Hdr.
  - intros s nd cid c status o _ _ Ht. exact Ht.
Qed.

(* The reachable-state theorem only needs what holds when a command succeeds: a failed command
   (and a transaction with a failed operation) leaves the committed state as it was.
   [okpost Q r] unfolds to [rpost anyerr Q r]; the proofs below use the [rpost] lemmas on it. *)
Definition okpost {A} (Q : A -> Prop) (r : result A) : Prop :=
  match r with Ok a => Q a | Err _ _ => True end.

Lemma delete_all_gone idx l : forall P, casc P -> forall s, P s ->
  okpost (fun s' => P s' /\ forall sid, sid ∈ l -> sessions s' !! sid = None)
         (rfold (fun s' sid => delete_session_top idx sid s') l s).
Proof.
  intros P HP s Hs. exact (rpost_anyerr _ _ _ (delete_sessions_casc idx _ l P s (casc_casc_at P idx HP) Hs)).
Qed.

Lemma SV_store Xn Xc pre idx nd cid hc ex s :
  SV Xn Xc s ->
  (forall sid ss, sessions s !! sid = Some ss -> s_node ss = nd -> cid ∈ s_checks ss -> bound_ok hc) ->
  SV Xn Xc (store_check pre idx nd cid hc ex s).
Proof.
  intros (HA & HB & HC) Hok.
  destruct (store_check_frame pre idx nd cid hc ex s) as (_ & _ & Fsess & Flinks & _ & Fnodes & _).
  unfold SV. rewrite Fsess, Flinks, Fnodes. repeat split; [exact HA|exact HB|].
  intros sid ss c0 Hs Hin. destruct (HC sid ss c0 Hs Hin) as [H|(c & Hc & Hcok)]; [left; exact H|right].
  destruct (store_check_lookup pre idx nd cid hc ex s (s_node ss, c0)) as [->|[Heq (cr & m & ->)]]; [eauto|].
  injection Heq as Hn Hc0. subst c0. eexists. split; [reflexivity|]. exact (Hok sid ss Hs Hn Hin).
Qed.

Lemma SV_casc Xn Xc : casc (SV Xn Xc).
Proof.
  split.
  - intros s pre idx nd cid hc ex Hs Hb. apply SV_store; [exact Hs|intros; exact Hb].
  - intros s idx sid ss (HA & HB & HC) Hss.
    destruct (drop_session_frame idx sid ss s) as (Fn & _ & Fc & Fs).
    unfold SV. rewrite drop_session_sessions, Fn, Fc, Fs. repeat split.
    + intros sid' ss' Hs'. apply lookup_delete_Some in Hs' as [Hne Hs']. eapply HA; exact Hs'.
    + intros sid' ss' c0 Hs' Hin. apply lookup_delete_Some in Hs' as [Hne Hs'].
      apply elem_of_filter. split; [cbn; congruence|eapply HB; eassumption].
    + intros sid' ss' c0 Hs' Hin. apply lookup_delete_Some in Hs' as [Hne Hs']. eapply HC; eassumption.
Qed.

(* sessions are only ever removed by a cascade, never changed *)
Definition Mono (s0 s : st) : Prop :=
  forall sid ss, sessions s !! sid = Some ss -> sessions s0 !! sid = Some ss.

Lemma Mono_casc s0 : casc (Mono s0).
Proof.
  apply lock_only_casc.
  - split; intros s f H; exact H.
  - intros s idx sid ss H _ sid' ss' Hs'. rewrite drop_session_sessions in Hs'.
    apply lookup_delete_Some in Hs' as [_ Hs']. apply H. exact Hs'.
Qed.

Lemma SV_Mono_casc Xn Xc s0 : casc (fun s => SV Xn Xc s /\ Mono s0 s).
Proof. apply casc_and; [apply SV_casc|apply Mono_casc]. Qed.

Lemma SV_unexempt (Xn Xn' : string -> Prop) (Xc Xc' : string * string -> Prop) s :
  SV Xn' Xc' s ->
  (forall sid ss, sessions s !! sid = Some ss -> Xn' (s_node ss) -> Xn (s_node ss)) ->
  (forall sid ss cid, sessions s !! sid = Some ss -> cid ∈ s_checks ss ->
     Xc' (s_node ss, cid) -> Xc (s_node ss, cid)) ->
  SV Xn Xc s.
Proof.
  intros (HA & HB & HC) Hn Hc. repeat split; [|exact HB|].
  - intros sid ss Hs. destruct (HA sid ss Hs) as [H|H]; [left; eapply Hn; eassumption|right; exact H].
  - intros sid ss cid Hs Hin.
    destruct (HC sid ss cid Hs Hin) as [H|H]; [left; eapply Hc; eassumption|right; exact H].
Qed.

Lemma SV_weaken (Xn Xn' : string -> Prop) (Xc Xc' : string * string -> Prop) s :
  (forall n, Xn n -> Xn' n) -> (forall k, Xc k -> Xc' k) -> SV Xn Xc s -> SV Xn' Xc' s.
Proof.
  intros Hn Hc Hs. apply (SV_unexempt _ Xn _ Xc); [exact Hs|intros ? ? _; apply Hn|intros ? ? ? _ _; apply Hc].
Qed.

Lemma SV_nodes_insert Xn Xc nd n s : SV Xn Xc s -> SV Xn Xc (s <| nodes ::= <[nd := n]> |>).
Proof.
  intros (HA & HB & HC). unfold SV; cbn. repeat split; [|exact HB|exact HC].
  intros sid ss Hs. destruct (HA sid ss Hs) as [H|H]; [left; exact H|right].
  destruct (decide (s_node ss = nd)) as [->|Hne];
    [rewrite lookup_insert; eauto|rewrite lookup_insert_ne by congruence; exact H].
Qed.

(* once the sessions linked to check (nd, cid) in [s1] are deleted, no surviving session is bound to
   it: survivors were live in [s1] (Mono), so a bound one was linked there and is in the list *)
Lemma delete_linked_SV Xn Xc idx nd cid s1 :
  SV Xn Xc s1 ->
  okpost (fun s' => SV Xn Xc s' /\
            forall sid ss, sessions s' !! sid = Some ss -> s_node ss = nd -> cid ∈ s_checks ss -> False)
         (rfold (fun s' sid => delete_session_top idx sid s') (sessions_of_check nd cid s1) s1).
Proof.
  intros H1.
  eapply rpost_weaken; [|apply (delete_all_gone idx (sessions_of_check nd cid s1) _
                                                     (SV_Mono_casc Xn Xc s1) s1 (conj H1 (fun _ _ H => H)))].
  cbn. intros s' [[Hsv Hm] Hg]. split; [exact Hsv|]. intros sid ss Hss Hn Hin.
  destruct H1 as (_ & HB1 & _). pose proof (HB1 sid ss cid (Hm sid ss Hss) Hin) as Hlink. rewrite Hn in Hlink.
  apply elem_of_sessions_of_check in Hlink. rewrite (Hg sid Hlink) in Hss. discriminate.
Qed.

Lemma delete_check_SV Xn Xc idx nd cid s :
  SV Xn Xc s -> okpost (SV Xn Xc) (delete_check idx nd cid s).
Proof.
  intros Hs. unfold delete_check. destruct (checks s !! (nd, cid)) as [ck0|]; [|exact Hs]. cbn zeta.
  set (s1 := s <| checks ::= delete (nd, cid) |>).
  assert (H1 : SV Xn (fun k => Xc k \/ k = (nd, cid)) s1).
  { destruct Hs as (HA & HB & HC). unfold SV, s1; cbn. repeat split; [exact HA|exact HB|].
    intros sid ss c0 Hss Hin. destruct (decide ((s_node ss, c0) = (nd, cid))) as [Heq|Hne].
    - left. right. exact Heq.
    - destruct (HC sid ss c0 Hss Hin) as [H|(c & Hc & Hok)]; [left; left; exact H|right].
      exists c. rewrite lookup_delete_ne by congruence. split; assumption. }
  eapply rpost_weaken; [|apply (delete_linked_SV _ _ idx nd cid s1 H1)].
  cbn. intros s' [Hsv Hfree]. eapply SV_unexempt; [exact Hsv|intros ? ? _ H; exact H|].
  intros sid ss c0 Hss Hin [H|Heq]; [exact H|exfalso].
  injection Heq as Hn Hc. subst c0. exact (Hfree sid ss Hss Hn Hin).
Qed.

Lemma delete_service_SV Xn Xc idx nd svc s :
  SV Xn Xc s -> okpost (SV Xn Xc) (delete_service idx nd svc s).
Proof.
  intros Hs. unfold delete_service. destruct (services s !! (nd, svc)); [|exact Hs].
  apply (rpost_bind anyerr (SV Xn Xc)).
  - apply rpost_rfold; [|exact Hs]. intros cid s' _. apply delete_check_SV.
  - intros s1 H1. apply (SV_frame Xn Xc s1); [reflexivity..|exact H1].
Qed.

Lemma delete_node_SV Xn Xc idx nd s :
  SV Xn Xc s -> okpost (SV Xn Xc) (delete_node idx nd s).
Proof.
  intros Hs. unfold delete_node. destruct (nodes s !! nd); [|exact Hs].
  apply (rpost_bind anyerr (SV Xn Xc)).
  { apply rpost_rfold; [|exact Hs]. intros svc s' _. apply delete_service_SV. }
  intros s1 H1. apply (rpost_bind anyerr (SV Xn Xc)).
  { apply rpost_rfold; [|exact H1]. intros cid s' _. apply delete_check_SV. }
  intros s2 H2. cbn zeta.
  set (s3 := s2 <| nodes ::= delete nd |>).
  assert (H3 : SV (fun n => Xn n \/ n = nd) Xc s3).
  { destruct H2 as (HA & HB & HC). unfold SV, s3; cbn. repeat split; [|exact HB|exact HC].
    intros sid ss Hss. destruct (decide (s_node ss = nd)) as [Heq|Hne]; [left; right; exact Heq|].
    destruct (HA sid ss Hss) as [H|H]; [left; left; exact H|right].
    rewrite lookup_delete_ne by congruence. exact H. }
  pose proof (delete_all_gone idx (sessions_of_node nd s3) _ (SV_Mono_casc _ _ s3) s3
                (conj H3 (fun _ _ H => H))) as Hr.
  eapply rpost_weaken; [|exact Hr]. cbn. intros s' [[Hsv Hm] Hg].
  eapply SV_unexempt; [exact Hsv| |intros ? ? ? _ _ H; exact H].
  intros sid ss Hss [H|Heq]; [exact H|exfalso].
  pose proof (Hm sid ss Hss) as Hss3.
  assert (Hin : sid ∈ sessions_of_node nd s3) by (apply elem_of_sessions_of_node; eauto).
  rewrite (Hg sid Hin) in Hss. discriminate.
Qed.

(* ensureCheckTxn: a critical status first ends every session bound to the check *)
Lemma ensure_check_p_SV Xn Xc pre idx nd cid hc s :
  SV Xn Xc s -> okpost (SV Xn Xc) (ensure_check_p pre idx nd cid hc s).
Proof.
  intros Hs. unfold ensure_check_p, ensure_check_with.
  destruct (nodes s !! nd); [|exact I].
  apply (rpost_bind anyerr (fun _ : check => True)).
  { unfold resolve_service. destruct (bool_decide _); [exact I|].
    destruct (services s !! _); exact I. }
  intros hc1 _. unfold invalidate_if_critical.
  destruct (bool_decide (c_status hc1 = critical)) eqn:Ecrit.
  - apply (rpost_bind anyerr _ _ _ _ (delete_linked_SV Xn Xc idx nd cid s Hs)).
    intros s1 [H1 Hfree]. cbn. apply SV_store; [exact H1|]. intros sid ss A B C. destruct (Hfree sid ss A B C).
  - cbn. apply (ca_store _ (SV_casc Xn Xc)); [exact Hs|].
    intros Hc. apply bool_decide_eq_false in Ecrit. contradiction.
Qed.

Lemma session_create_SV Xn Xc idx sid ss s :
  SV Xn Xc s -> okpost (SV Xn Xc) (session_create idx sid ss s).
Proof.
  intros Hs. apply (session_create_rpost (SV Xn Xc) anyerr); [intros; exact I|].
  intros _ [n En] Hcks. split; [|intros s' cid c Hs' _; apply ensure_check_p_SV; exact Hs'].
  destruct Hs as (HA & HB & HC). unfold SV, session_row, set_index; cbn. repeat split.
  - intros sid' ss' Hs'. destruct (decide (sid' = sid)) as [->|Hne].
    + rewrite lookup_insert in Hs'. injection Hs' as <-. cbn. right. rewrite En. eauto.
    + rewrite lookup_insert_ne in Hs' by congruence. eapply HA; exact Hs'.
  - intros sid' ss' c0 Hs' Hin. apply elem_of_union. destruct (decide (sid' = sid)) as [->|Hne].
    + rewrite lookup_insert in Hs'. injection Hs' as <-. cbn in *. left.
      apply elem_of_list_to_set, elem_of_list_fmap. exists c0. split; [reflexivity|exact Hin].
    + rewrite lookup_insert_ne in Hs' by congruence. right. eapply HB; eassumption.
  - intros sid' ss' c0 Hs' Hin. destruct (decide (sid' = sid)) as [->|Hne].
    + rewrite lookup_insert in Hs'. injection Hs' as <-. cbn in *. right. apply Hcks. exact Hin.
    + rewrite lookup_insert_ne in Hs' by congruence. eapply HC; eassumption.
Qed.

Lemma ensure_node_SV Xn Xc idx nd id addr s :
  SV Xn Xc s -> okpost (SV Xn Xc) (ensure_node idx nd id addr s).
Proof.
  intros Hs. apply (ensure_node_rpost (SV Xn Xc) anyerr); [exact Hs|intros; exact I| | |].
  - intros o. apply delete_node_SV. exact Hs.
  - intros s1. apply SV_nodes_insert.
  - intros s' nm x s1 _ _. apply SV_nodes_insert.
Qed.

Lemma ensure_service_SV Xn Xc idx nd svc name port s :
  SV Xn Xc s -> okpost (SV Xn Xc) (ensure_service idx nd svc name port s).
Proof.
  intros Hs. apply (ensure_service_rpost (SV Xn Xc) anyerr); [exact Hs|intros; exact I| |intros x _];
    (apply (SV_frame Xn Xc s); [reflexivity..|exact Hs]).
Qed.

Lemma SV_cat_step Xn Xc idx s r : SV Xn Xc s -> cat_step idx s r -> okpost (SV Xn Xc) r.
Proof.
  intros Hs. destruct 1.
  - apply ensure_node_SV; exact Hs.
  - apply ensure_service_SV; exact Hs.
  - apply ensure_check_p_SV; exact Hs.
  - apply delete_node_SV; exact Hs.
  - apply delete_service_SV; exact Hs.
  - apply delete_check_SV; exact Hs.
  - exact (rpost_anyerr _ _ _ (delete_session_top_keeps idx _ _ sid (casc_casc_at _ idx (SV_casc Xn Xc)) s Hs)).
Qed.

Definition same4 (s s' : st) : Prop :=
  sessions s' = sessions s /\ schecks s' = schecks s /\ nodes s' = nodes s /\ checks s' = checks s.

Lemma SV_same4 Xn Xc s s' : same4 s s' -> SV Xn Xc s -> SV Xn Xc s'.
Proof. intros (H1 & H2 & H3 & H4). apply SV_frame; assumption. Qed.

Lemma same4_refl s : same4 s s.
Proof. repeat split. Qed.

Lemma SV_kv_step Xn Xc idx s s' : SV Xn Xc s -> kv_step idx s s' -> SV Xn Xc s'.
Proof.
  intros Hs Hk. destruct (kv_step_frame idx s s' Hk) as (H1 & H2 & _ & H3 & _ & H4 & _).
  eapply SV_same4; [|exact Hs]. repeat split; assumption.
Qed.

Theorem apply_SessValid idx c s : SessValid s -> SessValid (apply idx c s).1.
Proof.
  apply (walk_apply SessValid anyerr idx (fun _ _ => True) (SV_kv_step _ _ idx) (SV_cat_step _ _ idx)).
  - (* Hnf *) intros; exact I.
  - (* Hsc *) intros sid ss s0 _. apply session_create_SV.
  - (* Hqs *) intros qid sess s0 Hs0. unfold query_set. destruct (_ || _); [|exact I].
    eapply SV_same4; [|exact Hs0]. repeat split.
  - (* Hqd *) intros qid s0 Hs0. unfold query_delete. destruct (queries s0 !! qid); [|exact Hs0].
    eapply SV_same4; [|exact Hs0]. repeat split.
  - (* Hreap *) intros upto s0 Hs0. eapply SV_same4; [|exact Hs0]. repeat split.
  - (* F *) intros; exact I.
Qed.

Lemma SessValid_st0 : SessValid st0.
Proof.
  unfold SessValid, SV, st0; cbn. repeat split.
  - intros sid ss H. rewrite lookup_empty in H. discriminate.
  - intros sid ss cid H. rewrite lookup_empty in H. discriminate.
  - intros sid ss cid H. rewrite lookup_empty in H. discriminate.
Qed.

Theorem run_SessValid log : forall s, SessValid s -> SessValid (run log s).1.
Proof. apply walk_run. exact apply_SessValid. Qed.

Theorem sessions_valid log sid ss :
  sessions (run log st0).1 !! sid = Some ss ->
  is_Some (nodes (run log st0).1 !! s_node ss) /\
  forall cid, cid ∈ s_checks ss ->
    (s_node ss, cid, sid) ∈ schecks (run log st0).1 /\
    exists c, checks (run log st0).1 !! (s_node ss, cid) = Some c /\
              (c_status c = critical -> c_session_type c = true).
Proof.
  intros Hs. destruct (run_SessValid log st0 SessValid_st0) as (HA & HB & HC). split.
  - destruct (HA sid ss Hs) as [[]|H]; exact H.
  - intros cid Hin. split; [eapply HB; eassumption|].
    destruct (HC sid ss cid Hs Hin) as [[]|H]; exact H.
Qed.
