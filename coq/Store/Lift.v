(* A way into the walk of Store/Walk.v for a predicate that reads the catalog skeleton only: six
   facts about the catalog verbs, stated for successful calls, suffice. *)
From stdpp Require Import gmap strings.
From RecordUpdate Require Import RecordSet.
From Coq Require Import NArith.
From Verif Require Import Store.Model Store.Walk Store.Skeleton.
Import RecordSetNotations.
Local Open Scope N_scope.

Definition keeps_ok (P : st -> Prop) (f : st -> result st) : Prop :=
  forall s s', f s = Ok s' -> P s -> P s'.

Section lift_skeleton.
  Context (P : st -> Prop) (idx : N).
  Hypothesis P_shape : forall s p, shape_eq s p -> P s -> P p.
  Hypothesis P_node : forall nd nid addr, keeps_ok P (ensure_node idx nd nid addr).
  Hypothesis P_service : forall nd svc name port, keeps_ok P (ensure_service idx nd svc name port).
  Hypothesis P_check : forall pre nd cid hc, keeps_ok P (ensure_check_p pre idx nd cid hc).
  Hypothesis P_del_node : forall nd, keeps_ok P (delete_node idx nd).
  Hypothesis P_del_service : forall nd svc, keeps_ok P (delete_service idx nd svc).
  Hypothesis P_del_check : forall nd cid, keeps_ok P (delete_check idx nd cid).

  Let P_cat s p : cat_same s p -> P s -> P p.
  Proof. intros H. apply P_shape, cat_same_shape, H. Qed.

  Theorem apply_lift_skel c s : P s -> P (apply idx c s).1.
  Proof.
    apply (walk_apply P anyerr idx (fun _ _ => True)).
    - (* Hkv *) intros a b Ha Hk. revert Ha. apply P_cat. destruct (kv_step_frame _ _ _ Hk) as (_ & _ & _ & Hn & Hs & Hc & _).
      repeat split; assumption.
    - (* Hcat *) intros a r Ha Hr. apply rpost_ok. intros b Hb.
      destruct Hr; [exact (P_node _ _ _ _ _ Hb Ha)|exact (P_service _ _ _ _ _ _ Hb Ha)|exact (P_check _ _ _ _ _ _ Hb Ha)
                   |exact (P_del_node _ _ _ Hb Ha)|exact (P_del_service _ _ _ _ Hb Ha)|exact (P_del_check _ _ _ _ Hb Ha)|].
      revert Ha. apply P_shape. exact (delete_session_shape _ _ _ _ _ Hb).
    - (* Hnf *) intros; exact I.
    - (* Hsc: the session row, then the node's session checks are stored again *)
      intros sid ss a _ Ha. apply session_create_rpost; [intros; exact I|]. intros _ _ _.
      split; [revert Ha; apply P_cat; repeat split|].
      intros s' cid c' Hs' _. apply rpost_ok. intros b Hb. exact (P_check _ _ _ _ _ _ Hb Hs').
    - (* Hqs *) intros qid sess a Ha. apply rpost_ok. intros b. unfold query_set. destruct (_ || _); [|discriminate].
      intros [= <-]. revert Ha. apply P_cat. repeat split.
    - (* Hqd *) intros qid a. unfold query_delete. destruct (queries a !! qid); [|tauto]. apply P_cat. repeat split.
    - (* Hreap *) intros upto a. apply P_cat. repeat split.
    - (* F *) intros; exact I.
  Qed.
End lift_skeleton.
