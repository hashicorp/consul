(* Pushing a predicate on states through the store model: what holds of a [result] is said with
   [rpost E Q] ([nofuel P] and [anyerr] are the choices of [E] in use; [Inv.post] and [SessInv.okpost],
   in which C03-C05 are stated, are [rpost] at these); the verbs, operations and commands are cut
   into steps with no predicate in them; the invalidation cascade is proved once for a class of
   predicates, and a predicate closed under the steps is closed under [apply] ([Section Walk]). *)
From stdpp Require Import gmap strings.
From RecordUpdate Require Import RecordSet.
From Coq Require Import NArith.
From Verif Require Import Store.Model.
From Verif Require Export Store.Facts.
Import RecordSetNotations.
Local Open Scope N_scope.

(* [E e p] is asked of a failure [e] with partial state [p], [Q] of a success *)
Definition rpost {A} (E : err -> st -> Prop) (Q : A -> Prop) (r : result A) : Prop :=
  match r with Ok a => Q a | Err e p => E e p end.

(* the usual choice of [E]: the partial state satisfies P too, and the failure is not the model's
   own "out of fuel" *)
Definition nofuel (P : st -> Prop) : err -> st -> Prop := fun e p => e ≠ EFuel /\ P p.

Definition anyerr : err -> st -> Prop := fun _ _ => True.

Lemma rpost_ok {A} (Q : A -> Prop) (r : result A) : (forall a, r = Ok a -> Q a) -> rpost anyerr Q r.
Proof. destruct r; cbn; [auto|intros; exact I]. Qed.

Lemma rpost_mono {A} (E E' : err -> st -> Prop) (Q Q' : A -> Prop) r :
  (forall e p, E e p -> E' e p) -> (forall a, Q a -> Q' a) -> rpost E Q r -> rpost E' Q' r.
Proof. intros HE HQ. destruct r; cbn; [apply HQ|apply HE]. Qed.

Lemma rpost_weaken {A} E (Q Q' : A -> Prop) r : (forall a, Q a -> Q' a) -> rpost E Q r -> rpost E Q' r.
Proof. apply rpost_mono. auto. Qed.

Lemma rpost_anyerr {A} E (Q : A -> Prop) r : rpost E Q r -> rpost anyerr Q r.
Proof. apply rpost_mono; [intros; exact I|auto]. Qed.

Lemma rpost_bind {A B} E (Q : A -> Prop) (R : B -> Prop) (m : result A) (k : A -> result B) :
  rpost E Q m -> (forall a, Q a -> rpost E R (k a)) -> rpost E R (m ≫= k).
Proof. intros Hm Hk. destruct m as [a|e p]; cbn; [apply Hk; exact Hm|exact Hm]. Qed.

Lemma rpost_rfold {A} E (P : st -> Prop) (f : st -> A -> result st) l :
  (forall x s, x ∈ l -> P s -> rpost E P (f s x)) -> forall s, P s -> rpost E P (rfold f l s).
Proof.
  induction l as [|x l IH]; intros Hf s Hs; cbn [rfold]; [exact Hs|].
  apply (rpost_bind E P); [apply Hf; [left|exact Hs]|].
  apply IH. intros y s' Hy. apply Hf. right. exact Hy.
Qed.

Lemma rpost_Ok {A} E (Q : A -> Prop) (r : result A) a : rpost E Q r -> r = Ok a -> Q a.
Proof. intros H ->. exact H. Qed.

Lemma rfold_Ok_inv {A} (P : st -> Prop) (f : st -> A -> result st) l :
  (forall x a b, P a -> f a x = Ok b -> P b) -> forall s s', P s -> rfold f l s = Ok s' -> P s'.
Proof.
  intros Hf s s' Hs. apply (rpost_Ok anyerr P), (rpost_rfold anyerr P); [|exact Hs].
  intros x a _ Ha. apply rpost_ok. intros b. apply Hf, Ha.
Qed.

Lemma rpost_of_unit E (P : st -> Prop) (r : result st) s : P s -> rpost E P r -> P (of_unit r s).1.
Proof. intros Hs Hr. destruct r; [exact Hr|exact Hs]. Qed.

Definition keeps (P : st -> Prop) (f : st -> result st) : Prop :=
  forall s, P s -> rpost (nofuel P) P (f s).

(* every KV verb, standalone or in a transaction, does nothing or is one of the three writers; a
   holder is written ([u = true]) only if it is "" or a live session *)
Inductive kv_step (idx : N) (s : st) : st -> Prop :=
| kv_nop : kv_step idx s s
| kv_by_set k e u : (u = true -> kv_session e = "" \/ is_Some (sessions s !! kv_session e)) ->
                 kv_step idx s (kvs_set idx k e u s).1
| kv_by_delete k : kv_step idx s (kvs_delete idx k s)
| kv_by_delete_tree p : kv_step idx s (kvs_delete_tree idx p s).

Lemma kv_step_frame idx s s' : kv_step idx s s' -> kv_frame s s'.
Proof.
  destruct 1; [apply kv_frame_refl|apply kvs_set_frame|apply kvs_delete_frame|apply kvs_delete_tree_frame].
Qed.

Definition refused (s : st) : err -> st -> Prop := fun e p => e ≠ EFuel /\ p = s.

Lemma kvs_delete_cas_step idx cidx k s : kv_step idx s (kvs_delete_cas idx cidx k s).2.
Proof.
  unfold kvs_delete_cas. destruct (kvs s !! k); [|constructor].
  destruct (bool_decide _); constructor.
Qed.

Lemma kvs_set_cas_step idx k e s : kv_step idx s (kvs_set_cas idx k e s).2.1.
Proof.
  unfold kvs_set_cas. destruct (kvs s !! k).
  - destruct (bool_decide (kv_modify e = 0)); [constructor|].
    destruct (bool_decide _); constructor. discriminate.
  - destruct (bool_decide _); constructor. discriminate.
Qed.

Lemma kvs_lock_step idx k e s :
  rpost (refused s) (fun r => kv_step idx s r.2.1) (kvs_lock idx k e s).
Proof.
  unfold kvs_lock. destruct (bool_decide (kv_session e = "")); [split; [discriminate|reflexivity]|].
  destruct (sessions s !! kv_session e) as [ss|] eqn:Ess; [|split; [discriminate|reflexivity]].
  assert (Hlive : forall u : bool, u = true -> kv_session e = "" \/ is_Some (sessions s !! kv_session e))
    by (intros _ _; right; rewrite Ess; eauto).
  destruct (kvs s !! k) as [x|]; [|apply kv_by_set, Hlive].
  destruct (bool_decide (kv_session x = kv_session e)); [apply kv_by_set, Hlive|].
  destruct (bool_decide (kv_session x = "")); [apply kv_by_set, Hlive|constructor].
Qed.

Lemma kvs_unlock_step idx k e s :
  rpost (refused s) (fun r => kv_step idx s r.2.1) (kvs_unlock idx k e s).
Proof.
  unfold kvs_unlock. destruct (bool_decide (kv_session e = "")); [split; [discriminate|reflexivity]|].
  destruct (kvs s !! k) as [x|]; [|constructor].
  destruct (bool_decide _); [|constructor]. apply kv_by_set. intros _. left. reflexivity.
Qed.

Lemma kv_verbs_step idx q s :
  kv_step idx s (kvs_delete_cas idx (q_index q) (q_key q) s).2 /\
  kv_step idx s (kvs_set_cas idx (q_key q) (ent_of q) s).2.1 /\
  rpost (refused s) (fun r => kv_step idx s r.2.1) (kvs_lock idx (q_key q) (ent_of q) s) /\
  rpost (refused s) (fun r => kv_step idx s r.2.1) (kvs_unlock idx (q_key q) (ent_of q) s).
Proof.
  split; [apply kvs_delete_cas_step|]. split; [apply kvs_set_cas_step|].
  split; [apply kvs_lock_step|apply kvs_unlock_step].
Qed.

Lemma apply_kvs_step idx v q s : kv_step idx s (apply_kvs idx v q s).1.
Proof.
  destruct (kv_verbs_step idx q s) as (Hdc & Hsc & Hl & Hu).
  unfold apply_kvs. destruct v; cbn; repeat case_match; simplify_eq/=;
    first [assumption|constructor; discriminate].
Qed.

Lemma txn_kv_step idx v q s : rpost (refused s) (fun r => kv_step idx s r.1) (txn_kv idx v q s).
Proof.
  destruct (kv_verbs_step idx q s) as (Hdc & Hsc & Hl & Hu).
  pose proof (kv_by_set idx s (q_key q) (ent_of q) false ltac:(discriminate)) as Hs.
  unfold txn_kv. destruct v; cbn; repeat case_match; simplify_eq/=;
    first [assumption|split; [discriminate|reflexivity]|constructor].
Qed.

(* the seven catalog and session primitives the commands and transaction operations are made of,
   run on [s]; all but [ensure_service] can set off the invalidation cascade *)
Inductive cat_step (idx : N) (s : st) : result st -> Prop :=
| cs_ensure_node nd id addr : cat_step idx s (ensure_node idx nd id addr s)
| cs_ensure_service nd svc name port : cat_step idx s (ensure_service idx nd svc name port s)
| cs_ensure_check nd cid hc : cat_step idx s (ensure_check idx nd cid hc s)
| cs_delete_node nd : cat_step idx s (delete_node idx nd s)
| cs_delete_service nd svc : cat_step idx s (delete_service idx nd svc s)
| cs_delete_check nd cid : cat_step idx s (delete_check idx nd cid s)
| cs_delete_session sid : cat_step idx s (delete_session_top idx sid s).

Definition res_st {A} (r : result (st * A)) : result st :=
  match r with Ok a => Ok a.1 | Err e p => Err e p end.

Lemma rpost_res_st {A} E (Q : st -> Prop) (r : result (st * A)) :
  rpost E Q (res_st r) -> rpost E (fun a => Q a.1) r.
Proof. destruct r; exact id. Qed.

Lemma res_st_bind {A} (m : result st) (k : st -> result (st * A)) :
  (forall s', res_st (k s') = Ok s') -> res_st (m ≫= k) = m.
Proof. intros Hk. destruct m; [apply Hk|reflexivity]. Qed.

Definition quiet (s : st) (r : result st) : Prop := r = Ok s \/ exists e, e ≠ EFuel /\ r = Err e s.

(* a node, service, check or session operation of a transaction is a guard followed by at most one
   primitive (the reply is read from the state the primitive leaves) *)
Lemma txn_cat_step idx op s :
  match op with
  | TKV _ _ => True
  | _ => quiet s (res_st (txn_op idx op s)) \/ cat_step idx s (res_st (txn_op idx op s))
  end.
Proof.
  (* by inspection of [txn_node], [txn_service], [txn_check]: every branch returns [s] as it is,
     refuses with [s], or binds one primitive to a reply that keeps the state *)
  destruct op as [v q|v nd id addr cidx|v nd svc name port cidx|v c|sid]; [exact I|..]; cbn [txn_op];
    unfold txn_node, txn_service, txn_check; try destruct v; repeat case_match;
    first [left; left; reflexivity
          |left; right; eexists; split; [|reflexivity]; discriminate
          |right; rewrite res_st_bind; [constructor|intros s'; repeat case_match; reflexivity]].
Qed.

(* Predicates the invalidation cascade at index [idx] preserves.  [G pre hc] is what the predicate
   asks of a check row before it lets [store_check pre] write it; the cascade itself only rewrites
   status and output of rows it has found in the table ([csa_upd]).
   [csa_store] has two states because ensureCheckTxn reads the old row in the state [s] it was
   called on and writes to [s1], the state after the bound sessions have been invalidated. *)
Record casc_at (idx : N) (G : bool -> check -> Prop) (P : st -> Prop) : Prop := {
  csa_store : forall s s1 pre nd cid hc, P s -> P s1 -> G pre hc ->
              P (store_check pre idx nd cid hc (checks s !! (nd, cid)) s1);
  csa_svc : forall pre hc n, G pre hc -> G pre (hc <| c_svcname := n |>);
  csa_drop : forall s sid ss, P s -> sessions s !! sid = Some ss -> P (drop_session idx sid ss s);
  csa_upd : forall s nd cid c status o, P s -> checks s !! (nd, cid) = Some c ->
            (status = critical -> c_session_type c = true) ->
            G true (c <| c_status := status |> <| c_output := o |>)
}.

Lemma casc_at_sessions idx G P (R : gmap string session -> Prop) :
  (forall sid m, R m -> R (delete sid m)) ->
  casc_at idx G P -> casc_at idx G (fun s => P s /\ R (sessions s)).
Proof.
  intros HR [Hst Hsv Hdr Hup]. split.
  - intros s s1 pre nd cid hc [Hs _] [Hs1 HR1] Hg. split; [apply Hst; assumption|].
    rewrite store_check_sessions. exact HR1.
  - exact Hsv.
  - intros s sid ss [Hs HRs] Hss. split; [apply Hdr; assumption|].
    rewrite drop_session_sessions. apply HR. exact HRs.
  - intros s nd cid c status o [Hs _]. apply Hup. exact Hs.
Qed.

Lemma ensure_check_with_casc idx G P del pre nd cid hc :
  casc_at idx G P -> G pre hc -> (forall sid, keeps P (del idx sid)) ->
  keeps P (ensure_check_with del pre idx nd cid hc).
Proof.
  intros HP Hg Hdel s Hs. unfold ensure_check_with.
  destruct (nodes s !! nd); [|split; [discriminate|exact Hs]].
  apply (rpost_bind _ (G pre)).
  { unfold resolve_service. destruct (bool_decide _); [exact Hg|].
    destruct (services s !! _); [apply (csa_svc _ _ _ HP); exact Hg|split; [discriminate|exact Hs]]. }
  intros hc1 Hg1. apply (rpost_bind _ P).
  { unfold invalidate_if_critical. destruct (bool_decide _); [|exact Hs].
    apply rpost_rfold; [|exact Hs]. intros sid s' _. apply Hdel. }
  intros s1 Hs1. apply (csa_store _ _ _ HP); assumption.
Qed.

Lemma invalidate_checks_casc idx G P del sid nd cm l :
  casc_at idx G P -> P cm ->
  (forall cid, cid ∈ l -> exists c, checks cm !! (nd, cid) = Some c /\ c_session_type c = true) ->
  (forall sid', keeps P (del idx sid')) ->
  keeps P (invalidate_checks del idx sid nd cm l).
Proof.
  intros HP Hcm Hl Hdel s Hs. unfold invalidate_checks. apply rpost_rfold; [|exact Hs].
  intros cid s' Hin Hs'. destruct (Hl cid Hin) as (c & Hc & Ht). rewrite Hc.
  apply (ensure_check_with_casc idx G P); [exact HP| |exact Hdel|exact Hs'].
  apply (csa_upd _ _ _ HP cm nd cid c); [exact Hcm|exact Hc|intros _; exact Ht].
Qed.

(* With more fuel than sessions, deleteSessionTxn keeps P, never runs out of fuel, and the session
   it was asked to delete is gone afterwards.  The induction is over all P at once: after the first
   removal the rest of the cascade runs under "P, and [sid] stays gone, and one session fewer". *)
Theorem delete_session_casc idx G fuel : forall P n sid s,
  casc_at idx G P -> (n < fuel)%nat -> P s -> (size (sessions s) <= n)%nat ->
  rpost (nofuel (fun s' => P s' /\ (size (sessions s') <= n)%nat))
        (fun s' => (P s' /\ (size (sessions s') <= n)%nat) /\ sessions s' !! sid = None)
        (delete_session fuel idx sid s).
Proof.
  induction fuel as [|fuel IH]; intros P n sid s HP Hn Hs Hsz; [lia|].
  rewrite delete_session_S. destruct (sessions s !! sid) as [ss|] eqn:Ess; [|repeat split; assumption].
  cbn zeta. pose proof (size_delete_Some _ _ _ Ess) as Hsize.
  set (P' := fun s' : st => P s' /\ sessions s' !! sid = None).
  set (Q := fun s' : st => P' s' /\ (size (sessions s') <= pred n)%nat).
  assert (HP' : casc_at idx G P').
  { apply (casc_at_sessions idx G P (fun m => m !! sid = None)); [|exact HP].
    intros sid' m Hm. apply lookup_delete_None. right. exact Hm. }
  assert (HQ : casc_at idx G Q).
  { apply (casc_at_sessions idx G P' (fun m => (size m <= pred n)%nat)); [|exact HP'].
    intros sid' m Hm. rewrite map_size_delete. destruct (m !! sid'); cbn; lia. }
  assert (H4 : Q (drop_session idx sid ss s)).
  { repeat split; [apply (csa_drop _ _ _ HP); assumption|..]; rewrite drop_session_sessions;
      [apply lookup_delete|lia]. }
  (* the deletions inside the rest of the cascade keep Q: the induction hypothesis at P' *)
  assert (Hrest : forall sid', keeps Q (delete_session fuel idx sid')).
  { intros sid' s' [Hs' Hle]. eapply rpost_weaken; [|apply (IH P' (pred n) sid' s' HP'); [lia|exact Hs'|exact Hle]].
    intros a [Ha _]. exact Ha. }
  eapply rpost_mono; [| |apply (invalidate_checks_casc idx G Q (delete_session fuel));
                          [exact HQ|exact H4|intros cid; apply elem_of_session_checks_of_node|exact Hrest|exact H4]].
  - intros e p [He [[Hp _] Hle]]. repeat split; [exact He|exact Hp|lia].
  - intros s' [[Hp Hg] Hle]. repeat split; [exact Hp|lia|exact Hg].
Qed.

Corollary delete_session_top_casc idx G P sid s :
  casc_at idx G P -> P s ->
  rpost (nofuel P) (fun s' => P s' /\ sessions s' !! sid = None) (delete_session_top idx sid s).
Proof.
  intros HP Hs. unfold delete_session_top, fuel_of.
  eapply rpost_mono; [| |apply (delete_session_casc idx G _ P (size (sessions s)) sid s HP); [lia|exact Hs|lia]].
  - intros e p [He [Hp _]]. split; assumption.
  - intros s' [[Hp _] Hg]. split; assumption.
Qed.

Lemma delete_session_top_keeps idx G P sid : casc_at idx G P -> keeps P (delete_session_top idx sid).
Proof.
  intros HP s Hs. eapply rpost_weaken; [|apply (delete_session_top_casc idx G P sid s HP Hs)].
  intros a [Ha _]. exact Ha.
Qed.

Lemma delete_sessions_casc idx G l : forall P s, casc_at idx G P -> P s ->
  rpost (nofuel P) (fun s' => P s' /\ forall sid, sid ∈ l -> sessions s' !! sid = None)
        (rfold (fun s' sid => delete_session_top idx sid s') l s).
Proof.
  induction l as [|x l IH]; intros P s HP Hs; cbn [rfold].
  - split; [exact Hs|]. intros sid Hin. inversion Hin.
  - apply (rpost_bind _ (fun s' => P s' /\ sessions s' !! x = None)).
    { apply (delete_session_top_casc idx G P x s HP Hs). }
    intros a Ha. eapply rpost_mono; [| |apply (IH (fun s' => P s' /\ sessions s' !! x = None) a); [|exact Ha]].
    + intros e p [He [Hp _]]. split; assumption.
    + intros a' [[Hp Hx] Hl]. split; [exact Hp|].
      intros sid Hin. apply elem_of_cons in Hin as [->|Hin]; [exact Hx|apply Hl; exact Hin].
    + apply (casc_at_sessions idx G P (fun m => m !! x = None)); [|exact HP].
      intros sid' m Hm. apply lookup_delete_None. right. exact Hm.
Qed.

Lemma ensure_check_p_casc idx G P pre nd cid hc :
  casc_at idx G P -> G pre hc -> keeps P (ensure_check_p pre idx nd cid hc).
Proof.
  intros HP Hg. unfold ensure_check_p. apply (ensure_check_with_casc idx G P); [exact HP|exact Hg|].
  intros sid s Hs. apply (delete_session_top_keeps idx G P sid HP s Hs).
Qed.

Lemma ensure_check_p_noncrit pre idx nd cid hc s :
  c_status hc ≠ critical ->
  rpost anyerr (fun s' => exists hc1 ex, s' = store_check pre idx nd cid hc1 ex s)
        (ensure_check_p pre idx nd cid hc s).
Proof.
  intros Hnc. unfold ensure_check_p, ensure_check_with. destruct (nodes s !! nd); [|exact I].
  apply (rpost_bind _ (fun hc1 => c_status hc1 = c_status hc)).
  { unfold resolve_service. destruct (bool_decide _); [reflexivity|].
    destruct (services s !! _); [reflexivity|exact I]. }
  intros hc1 Hst. unfold invalidate_if_critical.
  rewrite bool_decide_eq_false_2 by (rewrite Hst; exact Hnc). cbn. eauto.
Qed.

(* sessionCreateTxn: the new row, then updateSessionCheck(passing) over the session checks *)
Lemma session_create_rpost (P : st -> Prop) (E : err -> st -> Prop) idx sid ss s :
  (forall e, e ≠ EFuel -> E e s) ->
  (sid ≠ "" -> is_Some (nodes s !! s_node ss) ->
   (forall cid, cid ∈ s_checks ss -> exists c, checks s !! (s_node ss, cid) = Some c /\
                                              (c_status c = critical -> c_session_type c = true)) ->
   P (session_row idx sid ss s) /\
   forall s' cid c, P s' -> checks (session_row idx sid ss s) !! (s_node ss, cid) = Some c ->
     rpost E P (ensure_check_p true idx (s_node ss) cid (c <| c_status := 0 |> <| c_output := OInForce sid |>) s')) ->
  rpost E P (session_create idx sid ss s).
Proof.
  intros Hnf Hgo. unfold session_create.
  destruct (bool_decide (sid = "")) eqn:Esid; [apply Hnf; discriminate|]. apply bool_decide_eq_false in Esid.
  destruct (nodes s !! s_node ss) eqn:En; [|apply Hnf; discriminate].
  destruct (forallb _ _) eqn:Efa; [|apply Hnf; discriminate].
  destruct Hgo as [Hrow Hupd]; [exact Esid|eauto|..].
  { intros cid Hin. rewrite forallb_forall in Efa. specialize (Efa cid (proj1 (elem_of_list_In _ _) Hin)).
    destruct (checks s !! (s_node ss, cid)) as [c|]; [|discriminate]. exists c. split; [reflexivity|].
    intros Hcrit. rewrite (bool_decide_eq_true_2 _ Hcrit) in Efa.
    destruct (c_session_type c); [reflexivity|discriminate]. }
  fold (session_row idx sid ss s). apply rpost_rfold; [|exact Hrow].
  intros cid s' _ Hs'. destruct (checks (session_row idx sid ss s) !! (s_node ss, cid)) eqn:Ec; [|exact Hs'].
  apply Hupd; assumption.
Qed.

Lemma session_create_casc idx G P sid ss :
  casc_at idx G P -> (forall s, P s -> sid ≠ "" -> P (session_row idx sid ss s)) ->
  keeps P (session_create idx sid ss).
Proof.
  intros HP Hrow s Hs. apply session_create_rpost; [intros e He; split; assumption|].
  intros Hsid _ _. split; [apply Hrow; assumption|].
  intros s' cid c Hs' Hc. apply (ensure_check_p_casc idx G P); [exact HP| |exact Hs'].
  apply (csa_upd _ _ _ HP (session_row idx sid ss s) (s_node ss) cid c); [apply Hrow; assumption|exact Hc|discriminate].
Qed.

Lemma ensure_service_rpost (P : st -> Prop) (E : err -> st -> Prop) idx nd svc name port s :
  P s -> (forall e, e ≠ EFuel -> E e s) ->
  P (s <| services ::= <[(nd, svc) := Svc name port idx idx]> |>) ->
  (forall x, services s !! (nd, svc) = Some x ->
             P (s <| services ::= <[(nd, svc) := Svc name port (sv_create x) idx]> |>)) ->
  rpost E P (ensure_service idx nd svc name port s).
Proof.
  intros Hs Hnf Hnew Hupd. unfold ensure_service. destruct (nodes s !! nd); [|apply Hnf; discriminate].
  destruct (services s !! (nd, svc)) as [x|]; [|exact Hnew].
  destruct (_ && _); [exact Hs|apply Hupd; reflexivity].
Qed.

(* ensureNodeTxn: possibly the removal of the node that had the id under another name, then one
   row written; its create index is new or that of a node row of [s] or of the state written to *)
Lemma ensure_node_rpost (P : st -> Prop) (E : err -> st -> Prop) idx nd id addr s :
  P s -> (forall e, e ≠ EFuel -> E e s) ->
  (forall o, rpost E P (delete_node idx o s)) ->
  (forall s1, P s1 -> P (s1 <| nodes ::= <[nd := Node id addr idx idx]> |>)) ->
  (forall s' nm x s1, s' = s \/ s' = s1 -> nodes s' !! nm = Some x -> P s1 ->
                      P (s1 <| nodes ::= <[nd := Node id addr (n_create x) idx]> |>)) ->
  rpost E P (ensure_node idx nd id addr s).
Proof.
  intros Hs Hnf Hdel Hnew Hupd. unfold ensure_node.
  apply (rpost_bind E (fun r => P r.2 /\ forall x, r.1 = Some x -> exists nm, nodes s !! nm = Some x)).
  - destruct (bool_decide (id = "")); [split; [exact Hs|discriminate]|].
    destruct (node_by_id id s) as [[oname on]|] eqn:Eby.
    + apply node_by_id_Some in Eby as [Eby _].
      assert (Hon : forall x, Some on = Some x -> exists nm, nodes s !! nm = Some x)
        by (intros x Hx; injection Hx as <-; eauto).
      destruct (bool_decide (oname = nd)); [split; [exact Hs|exact Hon]|].
      destruct (similar_clash false nd id s); [apply Hnf; discriminate|].
      apply (rpost_bind E P); [apply Hdel|]. intros s' Hs'. split; [exact Hs'|exact Hon].
    + destruct (similar_clash true nd id s); [apply Hnf; discriminate|split; [exact Hs|discriminate]].
  - intros [n0 s1] [Hs1 Hn0]. cbn in Hs1, Hn0. cbn.
    destruct n0 as [x|]; [|destruct (nodes s1 !! nd) as [x|] eqn:Ex].
    + destruct (_ && _); [exact Hs1|]. destruct (Hn0 x eq_refl) as [nm Hx].
      apply (Hupd s nm x s1); [left; reflexivity|exact Hx|exact Hs1].
    + destruct (_ && _); [exact Hs1|]. apply (Hupd s1 nd x s1); [right; reflexivity|exact Ex|exact Hs1].
    + apply Hnew. exact Hs1.
Qed.

Record rows_at (idx : N) (P : st -> Prop) : Prop := {
  ra_check_del : forall s k, P s -> P (s <| checks ::= delete k |>);
  ra_service_del : forall s k, P s -> P (s <| services ::= delete k |>);
  ra_node_del : forall s nd, P s -> P (s <| nodes ::= delete nd |>);
  ra_service_new : forall s k name port, P s -> P (s <| services ::= <[k := Svc name port idx idx]> |>);
  ra_service_upd : forall s k name port x, P s -> services s !! k = Some x ->
                   P (s <| services ::= <[k := Svc name port (sv_create x) idx]> |>);
  ra_node_new : forall s nd id addr, P s -> P (s <| nodes ::= <[nd := Node id addr idx idx]> |>);
  ra_node_upd : forall s' s nd id addr nm x, P s' -> nodes s' !! nm = Some x -> P s ->
                P (s <| nodes ::= <[nd := Node id addr (n_create x) idx]> |>)
}.

Section Rows.
  Context (idx : N) (G : bool -> check -> Prop) (P : st -> Prop).
  Hypothesis HC : casc_at idx G P.
  Hypothesis HR : rows_at idx P.

  Lemma delete_check_casc nd cid : keeps P (delete_check idx nd cid).
  Proof.
    intros s Hs. unfold delete_check. destruct (checks s !! (nd, cid)); [|exact Hs].
    apply rpost_rfold; [|apply (ra_check_del _ _ HR); exact Hs].
    intros sid s' _. apply (delete_session_top_keeps idx G P sid HC).
  Qed.

  Lemma delete_service_casc nd svc : keeps P (delete_service idx nd svc).
  Proof.
    intros s Hs. unfold delete_service. destruct (services s !! (nd, svc)); [|exact Hs].
    apply (rpost_bind _ P).
    - apply rpost_rfold; [|exact Hs]. intros cid s' _. apply delete_check_casc.
    - intros s1 Hs1. apply (ra_service_del _ _ HR). exact Hs1.
  Qed.

  Lemma delete_node_casc nd : keeps P (delete_node idx nd).
  Proof.
    intros s Hs. unfold delete_node. destruct (nodes s !! nd); [|exact Hs].
    apply (rpost_bind _ P).
    { apply rpost_rfold; [|exact Hs]. intros svc s' _. apply delete_service_casc. }
    intros s1 Hs1. apply (rpost_bind _ P).
    { apply rpost_rfold; [|exact Hs1]. intros cid s' _. apply delete_check_casc. }
    intros s2 Hs2. apply rpost_rfold; [|apply (ra_node_del _ _ HR); exact Hs2].
    intros sid s' _. apply (delete_session_top_keeps idx G P sid HC).
  Qed.

  Lemma ensure_node_casc nd id addr : keeps P (ensure_node idx nd id addr).
  Proof.
    intros s Hs. apply ensure_node_rpost; [exact Hs|intros e He; split; assumption| | |].
    - intros o. apply delete_node_casc. exact Hs.
    - intros s1. apply (ra_node_new _ _ HR).
    - intros s' nm x s1 Hs' Hx Hs1.
      apply (ra_node_upd _ _ HR s' s1 nd id addr nm x); [destruct Hs' as [-> | ->]; assumption|exact Hx|exact Hs1].
  Qed.

  Lemma ensure_service_casc nd svc name port : keeps P (ensure_service idx nd svc name port).
  Proof.
    intros s Hs. apply ensure_service_rpost; [exact Hs|intros e He; split; assumption| |].
    - apply (ra_service_new _ _ HR). exact Hs.
    - intros x Hx. apply (ra_service_upd _ _ HR); assumption.
  Qed.

  Theorem cat_step_casc s r : (forall hc, G false hc) -> P s -> cat_step idx s r -> rpost (nofuel P) P r.
  Proof.
    intros Hg Hs. destruct 1.
    - apply ensure_node_casc; exact Hs.
    - apply ensure_service_casc; exact Hs.
    - apply (ensure_check_p_casc idx G P); [exact HC|apply Hg|exact Hs].
    - apply delete_node_casc; exact Hs.
    - apply delete_service_casc; exact Hs.
    - apply delete_check_casc; exact Hs.
    - apply (delete_session_top_keeps idx G P sid HC); exact Hs.
  Qed.
End Rows.

Section Walk.
  (* [F sid s]: what may be assumed of the command [SessionCreate sid _] run on [s] (a history in
     which ids are not reused, say); [fun _ _ => True] when nothing is *)
  Context (P : st -> Prop) (E : err -> st -> Prop) (idx : N) (F : string -> st -> Prop).
  Hypothesis Hkv : forall s s', P s -> kv_step idx s s' -> P s'.
  Hypothesis Hcat : forall s r, P s -> cat_step idx s r -> rpost E P r.
  Hypothesis Hnf : forall e s, P s -> e ≠ EFuel -> E e s.
  Hypothesis Hsc : forall sid ss s, F sid s -> P s -> rpost E P (session_create idx sid ss s).
  Hypothesis Hqs : forall qid sess s, P s -> rpost E P (query_set idx qid sess s).
  Hypothesis Hqd : forall qid s, P s -> P (query_delete idx qid s).
  Hypothesis Hreap : forall upto s, P s -> P (reap_tombstones upto s).

  Lemma walk_txn_op op s : P s -> rpost E (fun r => P r.1) (txn_op idx op s).
  Proof.
    intros Hs.
    assert (Hq : forall r, quiet s r \/ cat_step idx s r -> rpost E P r).
    { intros r [[-> |(e & He & ->)]|Hr]; [exact Hs|apply Hnf; assumption|apply (Hcat s); assumption]. }
    destruct op as [v q|v nd id addr cidx|v nd svc name port cidx|v c|sid].
    - eapply rpost_mono; [| |apply (txn_kv_step idx v q s)].
      + intros e p [He ->]. apply Hnf; assumption.
      + intros r. apply Hkv. exact Hs.
    - apply rpost_res_st, Hq. exact (txn_cat_step idx (TNode v nd id addr cidx) s).
    - apply rpost_res_st, Hq. exact (txn_cat_step idx (TService v nd svc name port cidx) s).
    - apply rpost_res_st, Hq. exact (txn_cat_step idx (TCheck v c) s).
    - apply rpost_res_st, Hq. exact (txn_cat_step idx (TSessionDelete sid) s).
  Qed.

  (* a transaction that reports no error went through successful operations only *)
  Lemma walk_txn_dispatch ops : forall i s,
    P s -> (txn_dispatch idx i ops s).2 = [] -> P (txn_dispatch idx i ops s).1.1.
  Proof.
    induction ops as [|op ops IH]; intros i s Hs; cbn; [intros _; exact Hs|].
    pose proof (walk_txn_op op s Hs) as Hop.
    destruct (txn_op idx op s) as [[s' r]|e sp]; cbn in Hop.
    - specialize (IH (S i) s' Hop). destruct (txn_dispatch idx (S i) ops s') as [[s'' rs] es]. exact IH.
    - destruct (txn_dispatch idx (S i) ops sp) as [[s'' rs] es]. discriminate.
  Qed.

  Lemma walk_registration nd id addr skip svc cks s :
    P s -> rpost E P (ensure_registration idx nd id addr skip svc cks s).
  Proof.
    intros Hs. unfold ensure_registration. apply (rpost_bind E P).
    { destruct (changes_node _ _ _ _); [apply (Hcat s); [exact Hs|constructor]|exact Hs]. }
    intros s1 Hs1. apply (rpost_bind E P).
    { destruct svc as [[[sid name] port]|]; [|exact Hs1].
      destruct (services s1 !! (nd, sid)) as [x|]; [destruct (_ && _); [exact Hs1|]|];
        (apply (Hcat s1); [exact Hs1|constructor]). }
    intros s2 Hs2. apply rpost_rfold; [|exact Hs2].
    intros c s' _ Hs'. destruct (bool_decide _); [|apply (Hnf _ s'); [exact Hs'|discriminate]].
    apply (Hcat s'); [exact Hs'|apply cs_ensure_check].
  Qed.

  Theorem walk_apply c s :
    (forall sid ss, c = SessionCreate sid ss -> F sid s) -> P s -> P (apply idx c s).1.
  Proof.
    intros HF Hs. destruct c; cbn [apply].
    - apply (Hkv s); [exact Hs|apply apply_kvs_step].
    - pose proof (Hsc sid ss s (HF _ _ eq_refl) Hs) as Hx. destruct (session_create idx sid ss s); [exact Hx|exact Hs].
    - apply (rpost_of_unit E); [exact Hs|]. apply (Hcat s); [exact Hs|constructor].
    - apply (rpost_of_unit E); [exact Hs|]. apply walk_registration; exact Hs.
    - destruct (negb (bool_decide (svc = ""))); [|destruct (negb (bool_decide (cid = "")))];
        (apply (rpost_of_unit E); [exact Hs|]; apply (Hcat s); [exact Hs|constructor]).
    - unfold txn_rw. pose proof (walk_txn_dispatch ops 0%nat s Hs) as Hx.
      destruct (txn_dispatch idx 0 ops s) as [[s' rs] es]. destruct es; [apply Hx; reflexivity|exact Hs].
    - apply Hreap; exact Hs.
    - apply (rpost_of_unit E); [exact Hs|]. apply Hqs; exact Hs.
    - apply Hqd; exact Hs.
  Qed.
End Walk.

Theorem walk_run (P : st -> Prop) :
  (forall idx c s, P s -> P (apply idx c s).1) -> forall log s, P s -> P (run log s).1.
Proof.
  intros Ha. induction log as [|[idx c] log IH]; intros s Hs; cbn; [exact Hs|].
  specialize (Ha idx c s Hs). destruct (apply idx c s) as [s' r].
  specialize (IH s' Ha). destruct (run log s') as [s'' rs]. exact IH.
Qed.

Definition nf {A} (r : result A) : Prop := rpost (fun e _ => e ≠ EFuel) (fun _ => True) r.

(* Section Walk and the cascade at the predicate that is always true *)
Section NoFuel.
  Context (idx : N).
  Let T : st -> Prop := fun _ => True.
  Let NF : err -> st -> Prop := fun e _ => e ≠ EFuel.

  Lemma True_casc : casc_at idx (fun _ _ => True) T.
  Proof. split; intros; exact I. Qed.
  Lemma True_rows : rows_at idx T.
  Proof. split; intros; exact I. Qed.

  Lemma nf_of_nofuel {A} (r : result A) : rpost (nofuel T) (fun _ => True) r -> nf r.
  Proof. apply rpost_mono; [intros e p [He _]; exact He|auto]. Qed.

  Lemma cat_step_nf s r : cat_step idx s r -> nf r.
  Proof.
    intros Hr. apply nf_of_nofuel, (cat_step_casc idx _ T True_casc True_rows s r); [intros; exact I|exact I|exact Hr].
  Qed.

  Lemma session_create_nf sid ss s : nf (session_create idx sid ss s).
  Proof. apply nf_of_nofuel, (session_create_casc idx _ T sid ss True_casc); intros; exact I. Qed.

  Lemma query_set_nf qid sess s : nf (query_set idx qid sess s).
  Proof. unfold query_set. destruct (_ || _); [exact I|discriminate]. Qed.

  (* the three hypotheses of Section Walk that [walk_txn_op] and [walk_registration] use *)
  Let T_kv : forall s s', T s -> kv_step idx s s' -> T s' := fun _ _ _ _ => I.
  Let T_cat : forall s r, T s -> cat_step idx s r -> rpost NF T r := fun s r _ => cat_step_nf s r.
  Let T_nf : forall e s, T s -> e ≠ EFuel -> NF e s := fun _ _ _ He => He.

  Lemma txn_op_nf op s : nf (txn_op idx op s).
  Proof. eapply rpost_weaken; [|apply (walk_txn_op T NF idx T_kv T_cat T_nf op s I)]. intros; exact I. Qed.

  Lemma ensure_registration_nf nd id addr skip svc cks s : nf (ensure_registration idx nd id addr skip svc cks s).
  Proof. exact (walk_registration T NF idx T_cat T_nf nd id addr skip svc cks s I). Qed.

  Lemma txn_dispatch_nf ops : forall i s j e, (j, e) ∈ (txn_dispatch idx i ops s).2 -> e ≠ EFuel.
  Proof.
    induction ops as [|op ops IH]; intros i s j e; cbn; [intros Hin; inversion Hin|].
    pose proof (txn_op_nf op s) as Hop.
    destruct (txn_op idx op s) as [[s' r]|e' sp]; cbn in Hop.
    - specialize (IH (S i) s' j e). destruct (txn_dispatch idx (S i) ops s') as [[s'' rs] es]. exact IH.
    - specialize (IH (S i) sp j e). destruct (txn_dispatch idx (S i) ops sp) as [[s'' rs] es]. cbn in *.
      intros Hin. apply elem_of_cons in Hin as [Heq|Hin]; [injection Heq as _ ->; exact Hop|exact (IH Hin)].
  Qed.
End NoFuel.
