(* The catalog skeleton of the core store: the nodes, the services, and for every check the service
   id it names.  The session cascade that a check or node removal may trigger (deleteSessionTxn ->
   updateSessionCheck -> ensureCheckTxn -> deleteSessionTxn ...) only rewrites checks that are
   already there, so it keeps the skeleton exactly; every catalog verb is then characterised by
   what a successful call does to the skeleton. *)
From stdpp Require Import gmap strings.
From RecordUpdate Require Import RecordSet.
From Coq Require Import NArith.
From Verif Require Import Store.Model Store.Walk.
Import RecordSetNotations.
Local Open Scope N_scope.

Definition cmap (s : st) : gmap (string * string) string := c_service <$> checks s.

Definition shape_eq (s p : st) : Prop :=
  nodes p = nodes s /\ services p = services s /\ cmap p = cmap s.

Lemma shape_eq_refl s : shape_eq s s.
Proof. repeat split. Qed.
Lemma shape_eq_trans a b c : shape_eq a b -> shape_eq b c -> shape_eq a c.
Proof. intros (H1 & H2 & H3) (H4 & H5 & H6). repeat split; congruence. Qed.

Lemma cmap_lookup s k : cmap s !! k = c_service <$> checks s !! k.
Proof. apply lookup_fmap. Qed.

Lemma cmap_lookup_Some s k x : cmap s !! k = Some x <-> exists c, checks s !! k = Some c /\ x = c_service c.
Proof. rewrite cmap_lookup. apply fmap_Some. Qed.

Definition cat_same (s p : st) : Prop := nodes p = nodes s /\ services p = services s /\ checks p = checks s.

Lemma cat_same_shape s p : cat_same s p -> shape_eq s p.
Proof. intros (A & B & C). repeat split; [exact A|exact B|]. unfold cmap. rewrite C. reflexivity. Qed.

Lemma check_same_service a b : check_same a b = true -> c_service a = c_service b.
Proof. unfold check_same. rewrite !andb_true_iff, !bool_decide_eq_true. tauto. Qed.

Lemma ensure_check_with_shape del pre idx nd cid hc s s' :
  (forall i sid a b, del i sid a = Ok b -> shape_eq a b) ->
  ensure_check_with del pre idx nd cid hc s = Ok s' ->
  nodes s' = nodes s /\ services s' = services s /\
  cmap s' = <[(nd, cid) := c_service hc]> (cmap s) /\
  is_Some (nodes s !! nd) /\ (c_service hc <> "" -> is_Some (services s !! (nd, c_service hc))).
Proof.
  intros Hdel. unfold ensure_check_with. destruct (nodes s !! nd) as [n|] eqn:En; [|discriminate].
  (* hc1: hc with the service's name copied in *)
  destruct (resolve_service nd hc s) as [hc1|] eqn:Er; [|discriminate]. cbn.
  assert (Hhc1 : c_service hc1 = c_service hc /\ (c_service hc <> "" -> is_Some (services s !! (nd, c_service hc)))).
  { unfold resolve_service in Er. destruct (bool_decide (c_service hc = "")) eqn:Ee.
    - injection Er as <-. apply bool_decide_eq_true in Ee. split; [reflexivity|intros H; contradiction].
    - destruct (services s !! (nd, c_service hc)) as [sv|]; [|discriminate].
      injection Er as <-. split; [reflexivity|eauto]. }
  destruct Hhc1 as [Hsvc Hok].
  destruct (invalidate_if_critical del idx nd cid hc1 s) as [s1|] eqn:Ei; [|discriminate]. cbn. intros [= <-].
  assert (Hi : shape_eq s s1).
  { unfold invalidate_if_critical in Ei. destruct (bool_decide _); [|injection Ei as <-; apply shape_eq_refl].
    revert Ei. apply (rfold_Ok_inv (shape_eq s)); [|apply shape_eq_refl].
    intros sid a b Ha Hab. eapply shape_eq_trans; [exact Ha|eapply Hdel, Hab]. }
  destruct Hi as (Hn & Hs & Hc).
  assert (Hcm : cmap (store_check pre idx nd cid hc1 (checks s !! (nd, cid)) s1) = <[(nd, cid) := c_service hc]> (cmap s)).
  { unfold store_check.
    destruct (match checks s !! (nd, cid) with Some x => negb (check_same x hc1) | None => true end) eqn:Em.
    - unfold cmap in *. cbn. rewrite fmap_insert, Hc. cbn. rewrite Hsvc. reflexivity.
    - (* unchanged: the old check is the same as hc1, so it names the same service *)
      destruct (checks s !! (nd, cid)) as [x|] eqn:Ex; [|discriminate]. apply negb_false_iff, check_same_service in Em.
      rewrite Hc. symmetry. apply insert_id. rewrite cmap_lookup, Ex. cbn. congruence. }
  destruct (store_check_frame pre idx nd cid hc1 (checks s !! (nd, cid)) s1) as (_ & _ & _ & _ & _ & Fn & Fs & _).
  rewrite Fn, Fs. split; [exact Hn|]. split; [exact Hs|]. split; [exact Hcm|]. split; [eauto|exact Hok].
Qed.

Lemma delete_session_shape fuel : forall idx sid s s', delete_session fuel idx sid s = Ok s' -> shape_eq s s'.
Proof.
  induction fuel as [|fuel IH]; intros idx sid s s'; cbn [delete_session]; [discriminate|].
  destruct (sessions s !! sid) as [ss|]; [|intros [= <-]; apply shape_eq_refl].
  assert (H4 : shape_eq s (drop_session idx sid ss s)).
  { destruct (drop_session_frame idx sid ss s) as (Hn & Hs & Hc & _). apply cat_same_shape. repeat split; assumption. }
  set (s4 := drop_session idx sid ss s) in *. intros Hr. eapply shape_eq_trans; [exact H4|].
  (* each step re-stores a check of s4 under its own key and service id *)
  refine (rfold_Ok_inv (shape_eq s4) _ _ _ _ _ (shape_eq_refl s4) Hr).
  intros cid a b (Hn & Hs & Hc) Hstep. destruct (checks s4 !! (s_node ss, cid)) as [c|] eqn:Ec.
  - apply ensure_check_with_shape in Hstep as (Hn' & Hs' & Hc' & _); [|intros i sd; apply IH].
    repeat split; [congruence|congruence|]. rewrite Hc', Hc. apply insert_id. rewrite cmap_lookup, Ec. reflexivity.
  - injection Hstep as <-. repeat split; assumption.
Qed.

Lemma fold_session_top_shape idx l s s' :
  rfold (fun s' sid => delete_session_top idx sid s') l s = Ok s' -> shape_eq s s'.
Proof.
  apply (rfold_Ok_inv (shape_eq s)); [|apply shape_eq_refl].
  intros sid a b Ha Hab. eapply shape_eq_trans; [exact Ha|eapply delete_session_shape, Hab].
Qed.

Lemma ensure_check_p_shape pre idx nd cid hc s s' :
  ensure_check_p pre idx nd cid hc s = Ok s' ->
  nodes s' = nodes s /\ services s' = services s /\
  cmap s' = <[(nd, cid) := c_service hc]> (cmap s) /\
  is_Some (nodes s !! nd) /\ (c_service hc <> "" -> is_Some (services s !! (nd, c_service hc))).
Proof. apply ensure_check_with_shape. intros i sid a b. apply delete_session_shape. Qed.

Lemma delete_check_shape idx nd cid s s' :
  delete_check idx nd cid s = Ok s' ->
  nodes s' = nodes s /\ services s' = services s /\ cmap s' = delete (nd, cid) (cmap s).
Proof.
  unfold delete_check. destruct (checks s !! (nd, cid)) as [c|] eqn:Ec.
  - intros Hr. apply fold_session_top_shape in Hr as (Hn & Hs & Hc).
    repeat split; [exact Hn|exact Hs|]. rewrite Hc. apply fmap_delete.
  - intros [= <-]. repeat split. symmetry. apply delete_notin. rewrite cmap_lookup, Ec. reflexivity.
Qed.

(* dropping the key (nd, c), then the keys (nd, _) listed in l *)
Lemma not_in_cons_key (nd a b c : string) (l : list string) :
  ~ (a = nd /\ b ∈ c :: l) <-> (nd, c) <> (a, b) /\ ~ (a = nd /\ b ∈ l).
Proof.
  rewrite elem_of_cons. split.
  - intros H. split; [intros [= -> ->]; apply H; auto|intros [-> Hin]; apply H; auto].
  - intros [H1 H2] [-> [->|Hin]]; [apply H1; reflexivity|apply H2; auto].
Qed.

Lemma fold_delete_check_shape idx nd l : forall s s',
  rfold (fun s' cid => delete_check idx nd cid s') l s = Ok s' ->
  nodes s' = nodes s /\ services s' = services s /\
  forall k x, cmap s' !! k = Some x <-> cmap s !! k = Some x /\ ~ (k.1 = nd /\ k.2 ∈ l).
Proof.
  induction l as [|cid l IH]; intros s s'.
  - intros [= <-]. split; [reflexivity|]. split; [reflexivity|]. intros k x.
    split; [intros H; split; [exact H|]; intros [_ Hin]; inversion Hin|tauto].
  - intros Hr. apply rfold_cons_Ok in Hr as (s1 & Hd & Hr).
    apply delete_check_shape in Hd as (Hn1 & Hs1 & Hc1). apply IH in Hr as (Hn & Hs & Hc).
    split; [congruence|]. split; [congruence|]. intros [a b] x.
    rewrite Hc, Hc1, lookup_delete_Some, not_in_cons_key. cbn. tauto.
Qed.

Lemma NoDup_ssort l : NoDup l -> NoDup (ssort l).
Proof. intros H. rewrite (ssort_perm l). exact H. Qed.

(* the keys of node [nd] that a listing function [f] selects among the entries of a table *)
Lemma elem_of_node_keys {V} (f : string * string * V -> option string) (sel : V -> Prop) (nd : string)
      (m : gmap (string * string) V) x :
  (forall n i v, f ((n, i), v) = Some x <-> n = nd /\ i = x /\ sel v) ->
  x ∈ ssort (omap f (map_to_list m)) <-> exists v, m !! (nd, x) = Some v /\ sel v.
Proof.
  intros Hf. rewrite elem_of_ssort, elem_of_list_omap. split.
  - intros ([[n i] v] & Hin & Hx). apply elem_of_map_to_list in Hin. apply Hf in Hx as (-> & -> & Hs). eauto.
  - intros (v & Hv & Hs). exists ((nd, x), v). split; [apply elem_of_map_to_list; exact Hv|apply Hf; auto].
Qed.

Lemma NoDup_omap_inj {A B} (f : A -> option B) (l : list A) :
  NoDup l ->
  (forall x y z, x ∈ l -> y ∈ l -> f x = Some z -> f y = Some z -> x = y) ->
  NoDup (omap f l).
Proof.
  induction 1 as [|x l Hx Hl IH]; intros Hinj; cbn; [constructor|].
  destruct (f x) as [z|] eqn:Ez.
  - constructor.
    + intros Hin. apply elem_of_list_omap in Hin as (y & Hy & Hfy).
      assert (x = y) by (eapply Hinj; [left|right; exact Hy|exact Ez|exact Hfy]). subst. contradiction.
    + apply IH. intros a b c Ha Hb. apply Hinj; right; assumption.
  - apply IH. intros a b c Ha Hb. apply Hinj; right; assumption.
Qed.

Lemma NoDup_node_keys {V} (f : string * string * V -> option string) (nd : string) (m : gmap (string * string) V) :
  (forall n i v x, f ((n, i), v) = Some x -> n = nd /\ i = x) ->
  NoDup (ssort (omap f (map_to_list m))).
Proof.
  intros Hf. apply NoDup_ssort, NoDup_omap_inj; [apply NoDup_map_to_list|].
  intros [[n1 x1] v1] [[n2 x2] v2] z H1 H2 Hf1 Hf2. apply elem_of_map_to_list in H1, H2.
  apply Hf in Hf1 as [-> ->], Hf2 as [-> ->]. rewrite H1 in H2. injection H2 as ->. reflexivity.
Qed.

Lemma elem_of_checks_of_service nd svc cid s :
  cid ∈ checks_of_service nd svc s <-> exists c, checks s !! (nd, cid) = Some c /\ c_service c = svc.
Proof.
  apply (elem_of_node_keys _ (fun c => c_service c = svc)). intros n i v.
  repeat case_bool_decide; cbn; naive_solver.
Qed.

Lemma elem_of_checks_of_node nd cid s : cid ∈ checks_of_node nd s <-> is_Some (checks s !! (nd, cid)).
Proof.
  etrans; [apply (elem_of_node_keys _ (fun _ => True)); intros n i v; case_bool_decide; naive_solver|].
  unfold is_Some. naive_solver.
Qed.

Lemma elem_of_services_of_node nd sid s : sid ∈ services_of_node nd s <-> is_Some (services s !! (nd, sid)).
Proof.
  etrans; [apply (elem_of_node_keys _ (fun _ => True)); intros n i v; case_bool_decide; naive_solver|].
  unfold is_Some. naive_solver.
Qed.

Lemma delete_service_shape idx nd svc s s' :
  delete_service idx nd svc s = Ok s' ->
  (services s !! (nd, svc) = None /\ s' = s) \/
  (nodes s' = nodes s /\ services s' = delete (nd, svc) (services s) /\
   forall k x, cmap s' !! k = Some x <-> cmap s !! k = Some x /\ ~ (k.1 = nd /\ x = svc)).
Proof.
  unfold delete_service. destruct (services s !! (nd, svc)) as [v|]; [|intros [= <-]; left; split; reflexivity].
  destruct (rfold _ _ s) as [s1|] eqn:Er; [|discriminate]. cbn. intros [= <-]. right.
  apply fold_delete_check_shape in Er as (Hn & Hs & Hc).
  split; [exact Hn|]. split; [cbn; rewrite Hs; reflexivity|]. intros [n cid] x.
  change (cmap (s1 <| services ::= delete (nd, svc) |>)) with (cmap s1). rewrite Hc. cbn.
  split; intros [Hx Hnot]; (split; [exact Hx|]); intros [-> Hsvc]; apply Hnot; (split; [reflexivity|]).
  - apply cmap_lookup_Some in Hx as (c & Hck & ->). apply elem_of_checks_of_service. eauto.
  - apply elem_of_checks_of_service in Hsvc as (c & Hck & <-).
    apply cmap_lookup_Some in Hx as (c' & Hck' & ->). congruence.
Qed.

Lemma fold_delete_service_shape idx nd l : forall s s',
  rfold (fun s' svc => delete_service idx nd svc s') l s = Ok s' ->
  nodes s' = nodes s /\
  (forall k x, services s' !! k = Some x <-> services s !! k = Some x /\ ~ (k.1 = nd /\ k.2 ∈ l)) /\
  (forall k x, cmap s' !! k = Some x -> cmap s !! k = Some x).
Proof.
  induction l as [|svc l IH]; intros s s'.
  - intros [= <-]. split; [reflexivity|]. split; [|tauto]. intros k x.
    split; [intros H; split; [exact H|]; intros [_ Hin]; inversion Hin|tauto].
  - intros Hr. apply rfold_cons_Ok in Hr as (s1 & Hd & Hr). apply IH in Hr as (Hn & Hs & Hc).
    apply delete_service_shape in Hd as [[Hnone ->]|(Hn1 & Hs1 & Hc1)].
    + split; [exact Hn|]. split; [|exact Hc]. intros [a b] x. rewrite Hs, not_in_cons_key. cbn.
      split; [intros [Hx H]; repeat split; [exact Hx|intros [= <- <-]; congruence|exact H]|tauto].
    + split; [congruence|]. split; [|intros k x Hx; apply Hc, Hc1 in Hx; tauto].
      intros [a b] x. rewrite Hs, Hs1, lookup_delete_Some, not_in_cons_key. cbn. tauto.
Qed.

Lemma delete_node_shape idx nd s s' :
  delete_node idx nd s = Ok s' ->
  (nodes s !! nd = None /\ s' = s) \/
  (nodes s' = delete nd (nodes s) /\
   (forall k x, services s' !! k = Some x <-> services s !! k = Some x /\ k.1 <> nd) /\
   (forall k x, cmap s' !! k = Some x -> cmap s !! k = Some x /\ k.1 <> nd)).
Proof.
  unfold delete_node. destruct (nodes s !! nd) as [n|]; [|intros [= <-]; left; split; reflexivity].
  destruct (rfold _ (services_of_node nd s) s) as [s1|] eqn:E1; [|discriminate]. cbn.
  destruct (rfold _ (checks_of_node nd s1) s1) as [s2|] eqn:E2; [|discriminate]. cbn.
  intros Hr. right. apply fold_session_top_shape in Hr as (Hn3 & Hs3 & Hc3).
  apply fold_delete_service_shape in E1 as (Hn1 & Hs1 & Hc1).
  apply fold_delete_check_shape in E2 as (Hn2 & Hs2 & Hc2).
  split; [rewrite Hn3; cbn; rewrite Hn2, Hn1; reflexivity|]. split.
  - intros [a b] x. rewrite Hs3. cbn. rewrite Hs2, Hs1. cbn.
    split; intros [Hx Hnot]; (split; [exact Hx|]).
    + intros ->. apply Hnot. split; [reflexivity|]. apply elem_of_services_of_node. eauto.
    + intros [-> _]. apply Hnot. reflexivity.
  - intros [a b] x. rewrite Hc3. change (cmap (s2 <| nodes ::= delete nd |>)) with (cmap s2). rewrite Hc2. cbn.
    intros [Hx Hnot]. split; [apply Hc1, Hx|]. intros ->. apply Hnot. split; [reflexivity|].
    apply elem_of_checks_of_node. apply cmap_lookup_Some in Hx as (c & Hck & _). eauto.
Qed.

Lemma node_by_id_None id s : node_by_id id s = None <-> forall nm n, nodes s !! nm = Some n -> n_id n <> id.
Proof.
  unfold node_by_id. destruct (filter _ _) as [|[nm n] l] eqn:E; split; try done.
  - intros _ nm n Hn Hid.
    assert (Hin : (nm, n) ∈ filter (fun kn : string * node => n_id kn.2 = id) (map_to_list (nodes s))).
    { apply elem_of_list_filter. split; [exact Hid|apply elem_of_map_to_list; exact Hn]. }
    rewrite E in Hin. inversion Hin.
  - intros H. exfalso.
    assert (Hin : (nm, n) ∈ filter (fun kn : string * node => n_id kn.2 = id) (map_to_list (nodes s))) by (rewrite E; left).
    apply elem_of_list_filter in Hin as [Hid Hin]. apply elem_of_map_to_list in Hin. exact (H nm n Hin Hid).
Qed.

(* ensureNodeTxn: at most one node -- another name carrying the same id -- is deregistered, giving
   [s1]; then the row (nd) is written, with create index [c], or left alone.  The last component
   says where an id that is not empty stood before. *)
Lemma ensure_node_Ok idx nd id addr s s' :
  ensure_node idx nd id addr s = Ok s' ->
  exists s1 c,
    (s' = s1 \/ s' = s1 <| nodes ::= <[nd := Node id addr c idx]> |>) /\
    (c = idx \/ exists nm x, (nodes s !! nm = Some x \/ nodes s1 !! nm = Some x) /\ n_create x = c) /\
    ((s1 = s /\ (id = "" \/ node_by_id id s = None \/ exists on, node_by_id id s = Some (nd, on))) \/
     (exists oname on, oname <> nd /\ node_by_id id s = Some (oname, on) /\ delete_node idx oname s = Ok s1)).
Proof.
  unfold ensure_node. intros He. apply bind_Ok_inv in He as ([n0 s1] & Hlook & Hfin).
  (* the lookup by id: which state the write goes to, and where a node row found by id comes from *)
  assert (Hlook' : (forall x, n0 = Some x -> exists nm, nodes s !! nm = Some x) /\
            ((s1 = s /\ (id = "" \/ node_by_id id s = None \/ exists on, node_by_id id s = Some (nd, on))) \/
             (exists oname on, oname <> nd /\ node_by_id id s = Some (oname, on) /\ delete_node idx oname s = Ok s1))).
  { destruct (bool_decide (id = "")) eqn:Eid.
    { apply bool_decide_eq_true in Eid. injection Hlook as <- <-. split; [discriminate|auto]. }
    destruct (node_by_id id s) as [[oname on]|] eqn:Eby.
    - pose proof (node_by_id_Some _ _ _ _ Eby) as [Hon _].
      destruct (bool_decide (oname = nd)) eqn:Eon.
      + apply bool_decide_eq_true in Eon. subst oname. injection Hlook as <- <-.
        split; [intros x [= <-]; eauto|left; split; [reflexivity|right; right; eauto]].
      + apply bool_decide_eq_false in Eon. destruct (similar_clash false nd id s); [discriminate|].
        apply bind_Ok_inv in Hlook as (s2 & Hd & Hlook). injection Hlook as <- <-.
        split; [intros x [= <-]; eauto|right; exists oname, on; auto].
    - destruct (similar_clash true nd id s); [discriminate|]. injection Hlook as <- <-.
      split; [discriminate|auto]. }
  destruct Hlook' as [Hn0 Hs1]. exists s1.
  (* the final write *)
  cbn in Hfin. destruct (match n0 with Some x => Some x | None => nodes s1 !! nd end) as [x|] eqn:En1.
  - assert (Hx : exists nm, nodes s !! nm = Some x \/ nodes s1 !! nm = Some x).
    { destruct n0 as [y|]; [injection En1 as ->; destruct (Hn0 x eq_refl) as [nm Hnm]|]; eauto. }
    destruct Hx as [nm Hx]. exists (n_create x).
    destruct (_ && _); injection Hfin as <-; (split; [auto|split; [right; exists nm, x; auto|exact Hs1]]).
  - injection Hfin as <-. exists idx. auto.
Qed.

Lemma ensure_service_Ok idx nd svc name port s s' :
  ensure_service idx nd svc name port s = Ok s' ->
  is_Some (nodes s !! nd) /\ (s' = s \/ exists x, s' = s <| services ::= <[(nd, svc) := x]> |>).
Proof.
  unfold ensure_service. destruct (nodes s !! nd) as [n|]; [|discriminate]. intros H. split; [eauto|]. revert H.
  destruct (services s !! (nd, svc)) as [x|]; [destruct (_ && _)|]; intros [= <-]; eauto.
Qed.
