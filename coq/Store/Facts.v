(* What each building block of the store model does to each table: equations and frame facts for
   the primitives below the cascades (sorted iteration, the KV writers, store_check, the removal of
   one session), with no invariant in them. *)
From stdpp Require Import gmap strings sorting.
From RecordUpdate Require Import RecordSet.
From Coq Require Import NArith.
From Verif Require Import Base.Sorting Store.Model.
Import RecordSetNotations.
Local Open Scope N_scope.

Lemma ssort_isort : insertion_sort String.leb sinsert ssort.
Proof. split; reflexivity. Qed.
Lemma ssort_perm l : ssort l ≡ₚ l.
Proof. apply (isort_perm ssort_isort). Qed.
Lemma elem_of_ssort x l : x ∈ ssort l <-> x ∈ l.
Proof. rewrite (ssort_perm l). reflexivity. Qed.

Lemma elem_of_sessions_of_check nd cid sid s :
  sid ∈ sessions_of_check nd cid s <-> (nd, cid, sid) ∈ schecks s.
Proof.
  unfold sessions_of_check. rewrite elem_of_ssort, elem_of_list_omap. split.
  - intros ([[n c] x] & Hin & Hf). apply elem_of_elements in Hin.
    destruct (bool_decide (n = nd /\ c = cid)) eqn:E; [|discriminate].
    apply bool_decide_eq_true in E as [-> ->]. injection Hf as <-. exact Hin.
  - intros Hin. exists (nd, cid, sid). split; [apply elem_of_elements; exact Hin|].
    rewrite bool_decide_eq_true_2 by (split; reflexivity). reflexivity.
Qed.

Lemma elem_of_sessions_of_node nd sid s :
  sid ∈ sessions_of_node nd s <-> exists ss, sessions s !! sid = Some ss /\ s_node ss = nd.
Proof.
  unfold sessions_of_node. rewrite elem_of_ssort, elem_of_list_omap. split.
  - intros ([x ss] & Hin & Hf). apply elem_of_map_to_list in Hin.
    destruct (bool_decide (s_node ss = nd)) eqn:E; [|discriminate].
    apply bool_decide_eq_true in E. injection Hf as <-. eauto.
  - intros (ss & Hs & Hn). exists (sid, ss). split; [apply elem_of_map_to_list; exact Hs|].
    rewrite bool_decide_eq_true_2 by exact Hn. reflexivity.
Qed.

Lemma elem_of_session_checks_of_node nd name cid s :
  cid ∈ session_checks_of_node nd name s ->
  exists c, checks s !! (nd, cid) = Some c /\ c_session_type c = true.
Proof.
  unfold session_checks_of_node. rewrite elem_of_ssort, elem_of_list_omap.
  intros ([[n x] c] & Hin & Hf). apply elem_of_map_to_list in Hin.
  destruct (bool_decide (n = nd)) eqn:E; [|discriminate]. apply bool_decide_eq_true in E. subst.
  destruct (c_session_type c) eqn:Et; [|discriminate].
  destruct (bool_decide (c_sessname c = name)); [|discriminate].
  cbn in Hf. injection Hf as <-. eauto.
Qed.

Lemma bind_Ok_inv {A B} (m : result A) (k : A -> result B) b :
  m ≫= k = Ok b -> exists a, m = Ok a /\ k a = Ok b.
Proof. destruct m as [a|]; [eauto|discriminate]. Qed.

Lemma rfold_cons_Ok {A S} (f : S -> A -> result S) x l s s' :
  rfold f (x :: l) s = Ok s' -> exists s1, f s x = Ok s1 /\ rfold f l s1 = Ok s'.
Proof. cbn. destruct (f s x) as [s1|]; [eauto|discriminate]. Qed.

Definition kv_frame (s s' : st) : Prop :=
  sessions s' = sessions s /\ schecks s' = schecks s /\ queries s' = queries s /\
  nodes s' = nodes s /\ services s' = services s /\ checks s' = checks s /\ lockdelay s' = lockdelay s.

Lemma kv_frame_refl s : kv_frame s s.
Proof. repeat split. Qed.

Lemma kvs_set_frame idx k e u s : kv_frame s (kvs_set idx k e u s).1.
Proof. unfold kvs_set. destruct (kvs s !! k) as [x|]; [destruct (kv_same _ _)|]; repeat split. Qed.
Lemma kvs_delete_frame idx k s : kv_frame s (kvs_delete idx k s).
Proof. unfold kvs_delete. destruct (kvs s !! k); repeat split. Qed.
Lemma kvs_delete_tree_frame idx p s : kv_frame s (kvs_delete_tree idx p s).
Proof.
  unfold kvs_delete_tree. destruct (bool_decide _); [repeat split|].
  destruct (bool_decide (p = "")); repeat split.
Qed.

Lemma store_check_frame pre idx nd cid hc ex s :
  kvs (store_check pre idx nd cid hc ex s) = kvs s /\ tombs (store_check pre idx nd cid hc ex s) = tombs s /\
  sessions (store_check pre idx nd cid hc ex s) = sessions s /\
  schecks (store_check pre idx nd cid hc ex s) = schecks s /\
  queries (store_check pre idx nd cid hc ex s) = queries s /\
  nodes (store_check pre idx nd cid hc ex s) = nodes s /\
  services (store_check pre idx nd cid hc ex s) = services s /\
  index (store_check pre idx nd cid hc ex s) = index s.
Proof.
  unfold store_check.
  destruct (match ex with Some x => negb (check_same x hc) | None => true end); repeat split.
Qed.

Lemma store_check_sessions pre idx nd cid hc ex s : sessions (store_check pre idx nd cid hc ex s) = sessions s.
Proof. apply store_check_frame. Qed.

Lemma store_check_lookup pre idx nd cid hc ex s k :
  checks (store_check pre idx nd cid hc ex s) !! k = checks s !! k \/
  k = (nd, cid) /\ exists c m, checks (store_check pre idx nd cid hc ex s) !! k
                               = Some (hc <| c_create := c |> <| c_modify := m |>).
Proof.
  unfold store_check.
  destruct (match ex with Some x => negb (check_same x hc) | None => true end); [|left; reflexivity].
  cbn. destruct (decide (k = (nd, cid))) as [->|Hne].
  - right. split; [reflexivity|]. rewrite lookup_insert. eauto.
  - left. apply lookup_insert_ne. congruence.
Qed.

Lemma release_or_delete_keys_frame idx sid ss s :
  sessions (release_or_delete_keys idx sid ss s) = sessions s /\
  schecks (release_or_delete_keys idx sid ss s) = schecks s /\
  queries (release_or_delete_keys idx sid ss s) = queries s /\
  nodes (release_or_delete_keys idx sid ss s) = nodes s /\
  services (release_or_delete_keys idx sid ss s) = services s /\
  checks (release_or_delete_keys idx sid ss s) = checks s.
Proof.
  unfold release_or_delete_keys. destruct (bool_decide _); [repeat split|].
  destruct (s_delete ss), (s_delay ss); repeat split.
Qed.

Lemma release_or_delete_keys_lookup idx sid ss s k :
  kvs (release_or_delete_keys idx sid ss s) !! k =
  match kvs s !! k with
  | Some e => if decide (kv_session e = sid)
              then (if s_delete ss then None
                    else Some (KV (kv_value e) (kv_flags e) "" (kv_lock e) (kv_create e) idx))
              else Some e
  | None => None
  end.
Proof.
  unfold release_or_delete_keys.
  destruct (bool_decide (filter (fun kv => kv_session kv.2 = sid) (kvs s) = ∅)) eqn:Eh.
  - apply bool_decide_eq_true in Eh. destruct (kvs s !! k) as [e|] eqn:Ek; [|reflexivity].
    destruct (decide (kv_session e = sid)) as [Heq|Hne]; [|reflexivity].
    destruct (map_filter_empty_not_lookup _ _ k e Eh Heq Ek).
  - (* the two ways of ending the keys, as lookups *)
    assert (Hdel : filter (fun kv : string * kvent => kv_session kv.2 ≠ sid) (kvs s) !! k =
                   e ← kvs s !! k; if decide (kv_session e = sid) then None else Some e).
    { rewrite map_filter_lookup. destruct (kvs s !! k) as [e|]; [|reflexivity]. cbn.
      destruct (decide (kv_session e = sid)) as [Heq|Hne];
        [apply option_guard_False; intros Hx; exact (Hx Heq)|apply option_guard_True; exact Hne]. }
    assert (Hrel : ((fun e => if bool_decide (kv_session e = sid)
                              then KV (kv_value e) (kv_flags e) "" (kv_lock e) (kv_create e) idx else e)
                    <$> kvs s) !! k =
                   e ← kvs s !! k; Some (if decide (kv_session e = sid)
                                         then KV (kv_value e) (kv_flags e) "" (kv_lock e) (kv_create e) idx else e)).
    { rewrite lookup_fmap. destruct (kvs s !! k) as [e|]; [|reflexivity]. cbn.
      destruct (decide (kv_session e = sid)) as [Heq|Hne];
        [rewrite bool_decide_eq_true_2 by exact Heq|rewrite bool_decide_eq_false_2 by exact Hne]; reflexivity. }
    destruct (s_delete ss), (s_delay ss); cbn; rewrite ?Hdel, ?Hrel;
      destruct (kvs s !! k) as [e|]; try reflexivity; cbn; destruct (decide (kv_session e = sid)); reflexivity.
Qed.

Lemma release_or_delete_keys_tombs idx sid ss s k :
  tombs (release_or_delete_keys idx sid ss s) !! k =
  match kvs s !! k with
  | Some e => if decide (kv_session e = sid)
              then (if s_delete ss then Some idx else tombs s !! k) else tombs s !! k
  | None => tombs s !! k
  end.
Proof.
  unfold release_or_delete_keys.
  destruct (bool_decide (filter (fun kv => kv_session kv.2 = sid) (kvs s) = ∅)) eqn:Eh.
  - apply bool_decide_eq_true in Eh. destruct (kvs s !! k) as [e|] eqn:Ek; [|reflexivity].
    destruct (decide (kv_session e = sid)) as [Heq|Hne]; [|reflexivity].
    destruct (map_filter_empty_not_lookup _ _ k e Eh Heq Ek).
  - assert (Hun : (((fun _ : kvent => idx) <$> filter (fun kv : string * kvent => kv_session kv.2 = sid) (kvs s))
                   ∪ tombs s) !! k =
             match kvs s !! k with
             | Some e => if decide (kv_session e = sid) then Some idx else tombs s !! k
             | None => tombs s !! k
             end).
    { rewrite lookup_union, lookup_fmap, map_filter_lookup.
      destruct (kvs s !! k) as [e|]; cbn; [|apply (left_id None _)].
      destruct (decide (kv_session e = sid)) as [Heq|Hne].
      - rewrite option_guard_True by exact Heq. cbn. destruct (tombs s !! k); reflexivity.
      - rewrite option_guard_False by exact Hne. apply (left_id None _). }
    destruct (s_delete ss), (s_delay ss); cbn; rewrite ?Hun;
      destruct (kvs s !! k) as [e|]; try reflexivity; destruct (decide (kv_session e = sid)); reflexivity.
Qed.

Lemma drop_session_cases idx sid ss s :
  let s3 := release_or_delete_keys idx sid ss (set_index "sessions" idx (s <| sessions ::= delete sid |>))
              <| schecks ::= filter (fun m => m.2 ≠ sid) |> in
  drop_session idx sid ss s = s3 \/
  drop_session idx sid ss s
  = set_index "prepared-queries" idx (s3 <| queries ::= filter (fun q => q.2 ≠ sid) |>).
Proof. unfold drop_session. cbn zeta. destruct (bool_decide _); [left|right]; reflexivity. Qed.

Lemma drop_session_sessions idx sid ss s : sessions (drop_session idx sid ss s) = delete sid (sessions s).
Proof.
  destruct (drop_session_cases idx sid ss s) as [-> | ->]; cbn;
    rewrite (proj1 (release_or_delete_keys_frame _ _ _ _)); reflexivity.
Qed.

Lemma drop_session_lookup idx sid ss s k :
  kvs (drop_session idx sid ss s) !! k =
  match kvs s !! k with
  | Some e => if decide (kv_session e = sid)
              then (if s_delete ss then None
                    else Some (KV (kv_value e) (kv_flags e) "" (kv_lock e) (kv_create e) idx))
              else Some e
  | None => None
  end.
Proof.
  destruct (drop_session_cases idx sid ss s) as [-> | ->]; cbn;
    rewrite release_or_delete_keys_lookup; reflexivity.
Qed.

Lemma drop_session_tombs idx sid ss s k :
  tombs (drop_session idx sid ss s) !! k =
  match kvs s !! k with
  | Some e => if decide (kv_session e = sid)
              then (if s_delete ss then Some idx else tombs s !! k) else tombs s !! k
  | None => tombs s !! k
  end.
Proof.
  destruct (drop_session_cases idx sid ss s) as [-> | ->]; cbn;
    rewrite release_or_delete_keys_tombs; reflexivity.
Qed.

Lemma drop_session_frame idx sid ss s :
  nodes (drop_session idx sid ss s) = nodes s /\ services (drop_session idx sid ss s) = services s /\
  checks (drop_session idx sid ss s) = checks s /\
  schecks (drop_session idx sid ss s) = filter (fun m => m.2 ≠ sid) (schecks s).
Proof.
  destruct (release_or_delete_keys_frame idx sid ss
              (set_index "sessions" idx (s <| sessions ::= delete sid |>))) as (_ & F2 & _ & F4 & F5 & F6).
  destruct (drop_session_cases idx sid ss s) as [-> | ->]; cbn; rewrite F2, F4, F5, F6; repeat split.
Qed.

Lemma drop_session_queries idx sid ss s q x :
  queries (drop_session idx sid ss s) !! q = Some x <-> queries s !! q = Some x /\ x ≠ sid.
Proof.
  pose proof (proj1 (proj2 (proj2 (release_or_delete_keys_frame idx sid ss
                (set_index "sessions" idx (s <| sessions ::= delete sid |>)))))) as Fq.
  unfold drop_session. cbn zeta.
  match goal with |- context [bool_decide ?P] => destruct (bool_decide P) eqn:Eq end; cbn; rewrite Fq; cbn.
  - apply bool_decide_eq_true in Eq. cbn in Eq. rewrite Fq in Eq. cbn in Eq.
    split; [|intros [H _]; exact H]. intros Hq. split; [exact Hq|]. intros ->.
    exact (map_filter_empty_not_lookup _ _ q sid Eq eq_refl Hq).
  - apply map_filter_lookup_Some.
Qed.

(* updateSessionCheck(critical) over the session checks of the dead session's node, as found in the
   iterator snapshot [cm] *)
Definition invalidate_checks (del : N -> string -> st -> result st) (idx : N) (sid nd : string)
           (cm : st) (l : list string) : st -> result st :=
  rfold (fun s' cid =>
           match checks cm !! (nd, cid) with
           | None => Ok s'
           | Some c => ensure_check_with del true idx nd cid
                         (c <| c_status := critical |> <| c_output := OInvalid sid |>) s'
           end) l.

Lemma delete_session_S fuel idx sid s :
  delete_session (S fuel) idx sid s =
  match sessions s !! sid with
  | None => Ok s
  | Some ss =>
    let s4 := drop_session idx sid ss s in
    invalidate_checks (delete_session fuel) idx sid (s_node ss) s4
                      (session_checks_of_node (s_node ss) (s_name ss) s4) s4
  end.
Proof.
  (* one unfolding on each side makes the two terms identical; a bare [reflexivity] lets the
     conversion wander into [drop_session] and takes a second *)
  cbn [delete_session]. unfold invalidate_checks. reflexivity.
Qed.

(* the state sessionCreateTxn has written before it refreshes the session checks *)
Definition session_row (idx : N) (sid : string) (ss : session) (s : st) : st :=
  set_index "sessions" idx
    (s <| sessions ::= <[sid := ss <| s_create := idx |> ]> |>
       <| schecks ::= fun m => list_to_set ((fun cid => (s_node ss, cid, sid)) <$> s_checks ss) ∪ m |>).

Lemma node_by_id_Some id s nm n : node_by_id id s = Some (nm, n) -> nodes s !! nm = Some n /\ n_id n = id.
Proof.
  unfold node_by_id. destruct (filter _ _) as [|x l] eqn:E; [discriminate|]. intros [= ->].
  assert (Hin : (nm, n) ∈ filter (fun kn : string * node => n_id kn.2 = id) (map_to_list (nodes s))) by (rewrite E; left).
  apply elem_of_list_filter in Hin as [Hid Hin]. apply elem_of_map_to_list in Hin. split; assumption.
Qed.

Lemma size_delete_Some {A} (m : gmap string A) i x : m !! i = Some x -> size m = S (size (delete i m)).
Proof.
  intros Hi. rewrite <- (insert_delete m i x Hi) at 1.
  apply map_size_insert_None, lookup_delete.
Qed.
