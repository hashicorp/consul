(* Command-level consequences for C03, C04 and C05: no command reports the model's own "out of
   fuel"; every row that differs after a command carries its index; and what the end of a session does
   to the keys it held, per command and per transaction operation ([EndP], from which the clause of C04
   and the frames of C03 are read off). *)
From stdpp Require Import gmap strings.
From RecordUpdate Require Import RecordSet.
From Coq Require Import NArith.
From Verif Require Import Store.Model Store.Inv Store.SessInv Store.Theorems.
Import RecordSetNotations.
Local Open Scope N_scope.

Lemma lock_only_and P Q : lock_only P -> lock_only Q -> lock_only (fun s => P s /\ Q s).
Proof.
  intros HP HQ. split; intros s f [H1 H2]; split.
  - apply (lo_checks P HP); exact H1. - apply (lo_checks Q HQ); exact H2.
  - apply (lo_nodes P HP); exact H1. - apply (lo_nodes Q HQ); exact H2.
  - apply (lo_services P HP); exact H1. - apply (lo_services Q HQ); exact H2.
  - apply (lo_index P HP); exact H1. - apply (lo_index Q HQ); exact H2.
  - apply (lo_delay P HP); exact H1. - apply (lo_delay Q HQ); exact H2.
Qed.

Definition released_row (e0 : kvent) (idx : N) : kvent :=
  KV (kv_value e0) (kv_flags e0) "" (kv_lock e0) (kv_create e0) idx.

Definition no_fuel (r : cres) : Prop :=
  match r with
  | CErr e => e ≠ EFuel
  | CTxn _ es => forall j e, (j, e) ∈ es -> e ≠ EFuel
  | _ => True
  end.

Lemma no_fuel_of_unit (r : result st) s : nf r -> no_fuel (of_unit r s).2.
Proof. destruct r; exact id. Qed.

Theorem no_fuel_anywhere idx c s : no_fuel (apply idx c s).2.
Proof.
  destruct c; cbn [apply].
  - unfold apply_kvs. destruct v; try exact I; try discriminate.
    + destruct (kvs_delete_cas _ _ _ _); exact I.
    + destruct (kvs_set_cas _ _ _ _) as [? []]; exact I.
    + pose proof (kvs_lock_step idx (q_key q) (ent_of q) s) as Hx.
      destruct (kvs_lock _ _ _ _) as [[? []]|]; [exact I|exact (proj1 Hx)].
    + pose proof (kvs_unlock_step idx (q_key q) (ent_of q) s) as Hx.
      destruct (kvs_unlock _ _ _ _) as [[? []]|]; [exact I|exact (proj1 Hx)].
  - pose proof (session_create_nf idx sid ss s) as Hx. destruct (session_create idx sid ss s); exact Hx.
  - apply no_fuel_of_unit, (cat_step_nf idx s). constructor.
  - apply no_fuel_of_unit, ensure_registration_nf.
  - destruct (negb (bool_decide (svc = ""))); [|destruct (negb (bool_decide (cid = "")))];
      apply no_fuel_of_unit, (cat_step_nf idx s); constructor.
  - unfold txn_rw. pose proof (txn_dispatch_nf idx ops 0%nat s) as Hx.
    destruct (txn_dispatch idx 0 ops s) as [[s' rs] es]. destruct es; [intros j e Hin; inversion Hin|exact Hx].
  - exact I.
  - apply no_fuel_of_unit, query_set_nf.
  - exact I.
Qed.

(* All session removals of one command happen at that command's index; a predicate such as "every
   changed row carries idx" is stable under removals at idx only. *)
Section Lift.
  Context (P : st -> Prop) (idx : N).
  Hypothesis HL : lock_only P.
  Hypothesis HD : forall s sid ss, P s -> sessions s !! sid = Some ss -> P (drop_session idx sid ss s).
  Hypothesis Hset : forall k e u s, P s -> P (kvs_set idx k e u s).1.
  Hypothesis Hdel : forall k s, P s -> P (kvs_delete idx k s).
  Hypothesis Htree : forall p s, P s -> P (kvs_delete_tree idx p s).
  Hypothesis Hsess : forall sid ss s, P s ->
    P (set_index "sessions" idx
         (s <| sessions ::= <[sid := ss <| s_create := idx |> ]> |>
            <| schecks ::= fun m => list_to_set ((fun cid => (s_node ss, cid, sid)) <$> s_checks ss) ∪ m |>)).
  Hypothesis Hquery : forall f s, P s -> P (s <| queries ::= f |>).
  Hypothesis Hreap : forall upto s, P s -> P (reap_tombstones upto s).

  Theorem lift_apply c s : P s -> P (apply idx c s).1 /\ no_fuel (apply idx c s).2.
  Proof using HL HD Hset Hdel Htree Hsess Hquery Hreap.
    intros Hs. split; [|apply no_fuel_anywhere]. revert Hs.
    apply (walk_apply P (nofuel P) idx (fun _ _ => True)).
    - (* Hkv *) intros s0 s' Hs0. destruct 1; [exact Hs0|apply Hset; exact Hs0|apply Hdel; exact Hs0|apply Htree; exact Hs0].
    - (* Hcat *) apply (lock_only_cat_step P idx HL HD).
    - (* Hnf *) intros e s0 Hs0 He. split; assumption.
    - (* Hsc *) intros sid ss s0 _. apply (lock_only_session_create P idx HL HD). intros s1 Hs1 _. apply Hsess. exact Hs1.
    - (* Hqs *) intros qid sess s0 Hs0. unfold query_set. destruct (_ || _); [|split; [discriminate|exact Hs0]].
      apply (lo_index P HL), Hquery. exact Hs0.
    - (* Hqd *) intros qid s0 Hs0. unfold query_delete. destruct (queries s0 !! qid); [|exact Hs0].
      apply (lo_index P HL), Hquery. exact Hs0.
    - (* Hreap *) exact Hreap.
    - (* F *) intros; exact I.
  Qed.
End Lift.

Definition Stamp (s0 : st) (idx : N) (s : st) : Prop :=
  (forall k e, kvs s !! k = Some e -> kvs s0 !! k = Some e \/ kv_modify e = idx) /\
  (forall k i, tombs s !! k = Some i -> tombs s0 !! k = Some i \/ i = idx).

Lemma Stamp_refl s idx : Stamp s idx s.
Proof. split; intros; left; assumption. Qed.

Lemma Stamp_lock_only s0 idx : lock_only (Stamp s0 idx).
Proof. split; intros s f H; exact H. Qed.

Lemma Stamp_drop s0 idx s sid ss :
  Stamp s0 idx s -> sessions s !! sid = Some ss -> Stamp s0 idx (drop_session idx sid ss s).
Proof.
  intros [Hk Ht] _. split.
  - intros k e He. rewrite drop_session_lookup in He.
    destruct (kvs s !! k) as [e1|] eqn:E1; [|discriminate].
    destruct (decide (kv_session e1 = sid)).
    + destruct (s_delete ss); [discriminate|]. injection He as <-. right. reflexivity.
    + injection He as <-. apply (Hk k e1 E1).
  - intros k i Hi. rewrite drop_session_tombs in Hi.
    destruct (kvs s !! k) as [e1|] eqn:E1; [|apply (Ht k i Hi)].
    destruct (decide (kv_session e1 = sid)); [|apply (Ht k i Hi)].
    destruct (s_delete ss); [injection Hi as <-; right; reflexivity|apply (Ht k i Hi)].
Qed.

Lemma Stamp_set s0 idx k e u s : Stamp s0 idx s -> Stamp s0 idx (kvs_set idx k e u s).1.
Proof.
  intros [Hk Ht]. unfold kvs_set.
  destruct (kvs s !! k) as [x|] eqn:Ex; [destruct (kv_same x _); [split; assumption|]|];
    (split; [|exact Ht]); intros k' e' He'; cbn in He';
    (destruct (decide (k' = k)) as [->|Hne];
     [rewrite lookup_insert in He'; injection He' as <-; right; reflexivity
     |rewrite lookup_insert_ne in He' by congruence; apply (Hk k' e' He')]).
Qed.

Lemma Stamp_delete s0 idx k s : Stamp s0 idx s -> Stamp s0 idx (kvs_delete idx k s).
Proof.
  intros [Hk Ht]. unfold kvs_delete. destruct (kvs s !! k); [|split; assumption]. split; cbn.
  - intros k' e' He'. apply lookup_delete_Some in He' as [_ He']. apply (Hk k' e' He').
  - intros k' i Hi. destruct (decide (k' = k)) as [->|Hne].
    + rewrite lookup_insert in Hi. injection Hi as <-. right. reflexivity.
    + rewrite lookup_insert_ne in Hi by congruence. apply (Ht k' i Hi).
Qed.

Lemma Stamp_delete_tree s0 idx p s : Stamp s0 idx s -> Stamp s0 idx (kvs_delete_tree idx p s).
Proof.
  intros [Hk Ht]. unfold kvs_delete_tree. destruct (bool_decide _); [split; assumption|].
  (* rows and tombstones under the prefix are filtered out; one tombstone for the prefix may be added *)
  assert (Hk' : forall k' e', filter (fun kv : string * kvent => has_prefix p kv.1 = false) (kvs s) !! k' = Some e' ->
                              kvs s0 !! k' = Some e' \/ kv_modify e' = idx).
  { intros k' e' He'. apply map_filter_lookup_Some in He' as [He' _]. apply (Hk k' e' He'). }
  assert (Ht' : forall k' i, filter (fun kt : string * N => has_prefix p kt.1 = false) (tombs s) !! k' = Some i ->
                             tombs s0 !! k' = Some i \/ i = idx).
  { intros k' i Hi. apply map_filter_lookup_Some in Hi as [Hi _]. apply (Ht k' i Hi). }
  destruct (bool_decide (p = "")); cbn; (split; cbn; [exact Hk'|]); [exact Ht'|].
  intros k' i Hi. destruct (decide (k' = p)) as [->|Hne].
  - rewrite lookup_insert in Hi. injection Hi as <-. right. reflexivity.
  - rewrite lookup_insert_ne in Hi by congruence. apply (Ht' k' i Hi).
Qed.

(* Every KV row and every tombstone present after a command either was there before, unchanged, or
   carries the command's index -- for every command, a committed transaction of any length and any
   mix of verbs and cascades included. *)
Theorem one_index idx c s : Stamp s idx (apply idx c s).1.
Proof.
  refine (proj1 (lift_apply (Stamp s idx) idx (Stamp_lock_only s idx) _ _ _ _ _ _ _ c s (Stamp_refl s idx))).
  - (* HD *) intros s1 sid ss. apply Stamp_drop.
  - (* Hset *) intros k e u s1. apply Stamp_set.
  - (* Hdel *) intros k s1. apply Stamp_delete.
  - (* Htree *) intros p s1. apply Stamp_delete_tree.
  - (* Hsess *) intros sid ss s1 H. exact H.
  - (* Hquery *) intros f s1 H. exact H.
  - (* Hreap *) intros upto s1 [Hk Ht]. split; [exact Hk|]. cbn.
    intros k i Hi. apply map_filter_lookup_Some in Hi as [Hi _]. apply (Ht k i Hi).
Qed.

(* every key is untouched (row and tombstone), or its holder's session ended in this step and the
   key was deleted with a tombstone at the step's index or released, by the session's behaviour *)
Definition KVEnd (s0 : st) (idx : N) (s : st) : Prop :=
  forall k,
    (kvs s !! k = kvs s0 !! k /\ tombs s !! k = tombs s0 !! k) \/
    exists e0 ss, kvs s0 !! k = Some e0 /\ sessions s0 !! kv_session e0 = Some ss /\
                  sessions s !! kv_session e0 = None /\
                  if s_delete ss then kvs s !! k = None /\ tombs s !! k = Some idx
                  else kvs s !! k = Some (released_row e0 idx).

Lemma KVEnd_same s0 idx s : kvs s = kvs s0 -> tombs s = tombs s0 -> KVEnd s0 idx s.
Proof. intros H1 H2 k. left. rewrite H1, H2. split; reflexivity. Qed.

(* what the cascades started in [s0] at [idx] keep: sessions only go, keys go with their holders *)
Definition EndP (s0 : st) (idx : N) (s : st) : Prop :=
  Mono s0 s /\ KVEnd s0 idx s /\ sessions s !! "" = None.

Lemma EndP_refl s idx : sessions s !! "" = None -> EndP s idx s.
Proof. intros H0. split; [intros sid ss H; exact H|]. split; [apply KVEnd_same; reflexivity|exact H0]. Qed.

Lemma EndP_lock_only s0 idx : lock_only (EndP s0 idx).
Proof. split; intros s f H; exact H. Qed.

Lemma EndP_drop s0 idx s sid ss :
  EndP s0 idx s -> sessions s !! sid = Some ss -> EndP s0 idx (drop_session idx sid ss s).
Proof.
  intros (Hm & Hk & H0) Hss.
  assert (Hsid : sid ≠ "") by (intros ->; congruence).
  split; [|split]; [|
    |rewrite drop_session_sessions, lookup_delete_ne by exact Hsid; exact H0].
  - intros sid' ss'. rewrite drop_session_sessions. intros Hs'.
    apply lookup_delete_Some in Hs' as [_ Hs']. apply Hm. exact Hs'.
  - intros k. rewrite drop_session_lookup, drop_session_tombs, drop_session_sessions.
    destruct (Hk k) as [[Ek Et]|(e0 & ss0 & He0 & Hs0 & Hg & Hr)].
    + destruct (kvs s !! k) as [e1|] eqn:E1; [|left; split; assumption].
      destruct (decide (kv_session e1 = sid)) as [Heq|Hne]; [|left; split; assumption].
      right. exists e1, ss. rewrite <- Ek. split; [reflexivity|]. rewrite Heq.
      split; [apply Hm; exact Hss|]. split; [apply lookup_delete|].
      destruct (s_delete ss); [split; reflexivity|reflexivity].
    + right. exists e0, ss0. split; [exact He0|]. split; [exact Hs0|].
      split; [apply lookup_delete_None; right; exact Hg|].
      destruct (s_delete ss0).
      * destruct Hr as [Hr1 Hr2]. rewrite Hr1. split; [reflexivity|exact Hr2].
      * rewrite Hr. cbn. destruct (decide ("" = sid)) as [Heq|_]; [congruence|reflexivity].
Qed.

Lemma EndP_cat_step s0 idx s r :
  EndP s0 idx s -> cat_step idx s r -> rpost (nofuel (EndP s0 idx)) (EndP s0 idx) r.
Proof.
  apply (lock_only_cat_step (EndP s0 idx) idx (EndP_lock_only s0 idx)).
  intros s1 sid ss. apply EndP_drop.
Qed.

Definition EndClause (s0 : st) (idx : N) (s : st) : Prop :=
  forall sid ss, sessions s0 !! sid = Some ss -> sessions s !! sid = None ->
  forall k e0, kvs s0 !! k = Some e0 -> kv_session e0 = sid ->
    if s_delete ss then kvs s !! k = None /\ tombs s !! k = Some idx
    else kvs s !! k = Some (released_row e0 idx).

Lemma EndP_clause s0 idx s : LockInv s0 -> LockInv s -> EndP s0 idx s -> EndClause s0 idx s.
Proof.
  intros (H00 & _) (H0 & Hkv & _ & _) (_ & Hk & _) sid ss Hss Hgone k e0 He0 Hheld.
  assert (Hsid : sid ≠ "") by (intros ->; congruence).
  destruct (Hk k) as [[Ek _]|(e1 & ss1 & He1 & Hs1 & _ & Hr)].
  - exfalso. rewrite He0 in Ek. destruct (Hkv k e0 Ek) as [Hx|[x Hx]]; congruence.
  - rewrite He0 in He1. injection He1 as <-. rewrite Hheld, Hss in Hs1. injection Hs1 as <-. exact Hr.
Qed.

Lemma EndClause_vacuous s0 idx s :
  (forall sid, sessions s !! sid = None -> sessions s0 !! sid = None) -> EndClause s0 idx s.
Proof. intros Hsub sid ss Hss Hgone. rewrite (Hsub sid Hgone) in Hss. discriminate. Qed.

(* Every key after a cascade is as it was, or released, or gone with its holder: the weaker frame
   of C03, which forgets the index and the session's behaviour. *)
Lemma EndP_KVFrame s0 idx s : LockInv s0 -> LockInv s -> EndP s0 idx s -> KVFrame s0 s.
Proof.
  intros (H00 & _) Hs (Hm & Hk & _). split; [exact Hs|]. split.
  - intros sid Hn. destruct (sessions s !! sid) as [ss|] eqn:E; [|reflexivity].
    rewrite (Hm sid ss E) in Hn. discriminate.
  - intros k. destruct (Hk k) as [[Ek _]|(e0 & ss0 & He0 & Hs0 & Hg & Hr)]; [left; exact Ek|right].
    exists e0. split; [exact He0|]. split; [intros Hx; rewrite Hx in Hs0; congruence|]. split; [exact Hg|].
    destruct (s_delete ss0); [left; exact (proj1 Hr)|right].
    exists (released_row e0 idx). split; [exact Hr|]. repeat split.
Qed.

Theorem cat_step_KVFrame idx s r : LockInv s -> cat_step idx s r -> post (KVFrame s) id r.
Proof.
  intros Hs Hr. pose proof (LockInv_cat_step idx s r Hs Hr) as Hi.
  assert (He : rpost (nofuel (EndP s idx)) (EndP s idx) r)
    by (apply (EndP_cat_step s idx s); [apply EndP_refl, Hs|exact Hr]).
  apply post_rpost. destruct r as [s'|e p]; cbn in *.
  - apply (EndP_KVFrame s idx); assumption.
  - split; [exact (proj1 He)|apply (EndP_KVFrame s idx); [exact Hs|exact (proj2 Hi)|exact (proj2 He)]].
Qed.

Definition is_kv_op (op : txnop) : bool := match op with TKV _ _ => true | _ => false end.

Lemma txn_op_EndP idx op s s' r :
  LockInv s -> is_kv_op op = false -> txn_op idx op s = Ok (s', r) -> EndP s idx s'.
Proof.
  intros Hs Hnk Hop. pose proof (EndP_refl s idx (proj1 Hs)) as HP.
  pose proof (txn_cat_step idx op s) as Hstep. rewrite Hop in Hstep.
  destruct op; [discriminate|..];
    (destruct Hstep as [[Heq|(e & _ & Heq)]|Hc];
     [injection Heq as <-; exact HP|discriminate|exact (EndP_cat_step s idx s _ HP Hc)]).
Qed.

Lemma txn_kv_sessions idx v q s s' r : txn_kv idx v q s = Ok (s', r) -> sessions s' = sessions s.
Proof.
  intros Hop. pose proof (txn_kv_step idx v q s) as Hx. rewrite Hop in Hx.
  exact (proj1 (kv_step_frame idx s s' Hx)).
Qed.

Theorem end_of_session_txn_op idx op s s' r :
  LockInv s -> txn_op idx op s = Ok (s', r) -> EndClause s idx s'.
Proof.
  intros Hs Hop.
  assert (Hinv' : LockInv s').
  { pose proof (txn_op_LockInv idx op s Hs) as Hx. rewrite Hop in Hx. exact Hx. }
  destruct (is_kv_op op) eqn:Ek.
  - (* KV verbs do not touch the sessions table *)
    destruct op as [v q| | | |]; try discriminate.
    apply EndClause_vacuous. rewrite (txn_kv_sessions idx v q s s' r Hop). auto.
  - apply (EndP_clause s idx s' Hs Hinv'). eapply txn_op_EndP; eassumption.
Qed.

Fixpoint StepsEnd (idx : N) (ops : list txnop) (s : st) : Prop :=
  match ops with
  | [] => True
  | op :: rest =>
    match txn_op idx op s with
    | Ok (s1, _) => EndClause s idx s1 /\ StepsEnd idx rest s1
    | Err _ _ => True
    end
  end.

Theorem kv_frame_txn_op idx op s s' r :
  LockInv s -> is_kv_op op = false -> txn_op idx op s = Ok (s', r) -> KVEnd s idx s'.
Proof. intros Hs Hk Hop. exact (proj1 (proj2 (txn_op_EndP idx op s s' r Hs Hk Hop))). Qed.

Fixpoint TxnKVSteps (idx : N) (ops : list txnop) (s : st) : Prop :=
  match ops with
  | [] => True
  | op :: rest =>
    match txn_op idx op s with
    | Ok (s1, _) => (if is_kv_op op then True else KVEnd s idx s1) /\ TxnKVSteps idx rest s1
    | Err _ _ => True
    end
  end.

(* session creation ends no session and writes no key: its session checks are set to passing *)
Lemma session_create_frame idx sid ss s :
  okpost (fun s' => kvs s' = kvs s /\ tombs s' = tombs s /\
                    sessions s' = <[sid := ss <| s_create := idx |> ]> (sessions s))
         (session_create idx sid ss s).
Proof.
  apply (session_create_rpost _ anyerr); [intros; exact I|].
  intros _ _ _. split; [repeat split|].
  intros s' cid c Hs' _.
  eapply rpost_weaken; [|apply ensure_check_p_noncrit; discriminate].
  intros a (hc1 & ex & ->). destruct (store_check_frame true idx (s_node ss) cid hc1 ex s') as (-> & -> & -> & _).
  exact Hs'.
Qed.

Lemma cascade_command_EndP idx c s :
  LockInv s ->
  match c with
  | SessionDestroy _ | Register _ _ _ _ _ _ | Deregister _ _ _ => EndP s idx (apply idx c s).1
  | _ => True
  end.
Proof.
  intros Hs. pose proof (EndP_refl s idx (proj1 Hs)) as HP.
  destruct c; try exact I; cbn [apply].
  - apply (rpost_of_unit (nofuel (EndP s idx))); [exact HP|]. apply (EndP_cat_step s idx s); [exact HP|constructor].
  - apply (rpost_of_unit (nofuel (EndP s idx))); [exact HP|].
    apply (walk_registration (EndP s idx) (nofuel (EndP s idx)) idx (EndP_cat_step s idx)); [|exact HP].
    intros e s0 Hs0 He. split; assumption.
  - destruct (negb (bool_decide (svc = ""))); [|destruct (negb (bool_decide (cid = "")))];
      (apply (rpost_of_unit (nofuel (EndP s idx))); [exact HP|]; apply (EndP_cat_step s idx s); [exact HP|constructor]).
Qed.

Lemma quiet_command_frame idx c s :
  match c with
  | SessionCreate _ _ | QuerySet _ _ | QueryDelete _ =>
    kvs (apply idx c s).1 = kvs s /\ tombs (apply idx c s).1 = tombs s /\
    forall sid, sessions (apply idx c s).1 !! sid = None -> sessions s !! sid = None
  | _ => True
  end.
Proof.
  destruct c; try exact I; cbn [apply].
  - pose proof (session_create_frame idx sid ss s) as Hx.
    destruct (session_create idx sid ss s) as [s1|e p]; cbn; [|auto].
    destruct Hx as (-> & -> & ->). repeat split.
    intros sid' Hn. apply lookup_insert_None in Hn as [Hn _]. exact Hn.
  - unfold query_set. destruct (_ || _); cbn; auto.
  - unfold query_delete. destruct (queries s !! qid); cbn; auto.
Qed.

Theorem end_of_session_command idx c s :
  LockInv s -> (forall ops, c ≠ Txn ops) -> EndClause s idx (apply idx c s).1.
Proof.
  intros Hs Hnt.
  pose proof (apply_LockInv idx c s Hs) as Hinv'.
  pose proof (cascade_command_EndP idx c s Hs) as Hc.
  pose proof (quiet_command_frame idx c s) as Hq.
  destruct c; try (apply EndP_clause; assumption); try (apply EndClause_vacuous; apply Hq).
  - apply EndClause_vacuous. cbn [apply]. rewrite (proj1 (kv_step_frame idx s _ (apply_kvs_step idx v q s))). auto.
  - exfalso. exact (Hnt ops eq_refl).
  - apply EndClause_vacuous. auto.
Qed.

(* the KV map under commands that are not KV writes (C03) *)
Theorem kv_frame_command idx c s :
  LockInv s ->
  match c with KVS _ _ | Txn _ | Reap _ => True | _ => KVEnd s idx (apply idx c s).1 end.
Proof.
  intros Hs.
  pose proof (cascade_command_EndP idx c s Hs) as Hc.
  pose proof (quiet_command_frame idx c s) as Hq.
  destruct c; try exact I; try exact (proj1 (proj2 Hc)); apply KVEnd_same; apply Hq.
Qed.

(* the list verb returns exactly the map's content under the prefix (C03) *)
Theorem read_tree idx q s :
  exists l, txn_kv idx VGetTree q s = Ok (s, (fun kv : string * kvent => RKV kv.1 kv.2 true) <$> l) /\
            NoDup l.*1 /\
            forall k e, (k, e) ∈ l <-> kvs s !! k = Some e /\ has_prefix (q_key q) k = true.
Proof.
  unfold txn_kv.
  set (ks := ssort (elements (dom (kvs s)))).
  set (l0 := (fun k' => (k', default (ent_of q) (kvs s !! k'))) <$> ks).
  exists (filter (fun kv : string * kvent => has_prefix (q_key q) kv.1 = true) l0).
  split; [reflexivity|]. split.
  - assert (Hnd : NoDup ks) by (unfold ks; rewrite (ssort_perm _); apply NoDup_elements).
    assert (Hfst : forall l1 : list (string * kvent),
              (filter (fun kv : string * kvent => has_prefix (q_key q) kv.1 = true) l1).*1
              = filter (fun k => has_prefix (q_key q) k = true) (l1.*1)).
    { induction l1 as [|[a b] l1 IH]; [reflexivity|].
      rewrite fmap_cons, !filter_cons. cbn [fst].
      destruct (decide (has_prefix (q_key q) a = true)); [rewrite fmap_cons|]; rewrite IH; reflexivity. }
    rewrite Hfst. apply NoDup_filter. unfold l0. rewrite <- list_fmap_compose.
    assert (Hid : (fst ∘ (fun k' : string => (k', default (ent_of q) (kvs s !! k')))) <$> ks = ks).
    { clear. induction ks as [|x l IH]; [reflexivity|]. cbn. rewrite IH. reflexivity. }
    rewrite Hid. exact Hnd.
  - intros k e. rewrite elem_of_list_filter. cbn. unfold l0. rewrite elem_of_list_fmap. split.
    + intros [Hp (k' & Heq & Hin)]. injection Heq as -> ->.
      unfold ks in Hin. apply elem_of_ssort, elem_of_elements, elem_of_dom in Hin as [x Hx].
      rewrite Hx. cbn. split; [reflexivity|exact Hp].
    + intros [He Hp]. split; [exact Hp|]. exists k. rewrite He. cbn. split; [reflexivity|].
      unfold ks. apply elem_of_ssort, elem_of_elements, elem_of_dom. eauto.
Qed.
