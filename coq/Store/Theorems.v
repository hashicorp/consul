(* Theorems about the core store model used by properties C03, C04, C05. *)
From stdpp Require Import gmap strings.
From RecordUpdate Require Import RecordSet.
From Coq Require Import NArith.
From Verif Require Import Store.Model Store.Inv.
Import RecordSetNotations.
Local Open Scope N_scope.

(* C05: transactions *)

(* A transaction with any failing operation changes nothing at all -- not the replicated tables, not
   the index table, not even the (local) lock-delay map -- and returns no results. *)
Theorem txn_all_or_nothing idx ops s s' rs es :
  txn_rw idx ops s = (s', CTxn rs es) -> es ≠ [] -> s' = s /\ rs = [].
Proof.
  unfold txn_rw. destruct (txn_dispatch idx 0 ops s) as [[s1 rs1] es1].
  destruct es1 as [|e1 es1]; intros Heq Hne.
  - injection Heq as <- <- <-. contradiction.
  - injection Heq as <- <- <-. split; reflexivity.
Qed.

Theorem failed_command_changes_nothing idx c s e :
  (apply idx c s).2 = CErr e -> (apply idx c s).1 = s.
Proof.
  (* every branch of [apply] that answers [CErr] returns [s] itself next to it *)
  destruct c; cbn [apply]; unfold of_unit, apply_kvs, txn_rw;
    repeat case_match; cbn; intros Heq; simplify_eq/=; reflexivity.
Qed.

Lemma st_eqb_eq a b : st_eqb a b = true -> a = b.
Proof.
  unfold st_eqb. intros H. repeat (apply andb_true_iff in H as [H ?]).
  repeat match goal with X : bool_decide _ = true |- _ => apply bool_decide_eq_true in X end.
  destruct a, b; cbn in *. congruence.
Qed.

(* A concrete, non-trivial instance (it also pins the repaired behaviour: before the fix recorded in
   known_findings.json this very transaction left a lock delay on key "a" behind): node n1 with
   check c1, a session with a lock delay bound to c1 holding key "a"; the transaction sets c1
   critical (which invalidates the session) and then fails on a missing key. *)
Definition ld_log : list (N * cmd) :=
  [ (1, Register "n1" "" 1 false None [CheckReq "n1" "c1" 0 "" false "" 0 0]);
    (2, SessionCreate "s1" (Sess "n1" "" false ["c1"] true 0));
    (3, KVS VLock (KVReq "a" [] 0 "s1" 0 0)) ].
Definition ld_txn : list txnop :=
  [ TCheck CSet (CheckReq "n1" "c1" 2 "" false "" 0 0); TKV VGet (KVReq "zz" [] 0 "" 0 0) ].

Example txn_failed_example :
  let s := (run ld_log st0).1 in
  (txn_rw 4 ld_txn s).2 = CTxn [] [(1%nat, ENotFound)] /\ (txn_rw 4 ld_txn s).1 = s /\
  (exists e, kvs s !! "a" = Some e /\ kv_session e = "s1") /\
  (* the same operations without the failing one do invalidate the session and set the delay *)
  lockdelay (txn_rw 4 [TCheck CSet (CheckReq "n1" "c1" 2 "" false "" 0 0)] s).1 = {["a"]}.
Proof.
  cbv zeta. split; [vm_compute; reflexivity|]. split; [apply st_eqb_eq; vm_compute; reflexivity|].
  split; [eexists; split; vm_compute; reflexivity|].
  eapply bool_decide_eq_true_1; vm_compute; reflexivity.
Qed.

(* Committed transactions are the sequential composition of their operations. *)
Fixpoint seq_ops (idx : N) (ops : list txnop) (s : st) : result (st * list tres) :=
  match ops with
  | [] => Ok (s, [])
  | op :: rest =>
    match txn_op idx op s with
    | Ok (s', r) => match seq_ops idx rest s' with
                    | Ok (s'', rs) => Ok (s'', r ++ rs)
                    | Err e p => Err e p
                    end
    | Err e p => Err e p
    end
  end.

Lemma txn_dispatch_seq_ops idx ops : forall i s,
  match seq_ops idx ops s with
  | Ok (s', rs) => txn_dispatch idx i ops s = (s', rs, [])
  | Err _ _ => (txn_dispatch idx i ops s).2 ≠ []
  end.
Proof.
  induction ops as [|op ops IH]; intros i s; cbn; [reflexivity|].
  destruct (txn_op idx op s) as [[s1 r]|e sp].
  - specialize (IH (S i) s1). destruct (seq_ops idx ops s1) as [[s2 rs2]|e p].
    + rewrite IH. reflexivity.
    + destruct (txn_dispatch idx (S i) ops s1) as [[s2 rs2] es2]. exact IH.
  - destruct (txn_dispatch idx (S i) ops sp) as [[s2 rs2] es2]. discriminate.
Qed.

(* read-only transactions: the verbs the read endpoint admits never modify the state *)
Definition is_read (op : txnop) : bool :=
  match op with
  | TKV (VGet | VGetOrEmpty | VGetTree | VCheckSession | VCheckIndex | VCheckNotExists) _ => true
  | TNode CGet _ _ _ _ => true
  | TService CGet _ _ _ _ _ => true
  | TCheck CGet _ => true
  | _ => false
  end.

Theorem read_op_pure idx op s :
  is_read op = true -> match txn_op idx op s with Ok (s', _) => s' = s | Err _ p => p = s end.
Proof.
  destruct op as [v q|v nd id addr cidx|v nd svc name port cidx|v c|sid]; try discriminate;
    destruct v; try discriminate; intros _; cbn [txn_op]; unfold txn_kv, txn_node, txn_service, txn_check;
    repeat case_match; simplify_eq/=; reflexivity.
Qed.

(* C04: locks *)

Lemma kvs_set_held idx k ent s :
  exists e', kvs (kvs_set idx k ent true s).1 !! k = Some e' /\ kv_session e' = kv_session ent.
Proof.
  unfold kvs_set. destruct (kvs s !! k) as [x|] eqn:Ex; [destruct (kv_same x _) eqn:Esame|]; cbn.
  - exists x. split; [exact Ex|]. unfold kv_same in Esame. cbn in Esame.
    apply andb_true_iff in Esame as [_ Esame]. apply bool_decide_eq_true in Esame. exact Esame.
  - eexists. rewrite lookup_insert. split; reflexivity.
  - eexists. rewrite lookup_insert. split; reflexivity.
Qed.

(* acquisition: succeeds iff the session is live and the key is free or already held by it *)
Theorem lock_acquire idx k e s :
  match kvs_lock idx k e s with
  | Err er _ => (er = ENoSession /\ kv_session e = "") \/
                (er = EInvalidSession /\ kv_session e ≠ "" /\ sessions s !! kv_session e = None)
  | Ok (ok, (s', _)) =>
    kv_session e ≠ "" /\ is_Some (sessions s !! kv_session e) /\
    (ok = true <-> match kvs s !! k with
                   | None => True
                   | Some x => kv_session x = "" \/ kv_session x = kv_session e
                   end) /\
    (ok = true -> exists e', kvs s' !! k = Some e' /\ kv_session e' = kv_session e) /\
    (ok = false -> s' = s)
  end.
Proof.
  unfold kvs_lock. destruct (bool_decide (kv_session e = "")) eqn:E0.
  { apply bool_decide_eq_true in E0. left. split; [reflexivity|exact E0]. }
  apply bool_decide_eq_false in E0.
  destruct (sessions s !! kv_session e) as [ss|] eqn:Ess; [|right; repeat split; assumption].
  (* the three ways to succeed write the key with the requester as holder *)
  assert (Hwritten : forall ent, kv_session ent = kv_session e ->
            (match kvs s !! k with None => True | Some x => kv_session x = "" \/ kv_session x = kv_session e end) ->
            let r := kvs_set idx k ent true s in
            kv_session e ≠ "" /\ is_Some (Some ss) /\
            (true = true <-> match kvs s !! k with None => True
                                              | Some x => kv_session x = "" \/ kv_session x = kv_session e end) /\
            (true = true -> exists e', kvs r.1 !! k = Some e' /\ kv_session e' = kv_session e) /\
            (true = false -> r.1 = s)).
  { intros ent Hent Hfree r. pose proof (kvs_set_held idx k ent s) as Hx. rewrite Hent in Hx.
    repeat split; eauto; discriminate. }
  destruct (kvs s !! k) as [x|] eqn:Ex.
  - destruct (bool_decide (kv_session x = kv_session e)) eqn:E1.
    + apply bool_decide_eq_true in E1.
      specialize (Hwritten (KV (kv_value e) (kv_flags e) (kv_session e) (kv_lock x) (kv_create x) idx) eq_refl (or_intror E1)).
      destruct (kvs_set idx k _ true s). exact Hwritten.
    + apply bool_decide_eq_false in E1. destruct (bool_decide (kv_session x = "")) eqn:E2.
      * apply bool_decide_eq_true in E2.
        specialize (Hwritten (KV (kv_value e) (kv_flags e) (kv_session e) (kv_lock x + 1) (kv_create x) idx) eq_refl (or_introl E2)).
        destruct (kvs_set idx k _ true s). exact Hwritten.
      * apply bool_decide_eq_false in E2. repeat split; eauto; try discriminate.
        intros [Hx|Hx]; contradiction.
  - specialize (Hwritten (KV (kv_value e) (kv_flags e) (kv_session e) 1 idx idx) eq_refl I).
    destruct (kvs_set idx k _ true s). exact Hwritten.
Qed.

(* release: only the holder *)
Theorem lock_release idx k e s :
  match kvs_unlock idx k e s with
  | Err er _ => er = ENoSession /\ kv_session e = ""
  | Ok (ok, (s', _)) =>
    (ok = true <-> exists x, kvs s !! k = Some x /\ kv_session x = kv_session e) /\
    (ok = false -> s' = s)
  end.
Proof.
  unfold kvs_unlock. destruct (bool_decide (kv_session e = "")) eqn:E0.
  { apply bool_decide_eq_true in E0. split; [reflexivity|exact E0]. }
  destruct (kvs s !! k) as [x|] eqn:Ex.
  - destruct (bool_decide (kv_session x = kv_session e)) eqn:E1.
    + apply bool_decide_eq_true in E1. destruct (kvs_set _ _ _ _ _) as [s' e'].
      split; [split; [intros _; exists x; split; [reflexivity|exact E1]|reflexivity]|discriminate].
    + apply bool_decide_eq_false in E1. split; [|reflexivity].
      split; [discriminate|]. intros (y & Hy & Hs). injection Hy as <-. contradiction.
  - split; [|reflexivity]. split; [discriminate|]. intros (y & Hy & _). discriminate.
Qed.

(* C03: the KV store is a sequential versioned map *)

(* The abstract map: what a client can see of the KV store. *)
Notation SpecKV := (gmap string kvent).

Definition spec_write (idx : N) (k : string) (v : bytes) (f : N) (sess : string) (l : N) (m : SpecKV) : SpecKV :=
  match m !! k with
  | Some x => if kv_same x (KV v f sess l 0 0) then m
              else <[k := KV v f sess l (kv_create x) idx]> m
  | None => <[k := KV v f sess l idx idx]> m
  end.
Definition holder (m : SpecKV) (k : string) : string :=
  match m !! k with Some x => kv_session x | None => "" end.
Definition spec_set idx k (e : kvent) (m : SpecKV) : SpecKV :=
  spec_write idx k (kv_value e) (kv_flags e) (holder m k) (kv_lock e) m.
Definition spec_cas idx k (e : kvent) (m : SpecKV) : bool * SpecKV :=
  let ok := match m !! k with
            | Some x => negb (bool_decide (kv_modify e = 0)) && bool_decide (kv_modify e = kv_modify x)
            | None => bool_decide (kv_modify e = 0)
            end in
  if ok then (true, spec_set idx k e m) else (false, m).
Definition spec_delete (k : string) (m : SpecKV) : SpecKV := delete k m.
Definition spec_delete_cas (cidx : N) (k : string) (m : SpecKV) : bool * SpecKV :=
  match m !! k with
  | None => (true, m)
  | Some x => if bool_decide (kv_modify x = cidx) then (true, delete k m) else (false, m)
  end.
Definition spec_delete_tree (p : string) (m : SpecKV) : SpecKV :=
  filter (fun kv => has_prefix p kv.1 = false) m.
Definition spec_lock idx k (e : kvent) (m : SpecKV) : bool * SpecKV :=
  match m !! k with
  | Some x =>
    if bool_decide (kv_session x = kv_session e)
    then (true, spec_write idx k (kv_value e) (kv_flags e) (kv_session e) (kv_lock x) m)
    else if bool_decide (kv_session x = "")
         then (true, spec_write idx k (kv_value e) (kv_flags e) (kv_session e) (kv_lock x + 1) m)
         else (false, m)
  | None => (true, spec_write idx k (kv_value e) (kv_flags e) (kv_session e) 1 m)
  end.
Definition spec_unlock idx k (e : kvent) (m : SpecKV) : bool * SpecKV :=
  match m !! k with
  | Some x => if bool_decide (kv_session x = kv_session e)
              then (true, spec_write idx k (kv_value e) (kv_flags e) "" (kv_lock x) m) else (false, m)
  | None => (false, m)
  end.

(* DirEntry.Equal does not look at the create and modify indexes *)
Lemma kv_same_irrel x v f s l c1 m1 c2 m2 : kv_same x (KV v f s l c1 m1) = kv_same x (KV v f s l c2 m2).
Proof. reflexivity. Qed.

Lemma kvs_set_write idx k e upd s :
  kvs (kvs_set idx k e upd s).1 =
  spec_write idx k (kv_value e) (kv_flags e)
             (if upd then kv_session e else holder (kvs s) k) (kv_lock e) (kvs s).
Proof.
  unfold kvs_set, spec_write, holder. destruct (kvs s !! k) as [x|] eqn:Ex; rewrite ?Ex; cbn.
  - match goal with |- context [kv_same x ?a] => change (kv_same x a) with
      (kv_same x (KV (kv_value e) (kv_flags e) (if upd then kv_session e else kv_session x) (kv_lock e) 0 0)) end.
    destruct (kv_same x _); reflexivity.
  - reflexivity.
Qed.

Lemma spec_write_lookup idx k v f sess l m k' :
  spec_write idx k v f sess l m !! k' =
  if decide (k' = k)
  then Some (match m !! k with
             | Some x => if kv_same x (KV v f sess l 0 0) then x else KV v f sess l (kv_create x) idx
             | None => KV v f sess l idx idx
             end)
  else m !! k'.
Proof.
  unfold spec_write. destruct (decide (k' = k)) as [->|Hne].
  - destruct (m !! k) as [x|] eqn:Ex; [destruct (kv_same x _); [exact Ex|]|]; apply lookup_insert.
  - destruct (m !! k) as [x|]; [destruct (kv_same x _); [reflexivity|]|]; apply lookup_insert_ne; congruence.
Qed.

(* Commands that are not KV verbs change the map only by ending sessions: every key is either
   untouched, or its holder's session is gone and the key is deleted or released (holder cleared,
   value, flags, lock counter and create index kept). *)
Definition released (e0 e : kvent) : Prop :=
  kv_value e = kv_value e0 /\ kv_flags e = kv_flags e0 /\ kv_session e = "" /\
  kv_lock e = kv_lock e0 /\ kv_create e = kv_create e0.

Definition KVFrame (s0 s : st) : Prop :=
  LockInv s /\
  (forall sid, sessions s0 !! sid = None -> sessions s !! sid = None) /\
  forall k, kvs s !! k = kvs s0 !! k \/
            exists e0, kvs s0 !! k = Some e0 /\ kv_session e0 ≠ "" /\
                       sessions s !! kv_session e0 = None /\
                       (kvs s !! k = None \/ exists e, kvs s !! k = Some e /\ released e0 e).
