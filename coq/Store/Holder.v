(* C04: the holder of a key changes only by a successful acquisition of a free key, a release by
   the holder, or the end of the holder's session.  Here: the standalone KV verbs (all seven, not only
   lock and unlock); the other commands are C04_other_command_holder, from [kv_frame_command]. *)
From stdpp Require Import gmap strings.
From RecordUpdate Require Import RecordSet.
From Coq Require Import NArith.
From Verif Require Import Store.Model.
Import RecordSetNotations.
Local Open Scope N_scope.

Definition holder (s : st) (k : string) : option string := kv_session <$> kvs s !! k.

Lemma kvs_set_holder idx k e u s k' :
  holder (kvs_set idx k e u s).1 k' =
  if decide (k' = k) then Some (if u then kv_session e else default "" (holder s k)) else holder s k'.
Proof.
  unfold holder, kvs_set. destruct (kvs s !! k) as [x|] eqn:Ex.
  - destruct (kv_same x _) eqn:Es; cbn.
    + destruct (decide (k' = k)) as [->|Hne]; [|reflexivity]. rewrite Ex. cbn.
      unfold kv_same in Es. cbn in Es. repeat (apply andb_true_iff in Es as [Es ?]).
      match goal with H : bool_decide (kv_session x = _) = true |- _ => apply bool_decide_eq_true in H; rewrite H end.
      destruct u; reflexivity.
    + destruct (decide (k' = k)) as [->|Hne];
        [rewrite lookup_insert; destruct u; reflexivity|rewrite lookup_insert_ne by congruence; reflexivity].
  - cbn. destruct (decide (k' = k)) as [->|Hne];
      [rewrite lookup_insert; destruct u; reflexivity|rewrite lookup_insert_ne by congruence; reflexivity].
Qed.

Lemma kvs_delete_holder idx k s k' :
  holder (kvs_delete idx k s) k' = if decide (k' = k) then None else holder s k'.
Proof.
  unfold holder, kvs_delete. destruct (kvs s !! k) eqn:Ek; cbn.
  - destruct (decide (k' = k)) as [->|Hne]; [rewrite lookup_delete|rewrite lookup_delete_ne by congruence]; reflexivity.
  - destruct (decide (k' = k)) as [->|Hne]; [rewrite Ek|]; reflexivity.
Qed.

Local Ltac use_set Hh' k :=
  match type of Hh' with
  | context [kvs_set ?i ?kk ?e ?u ?s] =>
    let H := fresh "Hset" in
    pose proof (kvs_set_holder i kk e u s k) as H;
    destruct (kvs_set i kk e u s) as [? ?]; cbn in H, Hh'; rewrite H in Hh'
  end.

Theorem kv_command_holder idx v q s k h h' :
  holder s k = Some h -> holder (apply_kvs idx v q s).1 k = Some h' -> h' ≠ h ->
  (v = VLock /\ k = q_key q /\ h = "" /\ h' = q_session q /\ q_session q ≠ "" /\
   is_Some (sessions s !! q_session q)) \/
  (v = VUnlock /\ k = q_key q /\ h = q_session q /\ h' = "" /\ q_session q ≠ "").
Proof.
  intros Hh Hh' Hne. unfold apply_kvs in Hh'. destruct v; cbn in Hh'; try congruence.
  - (* set *) rewrite kvs_set_holder in Hh'. destruct (decide (k = q_key q)) as [->|]; [|congruence].
    rewrite Hh in Hh'. cbn in Hh'. congruence.
  - (* delete *) rewrite kvs_delete_holder in Hh'. destruct (decide _); congruence.
  - (* delete-cas *) unfold kvs_delete_cas in Hh'. destruct (kvs s !! q_key q); [|cbn in Hh'; congruence].
    destruct (bool_decide _); cbn in Hh'; [|congruence].
    rewrite kvs_delete_holder in Hh'. destruct (decide _); congruence.
  - (* delete-tree *) exfalso. revert Hh'. unfold kvs_delete_tree, holder in *.
    destruct (bool_decide _); [congruence|].
    destruct (bool_decide (q_key q = "")); cbn; intros Hh';
      (destruct (filter _ (kvs s) !! k) as [e'|] eqn:Ef; [|discriminate];
       apply map_filter_lookup_Some in Ef as [Ef _]; rewrite Ef in Hh; cbn in *; congruence).
  - (* cas *) unfold kvs_set_cas in Hh'. cbn in Hh'.
    destruct (kvs s !! q_key q) as [x|] eqn:Ex.
    + destruct (bool_decide (q_index q = 0)); cbn in Hh'; [congruence|].
      destruct (bool_decide _); cbn in Hh'; [|congruence].
      use_set Hh' k. destruct (decide (k = q_key q)) as [->|]; [|congruence].
      rewrite Hh in Hh'. cbn in Hh'. congruence.
    + destruct (bool_decide _); cbn in Hh'; [|congruence].
      use_set Hh' k. destruct (decide (k = q_key q)) as [->|]; [|congruence].
      rewrite Hh in Hh'. cbn in Hh'. congruence.
  - (* lock *) left. unfold kvs_lock in Hh'. cbn in Hh'.
    destruct (bool_decide (q_session q = "")) eqn:Ee; [cbn in Hh'; congruence|].
    apply bool_decide_eq_false in Ee.
    destruct (sessions s !! q_session q) as [ss|] eqn:Ess; [|cbn in Hh'; congruence].
    destruct (kvs s !! q_key q) as [x|] eqn:Ex.
    + destruct (bool_decide (kv_session x = q_session q)) eqn:Eown; cbn in Hh'.
      * apply bool_decide_eq_true in Eown. use_set Hh' k.
        destruct (decide (k = q_key q)) as [->|]; [|congruence]. cbn in Hh'.
        unfold holder in Hh. rewrite Ex in Hh. cbn in Hh. congruence.
      * destruct (bool_decide (kv_session x = "")) eqn:Efree; cbn in Hh'; [|congruence].
        apply bool_decide_eq_true in Efree. use_set Hh' k.
        destruct (decide (k = q_key q)) as [->|]; [|congruence]. cbn in Hh'.
        unfold holder in Hh. rewrite Ex in Hh. cbn in Hh.
        repeat split; try congruence. eauto.
    + cbn in Hh'. use_set Hh' k.
      destruct (decide (k = q_key q)) as [->|]; [|congruence].
      unfold holder in Hh. rewrite Ex in Hh. discriminate.
  - (* unlock *) right. unfold kvs_unlock in Hh'. cbn in Hh'.
    destruct (bool_decide (q_session q = "")) eqn:Ee; [cbn in Hh'; congruence|].
    apply bool_decide_eq_false in Ee.
    destruct (kvs s !! q_key q) as [x|] eqn:Ex; [|cbn in Hh'; congruence].
    destruct (bool_decide (kv_session x = q_session q)) eqn:Eown; cbn in Hh'; [|congruence].
    apply bool_decide_eq_true in Eown. use_set Hh' k.
    destruct (decide (k = q_key q)) as [->|]; [|congruence]. cbn in Hh'.
    unfold holder in Hh. rewrite Ex in Hh. cbn in Hh. repeat split; congruence.
Qed.
