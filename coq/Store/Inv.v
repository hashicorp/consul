(* The lock invariant (C04) of the core store model, [post] (in which C03's frames and C04's
   termination theorem are stated) and the two classes of predicates the cascade is proved for here:
   [lock_only] and [drop_ok]. *)
From stdpp Require Import gmap strings.
From RecordUpdate Require Import RecordSet.
From Coq Require Import NArith.
From Verif Require Import Store.Model.
From Verif Require Export Store.Walk.
Import RecordSetNotations.
Local Open Scope N_scope.

(* [post P r]: the resulting state -- or, on failure, the partial state -- satisfies P, and the
   failure is never the model's own "out of fuel" (so the cascades terminate). For a concrete
   error constructor other than EFuel, [post P (Err e p)] is convertible with [P p]. *)
Definition post {A} (P : st -> Prop) (proj : A -> st) (r : result A) : Prop :=
  match r with
  | Ok a => P (proj a)
  | Err e p => match e with EFuel => False | _ => P p end
  end.

Lemma post_rpost {A} (P : st -> Prop) (proj : A -> st) (r : result A) :
  post P proj r <-> rpost (nofuel P) (fun a => P (proj a)) r.
Proof.
  destruct r as [a|e p]; cbn; [reflexivity|]. unfold nofuel.
  destruct e; split; try (intros H; split; [discriminate|exact H]); try (intros [_ H]; exact H);
    [contradiction|intros [H _]; exact (H eq_refl)].
Qed.

(* A predicate that does not look at the catalog rows, the index table or the lock delays. *)
Record lock_only (P : st -> Prop) : Prop := {
  lo_checks : forall s f, P s -> P (s <| checks ::= f |>);
  lo_nodes : forall s f, P s -> P (s <| nodes ::= f |>);
  lo_services : forall s f, P s -> P (s <| services ::= f |>);
  lo_index : forall s f, P s -> P (s <| index ::= f |>);
  lo_delay : forall s f, P s -> P (s <| lockdelay ::= f |>)
}.

Definition drop_ok (P : st -> Prop) : Prop :=
  forall s idx sid ss, P s -> sessions s !! sid = Some ss -> P (drop_session idx sid ss s).

Section LockOnly.
  Context (P : st -> Prop) (idx : N).
  Hypothesis HL : lock_only P.
  Hypothesis HD : forall s sid ss, P s -> sessions s !! sid = Some ss -> P (drop_session idx sid ss s).

  Lemma lock_only_casc_at : casc_at idx (fun _ _ => True) P.
  Proof.
    split; [|intros; exact I|exact HD|intros; exact I].
    intros s s1 pre nd cid hc _ Hs1 _. unfold store_check.
    destruct (match checks s !! (nd, cid) with Some x => negb (check_same x hc) | None => true end);
      [apply (lo_checks P HL); exact Hs1|exact Hs1].
  Qed.

  Lemma lock_only_rows_at : rows_at idx P.
  Proof.
    split; intros;
      first [apply (lo_checks P HL)|apply (lo_services P HL)|apply (lo_nodes P HL)]; assumption.
  Qed.

  Lemma lock_only_cat_step s r : P s -> cat_step idx s r -> rpost (nofuel P) P r.
  Proof.
    apply (cat_step_casc idx _ P lock_only_casc_at lock_only_rows_at). intros; exact I.
  Qed.

  Lemma lock_only_session_create sid ss :
    (forall s, P s -> sid ≠ "" -> P (session_row idx sid ss s)) -> keeps P (session_create idx sid ss).
  Proof. apply (session_create_casc idx _ P sid ss lock_only_casc_at). Qed.
End LockOnly.

(* No session has the empty id; every lock holder, every check link and every session a prepared
   query is bound to is a live session. *)
Definition LockInv (s : st) : Prop :=
  sessions s !! "" = None /\
  (forall k e, kvs s !! k = Some e -> kv_session e = "" \/ is_Some (sessions s !! kv_session e)) /\
  (forall n c sid, (n, c, sid) ∈ schecks s -> is_Some (sessions s !! sid)) /\
  (forall q sid, queries s !! q = Some sid -> sid = "" \/ is_Some (sessions s !! sid)).

Lemma LockInv_lock_only : lock_only LockInv.
Proof. split; intros s f Hs; exact Hs. Qed.

Lemma LockInv_st0 : LockInv st0.
Proof.
  unfold LockInv, st0; cbn. repeat split.
  - intros k e Hk. rewrite lookup_empty in Hk. discriminate.
  - intros n c sid Hin. set_solver.
  - intros q sid Hq. rewrite lookup_empty in Hq. discriminate.
Qed.

Lemma LockInv_drop_ok : drop_ok LockInv.
Proof.
  intros s idx sid ss (H0 & Hk & Hc & Hq) Hss.
  assert (Hsid : sid ≠ "") by (intros ->; congruence).
  assert (Hlive : forall x, x ≠ sid -> is_Some (sessions s !! x) -> is_Some (delete sid (sessions s) !! x))
    by (intros x Hne; rewrite lookup_delete_ne by congruence; exact id).
  unfold LockInv. rewrite drop_session_sessions. repeat split.
  - rewrite lookup_delete_ne by exact Hsid. exact H0.
  - intros k e. rewrite drop_session_lookup. destruct (kvs s !! k) as [e0|] eqn:E0; [|discriminate].
    destruct (decide (kv_session e0 = sid)) as [Heq|Hne].
    + destruct (s_delete ss); [discriminate|]. intros He; injection He as <-. left. reflexivity.
    + intros He; injection He as <-. destruct (Hk k e0 E0) as [Hx|Hx]; [left; exact Hx|right; apply Hlive; assumption].
  - intros n c sid'. rewrite (proj2 (proj2 (proj2 (drop_session_frame idx sid ss s)))).
    intros Hin. apply elem_of_filter in Hin as [Hne Hin]. apply Hlive; [exact Hne|eapply Hc; exact Hin].
  - intros q x Hx. apply drop_session_queries in Hx as [Hx Hne].
    destruct (Hq q x Hx) as [Hy|Hy]; [left; exact Hy|right; apply Hlive; assumption].
Qed.

Lemma LockInv_kvs (s s' : st) :
  kv_frame s s' ->
  (forall k e, kvs s' !! k = Some e ->
     kvs s !! k = Some e \/ kv_session e = "" \/ is_Some (sessions s !! kv_session e)) ->
  LockInv s -> LockInv s'.
Proof.
  intros (Hse & Hsc & Hq & _) Hk (H0 & Hkv & Hc & Hqq). unfold LockInv. rewrite Hse, Hsc, Hq.
  repeat split; try assumption.
  intros k e He. destruct (Hk k e He) as [Hx|Hx]; [exact (Hkv k e Hx)|exact Hx].
Qed.

Lemma kvs_set_LockInv idx k e upd s :
  LockInv s ->
  (upd = true -> kv_session e = "" \/ is_Some (sessions s !! kv_session e)) ->
  LockInv (kvs_set idx k e upd s).1.
Proof.
  intros Hs Hupd. apply (LockInv_kvs s); [apply kvs_set_frame| |exact Hs].
  destruct Hs as (_ & Hkv & _).
  (* the holder that is written: the request's if [upd], else the one the key had *)
  assert (Hsess : forall x, kvs s !! k = x ->
            (if upd then kv_session e else match x with Some y => kv_session y | None => "" end) = "" \/
            is_Some (sessions s !! (if upd then kv_session e
                                    else match x with Some y => kv_session y | None => "" end))).
  { intros x Hx. destruct upd; [apply Hupd; reflexivity|].
    destruct x as [y|]; [exact (Hkv k y Hx)|left; reflexivity]. }
  intros k' e'. unfold kvs_set.
  destruct (kvs s !! k) as [x|] eqn:Ex; [destruct (kv_same x _); [left; assumption|]|]; cbn;
    (destruct (decide (k' = k)) as [->|Hne];
     [rewrite lookup_insert; intros [= <-]; right; exact (Hsess _ eq_refl)
     |rewrite lookup_insert_ne by congruence; left; assumption]).
Qed.

Lemma kvs_delete_LockInv idx k s : LockInv s -> LockInv (kvs_delete idx k s).
Proof.
  intros Hs. apply (LockInv_kvs s); [apply kvs_delete_frame| |exact Hs].
  intros k' e'. unfold kvs_delete. destruct (kvs s !! k); [|left; assumption].
  cbn. intros He'. left. apply lookup_delete_Some in He' as [_ He']. exact He'.
Qed.

Lemma kvs_delete_tree_LockInv idx p s : LockInv s -> LockInv (kvs_delete_tree idx p s).
Proof.
  intros Hs. apply (LockInv_kvs s); [apply kvs_delete_tree_frame| |exact Hs].
  intros k' e'. unfold kvs_delete_tree. destruct (bool_decide _); [left; assumption|].
  destruct (bool_decide (p = "")); cbn; intros He'; left;
    apply map_filter_lookup_Some in He' as [He' _]; exact He'.
Qed.

Lemma reap_LockInv upto s : LockInv s -> LockInv (reap_tombstones upto s).
Proof. intros Hs. exact Hs. Qed.

Lemma LockInv_kv_step idx s s' : LockInv s -> kv_step idx s s' -> LockInv s'.
Proof.
  intros Hs. destruct 1;
    [exact Hs|apply kvs_set_LockInv; assumption|apply kvs_delete_LockInv; exact Hs
    |apply kvs_delete_tree_LockInv; exact Hs].
Qed.

Lemma LockInv_cat_step idx s r : LockInv s -> cat_step idx s r -> rpost (nofuel LockInv) LockInv r.
Proof. apply (lock_only_cat_step LockInv idx LockInv_lock_only (fun s => LockInv_drop_ok s idx)). Qed.

Lemma session_row_LockInv idx sid ss s : LockInv s -> sid ≠ "" -> LockInv (session_row idx sid ss s).
Proof.
  intros (H0 & Hkv & Hc & Hqq) Esid.
  assert (Hlive : forall x, is_Some (sessions s !! x) ->
            is_Some (<[sid := ss <| s_create := idx |>]> (sessions s) !! x)).
  { intros x Hx. destruct (decide (x = sid)) as [->|Hne];
      [rewrite lookup_insert; eauto|rewrite lookup_insert_ne by congruence; exact Hx]. }
  unfold LockInv; cbn. repeat split.
  - rewrite lookup_insert_ne by exact Esid. exact H0.
  - intros k e He. destruct (Hkv k e He) as [Hx|Hx]; [left; exact Hx|right; apply Hlive; exact Hx].
  - intros n0 c0 sid' Hin. apply elem_of_union in Hin as [Hin|Hin]; [|apply Hlive; eapply Hc; exact Hin].
    apply elem_of_list_to_set, elem_of_list_fmap in Hin as (cid & Heq & _).
    injection Heq as _ _ ->. rewrite lookup_insert. eauto.
  - intros q x Hx. destruct (Hqq q x Hx) as [Hy|Hy]; [left; exact Hy|right; apply Hlive; exact Hy].
Qed.

Lemma session_create_LockInv idx sid ss : keeps LockInv (session_create idx sid ss).
Proof.
  apply (lock_only_session_create LockInv idx LockInv_lock_only (fun s => LockInv_drop_ok s idx)).
  intros s. apply session_row_LockInv.
Qed.

Lemma query_set_LockInv idx qid sess : keeps LockInv (query_set idx qid sess).
Proof.
  intros s Hs. unfold query_set.
  destruct (bool_decide (sess = "") || bool_decide (is_Some (sessions s !! sess))) eqn:Eok;
    [|split; [discriminate|exact Hs]].
  destruct Hs as (H0 & Hkv & Hc & Hqq). unfold LockInv; cbn. repeat split; try assumption.
  intros q x Hx. destruct (decide (q = qid)) as [->|Hne].
  - rewrite lookup_insert in Hx. injection Hx as <-.
    apply orb_true_iff in Eok as [Ee|Ee]; apply bool_decide_eq_true in Ee; [left|right]; exact Ee.
  - rewrite lookup_insert_ne in Hx by congruence. exact (Hqq q x Hx).
Qed.

Lemma query_delete_LockInv idx qid s : LockInv s -> LockInv (query_delete idx qid s).
Proof.
  intros Hs. unfold query_delete. destruct (queries s !! qid); [|exact Hs].
  destruct Hs as (H0 & Hkv & Hc & Hqq). unfold LockInv; cbn. repeat split; try assumption.
  intros q x Hx. apply lookup_delete_Some in Hx as [_ Hx]. exact (Hqq q x Hx).
Qed.

Lemma txn_op_LockInv idx op s :
  LockInv s -> rpost (nofuel LockInv) (fun r => LockInv r.1) (txn_op idx op s).
Proof.
  apply (walk_txn_op LockInv (nofuel LockInv) idx (LockInv_kv_step idx) (LockInv_cat_step idx)).
  intros e s0 Hs0 He. split; assumption.
Qed.

Theorem apply_LockInv idx c s : LockInv s -> LockInv (apply idx c s).1.
Proof.
  apply (walk_apply LockInv (nofuel LockInv) idx (fun _ _ => True) (LockInv_kv_step idx) (LockInv_cat_step idx)).
  - (* Hnf *) intros e s0 Hs0 He. split; assumption.
  - (* Hsc *) intros sid ss s0 _. apply session_create_LockInv.
  - (* Hqs *) intros qid sess. apply query_set_LockInv.
  - (* Hqd *) intros qid. apply query_delete_LockInv.
  - (* Hreap *) intros upto s0 Hs0. exact Hs0.
  - (* F *) intros; exact I.
Qed.

Theorem run_LockInv log : forall s, LockInv s -> LockInv (run log s).1.
Proof. apply walk_run. exact apply_LockInv. Qed.
