(* Insertion sort, once.  Each model writes its own insertion and sort functions (over a
   comparison of its own, by [fold_right] or by recursion); [insertion_sort leb ins srt] says that
   [ins] and [srt] satisfy the unfolding equations of insertion sort with the test [leb], which
   every one of them does by computation.  The facts below are about any such pair. *)
From Coq Require Import List Bool NArith Sorting.Permutation Sorting.Sorted.
Import ListNotations.

Record insertion_sort {A} (leb : A -> A -> bool) (ins : A -> list A -> list A)
    (srt : list A -> list A) : Prop := {
  ins_nil : forall x, ins x [] = [x];
  ins_cons : forall x y l, ins x (y :: l) = if leb x y then x :: y :: l else y :: ins x l;
  srt_nil : srt [] = [];
  srt_cons : forall x l, srt (x :: l) = ins x (srt l) }.
Arguments ins_nil {A leb ins srt}.
Arguments ins_cons {A leb ins srt}.
Arguments srt_nil {A leb ins srt}.
Arguments srt_cons {A leb ins srt}.

(* a list has at most one sorted arrangement when ties are equalities *)
Lemma sorted_perm_unique {A} (R : A -> A -> Prop) l1 : forall l2,
  StronglySorted R l1 -> StronglySorted R l2 -> Permutation l1 l2 ->
  (forall x y, In x l1 -> In y l1 -> R x y -> R y x -> x = y) -> l1 = l2.
Proof.
  induction l1 as [|a l1 IH]; intros l2 S1 S2 Hp Hanti.
  - apply Permutation_nil in Hp. congruence.
  - destruct l2 as [|b l2]; [apply Permutation_sym, Permutation_nil in Hp; discriminate|].
    inversion S1 as [|? ? S1' F1]; inversion S2 as [|? ? S2' F2]; subst. rewrite Forall_forall in F1, F2.
    assert (a = b) as <-.
    { pose proof (Permutation_in b (Permutation_sym Hp) (or_introl eq_refl)) as [E|Hb]; [exact E|].
      pose proof (Permutation_in a Hp (or_introl eq_refl)) as [E|Ha]; [congruence|].
      apply Hanti; [left; reflexivity|right; exact Hb|apply F1; exact Hb|apply F2; exact Ha]. }
    f_equal. apply IH; try assumption; [exact (Permutation_cons_inv Hp)|].
    intros x y Hx Hy. apply Hanti; right; assumption.
Qed.

Lemma total_leb_false {A} (leb : A -> A -> bool) :
  (forall x y, leb x y = true \/ leb y x = true) -> forall x y, leb x y = false -> leb y x = true.
Proof. intros T x y E. destruct (T x y); congruence. Qed.

Section Sort.
  Context {A : Type} {leb : A -> A -> bool} {ins : A -> list A -> list A} {srt : list A -> list A}.
  Hypothesis S : insertion_sort leb ins srt.

  Lemma insert_perm x l : Permutation (ins x l) (x :: l).
  Proof.
    induction l as [|y l IH]; [rewrite (ins_nil S); reflexivity|].
    rewrite (ins_cons S). destruct (leb x y); [reflexivity|]. rewrite IH. apply perm_swap.
  Qed.

  Lemma isort_perm l : Permutation (srt l) l.
  Proof.
    induction l as [|x l IH]; [rewrite (srt_nil S); reflexivity|].
    rewrite (srt_cons S), insert_perm, IH. reflexivity.
  Qed.

  Lemma In_isort x l : In x (srt l) <-> In x l.
  Proof. rewrite isort_perm. reflexivity. Qed.

  (* The result is sorted for any transitive relation that the test decides in this sense: a
     positive answer puts x before y, a negative one y before x.  With [R x y := leb x y = true]
     that is totality of [leb]; a model whose test is a strict "y goes before x" takes
     [leb x y := negb (lt y x)] and [R x y := lt y x = false]. *)
  Context (R : A -> A -> Prop).
  Hypothesis R_trans : forall x y z, R x y -> R y z -> R x z.
  Hypothesis leb_true : forall x y, leb x y = true -> R x y.
  Hypothesis leb_false : forall x y, leb x y = false -> R y x.

  Lemma insert_sorted x l : StronglySorted R l -> StronglySorted R (ins x l).
  Proof.
    induction 1 as [|y l Hs IH Hy]; [rewrite (ins_nil S); repeat constructor|].
    rewrite (ins_cons S). destruct (leb x y) eqn:E.
    - constructor; [constructor; assumption|]. constructor; [apply leb_true, E|].
      eapply Forall_impl; [|exact Hy]. intros z. apply R_trans, leb_true, E.
    - constructor; [exact IH|]. rewrite insert_perm. constructor; [apply leb_false, E|exact Hy].
  Qed.

  Lemma isort_sorted l : StronglySorted R (srt l).
  Proof.
    induction l as [|x l IH]; [rewrite (srt_nil S); constructor|].
    rewrite (srt_cons S). apply insert_sorted, IH.
  Qed.

  (* so the order of the input does not matter when ties are equalities *)
  Lemma isort_perm_eq l l' :
    Permutation l l' -> (forall x y, In x l -> In y l -> R x y -> R y x -> x = y) -> srt l = srt l'.
  Proof.
    intros Hp Hanti. apply (sorted_perm_unique R); try apply isort_sorted.
    - rewrite !isort_perm. exact Hp.
    - intros x y Hx Hy. apply Hanti; apply In_isort; assumption.
  Qed.
End Sort.

(* Three-way comparisons that order: what a Go [Less] built from field comparisons has to satisfy
   for "not greater" to be a total preorder.  Ties ([Eq]) need not be equalities. *)
Record good_cmp {A} (c : A -> A -> comparison) : Prop := {
  gc_antisym : forall a b, c a b = CompOpp (c b a);
  gc_trans : forall a b d, c a b = Lt -> c b d = Lt -> c a d = Lt;
  gc_eq_l : forall a b d, c a b = Eq -> c a d = c b d }.

Definition leb_of_cmp {A} (c : A -> A -> comparison) (x y : A) : bool :=
  match c x y with Gt => false | _ => true end.

Section Cmp.
  Context {A : Type} (c : A -> A -> comparison) (G : good_cmp c).

  Lemma gc_eq_r a b d : c a b = Eq -> c d a = c d b.
  Proof.
    intros H. rewrite (gc_antisym c G d a), (gc_antisym c G d b).
    f_equal. apply (gc_eq_l c G); exact H.
  Qed.

  Lemma leb_of_cmp_total x y : leb_of_cmp c x y = true \/ leb_of_cmp c y x = true.
  Proof. unfold leb_of_cmp. rewrite (gc_antisym c G y x). destruct (c x y); cbn; auto. Qed.

  Lemma leb_of_cmp_trans x y z :
    leb_of_cmp c x y = true -> leb_of_cmp c y z = true -> leb_of_cmp c x z = true.
  Proof.
    unfold leb_of_cmp. intros H1 H2. destruct (c x y) eqn:E1; try discriminate.
    - rewrite (gc_eq_l c G x y z E1). exact H2.
    - destruct (c y z) eqn:E2; try discriminate.
      + rewrite <- (gc_eq_r y z x E2), E1. reflexivity.
      + rewrite (gc_trans c G x y z E1 E2). reflexivity.
  Qed.
End Cmp.

Lemma good_cmp_ext {A} (c c' : A -> A -> comparison) :
  (forall a b, c a b = c' a b) -> good_cmp c -> good_cmp c'.
Proof.
  intros E G. split; intros a b; [|intros d..]; rewrite <- !E;
    [apply (gc_antisym c G)|apply (gc_trans c G)|apply (gc_eq_l c G)].
Qed.

(* compare by [c1], and by [c2] where [c1] ties *)
Lemma good_lex {A} (c1 c2 : A -> A -> comparison) :
  good_cmp c1 -> good_cmp c2 -> good_cmp (fun a b => match c1 a b with Eq => c2 a b | r => r end).
Proof.
  intros G1 G2. split.
  - intros a b. rewrite (gc_antisym c1 G1 a b), (gc_antisym c2 G2 a b).
    destruct (c1 b a); reflexivity.
  - intros a b d Hab Hbd.
    destruct (c1 a b) eqn:E1; try discriminate.
    + rewrite (gc_eq_l c1 G1 a b d E1).
      destruct (c1 b d) eqn:E2; try discriminate; [|reflexivity].
      apply (gc_trans c2 G2 a b d); assumption.
    + destruct (c1 b d) eqn:E2; try discriminate.
      * rewrite <- (gc_eq_r c1 G1 b d a E2), E1. reflexivity.
      * rewrite (gc_trans c1 G1 a b d E1 E2). reflexivity.
  - intros a b d Hab.
    destruct (c1 a b) eqn:E1; try discriminate.
    rewrite (gc_eq_l c1 G1 a b d E1), (gc_eq_l c2 G2 a b d Hab). reflexivity.
Qed.

Lemma good_N_desc {A} (f : A -> N) : good_cmp (fun a b => N.compare (f b) (f a)).
Proof.
  split.
  - intros a b. apply N.compare_antisym.
  - intros a b d H1 H2. rewrite N.compare_lt_iff in *. eapply N.lt_trans; eassumption.
  - intros a b d H. apply N.compare_eq_iff in H. rewrite H. reflexivity.
Qed.
