(* Facts about the standard library's lists that it does not state and that more than one model's
   proofs need: filters, boolean quantifiers, lists with distinct keys, [skipn]; and that a string
   is its list of bytes.
   Where the standard library has the fact, use its name: [filter_ext_in], [filter_app], [filter_In],
   [NoDup_filter], [find_some], [find_none], [Injective_map_NoDup] (FinFun), [skipn_app], [firstn_app]. *)
From Coq Require Import Sorting.Permutation.
From Verif Require Import Base.Prelude.

Section Filter.
  Context {A : Type}.
  Implicit Types (p q : A -> bool) (l : list A).

  Lemma filter_filter p q l : filter p (filter q l) = filter (fun x => q x && p x) l.
  Proof.
    induction l as [|x l IH]; cbn [filter]; [reflexivity|].
    destruct (q x); cbn [filter andb]; [destruct (p x)|]; rewrite IH; reflexivity.
  Qed.

  Lemma filter_filter_in p q l :
    (forall x, In x l -> p x = true -> q x = true) -> filter p (filter q l) = filter p l.
  Proof.
    intros H. rewrite filter_filter. apply filter_ext_in. intros x Hx.
    destruct (p x) eqn:E; [rewrite (H x Hx E); reflexivity|apply andb_false_r].
  Qed.

  Lemma filter_const (b : bool) l : filter (fun _ => b) l = if b then l else [].
  Proof. destruct b; induction l; cbn; congruence. Qed.

  Lemma filter_all p l : (forall x, In x l -> p x = true) -> filter p l = l.
  Proof. intros H. rewrite (filter_ext_in p (fun _ => true) l H). apply (filter_const true). Qed.

  Lemma filter_nil_iff p l : filter p l = [] <-> (forall x, In x l -> p x = false).
  Proof.
    split.
    - intros E x Hx. apply not_true_is_false. intros Hp.
      assert (Hin : In x (filter p l)) by (apply filter_In; split; assumption).
      rewrite E in Hin. destruct Hin.
    - intros H. rewrite (filter_ext_in p (fun _ => false) l H). apply (filter_const false).
  Qed.

  Lemma Permutation_filter p l l' : Permutation l l' -> Permutation (filter p l) (filter p l').
  Proof.
    induction 1 as [|x l l' _ IH|x y l|l l' l'' _ IH1 _ IH2]; cbn [filter].
    - reflexivity.
    - destruct (p x); [constructor|]; exact IH.
    - destruct (p x), (p y); try reflexivity. apply perm_swap.
    - etransitivity; eassumption.
  Qed.
End Filter.

Lemma flat_map_ext_in {A B} (f g : A -> list B) l :
  (forall x, In x l -> f x = g x) -> flat_map f l = flat_map g l.
Proof.
  induction l as [|x l IH]; intros H; cbn [flat_map]; [reflexivity|].
  rewrite (H x (or_introl eq_refl)), IH; [reflexivity|]. intros y Hy. apply H. right; exact Hy.
Qed.

Section Quantifiers.
  Context {A : Type}.
  Implicit Types (p q : A -> bool) (l : list A).

  Lemma existsb_ext_in p q l : (forall x, In x l -> p x = q x) -> existsb p l = existsb q l.
  Proof.
    induction l as [|x l IH]; intros H; cbn [existsb]; [reflexivity|].
    rewrite (H x (or_introl eq_refl)), IH; [reflexivity|]. intros y Hy. apply H. right; exact Hy.
  Qed.

  Lemma forallb_ext_in p q l : (forall x, In x l -> p x = q x) -> forallb p l = forallb q l.
  Proof.
    induction l as [|x l IH]; intros H; cbn [forallb]; [reflexivity|].
    rewrite (H x (or_introl eq_refl)), IH; [reflexivity|]. intros y Hy. apply H. right; exact Hy.
  Qed.

  Lemma existsb_filter p q l : existsb p (filter q l) = existsb (fun x => q x && p x) l.
  Proof.
    induction l as [|x l IH]; cbn [filter existsb]; [reflexivity|].
    destruct (q x); cbn [existsb andb orb]; rewrite IH; reflexivity.
  Qed.

  (* the boolean quantifiers see a list only through its members: neither order nor
     repetitions matter *)
  Lemma existsb_same_members p l l' : (forall x, In x l <-> In x l') -> existsb p l = existsb p l'.
  Proof.
    intros H. apply eq_true_iff_eq. rewrite !existsb_exists.
    split; intros (x & Hx & Hp); exists x; split; try apply H; assumption.
  Qed.

  Lemma forallb_same_members p l l' : (forall x, In x l <-> In x l') -> forallb p l = forallb p l'.
  Proof.
    intros H. apply eq_true_iff_eq. rewrite !forallb_forall. split; intros F x Hx; apply F, H, Hx.
  Qed.

  Lemma Permutation_same_members l l' : Permutation l l' -> forall x, In x l <-> In x l'.
  Proof. intros H x. rewrite H. reflexivity. Qed.
End Quantifiers.

(* a list whose elements have distinct keys [f x] *)
Section Keys.
  Context {A K : Type} (f : A -> K).

  Lemma NoDup_map_inj l x y : NoDup (map f l) -> In x l -> In y l -> f x = f y -> x = y.
  Proof.
    induction l as [|a l IH]; cbn [map]; intros Hn Hx Hy E; [destruct Hx|].
    inversion Hn as [|? ? Hnotin Hn']; subst.
    destruct Hx as [<-|Hx], Hy as [<-|Hy]; try reflexivity.
    - exfalso. apply Hnotin. rewrite E. apply in_map. exact Hy.
    - exfalso. apply Hnotin. rewrite <- E. apply in_map. exact Hx.
    - apply IH; assumption.
  Qed.

  Lemma NoDup_map_filter (p : A -> bool) l : NoDup (map f l) -> NoDup (map f (filter p l)).
  Proof.
    induction l as [|a l IH]; cbn [map filter]; intros Hn; [constructor|].
    inversion Hn as [|? ? Hnotin Hn']; subst. destruct (p a); cbn [map]; [|apply IH; exact Hn'].
    constructor; [|apply IH; exact Hn']. intros Hin. apply Hnotin.
    apply in_map_iff in Hin as (x & <- & Hx). apply filter_In in Hx as [Hx _]. apply in_map. exact Hx.
  Qed.
End Keys.

Section Forall2.
  Context {A B : Type} (R : A -> B -> Prop).

  Lemma Forall2_In_l l l' x : Forall2 R l l' -> In x l -> exists y, In y l' /\ R x y.
  Proof.
    induction 1 as [|a b l l' Hab _ IH]; [intros []|].
    intros [<-|Hi]; [exists b; split; [left; reflexivity|exact Hab]|].
    destruct (IH Hi) as (y & Hy & Hr). exists y. split; [right; exact Hy|exact Hr].
  Qed.

  Lemma Forall2_In_r l l' y : Forall2 R l l' -> In y l' -> exists x, In x l /\ R x y.
  Proof.
    induction 1 as [|a b l l' Hab _ IH]; [intros []|].
    intros [<-|Hi]; [exists a; split; [left; reflexivity|exact Hab]|].
    destruct (IH Hi) as (x & Hx & Hr). exists x. split; [right; exact Hx|exact Hr].
  Qed.
End Forall2.

Section Skipn.
  Context {A : Type}.
  Implicit Types (l r : list A).

  Lemma In_skipn x n l : In x (skipn n l) -> In x l.
  Proof. intros H. rewrite <- (firstn_skipn n l). apply in_or_app. right; exact H. Qed.

  Lemma skipn_app_le n l r : n <= List.length l -> skipn n (l ++ r) = skipn n l ++ r.
  Proof. intros H. rewrite skipn_app. replace (n - List.length l) with 0 by lia. reflexivity. Qed.

  Lemma skipn_add a b l : skipn (a + b) l = skipn b (skipn a l).
  Proof.
    revert l; induction a as [|a IH]; intros [|x l]; cbn [Nat.add skipn]; try reflexivity; [|apply IH].
    symmetry. apply skipn_nil.
  Qed.

  Lemma nth_error_skipn_cons l i x : nth_error l i = Some x -> skipn i l = x :: skipn (S i) l.
  Proof.
    revert l; induction i as [|i IH]; intros [|y l] H; try discriminate.
    - injection H as ->. reflexivity.
    - apply (IH l H).
  Qed.
End Skipn.

(* a boolean test that decides equality *)
Section Eqb.
  Context {A : Type} (eqb : A -> A -> bool).
  Hypothesis eqb_eq : forall a b, eqb a b = true <-> a = b.

  Lemma eqb_refl' a : eqb a a = true.
  Proof. apply eqb_eq. reflexivity. Qed.

  Lemma eqb_neq a b : eqb a b = false <-> a <> b.
  Proof. rewrite <- not_true_iff_false, eqb_eq. reflexivity. Qed.

  Lemma eqb_sym a b : eqb a b = eqb b a.
  Proof. apply eq_true_iff_eq. rewrite !eqb_eq. split; congruence. Qed.
End Eqb.

(* Base.Prelude's two views of a string *)
Lemma bs_bytes_of_string s : bs (bytes_of_string s) = s.
Proof.
  induction s as [|a s IH]; [reflexivity|].
  cbn [bytes_of_string bs fold_right]. fold (bs (bytes_of_string s)).
  rewrite IH, ascii_N_embedding. reflexivity.
Qed.

Lemma bytes_of_string_inj a b : bytes_of_string a = bytes_of_string b -> a = b.
Proof. intros H. rewrite <- (bs_bytes_of_string a), H. apply bs_bytes_of_string. Qed.
