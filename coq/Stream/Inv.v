(* C11 — the invariant of the publisher/subscriber machine: what every client's view, index and
   pending items have to do with the log of commits, under the environment assumption [step_ok]. *)
From Verif Require Import Base.Prelude Stream.Model Stream.Amap Stream.Lookup.
Local Open Scope N_scope.

(* the part of the state the client invariants read, besides the client's own topic buffer;
   h_lq = the queued batches of the current generation *)
Record hist := Hist { h_hi : N; h_log : list batch; h_base : amap; h_epoch : N; h_lq : list batch }.

Definition hist_of (st : state) : hist :=
  Hist (st_hi st) (st_log st) (st_base st) (st_epoch st) (live_queue st).

Definition ob_items (ob : option tbuf) : list item :=
  match ob with Some b => tb_items b | None => [] end.

(* what a subscription positioned at [off] in its topic buffer has in front of it (before Next's filter) *)
Definition tail (h : hist) (T : ts) (ob : option tbuf) (off : nat) : list item :=
  skipn off (ob_items ob) ++ proj T (h_lq h).

(* The T-items of the log are A ++ D; the view is the base with A applied; cidx separates A from D. *)
Record core (h : hist) (T : ts) (view : amap) (cidx : N) (A D : list item) : Prop := {
  co_split : proj T (h_log h) = A ++ D;
  co_view : forall k, aget k view =
                      if matches T k then aget k (apply (ievs A) (h_base h)) else None;
  co_le : Forall (fun it => item_idx it <= cidx) A;
  co_gt : Forall (fun it => cidx < item_idx it) D;
  co_s : 1 <= cidx <= h_hi h
}.

(* in the vocabulary of the theorems: A is the log up to the index, D the log after it *)
Lemma core_log h T view cidx A D :
  core h T view cidx A D ->
  proj T (log_upto cidx (h_log h)) = A /\ proj T (log_after cidx (h_log h)) = D.
Proof.
  intros [Hsp _ Hle Hgt _]. unfold log_upto, log_after.
  rewrite (proj_filter T (fun i => N.leb i cidx)), (proj_filter T (fun i => N.ltb cidx i)), Hsp, !filter_app. split.
  - rewrite filter_all, filter_none, app_nil_r; [reflexivity| |].
    + eapply Forall_impl; [|exact Hgt]. cbn. intros it H. apply N.leb_gt, H.
    + eapply Forall_impl; [|exact Hle]. cbn. intros it H. apply N.leb_le, H.
  - rewrite filter_none, filter_all; [reflexivity| |].
    + eapply Forall_impl; [|exact Hgt]. cbn. intros it H. apply N.ltb_lt, H.
    + eapply Forall_impl; [|exact Hle]. cbn. intros it H. apply N.ltb_ge, H.
Qed.

(* what a client's (view, index) mean: nothing yet; a state of the current store incarnation;
   or a leftover of a replaced incarnation (whose index is below every index of the new log) *)
Definition knows (h : hist) (r : N) (x : client) : Prop :=
  c_idx x = 0 \/
  (c_epoch x = h_epoch h /\ exists A D, core h (c_ts x) (c_view x) (c_idx x) A D) \/
  (c_epoch x <> h_epoch h /\ c_idx x <= r).

(* a snapshot (events [acc] already accumulated, items [rest] still to come, then EndOfSnapshot s)
   positioned at [off] in the topic buffer: the snapshot contains A ++ B2; B2 was committed before
   the snapshot was taken but is published after it (Next will skip it); D is what comes after *)
Record snapok (h : hist) (T : ts) (ob : option tbuf) (acc : list ev) (rest : list item) (off : nat)
       (A B2 D : list item) (s : N) : Prop := {
  so_split : proj T (h_log h) = A ++ B2 ++ D;
  so_rest : Forall is_iev rest;
  so_view : forall k, aget k (apply (acc ++ ievs rest) []) =
                      if matches T k then aget k (apply (ievs (A ++ B2)) (h_base h)) else None;
  so_tail : tail h T ob off = B2 ++ D;
  so_le : Forall (fun it => item_idx it <= s) (A ++ B2);
  so_gt : Forall (fun it => s < item_idx it) D;
  so_s : 1 <= s <= h_hi h
}.

(* E: the batch at the snapshot's own index, if it is still in front of the subscription: it is the
   last item of A (already in the view) and will be delivered once more *)
Definition dup_of (snap cidx : N) (A E : list item) : Prop :=
  E = [] \/ exists A' e, E = [e] /\ A = A' ++ [e] /\ item_idx e = cidx /\ cidx = snap.

Definition buf_live (ob : option tbuf) (off : nat) (id : option N) : Prop :=
  exists tb, ob = Some tb /\ (off <= List.length (tb_items tb))%nat /\
             match id with Some i => tb_id tb = i | None => True end.

(* an open subscription whose snapshot has been consumed: in front of it are R (older than the
   snapshot: Next skips them), E and the commits D the view does not contain yet *)
Record streamok (h : hist) (ob : option tbuf) (x : client) (sb : sub) (A D R E : list item) : Prop := {
  sk_pre : s_pre sb = [];
  sk_h : c_h x = HStream \/ c_h x = HResume;
  sk_epoch : c_epoch x = h_epoch h;
  sk_snap : s_snap sb <= c_idx x;
  sk_core : core h (c_ts x) (c_view x) (c_idx x) A D;
  sk_tail : tail h (c_ts x) ob (s_off sb) = R ++ E ++ D;
  sk_skip : Forall (fun it => skipped (s_snap sb) it = true) R;
  sk_dup : dup_of (s_snap sb) (c_idx x) A E
}.

(* the private items of a subscription whose snapshot is still being delivered, and the handler
   that goes with them *)
Definition snap_pre (x : client) (sb : sub) (acc : list ev) (rest : list item) (s : N) : Prop :=
  (c_h x = HSnap acc /\ s_pre sb = rest ++ [IEos s]) \/
  (c_h x = HResume /\ acc = [] /\ s_pre sb = INstf :: rest ++ [IEos s]).

Inductive subinv (h : hist) (ob : option tbuf) (x : client) (sb : sub) : Prop :=
| sub_streaming A D R E : streamok h ob x sb A D R E -> subinv h ob x sb
| sub_snapshot acc rest A B2 D s :
    s_snap sb = 0 -> snap_pre x sb acc rest s ->
    snapok h (c_ts x) ob acc rest (s_off sb) A B2 D s -> subinv h ob x sb.

Record cinv (h : hist) (ob : option tbuf) (r : N) (x : client) : Prop := {
  ci_idx : c_idx x <= h_hi h;
  ci_epoch : c_epoch x <= h_epoch h;
  ci_zero : c_idx x = 0 -> meq (c_view x) [];
  ci_snap : forall acc, c_h x = HSnap acc -> c_idx x = 0;
  ci_knows : knows h r x;
  ci_live : forall sb, c_sub x = Some sb -> s_status sb = Open -> buf_live ob (s_off sb) (Some (s_buf sb));
  ci_sub : forall sb, c_sub x = Some sb -> s_status sb = Open -> subinv h ob x sb
}.

Definition cacheinv (h : hist) (T : ts) (ob : option tbuf) (sn : snap) : Prop :=
  buf_live ob (sn_off sn) None /\
  exists body A B2 D s, sn_items sn = body ++ [IEos s] /\ snapok h T ob [] body (sn_off sn) A B2 D s.

(* pub: the published part of the log; r: the raft index at the last restore, below every index of the log *)
Record ginv_at (st : state) (pub : list batch) (r : N) : Prop := {
  gi_store_nd : NoDup (keys (st_store st));
  gi_store : meq (st_store st) (apply (all_evs (st_log st)) (st_base st));
  gi_incr : incr (map b_idx (st_log st));
  gi_queue : Forall (fun gb => fst gb <= st_epoch st) (st_queue st);
  gi_log : st_log st = pub ++ live_queue st;
  gi_r : 1 <= r <= st_hi st;
  gi_bnd : Forall (fun b => r < b_idx b <= st_hi st) (st_log st);
  gi_bufs : forall T tb, find_buf T (st_bufs st) = Some tb -> exists X, proj T pub = X ++ tb_items tb;
  gi_buf_ids : forall T tb, find_buf T (st_bufs st) = Some tb -> tb_id tb < st_nbuf st;
  gi_refs : forall T tb, find_buf T (st_bufs st) = Some tb ->
                         (count_subs T (tb_id tb) (st_clients st) <= tb_refs tb)%nat;
  gi_clients : forall c x, find_client c (st_clients st) = Some x ->
                           cinv (hist_of st) (find_buf (c_ts x) (st_bufs st)) r x;
  gi_sub_ids : forall c x sb, find_client c (st_clients st) = Some x -> c_sub x = Some sb ->
                              s_buf sb < st_nbuf st;
  gi_nd : NoDup (map fst (st_clients st));
  gi_cache : forall T sn, find_snap T (st_cache st) = Some sn ->
                          cacheinv (hist_of st) T (find_buf T (st_bufs st)) sn
}.

Definition ginv (st : state) : Prop := exists pub r, ginv_at st pub r.

(* the T-items of the log: in increasing order, above the restore index, at or below the last raft index *)
Definition log_ok (h : hist) (T : ts) (r : N) : Prop :=
  incr (map item_idx (proj T (h_log h))) /\
  forall it, In it (proj T (h_log h)) -> r < item_idx it <= h_hi h.

Lemma ginv_log_ok st pub r T : ginv_at st pub r -> log_ok (hist_of st) T r.
Proof.
  intros G. split; [apply incr_proj, G|]. intros it Hit.
  apply (proj_bounds T (st_log st) (fun i => r < i <= st_hi st)); [apply G|exact Hit].
Qed.

Lemma ginv_init c : ginv (init c).
Proof.
  exists [], 1. constructor; cbn; try (intros; discriminate); try constructor; try reflexivity; lia.
Qed.

Lemma not_open x sb : is_open x = false -> c_sub x = Some sb -> s_status sb <> Open.
Proof. unfold is_open. intros H Es. rewrite Es in H. destruct (s_status sb); congruence. Qed.

Lemma closed_not_open x sb : c_sub x = Some sb -> s_status sb <> Open -> is_open x = false.
Proof. unfold is_open. intros -> H. destruct (s_status sb); congruence. Qed.

Lemma status_dec (s : status) : {s = Open} + {s <> Open}.
Proof. destruct s; [left|right|right]; congruence. Qed.

Lemma is_open_sub x : is_open x = true -> exists sb, c_sub x = Some sb /\ s_status sb = Open.
Proof.
  unfold is_open. destruct (c_sub x) as [sb|]; [|discriminate].
  destruct (s_status sb) eqn:E; try discriminate. eauto.
Qed.

Lemma snap_pre_drop x sb acc rest s :
  s_snap sb = 0 -> snap_pre x sb acc rest s -> drop_skipped (s_snap sb) (s_pre sb) <> [].
Proof.
  intros -> [[_ ->]|(_ & _ & ->)]; rewrite drop_skipped_zero; [destruct rest|]; discriminate.
Qed.

Lemma stream_ahead h ob x sb A D R E :
  streamok h ob x sb A D R E ->
  Forall (fun it => c_idx x <= item_idx it) (E ++ D) /\
  Forall (fun it => skipped (s_snap sb) it = false) (E ++ D).
Proof.
  intros [_ _ _ Hsn [_ _ _ Hgt _] _ _ HE].
  assert (H : Forall (fun it => c_idx x <= item_idx it) (E ++ D)).
  { apply Forall_app. split.
    - destruct HE as [->|(A' & e & -> & _ & Hei & _)]; repeat constructor. lia.
    - eapply Forall_impl; [|exact Hgt]. cbn. intros; lia. }
  split; [exact H|]. eapply Forall_impl; [|exact H]. cbn. intros it Hit. apply not_skipped_ge. lia.
Qed.

(* for a client in the streaming phase the subscription's part of the invariant gives all the rest *)
Lemma cinv_streaming h ob r x sb A D R E :
  c_sub x = Some sb -> buf_live ob (s_off sb) (Some (s_buf sb)) -> streamok h ob x sb A D R E -> cinv h ob r x.
Proof.
  intros Es Hl Hst. pose proof Hst as [_ Hh He _ Hc _ _ _]. pose proof (co_s _ _ _ _ _ _ Hc) as Hs.
  constructor; try lia.
  - intros acc Ha. destruct Hh; congruence.
  - right; left. split; [exact He|eauto].
  - intros sb' Es' _. rewrite Es in Es'. injection Es' as <-. exact Hl.
  - intros sb' Es' _. rewrite Es in Es'. injection Es' as <-. eapply sub_streaming, Hst.
Qed.

Definition set_sub (x : client) (o : option sub) : client :=
  Client (c_ts x) (c_tok x) (c_rpc x) (c_view x) (c_idx x) (c_h x) o (c_epoch x).

(* the position of a subscription does not matter once it is closed or gone *)
Lemma cinv_set_sub h ob ob' r x o :
  is_open (set_sub x o) = false -> cinv h ob r x -> cinv h ob' r (set_sub x o).
Proof.
  intros Hn [Hi Hep Hz Hs Hk _ _]. constructor; auto; intros sb Es Est; destruct (not_open _ _ Hn Es Est).
Qed.

Lemma cinv_not_open h ob ob' r x : is_open x = false -> cinv h ob r x -> cinv h ob' r x.
Proof. destruct x as [T tok rpc v i hd o ep]. apply (cinv_set_sub h ob ob' r (Client T tok rpc v i hd o ep) o). Qed.
