(* C11 — every step of a schedule that meets the environment assumption preserves [ginv].
   The client invariant is carried along three kinds of change, each proved once: the history grows or
   the buffers are rewritten in place ([cinv_grow], over [hist_ext] and [tail_ext]); subscriptions are
   closed ([close_when]); one client, one buffer or one cache entry is replaced ([ginv_set_client],
   [ginv_put_buf], [ginv_del_buf], [ginv_put_snap]).  The steps of the machine are compositions of
   these; what is particular to a step is how Next and Subscribe build the new client ([deliver_pre],
   [deliver_buf], [cinv_resume], [cinv_snapshot]). *)
From Verif Require Import Base.Lists.
From Verif Require Import Base.Prelude Stream.Model Stream.Amap Stream.Lookup Stream.Inv.
Local Open Scope N_scope.

(* h' is h after the commits [ext] (none, when only the queue or the buffers change) *)
Record hist_ext (h h' : hist) (ext : list batch) : Prop := {
  he_log : h_log h' = h_log h ++ ext;
  he_base : h_base h' = h_base h;
  he_epoch : h_epoch h' = h_epoch h;
  he_hi : h_hi h <= h_hi h';
  he_new : Forall (fun b => h_hi h < b_idx b) ext
}.

(* and every live position in the buffer ob of T sees, in ob', what it saw plus the T-items of [ext] *)
Definition tail_ext (h h' : hist) (ext : list batch) (T : ts) (ob ob' : option tbuf) : Prop :=
  forall off id, buf_live ob off id ->
                 buf_live ob' off id /\ tail h' T ob' off = tail h T ob off ++ proj T ext.

Definition hist_pub (h : hist) (q : list batch) : hist :=
  Hist (h_hi h) (h_log h) (h_base h) (h_epoch h) q.

Lemma hist_ext_pub h q : hist_ext h (hist_pub h q) [].
Proof. constructor; cbn; auto using app_nil_r; lia. Qed.

Lemma hist_ext_refl h : hist_ext h h [].
Proof. destruct h as [hi log base ep lq]. apply (hist_ext_pub (Hist hi log base ep lq) lq). Qed.

Lemma proj_ext_gt h h' ext T s :
  hist_ext h h' ext -> s <= h_hi h -> Forall (fun it => s < item_idx it) (proj T ext).
Proof.
  intros He Hs. rewrite Forall_forall. intros it Hit.
  apply (proj_bounds T ext (fun i => s < i)) in Hit; [exact Hit|].
  eapply Forall_impl; [|apply (he_new _ _ _ He)]. cbn. intros; lia.
Qed.

Lemma core_grow h h' ext T view cidx A D :
  hist_ext h h' ext -> core h T view cidx A D -> core h' T view cidx A (D ++ proj T ext).
Proof.
  intros He [Hsp Hv Hle Hgt Hs]. pose proof He as [El Eb _ Hhi _]. constructor; rewrite ?El, ?Eb; auto.
  - rewrite proj_app, Hsp, <- app_assoc. reflexivity.
  - apply Forall_app. split; [exact Hgt|]. apply (proj_ext_gt h h'); [exact He|lia].
  - lia.
Qed.

Lemma snapok_grow h h' ext T ob ob' acc rest off A B2 D s :
  hist_ext h h' ext -> tail h' T ob' off = tail h T ob off ++ proj T ext ->
  snapok h T ob acc rest off A B2 D s -> snapok h' T ob' acc rest off A B2 (D ++ proj T ext) s.
Proof.
  intros He Et [Hsp Hr Hv Ht Hle Hgt Hs]. pose proof He as [El Eb _ Hhi _]. constructor; rewrite ?El, ?Eb; auto.
  - rewrite proj_app, Hsp, <- !app_assoc. reflexivity.
  - rewrite Et, Ht, <- app_assoc. reflexivity.
  - apply Forall_app. split; [exact Hgt|]. apply (proj_ext_gt h h'); [exact He|lia].
  - lia.
Qed.

Lemma knows_grow h h' ext r x : hist_ext h h' ext -> knows h r x -> knows h' r x.
Proof.
  intros He [Hz|[[Hep (A & D & Hc)]|Ho]]; unfold knows; rewrite (he_epoch _ _ _ He); auto.
  right; left. split; [exact Hep|]. eexists _, _. eapply core_grow; eauto.
Qed.

Lemma cinv_grow h h' ext ob ob' r x :
  hist_ext h h' ext -> tail_ext h h' ext (c_ts x) ob ob' -> cinv h ob r x -> cinv h' ob' r x.
Proof.
  intros He Hob [Hi Hep Hz Hs Hk Hl Hsub]. pose proof He as [_ _ Ee Hhi _].
  constructor; rewrite ?Ee; auto.
  - lia.
  - eapply knows_grow; eauto.
  - intros sb Es Est. apply (Hob _ _ (Hl sb Es Est)).
  - intros sb Es Est. destruct (Hob _ _ (Hl sb Es Est)) as [_ Ht].
    destruct (Hsub sb Es Est) as [A D R E [Hp Hh Hee Hsn Hc Htl HR HE]|acc rest A B2 D s Hs0 Hpre Hso].
    + apply (sub_streaming _ _ _ _ A (D ++ proj (c_ts x) ext) R E). constructor; rewrite ?Ee; auto.
      * eapply core_grow; eauto.
      * rewrite Ht, Htl, <- !app_assoc. reflexivity.
    + apply (sub_snapshot _ _ _ _ acc rest A B2 (D ++ proj (c_ts x) ext) s); auto.
      eapply snapok_grow; eauto.
Qed.

Lemma cacheinv_grow h h' ext T ob ob' sn :
  hist_ext h h' ext -> tail_ext h h' ext T ob ob' -> cacheinv h T ob sn -> cacheinv h' T ob' sn.
Proof.
  intros He Hob (Hl & body & A & B2 & D & s & Hit & Hso). destruct (Hob _ _ Hl) as [Hl' Ht].
  split; [exact Hl'|]. exists body, A, B2, (D ++ proj T ext), s. split; [exact Hit|].
  eapply snapok_grow; eauto.
Qed.

Lemma tail_ext_refl h T ob : tail_ext h h [] T ob ob.
Proof. intros off id Hl. split; [exact Hl|]. cbn [proj flat_map]. rewrite app_nil_r. reflexivity. Qed.

Lemma tail_ext_same h T ob tb' :
  tb_items tb' = ob_items ob -> (forall tb, ob = Some tb -> tb_id tb' = tb_id tb) ->
  tail_ext h h [] T ob (Some tb').
Proof.
  intros Ei Eid off id (tb & -> & Hoff & Hid). cbn [ob_items] in Ei. split.
  - exists tb'. rewrite Ei, (Eid tb eq_refl). auto.
  - unfold tail. cbn [ob_items proj flat_map]. rewrite Ei, app_nil_r. reflexivity.
Qed.

(* Subscription.forceClose / closeACLChanged (CAS from open): the open subscription of a client that
   meets p becomes closed, with status s, where it stands *)
Definition close_when (p : client -> bool) (s : status) (x : client) : client :=
  if p x && is_open x
  then set_sub x (option_map (fun sb => Sub s (s_pre sb) (s_off sb) (s_buf sb) (s_snap sb)) (c_sub x))
  else x.

Lemma force_close_eq x : force_close x = close_when (fun _ => true) ForceClosed x.
Proof.
  unfold force_close, close_when, is_open. destruct (c_sub x) as [sb|]; [destruct (s_status sb)|]; reflexivity.
Qed.

Lemma close_sub_acl_eq toks x :
  close_sub_acl toks x = close_when (fun x => existsb (N.eqb (c_tok x)) toks) AclClosed x.
Proof.
  unfold close_sub_acl, close_when, is_open.
  destruct (c_sub x) as [sb|]; [destruct (s_status sb)|]; destruct (existsb _ toks); reflexivity.
Qed.

Lemma close_when_not_open p s x : is_open x = false -> close_when p s x = x.
Proof. unfold close_when. intros ->. rewrite andb_false_r. reflexivity. Qed.

Lemma close_when_closed p s x sb :
  s <> Open -> p x = true -> c_sub x = Some sb ->
  exists sb', c_sub (close_when p s x) = Some sb' /\ s_status sb' <> Open /\ s_buf sb' = s_buf sb.
Proof.
  intros Hs Hp Es. unfold close_when. rewrite Hp. destruct (is_open x) eqn:Eo; cbn [andb].
  - rewrite Es. eexists. repeat split. exact Hs.
  - exists sb. repeat split; [exact Es|]. eapply not_open; eauto.
Qed.

Lemma close_when_fields p s x :
  c_ts (close_when p s x) = c_ts x /\
  (forall T id, has_sub_on T id (close_when p s x) = has_sub_on T id x) /\
  (forall sb', c_sub (close_when p s x) = Some sb' -> exists sb, c_sub x = Some sb /\ s_buf sb = s_buf sb').
Proof.
  unfold close_when, has_sub_on. destruct (p x && is_open x); [|eauto].
  cbn [set_sub c_ts c_sub]. destruct (c_sub x) as [sb|]; cbn [option_map]; repeat split; try discriminate.
  intros sb' [= <-]. eauto.
Qed.

Lemma cinv_close_when h ob r p s x : s <> Open -> cinv h ob r x -> cinv h ob r (close_when p s x).
Proof.
  intros Hs. unfold close_when. destruct (p x && is_open x) eqn:E; [|auto]. apply cinv_set_sub.
  apply andb_true_iff in E as [_ E]. apply is_open_sub in E as (sb & Es & _).
  unfold is_open. cbn [set_sub c_sub]. rewrite Es. cbn. destruct s; congruence.
Qed.

Lemma ginv_close_clients st pub r f p s :
  (forall x, f x = close_when p s x) -> s <> Open -> ginv_at st pub r ->
  ginv_at (with_clients st (map (fun cx => (fst cx, f (snd cx))) (st_clients st))) pub r.
Proof.
  intros Hf Hs G. constructor; try apply G; cbn [with_clients st_clients st_bufs st_nbuf].
  - intros T tb Ef. rewrite count_map; [apply (gi_refs _ _ _ G T tb Ef)|].
    intros x. rewrite Hf. apply close_when_fields.
  - intros c x' Ec. apply find_client_map_some in Ec as (x & Ec & ->). rewrite Hf.
    destruct (close_when_fields p s x) as (-> & _). apply cinv_close_when, (gi_clients _ _ _ G c x Ec). exact Hs.
  - intros c x' sb' Ec Es'. apply find_client_map_some in Ec as (x & Ec & ->). rewrite Hf in Es'.
    destruct (close_when_fields p s x) as (_ & _ & Hb). destruct (Hb sb' Es') as (sb & Es & <-).
    apply (gi_sub_ids _ _ _ G c x sb Ec Es).
  - rewrite map_map. apply G.
Qed.

Lemma ginv_commit st pub r b :
  ginv_at st pub r -> st_hi st < b_idx b -> ginv_at (do_commit st b) pub r.
Proof.
  intros G Hlt.
  assert (He : hist_ext (hist_of st) (hist_of (do_commit st b)) [b]).
  { constructor; cbn; [reflexivity|reflexivity|reflexivity|lia|repeat constructor; exact Hlt]. }
  assert (Ht : forall T ob, tail_ext (hist_of st) (hist_of (do_commit st b)) [b] T ob ob).
  { intros T ob off id Hl. split; [exact Hl|].
    unfold tail; cbn [h_lq hist_of]. rewrite live_queue_commit, proj_app, app_assoc. reflexivity. }
  pose proof (gi_r _ _ _ G) as Hr. pose proof (gi_bnd _ _ _ G) as Hall.
  constructor;
    cbn [do_commit st_store st_log st_base st_hi st_queue st_bufs st_clients st_cache st_epoch st_nbuf]; try apply G.
  - apply nodup_apply, G.
  - intros k. unfold all_evs. rewrite flat_map_app. cbn [flat_map]. rewrite app_nil_r.
    rewrite (apply_app _ (b_evs b)). apply (meq_apply _ _ _ (gi_store _ _ _ G) k).
  - rewrite map_app. apply incr_app; [apply G|repeat constructor|].
    intros u y Hu [<-|[]]. apply in_map_iff in Hu as (b0 & <- & Hb0).
    rewrite Forall_forall in Hall. specialize (Hall _ Hb0). lia.
  - apply Forall_app. split; [apply G|]. repeat constructor. cbn. lia.
  - rewrite live_queue_commit, (gi_log _ _ _ G), app_assoc. reflexivity.
  - lia.
  - apply Forall_app. split; [|repeat constructor; lia].
    eapply Forall_impl; [|exact Hall]. cbn. intros; lia.
  - intros c x Hf. eapply cinv_grow; [exact He|apply Ht|apply (gi_clients _ _ _ G c x Hf)].
  - intros T sn Hf. eapply cacheinv_grow; [exact He|apply Ht|apply (gi_cache _ _ _ G T sn Hf)].
Qed.

Lemma tail_ext_publish T ob b q h :
  (forall tb, ob = Some tb -> tb_ts tb = T) -> h_lq h = b :: q ->
  tail_ext h (hist_pub h q) [] T ob (option_map (publish_buf b) ob).
Proof.
  intros Hts Hq off id (tb & -> & Hoff & Hid). specialize (Hts tb eq_refl). cbn [option_map].
  destruct (publish_fields b tb) as (_ & Eid & _). split.
  - exists (publish_buf b tb). rewrite Eid, (publish_items T), app_length by exact Hts. repeat split; [lia|exact Hid].
  - unfold tail. cbn [hist_pub h_lq ob_items proj flat_map]. rewrite Hq, (publish_items T), app_nil_r by exact Hts.
    rewrite skipn_app_le by exact Hoff. change (b :: q) with ([b] ++ q). rewrite proj_app, app_assoc. reflexivity.
Qed.

(* publishBatch on the buffers *)
Definition published (st : state) (b : batch) (q : list (N * batch)) : state :=
  State (st_store st) q (map (publish_buf b) (st_bufs st)) (st_cache st) (st_clients st)
        (st_cache_on st) (st_epoch st) (st_nbuf st) (st_hi st) (st_log st) (st_base st).

Lemma ginv_published st pub r b q :
  ginv_at st pub r -> st_queue st = (st_epoch st, b) :: q -> ginv_at (published st b q) (pub ++ [b]) r.
Proof.
  intros G Eq. pose proof (gi_queue _ _ _ G) as Gq. rewrite Eq in Gq. apply Forall_cons_iff in Gq as [_ Gq].
  set (st' := published st b q). set (q' := live_queue st').
  assert (Hlq : live_queue st = b :: q').
  { unfold live_queue. rewrite Eq. cbn [filter fst]. rewrite N.eqb_refl. reflexivity. }
  assert (He : hist_ext (hist_of st) (hist_of st') []) by apply (hist_ext_pub (hist_of st) q').
  assert (Ht : forall T, tail_ext (hist_of st) (hist_of st') [] T (find_buf T (st_bufs st)) (find_buf T (st_bufs st'))).
  { intros T. cbn [st' published st_bufs]. rewrite find_buf_map by apply publish_fields.
    apply tail_ext_publish; [intros tb; apply find_buf_ts|exact Hlq]. }
  constructor; try apply G; cbn [st' published st_queue st_bufs st_clients st_cache st_log st_nbuf].
  - exact Gq.
  - fold st'. fold q'. rewrite (gi_log _ _ _ G), Hlq, <- app_assoc. reflexivity.
  - intros T tb' Hf. apply find_buf_map_some in Hf as (tb & Ef & ->); [|apply publish_fields].
    destruct (gi_bufs _ _ _ G T tb Ef) as [X HX]. exists X.
    rewrite proj_app, HX, (publish_items T), app_assoc by (apply (find_buf_ts _ _ _ Ef)). reflexivity.
  - intros T tb' Hf. apply find_buf_map_some in Hf as (tb & Ef & ->); [|apply publish_fields].
    destruct (publish_fields b tb) as (_ & -> & _). apply (gi_buf_ids _ _ _ G T tb Ef).
  - intros T tb' Hf. apply find_buf_map_some in Hf as (tb & Ef & ->); [|apply publish_fields].
    destruct (publish_fields b tb) as (_ & -> & ->). apply (gi_refs _ _ _ G T tb Ef).
  - intros c x Ec. eapply cinv_grow; [exact He|apply Ht|apply (gi_clients _ _ _ G c x Ec)].
  - intros T sn Hf. eapply cacheinv_grow; [exact He|apply Ht|apply (gi_cache _ _ _ G T sn Hf)].
Qed.

Lemma ginv_publish st : ginv st -> ginv (fst (do_publish st)).
Proof.
  intros (pub & r & G). unfold do_publish. destruct (st_queue st) as [|[g b] q] eqn:Eq; [exists pub, r; exact G|].
  destruct (N.eqb_spec g (st_epoch st)) as [->|Eg]; cbn [fst].
  - (* the batch belongs to the current generation: it is published, and the subscriptions it names are closed *)
    exists (pub ++ [b]), r.
    apply (ginv_close_clients (published st b q) _ _ _ _ AclClosed (close_sub_acl_eq (b_close b))); [discriminate|].
    apply ginv_published; assumption.
  - (* a batch of a replaced store: dropped *)
    set (st' := State _ q _ _ _ _ _ _ _ _ _).
    assert (Hh : hist_of st' = hist_of st).
    { unfold hist_of, live_queue. cbn [st' st_queue st_epoch]. rewrite Eq. cbn [filter fst].
      destruct (N.eqb_spec g (st_epoch st)); [contradiction|reflexivity]. }
    pose proof (gi_queue _ _ _ G) as Gq. rewrite Eq in Gq. apply Forall_cons_iff in Gq as [_ Gq].
    exists pub, r. destruct G. constructor; rewrite ?Hh; auto.
    change (st_log st = pub ++ h_lq (hist_of st')). rewrite Hh. assumption.
Qed.

Lemma ginv_evict st T : ginv st -> ginv (do_evict st T).
Proof.
  intros (pub & r & G). exists pub, r. destruct G. constructor; auto.
  intros T' sn Hf. cbn [do_evict st_cache] in Hf. rewrite find_del_snap in Hf.
  destruct (ts_eqb T' T); [discriminate|]. auto.
Qed.

Lemma cinv_restore h h' ob r x :
  h_hi h <= h_hi h' -> h_epoch h < h_epoch h' -> is_open x = false ->
  cinv h ob r x -> cinv h' None (h_hi h) x.
Proof.
  intros Hhi Hep Hn [Hi He Hz Hs Hk _ _].
  constructor; auto; try lia; try (intros sb Es Est; destruct (not_open _ _ Hn Es Est)).
  destruct (N.eq_dec (c_idx x) 0) as [E0|E0]; [left; exact E0|]. right; right. split; [lia|exact Hi].
Qed.

(* fsm.Restore on the store and the publisher *)
Definition restored (st : state) (rows : amap) (hi : N) : state :=
  State rows (st_queue st) [] [] (st_clients st) (st_cache_on st) (N.succ (st_epoch st)) (st_nbuf st)
        (N.max (st_hi st) hi) [] rows.

Lemma force_close_closed x : is_open (force_close x) = false.
Proof.
  unfold force_close, is_open. destruct (c_sub x) as [sb|] eqn:Es; [destruct (s_status sb) eqn:Est|];
    cbn; rewrite ?Es, ?Est; reflexivity.
Qed.

Lemma ginv_restored st pub r rows hi :
  ginv_at st pub r -> (forall c x, find_client c (st_clients st) = Some x -> is_open x = false) ->
  nodup_keys rows = true -> ginv_at (restored st rows hi) [] (st_hi st).
Proof.
  intros G Hcl Hnd. pose proof (gi_r _ _ _ G) as Hr.
  assert (Hq : Forall (fun gb => fst gb < N.succ (st_epoch st)) (st_queue st)).
  { eapply Forall_impl; [|apply G]. cbn. intros; lia. }
  constructor; try apply G;
    cbn [restored st_store st_log st_base st_hi st_queue st_bufs st_clients st_cache st_epoch st_nbuf];
    try (intros; discriminate).
  - apply nodup_keys_spec, Hnd.
  - intros k; reflexivity.
  - constructor.
  - eapply Forall_impl; [|exact Hq]. cbn. intros; lia.
  - unfold live_queue. cbn [restored st_queue st_epoch]. rewrite live_queue_none by exact Hq. reflexivity.
  - lia.
  - constructor.
  - intros c x Ec.
    eapply (cinv_restore (hist_of st)); [cbn; lia|cbn; lia|apply (Hcl c x Ec)|apply (gi_clients _ _ _ G c x Ec)].
Qed.

Lemma ginv_restore st rows hi :
  ginv st -> nodup_keys rows = true -> ginv (do_restore st rows hi).
Proof.
  intros (pub & r & G) Hnd. exists [], (st_hi st).
  apply (ginv_restored (with_clients st (map (fun cx => (fst cx, force_close (snd cx))) (st_clients st))) pub r);
    [|intros c x' Ec; apply find_client_map_some in Ec as (x & _ & ->); apply force_close_closed|exact Hnd].
  apply (ginv_close_clients st _ _ _ _ ForceClosed force_close_eq); [discriminate|exact G].
Qed.

Lemma ginv_set_client st pub r c x' :
  ginv_at st pub r ->
  cinv (hist_of st) (find_buf (c_ts x') (st_bufs st)) r x' ->
  (forall sb, c_sub x' = Some sb -> s_buf sb < st_nbuf st) ->
  (forall T tb, find_buf T (st_bufs st) = Some tb ->
                (count_subs T (tb_id tb) (put_client c x' (st_clients st)) <= tb_refs tb)%nat) ->
  ginv_at (with_clients st (put_client c x' (st_clients st))) pub r.
Proof.
  intros G Hc Hid Hcnt. constructor; try apply G; cbn [with_clients st_clients st_bufs st_nbuf].
  - exact Hcnt.
  - intros c' y Hf. rewrite find_put_client in Hf.
    destruct (N.eqb c' c); [injection Hf as <-; exact Hc|apply (gi_clients _ _ _ G c' y Hf)].
  - intros c' y sb Hf. rewrite find_put_client in Hf.
    destruct (N.eqb c' c); [injection Hf as <-; apply Hid|apply (gi_sub_ids _ _ _ G c' y sb Hf)].
  - apply nodup_put_client, G.
Qed.

(* the client c is replaced by one on the same topic/subject whose subscription, if it has one, is
   attached to the buffer the old one was attached to *)
Lemma ginv_update_client st pub r c x x' :
  ginv_at st pub r -> find_client c (st_clients st) = Some x ->
  c_ts x' = c_ts x ->
  (forall sb', c_sub x' = Some sb' -> exists sb, c_sub x = Some sb /\ s_buf sb = s_buf sb') ->
  cinv (hist_of st) (find_buf (c_ts x) (st_bufs st)) r x' ->
  ginv_at (with_clients st (put_client c x' (st_clients st))) pub r.
Proof.
  intros G Ec Et Hsb Hc. apply ginv_set_client; [exact G|rewrite Et; exact Hc| |].
  - intros sb' Es'. destruct (Hsb sb' Es') as (sb & Es & <-). apply (gi_sub_ids _ _ _ G c x sb Ec Es).
  - intros T tb Hf. eapply Nat.le_trans; [|apply (gi_refs _ _ _ G T tb Hf)].
    apply count_put_client_le. intros Hx'. exists x. split; [exact Ec|].
    unfold has_sub_on in *. rewrite Et in Hx'. destruct (c_sub x') as [sb'|]; [|discriminate].
    destruct (Hsb sb' eq_refl) as (sb & -> & ->). exact Hx'.
Qed.

Definition with_bufs (st : state) (bufs : list tbuf) (cache : list snap) (nbuf : N) : state :=
  State (st_store st) (st_queue st) bufs cache (st_clients st) (st_cache_on st) (st_epoch st) nbuf
        (st_hi st) (st_log st) (st_base st).

(* the buffer object of a topic/subject is created (empty, with the next identity), or replaced by
   one with the same identity and items: only the reference count changes *)
Lemma ginv_put_buf st pub r tb' nbuf' :
  ginv_at st pub r ->
  tb_items tb' = ob_items (find_buf (tb_ts tb') (st_bufs st)) ->
  (forall tb, find_buf (tb_ts tb') (st_bufs st) = Some tb -> tb_id tb' = tb_id tb) ->
  st_nbuf st <= nbuf' -> tb_id tb' < nbuf' ->
  (count_subs (tb_ts tb') (tb_id tb') (st_clients st) <= tb_refs tb')%nat ->
  ginv_at (with_bufs st (put_buf tb' (st_bufs st)) (st_cache st) nbuf') pub r.
Proof.
  intros G Ei Eid Hnb Hidlt Hcnt.
  assert (Ht : forall T, tail_ext (hist_of st) (hist_of st) [] T
                                  (find_buf T (st_bufs st)) (find_buf T (put_buf tb' (st_bufs st)))).
  { intros T. rewrite find_put_buf. destruct (ts_eqb_spec T (tb_ts tb')) as [->|]; [|apply tail_ext_refl].
    apply tail_ext_same; assumption. }
  constructor; try apply G; cbn [with_bufs st_bufs st_nbuf st_clients st_cache].
  - intros T tb Hf. rewrite find_put_buf in Hf.
    destruct (ts_eqb_spec T (tb_ts tb')) as [->|]; [injection Hf as <-|apply (gi_bufs _ _ _ G T tb Hf)].
    rewrite Ei. destruct (find_buf (tb_ts tb') (st_bufs st)) as [tb|] eqn:Ef; cbn [ob_items].
    + apply (gi_bufs _ _ _ G _ tb Ef).
    + exists (proj (tb_ts tb') pub). rewrite app_nil_r. reflexivity.
  - intros T tb Hf. rewrite find_put_buf in Hf.
    destruct (ts_eqb T (tb_ts tb')); [injection Hf as <-; exact Hidlt|].
    pose proof (gi_buf_ids _ _ _ G T tb Hf). lia.
  - intros T tb Hf. rewrite find_put_buf in Hf.
    destruct (ts_eqb_spec T (tb_ts tb')) as [->|]; [injection Hf as <-; exact Hcnt|apply (gi_refs _ _ _ G T tb Hf)].
  - intros c x Hf.
    eapply (cinv_grow (hist_of st)); [apply hist_ext_refl|apply Ht|apply (gi_clients _ _ _ G c x Hf)].
  - intros c x sb Hf Hs. pose proof (gi_sub_ids _ _ _ G c x sb Hf Hs). lia.
  - intros T sn Hf.
    eapply (cacheinv_grow (hist_of st)); [apply hist_ext_refl|apply Ht|apply (gi_cache _ _ _ G T sn Hf)].
Qed.

Lemma ginv_del_buf st pub r T :
  ginv_at st pub r ->
  (forall tb, find_buf T (st_bufs st) = Some tb -> count_subs T (tb_id tb) (st_clients st) = 0%nat) ->
  ginv_at (with_bufs st (del_buf T (st_bufs st)) (del_snap T (st_cache st)) (st_nbuf st)) pub r.
Proof.
  intros G Hz. constructor; try apply G; cbn [with_bufs st_bufs st_nbuf st_clients st_cache].
  - intros T' tb Hf. apply (gi_bufs _ _ _ G T' tb), (find_del_buf_some T), Hf.
  - intros T' tb Hf. apply (gi_buf_ids _ _ _ G T' tb), (find_del_buf_some T), Hf.
  - intros T' tb Hf. apply (gi_refs _ _ _ G T' tb), (find_del_buf_some T), Hf.
  - intros c y Hf. pose proof (gi_clients _ _ _ G c y Hf) as Hc. rewrite find_del_buf.
    destruct (ts_eqb_spec (c_ts y) T) as [E|]; [|exact Hc].
    apply cinv_not_open with (ob := find_buf (c_ts y) (st_bufs st)); [|exact Hc].
    destruct (is_open y) eqn:Eo; [exfalso|reflexivity]. apply is_open_sub in Eo as (sb & Es & Est).
    destruct (ci_live _ _ _ _ Hc sb Es Est) as (tb & Etb & _ & Hid). rewrite E in Etb.
    assert (has_sub_on T (tb_id tb) y = true) as Hy by (rewrite <- E, Hid; apply has_sub_on_own, Es).
    pose proof (count_ge_one T (tb_id tb) c y _ Hf Hy) as H1. rewrite (Hz tb Etb) in H1. lia.
  - intros T' sn Hf. rewrite find_del_snap in Hf. rewrite find_del_buf.
    destruct (ts_eqb T' T); [discriminate|apply (gi_cache _ _ _ G T' sn Hf)].
Qed.

Lemma ginv_put_snap st pub r sn :
  ginv_at st pub r -> cacheinv (hist_of st) (sn_ts sn) (find_buf (sn_ts sn) (st_bufs st)) sn ->
  ginv_at (with_bufs st (st_bufs st) (put_snap sn (st_cache st)) (st_nbuf st)) pub r.
Proof.
  intros G Hc. constructor; try apply G.
  intros T sn' Hf. cbn [with_bufs st_cache] in Hf. rewrite find_put_snap in Hf.
  destruct (ts_eqb_spec T (sn_ts sn)) as [->|]; [injection Hf as <-; exact Hc|apply (gi_cache _ _ _ G T sn' Hf)].
Qed.

Lemma ginv_release st pub r T id :
  ginv_at st pub r ->
  (forall tb, find_buf T (st_bufs st) = Some tb -> tb_id tb = id ->
              (count_subs T id (st_clients st) + 1 <= tb_refs tb)%nat) ->
  ginv_at (release T id st) pub r.
Proof.
  intros G Hcnt. unfold release. destruct (find_buf T (st_bufs st)) as [tb|] eqn:Eb; [|exact G].
  destruct (N.eqb_spec (tb_id tb) id) as [Eid|]; [|exact G]. specialize (Hcnt tb eq_refl Eid).
  destruct (tb_refs tb) as [|[|n]] eqn:Er.
  1, 2: (* the last reference *)
    apply (ginv_del_buf st pub r T G); intros tb0 Ef; rewrite Eb in Ef; injection Ef as <-; rewrite Eid; lia.
  (* other references remain *)
  apply (ginv_put_buf st pub r (TBuf T (S n) (tb_items tb) (tb_id tb)) (st_nbuf st) G);
    cbn [tb_ts tb_items tb_id tb_refs]; rewrite ?Eb.
  - reflexivity.
  - intros tb0 [= <-]. reflexivity.
  - lia.
  - apply (gi_buf_ids _ _ _ G T tb Eb).
  - rewrite Eid. lia.
Qed.

Lemma ginv_unsub st pub r c : ginv_at st pub r -> ginv_at (fst (do_unsub st c)) pub r.
Proof.
  intros G. unfold do_unsub. destruct (find_client c (st_clients st)) as [x|] eqn:Ec; [|exact G].
  destruct (c_sub x) as [sb|] eqn:Es; [|exact G]. cbn [fst]. apply ginv_release.
  - apply (ginv_update_client st pub r c x (drop_sub x) G Ec); [reflexivity|intros sb' [=]|].
    exact (cinv_set_sub _ _ _ _ x None eq_refl (gi_clients _ _ _ G c x Ec)).
  - cbn [with_clients st_bufs st_clients]. intros tb Hf Hid.
    pose proof (count_put_client (c_ts x) (s_buf sb) c (drop_sub x) (st_clients st)) as H. rewrite Ec in H.
    rewrite (has_sub_on_own x sb Es) in H. change (has_sub_on _ _ (drop_sub x)) with false in H. cbn [b2n] in H.
    pose proof (gi_refs _ _ _ G _ _ Hf) as Hr. rewrite Hid in Hr. lia.
Qed.

(* the buffer a subscription reads: the object it is attached to, if the map still holds it *)
Definition read_items (st : state) (x : client) (sb : sub) : list item :=
  match find_buf (c_ts x) (st_bufs st) with
  | Some b => if N.eqb (tb_id b) (s_buf sb) then tb_items b else []
  | None => []
  end.

Definition next_item (st : state) (x : client) (sb : sub) : option (item * sub) :=
  match drop_skipped (s_snap sb) (s_pre sb) with
  | it :: pre => Some (it, Sub Open pre (s_off sb) (s_buf sb) (snap_after (s_snap sb) it))
  | [] => match first_new (s_snap sb) (skipn (s_off sb) (read_items st x sb)) (s_off sb) with
          | Some (it, off') => Some (it, Sub Open [] off' (s_buf sb) (snap_after (s_snap sb) it))
          | None => None
          end
  end.

(* the RPC materializer on codes.Aborted *)
Definition reset_view (x : client) : client :=
  Client (c_ts x) (c_tok x) true [] 0 (c_h x) (c_sub x) (c_epoch x).

Lemma do_next_open st c x sb :
  find_client c (st_clients st) = Some x -> c_sub x = Some sb -> s_status sb = Open ->
  do_next st c =
    match next_item st x sb with
    | Some (it, sb') =>
        (with_clients st (put_client c (handle (st_epoch st) x sb' it) (st_clients st)), ODeliver it)
    | None => (st, OBlock)
    end.
Proof.
  intros Ec Es Est. unfold do_next, next_item, read_items. rewrite Ec, Es, Est.
  destruct (drop_skipped _ _); [destruct (first_new _ _ _) as [[? ?]|]|]; reflexivity.
Qed.

Lemma do_next_closed st c x sb :
  find_client c (st_clients st) = Some x -> c_sub x = Some sb -> s_status sb <> Open ->
  do_next st c = (if c_rpc x then with_clients st (put_client c (reset_view x) (st_clients st)) else st,
                  OClosed (s_status sb)).
Proof.
  intros Ec Es Est. unfold do_next. rewrite Ec, Es.
  destruct (s_status sb); [congruence| |]; destruct (c_rpc x); unfold reset_view; rewrite ?Es; reflexivity.
Qed.

Lemma do_next_nosub st c :
  (forall x, find_client c (st_clients st) = Some x -> c_sub x = None) -> do_next st c = (st, ONoSub).
Proof.
  intros H. unfold do_next.
  destruct (find_client c (st_clients st)) as [x|]; [rewrite (H x eq_refl)|]; reflexivity.
Qed.

Lemma next_item_buf st x sb it sb' : next_item st x sb = Some (it, sb') -> s_buf sb' = s_buf sb.
Proof.
  unfold next_item. destruct (drop_skipped _ _); [destruct (first_new _ _ _) as [[? ?]|]|];
    intros [= _ <-]; reflexivity.
Qed.

Lemma cinv_reset h ob r x : is_open x = false -> cinv h ob r x -> cinv h ob r (reset_view x).
Proof.
  intros Hn [Hi Hep _ _ _ _ _].
  constructor; cbn [reset_view c_idx c_view c_epoch c_h c_sub]; auto;
    try (intros sb Es Est; destruct (not_open _ _ Hn Es Est)).
  - lia.
  - intros _ k; reflexivity.
  - left; reflexivity.
Qed.

(* The snapshot has been delivered completely: what it contained is the view.  B2 is still in front of
   the subscription: Next will skip what lies below s; an item at s itself, the last of B2, is
   delivered once more. *)
Lemma snapok_end h T ob r acc off A B2 D s view :
  log_ok h T r -> meq view [] -> snapok h T ob acc [] off A B2 D s ->
  core h T (apply acc view) s (A ++ B2) D /\
  exists R E, tail h T ob off = R ++ E ++ D /\ Forall (fun it => skipped s it = true) R /\
              dup_of s s (A ++ B2) E.
Proof.
  intros [Hinc Hbnd] Hz [Hsp _ Hv Ht Hle Hgt Hss]. split.
  { constructor; auto.
    - rewrite Hsp, app_assoc. reflexivity.
    - intros k. specialize (Hv k). cbn [ievs flat_map] in Hv. rewrite app_nil_r in Hv.
      rewrite <- Hv. apply meq_apply, Hz. }
  assert (HB2 : incr (map item_idx B2)).
  { rewrite Hsp, !map_app in Hinc. apply incr_app_inv in Hinc as (_ & Hinc & _).
    apply incr_app_inv in Hinc as (Hinc & _ & _). exact Hinc. }
  apply Forall_app in Hle as [_ HleB].
  destruct (split_at_top s B2 HB2 HleB) as (R & E & EB & HRlt & HE). exists R, E.
  split; [rewrite Ht, EB, <- app_assoc; reflexivity|]. split.
  - rewrite Forall_forall in *. intros it Hit.
    assert (In it (proj T (h_log h))) as Hin by (rewrite Hsp, EB, !in_app_iff; auto).
    apply skipped_iev; [apply (proj_iev T (h_log h)), Hin|].
    specialize (HRlt _ Hit). specialize (Hbnd _ Hin). lia.
  - destruct HE as [->|(e & -> & He)]; [left; reflexivity|].
    right. exists (A ++ R), e. split; [reflexivity|]. split; [rewrite EB, app_assoc; reflexivity|auto].
Qed.

Lemma deliver_pre h ob r x sb it pre' :
  log_ok h (c_ts x) r -> cinv h ob r x -> c_sub x = Some sb -> s_status sb = Open ->
  drop_skipped (s_snap sb) (s_pre sb) = it :: pre' ->
  let x' := handle (h_epoch h) x (Sub Open pre' (s_off sb) (s_buf sb) (snap_after (s_snap sb) it)) it in
  cinv h ob r x' /\ (it <> INstf -> c_idx x <= c_idx x').
Proof.
  intros Hlog [Hi Hep Hz Hs Hk Hl Hsub] Es Est Epre. specialize (Hl sb Es Est).
  destruct (Hsub sb Es Est) as [A D R E [Hp _ _ _ _ _ _ _]|acc rest A B2 D s Hs0 Hh Hso].
  { rewrite Hp in Epre. discriminate. }
  rewrite Hs0, drop_skipped_zero in Epre. rewrite Hs0. cbn zeta.
  destruct Hh as [[Hh Hpre]|(Hh & -> & Hpre)]; rewrite Epre in Hpre.
  - (* accumulating *)
    destruct rest as [|it0 rest'].
    + (* EndOfSnapshot: the accumulated events become the view *)
      cbn [app] in Hpre. injection Hpre as -> ->. unfold handle. rewrite Hh. cbn [snap_after c_idx].
      rewrite (Hs acc Hh). split; [|lia].
      destruct (snapok_end _ _ _ _ _ _ _ _ _ _ (c_view x) Hlog (Hz (Hs acc Hh)) Hso) as (Hc & R & E & Ht & HR & HE).
      eapply (cinv_streaming _ _ _ _ _ (A ++ B2) D R E); [reflexivity|exact Hl|].
      constructor; cbn [s_pre s_off s_snap c_h c_epoch c_ts c_view c_idx]; auto; lia.
    + (* one more snapshot item *)
      cbn [app] in Hpre. injection Hpre as <- ->.
      destruct Hso as [Hsp Hr Hv Ht Hle Hgt Hss]. inversion Hr as [|? ? Hit Hr']; subst.
      destruct it as [i evs| |]; try contradiction. unfold handle. rewrite Hh. cbn [snap_after c_idx].
      split; [|lia].
      constructor; cbn [c_idx c_epoch c_view c_h c_sub c_ts]; try (intros sb' [= <-] _); auto.
      * intros ? _. eapply Hs; eauto.
      * apply (sub_snapshot _ _ _ _ (acc ++ evs) rest' A B2 D s); [reflexivity|left; split; reflexivity|].
        cbn [c_ts s_off]. constructor; auto. intros k. rewrite <- (Hv k), ievs_cons_ev, app_assoc. reflexivity.
  - (* NewSnapshotToFollow: reset *)
    injection Hpre as -> ->. unfold handle. rewrite Hh. split; [|congruence].
    constructor; cbn [c_idx c_epoch c_view c_h c_sub c_ts snap_after]; try (intros sb' [= <-] _); auto; try lia.
    + intros _ k; reflexivity.
    + left; reflexivity.
    + apply (sub_snapshot _ _ _ _ [] rest A B2 D s); [reflexivity|left; split; reflexivity|exact Hso].
Qed.

Lemma core_next h T r view cidx A i evs D :
  log_ok h T r -> core h T view cidx A (IEv i evs :: D) ->
  core h T (apply evs view) i (A ++ [IEv i evs]) D.
Proof.
  intros [Hinc Hbnd] [Hsp Hv Hle Hgt Hss].
  assert (Hin : In (IEv i evs) (proj T (h_log h))) by (rewrite Hsp, in_app_iff; right; left; reflexivity).
  apply Forall_cons_iff in Hgt as [Hi Hgt]. cbn [item_idx] in Hi. constructor.
  - rewrite Hsp, <- app_assoc. reflexivity.
  - intros k. rewrite ievs_app, apply_app, ievs_ev.
    apply (view_apply T); [apply (proj_evs_match _ _ _ _ Hin)|exact Hv].
  - apply Forall_app. split; [|repeat constructor; cbn; lia].
    eapply Forall_impl; [|exact Hle]. cbn. intros; lia.
  - rewrite Hsp, map_app in Hinc. apply incr_app_inv in Hinc as (_ & Hd & _).
    cbn [map] in Hd. inversion Hd as [|? ? _ Hf]; subst. rewrite Forall_forall in *.
    intros it' Hit'. apply Hf, in_map, Hit'.
  - specialize (Hbnd _ Hin). cbn [item_idx] in Hbnd. lia.
Qed.

Lemma core_again h T view i A evs D :
  core h T view i (A ++ [IEv i evs]) D -> core h T (apply evs view) i (A ++ [IEv i evs]) D.
Proof.
  intros [Hsp Hv Hle Hgt Hss]. constructor; auto. intros k.
  assert (Hm : forall e, In e evs -> matches T (e_key e) = true).
  { apply (proj_evs_match T (h_log h) i). rewrite Hsp, !in_app_iff. left; right; left; reflexivity. }
  rewrite (view_apply T evs view _ Hm Hv k). destruct (matches T k); [|reflexivity].
  rewrite ievs_app, ievs_ev. apply apply_replay.
Qed.

(* delivering the next item of the topic buffer that Next does not skip: the batch at the snapshot's
   own index (the view already contains it) or the first commit the view does not contain *)
Lemma deliver_buf h tb r x sb A D R E it off' :
  log_ok h (c_ts x) r -> tb_id tb = s_buf sb ->
  streamok h (Some tb) x sb A D R E ->
  first_new (s_snap sb) (skipn (s_off sb) (tb_items tb)) (s_off sb) = Some (it, off') ->
  let x' := handle (h_epoch h) x (Sub Open [] off' (s_buf sb) (snap_after (s_snap sb) it)) it in
  cinv h (Some tb) r x' /\ c_idx x <= c_idx x'.
Proof.
  intros Hlog Hid Hst Hfn.
  destruct (stream_ahead _ _ _ _ _ _ _ _ Hst) as [Hge Hns].
  destruct Hst as [Hp Hh He Hsn Hcore Ht HR HE].
  unfold tail in Ht. cbn [ob_items] in Ht. set (Q := proj (c_ts x) (h_lq h)) in *.
  destruct (first_new_some _ _ _ _ _ _ _ _ Ht HR Hns Hfn) as (l' & HS & HP & ->).
  rewrite HP in Hge. apply Forall_cons_iff in Hge as [Hige _].
  assert (Hin : In it (proj (c_ts x) (h_log h))).
  { rewrite (co_split _ _ _ _ _ _ Hcore). destruct HE as [->|(A' & e & -> & -> & _)]; cbn [app] in HP.
    - rewrite HP, in_app_iff. right. left. reflexivity.
    - injection HP as -> _. rewrite !in_app_iff. left; right; left; reflexivity. }
  pose proof (proj_iev _ _ _ Hin) as Hiev. destruct it as [i evs| |]; try contradiction.
  destruct (proj2 Hlog _ Hin) as [_ Hi2]. cbn [item_idx] in Hige, Hi2.
  cbn zeta. rewrite handle_stream_ev by exact Hh. cbn [snap_after c_idx]. split; [|exact Hige].
  assert (Hc' : exists A', core h (c_ts x) (apply evs (c_view x)) i A' (l' ++ Q)).
  { destruct HE as [->|(A' & e & -> & EA & Hei & _)]; cbn [app] in HP.
    - rewrite HP in Hcore. eexists. exact (core_next _ _ _ _ _ _ _ _ _ Hlog Hcore).
    - injection HP as -> ->. cbn [item_idx] in Hei. rewrite EA, <- Hei in Hcore.
      eexists. exact (core_again _ _ _ _ _ _ _ Hcore). }
  destruct Hc' as [A' Hc']. eapply (cinv_streaming _ _ _ _ _ A' (l' ++ Q) [] []); [reflexivity| |].
  - exists tb. cbn [s_off s_buf]. pose proof (skipn_off_le _ _ _ _ _ HS). auto.
  - constructor; cbn [s_pre s_off s_snap c_h c_epoch c_ts c_view c_idx]; auto; try lia.
    + unfold tail. cbn [ob_items app]. rewrite (skipn_after _ _ _ _ _ HS). reflexivity.
    + left; reflexivity.
Qed.

Lemma next_deliver st pub r c x sb it sb' :
  ginv_at st pub r -> find_client c (st_clients st) = Some x -> c_sub x = Some sb -> s_status sb = Open ->
  next_item st x sb = Some (it, sb') ->
  let x' := handle (st_epoch st) x sb' it in
  cinv (hist_of st) (find_buf (c_ts x) (st_bufs st)) r x' /\ (it <> INstf -> c_idx x <= c_idx x').
Proof.
  intros G Ec Es Est Hn. pose proof (gi_clients _ _ _ G c x Ec) as Hc.
  pose proof (ginv_log_ok st pub r (c_ts x) G) as Hlog.
  unfold next_item in Hn. destruct (drop_skipped (s_snap sb) (s_pre sb)) as [|it0 pre'] eqn:Epre.
  - destruct (ci_sub _ _ _ _ Hc sb Es Est) as [A D R E Hst|acc rest A B2 D s Hs0 Hpre _];
      [|destruct (snap_pre_drop _ _ _ _ _ Hs0 Hpre Epre)].
    destruct (ci_live _ _ _ _ Hc sb Es Est) as (tb & Etb & _ & Hid).
    unfold read_items in Hn. rewrite Etb in *. rewrite Hid, N.eqb_refl in Hn.
    destruct (first_new _ _ _) as [[it1 off']|] eqn:Efn; [|discriminate]. injection Hn as <- <-.
    destruct (deliver_buf (hist_of st) tb r x sb A D R E it1 off' Hlog Hid Hst Efn) as [H1 H2]. auto.
  - injection Hn as <- <-. apply (deliver_pre (hist_of st)); assumption.
Qed.

Lemma ginv_next st pub r c : ginv_at st pub r -> ginv_at (fst (do_next st c)) pub r.
Proof.
  intros G. destruct (find_client c (st_clients st)) as [x|] eqn:Ec; [|rewrite do_next_nosub; [exact G|congruence]].
  destruct (c_sub x) as [sb|] eqn:Es; [|rewrite do_next_nosub; [exact G|congruence]].
  destruct (status_dec (s_status sb)) as [Est|Est].
  - rewrite (do_next_open st c x sb Ec Es Est).
    destruct (next_item st x sb) as [[it sb']|] eqn:En; [|exact G]. cbn [fst].
    destruct (handle_fields (st_epoch st) x sb' it) as [Et Es'].
    apply (ginv_update_client st pub r c x _ G Ec Et).
    + rewrite Es'. intros ? [= <-]. exists sb. split; [exact Es|]. symmetry. eapply next_item_buf, En.
    + apply (next_deliver st pub r c x sb it sb' G Ec Es Est En).
  - rewrite (do_next_closed st c x sb Ec Es Est). destruct (c_rpc x); [|exact G]. cbn [fst].
    apply (ginv_update_client st pub r c x (reset_view x) G Ec); [reflexivity|intros sb' H; exists sb'; auto|].
    apply cinv_reset; [eapply closed_not_open; eauto|apply (gi_clients _ _ _ G c x Ec)].
Qed.

(* the request's view of the world, as [step_ok] states it *)
Definition sub_env_ok (h : hist) (T : ts) (qidx : N) : Prop :=
  match snd T, wild_ok (fst T) with
  | None, false => True
  | _, _ => Forall (fun b => touches T b = true -> b_idx b <= qidx) (h_log h) /\ qidx <= h_hi h
  end.

Lemma step_ok_sub_env st c T tok rpc q :
  step_ok st (LSubscribe c T tok rpc q) = true -> sub_env_ok (hist_of st) (sub_ts st c T) q.
Proof.
  cbn [step_ok]. unfold sub_env_ok. cbn [hist_of h_log h_hi]. set (T' := sub_ts st c T).
  assert (forallb (fun b => negb (touches T' b) || N.leb (b_idx b) q) (st_log st) && N.leb q (st_hi st) = true ->
          Forall (fun b => touches T' b = true -> b_idx b <= q) (st_log st) /\ q <= st_hi st) as H.
  { intros H. apply andb_true_iff in H as [H1 H2]. split; [|apply N.leb_le, H2].
    rewrite forallb_forall in H1. rewrite Forall_forall. intros b Hb Ht.
    specialize (H1 b Hb). rewrite Ht in H1. apply N.leb_le, H1. }
  destruct (snd T'); [exact H|]. destruct (wild_ok (fst T')); [exact H|auto].
Qed.

(* a request that is not refused makes its query: the query-index clause of [step_ok] applies *)
Lemma sub_env_not_err st T idx h q :
  sub_path st T idx <> PErr -> sub_env_ok h T q ->
  Forall (fun b => touches T b = true -> b_idx b <= q) (h_log h) /\ q <= h_hi h.
Proof.
  unfold sub_path, sub_env_ok. destruct (snd T); [auto|]. destruct (wild_ok (fst T)); [auto|congruence].
Qed.

Definition sub_client (x : client) (o : option sub) : client :=
  Client (c_ts x) (c_tok x) (c_rpc x) (c_view x) (c_idx x) (initial_handler (c_idx x)) o (c_epoch x).

(* bufferForSubscription *)
Definition attached (st : state) (T : ts) (cache : list snap) : state :=
  with_bufs st (put_buf (attach_buf st T) (st_bufs st)) cache (next_nbuf st T).

Definition sub_snap (st : state) (T : ts) (q : N) : snap :=
  match find_snap T (st_cache st) with
  | Some sn => sn
  | None => build_snap T (st_store st) q (tb_items (attach_buf st T))
  end.

Definition sub_cache (st : state) (T : ts) (q : N) : list snap :=
  match find_snap T (st_cache st) with
  | Some _ => st_cache st
  | None => if st_cache_on st then put_snap (sub_snap st T q) (st_cache st) else st_cache st
  end.

Lemma sub_core_spec st c x q :
  let T := c_ts x in let tb := attach_buf st T in
  fst (do_subscribe_core st c x q) =
  match sub_path st T (c_idx x) with
  | PErr => with_clients st (put_client c (sub_client x None) (st_clients st))
  | PResume =>
      with_clients (attached st T (st_cache st))
        (put_client c (sub_client x (Some (Sub Open [] (List.length (tb_items tb)) (tb_id tb) 0))) (st_clients st))
  | _ =>
      let sn := sub_snap st T q in
      let pre := if N.eqb (c_idx x) 0 then sn_items sn else INstf :: sn_items sn in
      with_clients (attached st T (sub_cache st T q))
        (put_client c (sub_client x (Some (Sub Open pre (sn_off sn) (tb_id tb) 0))) (st_clients st))
  end.
Proof.
  unfold do_subscribe_core, sub_cache, sub_snap. cbn zeta.
  destruct (sub_path st (c_ts x) (c_idx x)); try reflexivity;
    destruct (find_snap (c_ts x) (st_cache st)); reflexivity.
Qed.

Lemma cinv_sub_client h ob ob' r x o :
  cinv h ob r x ->
  (forall sb, o = Some sb -> s_status sb = Open ->
              buf_live ob' (s_off sb) (Some (s_buf sb)) /\ subinv h ob' (sub_client x o) sb) ->
  cinv h ob' r (sub_client x o).
Proof.
  intros [Hi Hep Hz Hs Hk _ _] Ho. constructor; cbn [sub_client c_idx c_epoch c_view c_h c_sub]; auto.
  - unfold initial_handler. destruct (N.eqb_spec (c_idx x) 0); [auto|discriminate].
  - intros sb Es Est. apply (Ho sb Es Est).
  - intros sb Es Est. apply (Ho sb Es Est).
Qed.

Lemma attach_items st T : tb_items (attach_buf st T) = ob_items (find_buf T (st_bufs st)).
Proof. unfold attach_buf. destruct (find_buf T (st_bufs st)); reflexivity. Qed.

Lemma ginv_attach st pub r T cache' :
  ginv_at st pub r ->
  ginv_at (attached st T (st_cache st)) pub r /\
  find_buf T (st_bufs (attached st T cache')) = Some (attach_buf st T) /\
  (count_subs T (tb_id (attach_buf st T)) (st_clients st) + 1 <= tb_refs (attach_buf st T))%nat /\
  tb_id (attach_buf st T) < next_nbuf st T /\
  exists X, proj T pub = X ++ tb_items (attach_buf st T).
Proof.
  intros G.
  assert (Hcnt : (count_subs T (tb_id (attach_buf st T)) (st_clients st) + 1 <= tb_refs (attach_buf st T))%nat /\
                 st_nbuf st <= next_nbuf st T /\ tb_id (attach_buf st T) < next_nbuf st T /\
                 (forall tb, find_buf T (st_bufs st) = Some tb -> tb_id (attach_buf st T) = tb_id tb)).
  { unfold attach_buf, next_nbuf. destruct (find_buf T (st_bufs st)) as [b|] eqn:Eb; cbn [tb_id tb_refs].
    - pose proof (gi_refs _ _ _ G T b Eb). pose proof (gi_buf_ids _ _ _ G T b Eb).
      repeat split; try lia. intros tb [= <-]. reflexivity.
    - rewrite (count_zero T (st_nbuf st)); [repeat split; try lia; discriminate|apply G|].
      intros c y sb Hf Hs. pose proof (gi_sub_ids _ _ _ G c y sb Hf Hs). lia. }
  destruct Hcnt as (Hcnt & Hnb & Hid & Hsame). pose proof (attach_ts st T) as Ets.
  split; [|split; [|split; [exact Hcnt|split; [exact Hid|]]]].
  - apply ginv_put_buf; rewrite ?Ets; auto; [apply attach_items|lia].
  - cbn [attached with_bufs st_bufs]. rewrite find_put_buf, Ets, ts_eqb_refl. reflexivity.
  - rewrite attach_items. destruct (find_buf T (st_bufs st)) as [b|] eqn:Eb; cbn [ob_items].
    + apply (gi_bufs _ _ _ G T b Eb).
    + exists (proj T pub). rewrite app_nil_r. reflexivity.
Qed.

Lemma ginv_attach_client st pub r c T x1 sb1 cache' :
  ginv_at st pub r -> (forall y, find_client c (st_clients st) = Some y -> c_sub y = None) ->
  c_ts x1 = T -> c_sub x1 = Some sb1 -> s_buf sb1 = tb_id (attach_buf st T) ->
  ginv_at (attached st T cache') pub r ->
  cinv (hist_of st) (Some (attach_buf st T)) r x1 ->
  ginv_at (with_clients (attached st T cache') (put_client c x1 (st_clients st))) pub r.
Proof.
  intros G Hold Et Es1 Eid G1 Hc.
  destruct (ginv_attach st pub r T cache' G) as (_ & Hf & Hcnt & Hid & _).
  apply (ginv_set_client _ pub r c x1 G1).
  - rewrite Et, Hf. exact Hc.
  - rewrite Es1. intros sb [= <-]. rewrite Eid. exact Hid.
  - cbn [attached with_bufs st_bufs st_clients]. intros T' tb0 Hf0.
    pose proof (count_put_client T' (tb_id tb0) c x1 (st_clients st)) as H.
    assert (match find_client c (st_clients st) with Some y => b2n (has_sub_on T' (tb_id tb0) y) | None => 0%nat end = 0%nat) as Hz.
    { destruct (find_client c (st_clients st)) as [y|] eqn:Ey; [|reflexivity].
      unfold has_sub_on. rewrite (Hold y eq_refl). reflexivity. }
    rewrite Hz in H. unfold has_sub_on in H. rewrite Es1, Eid, Et in H.
    pose proof (gi_refs _ _ _ G1 T' tb0 Hf0) as Hr. cbn [attached with_bufs st_bufs st_clients] in Hr.
    destruct (ts_eqb_spec T' T) as [->|]; cbn [andb b2n] in H; [|lia].
    cbn [attached with_bufs st_bufs] in Hf. rewrite Hf in Hf0. injection Hf0 as <-.
    rewrite N.eqb_refl in H. cbn [b2n] in H. lia.
Qed.

Lemma cinv_resume h tb r x0 pub X :
  log_ok h (c_ts x0) r ->
  h_log h = pub ++ h_lq h -> proj (c_ts x0) pub = X ++ tb_items tb ->
  c_idx x0 <> 0 -> head_has_index (tb_items tb) (c_idx x0) = true ->
  knows h r x0 ->
  cinv h (Some tb) r (sub_client x0 (Some (Sub Open [] (List.length (tb_items tb)) (tb_id tb) 0))).
Proof.
  intros [Hinc Hr] Hlog HX Hne Hhead Hk.
  apply head_index_spec in Hhead as (l & evs & Hitems).
  set (T := c_ts x0) in *. set (P := (X ++ l) ++ [IEv (c_idx x0) evs]).
  assert (Hsplit : proj T (h_log h) = P ++ proj T (h_lq h)).
  { rewrite Hlog, proj_app, HX, Hitems, app_assoc. reflexivity. }
  pose proof Hinc as Hinc'. rewrite Hsplit in Hinc'.
  destruct (incr_snoc_bounds _ _ _ Hinc') as [HPle HQgt]. cbn [item_idx] in HPle, HQgt.
  assert (Hih : initial_handler (c_idx x0) = HResume).
  { unfold initial_handler. destruct (N.eqb_spec (c_idx x0) 0); [contradiction|reflexivity]. }
  destruct Hk as [Hk|[[He (A & D & Hc)]|[_ Hle]]]; [contradiction| |].
  2: { (* a view of a replaced store: its index is below every index of the log *)
    exfalso. assert (In (IEv (c_idx x0) evs) (proj T (h_log h))) as Hin.
    { rewrite Hsplit. unfold P. rewrite !in_app_iff. left; right; left; reflexivity. }
    specialize (Hr _ Hin). cbn [item_idx] in Hr. lia. }
  fold T in Hc. destruct Hc as [Hsp Hv Hle Hgt Hss]. rewrite Hsplit in Hsp.
  destruct (split_unique (c_idx x0) _ _ _ _ HPle HQgt Hle Hgt Hsp) as [EP EQ].
  eapply (cinv_streaming _ _ _ _ _ A D [] []); [reflexivity|exists tb; auto|].
  constructor; cbn [sub_client s_pre s_off s_snap c_h c_epoch c_ts c_view c_idx]; fold T; auto; try lia.
  - constructor; auto. rewrite Hsplit. exact Hsp.
  - unfold tail. cbn [ob_items app]. rewrite skipn_all, EQ. reflexivity.
  - left; reflexivity.
Qed.

Lemma cinv_snapshot h ob0 tb r x0 sn :
  cacheinv h (c_ts x0) (Some tb) sn -> cinv h ob0 r x0 ->
  cinv h (Some tb) r
       (sub_client x0 (Some (Sub Open (if N.eqb (c_idx x0) 0 then sn_items sn else INstf :: sn_items sn)
                                 (sn_off sn) (tb_id tb) 0))).
Proof.
  intros ((tb0 & [= <-] & Hoff & _) & body & A & B2 & D & s & Hit & Hso) Hc.
  apply (cinv_sub_client h ob0 _ r x0 _ Hc).
  intros sb [= <-] _. cbn [s_off s_buf]. split; [exists tb; auto|].
  apply (sub_snapshot _ _ _ _ [] body A B2 D s); [reflexivity| |exact Hso].
  unfold snap_pre. cbn [sub_client c_h s_pre]. unfold initial_handler. rewrite Hit.
  destruct (N.eqb (c_idx x0) 0); [left|right]; auto.
Qed.

(* eventSnapshot.appendAndSplice on the store as it is now *)
Lemma build_cacheinv st T qidx pub r X tb :
  ginv_at st pub r -> proj T pub = X ++ tb_items tb ->
  Forall (fun b => touches T b = true -> b_idx b <= qidx) (st_log st) -> qidx <= st_hi st ->
  cacheinv (hist_of st) T (Some tb) (build_snap T (st_store st) qidx (tb_items tb)).
Proof.
  intros G HX Hq Hqhi. pose proof (gi_log _ _ _ G) as Hlog. pose proof (gi_r _ _ _ G) as Hr.
  set (s := if N.eqb qidx 0 then 1 else qidx).
  assert (Hs1 : qidx <= s /\ 1 <= s <= st_hi st).
  { unfold s. destruct (N.eqb_spec qidx 0); lia. }
  assert (Hle : Forall (fun it => item_idx it <= s) (proj T (st_log st))).
  { eapply Forall_impl; [|apply proj_le; exact Hq]. cbn. intros; lia. }
  assert (Hoff : splice_off (tb_items tb) s = List.length (tb_items tb)).
  { apply splice_len. intros it Hit. rewrite Forall_forall in Hle. apply Hle.
    rewrite Hlog, proj_app, HX, !in_app_iff. left; right; exact Hit. }
  unfold build_snap. fold s. rewrite Hoff. split; [exists tb; cbn [sn_off]; auto|].
  destruct (snap_events_spec T (st_store st) qidx) as [Hev Hiev].
  exists (snap_events T (st_store st) qidx), (proj T pub), (proj T (live_queue st)), [], s.
  split; [reflexivity|]. constructor; cbn [sn_off hist_of h_log h_base h_hi h_lq]; auto; try lia.
  - rewrite Hlog, proj_app, app_nil_r. reflexivity.
  - intros k. cbn [app]. rewrite Hev, aget_apply_rows by apply G.
    destruct (matches T k) eqn:Ek; [|reflexivity].
    rewrite (gi_store _ _ _ G k), (aget_all_evs_proj T) by assumption. rewrite Hlog, proj_app. reflexivity.
  - unfold tail. cbn [ob_items hist_of h_lq]. rewrite skipn_all, app_nil_r. reflexivity.
  - rewrite <- proj_app, <- Hlog. exact Hle.
Qed.

Lemma ginv_sub_core st pub r c x0 ob qidx :
  ginv_at st pub r -> (forall y, find_client c (st_clients st) = Some y -> c_sub y = None) ->
  cinv (hist_of st) ob r x0 -> sub_env_ok (hist_of st) (c_ts x0) qidx ->
  ginv_at (fst (do_subscribe_core st c x0 qidx)) pub r.
Proof.
  intros G Hold Hc0 Hq. rewrite sub_core_spec. cbn zeta. set (T := c_ts x0) in *.
  destruct (ginv_attach st pub r T (sub_cache st T qidx) G) as (G1 & Hf & _ & _ & X & HX).
  assert (Henv := fun H => sub_env_not_err st T (c_idx x0) _ qidx H Hq).
  pose proof (sub_path_spec st T (c_idx x0)) as Hp.
  destruct (sub_path st T (c_idx x0)) eqn:Ep.
  - (* unsupported wildcard: only the handler is re-initialised *)
    apply ginv_set_client; [exact G| |intros sb [=]|].
    + apply (cinv_sub_client _ ob _ r x0 None Hc0). intros sb [=].
    + intros T' tb Hf'. eapply Nat.le_trans; [|apply (gi_refs _ _ _ G T' tb Hf')].
      apply count_put_client_le. discriminate.
  - (* resume *)
    destruct Hp as [Er1 Er2].
    eapply ginv_attach_client; [exact G|exact Hold|reflexivity|reflexivity|reflexivity|exact G1|].
    eapply (cinv_resume (hist_of st)); [apply (ginv_log_ok _ _ _ _ G)|apply (gi_log _ _ _ G)|exact HX|exact Er1| |apply (ci_knows _ _ _ _ Hc0)].
    rewrite attach_items. exact Er2.
  - (* cached snapshot *)
    destruct Hp as [sn Ef]. unfold sub_cache, sub_snap in *. rewrite Ef in *.
    eapply ginv_attach_client; [exact G|exact Hold|reflexivity|reflexivity|reflexivity|exact G1|].
    apply (cinv_snapshot _ ob); [|exact Hc0]. rewrite <- Hf. apply (gi_cache _ _ _ G1 T sn Ef).
  - (* fresh snapshot *)
    destruct Henv as [Hqle Hqhi]; [discriminate|]. unfold sub_cache, sub_snap in *. rewrite Hp in *.
    pose proof (build_cacheinv st T qidx pub r X (attach_buf st T) G HX Hqle Hqhi) as Hsn.
    eapply ginv_attach_client; [exact G|exact Hold|reflexivity|reflexivity|reflexivity| |apply (cinv_snapshot _ ob); assumption].
    destruct (st_cache_on st); [|exact G1]. apply (ginv_put_snap _ pub r _ G1).
    cbn [build_snap sn_ts]. cbn [attached with_bufs st_bufs] in Hf |- *. rewrite Hf. exact Hsn.
Qed.

Lemma release_hist T id st :
  hist_of (release T id st) = hist_of st /\ st_clients (release T id st) = st_clients st.
Proof.
  unfold release. destruct (find_buf T (st_bufs st)) as [b|]; [|auto].
  destruct (N.eqb (tb_id b) id); [|auto]. destruct (tb_refs b) as [|[|n]]; auto.
Qed.

Lemma unsub_spec st c :
  hist_of (fst (do_unsub st c)) = hist_of st /\
  find_client c (st_clients (fst (do_unsub st c))) = option_map (fun x => set_sub x None) (find_client c (st_clients st)).
Proof.
  unfold do_unsub. destruct (find_client c (st_clients st)) as [x|] eqn:Ec; cbn [fst option_map]; [|rewrite Ec; auto].
  destruct (c_sub x) as [sb|] eqn:Es; cbn [fst].
  - destruct (release_hist (c_ts x) (s_buf sb) (with_clients st (put_client c (drop_sub x) (st_clients st)))) as [-> ->].
    split; [reflexivity|]. cbn [with_clients st_clients]. apply find_put_client_same.
  - rewrite Ec. split; [reflexivity|]. destruct x; cbn in *; subst; reflexivity.
Qed.

Lemma ginv_subscribe st c T tok rpc qidx :
  ginv st -> step_ok st (LSubscribe c T tok rpc qidx) = true ->
  ginv (fst (do_subscribe st c T tok rpc qidx)).
Proof.
  intros (pub & r & G) Hok. exists pub, r. apply step_ok_sub_env in Hok.
  unfold do_subscribe. unfold sub_ts in Hok.
  destruct (find_client c (st_clients st)) as [x|] eqn:Ec.
  - destruct (unsub_spec st c) as [Hh Hx]. rewrite Ec in Hx. cbn [option_map] in Hx.
    pose proof (ginv_unsub st pub r c G) as G1.
    eapply ginv_sub_core; [exact G1| |apply (gi_clients _ _ _ G1 c _ Hx)|rewrite Hh; exact Hok].
    intros y Hy. rewrite Hx in Hy. injection Hy as <-. reflexivity.
  - eapply (ginv_sub_core st pub r c _ None); [exact G|congruence| |exact Hok].
    pose proof (gi_r _ _ _ G).
    constructor; cbn [c_idx c_epoch c_view c_h c_sub hist_of h_hi h_epoch]; auto; try lia; try discriminate.
    + intros _ k; reflexivity.
    + left; reflexivity.
Qed.

Theorem ginv_step st l : ginv st -> step_ok st l = true -> ginv (fst (step st l)).
Proof.
  intros G Hok. destruct l as [b| |c T tok rpc qidx|c|c|rows hi|T]; cbn [step fst].
  - destruct G as (pub & r & G). exists pub, r. apply ginv_commit; [exact G|apply N.ltb_lt, Hok].
  - apply ginv_publish, G.
  - apply ginv_subscribe; assumption.
  - destruct G as (pub & r & G). exists pub, r. apply ginv_next, G.
  - destruct G as (pub & r & G). exists pub, r. apply ginv_unsub, G.
  - apply ginv_restore; [exact G|exact Hok].
  - apply ginv_evict, G.
Qed.

Theorem ginv_run st ls : ginv st -> valid_from st ls = true -> ginv (run_from st ls).
Proof.
  revert st. induction ls as [|l ls IH]; intros st G Hs; [exact G|].
  cbn [valid_from] in Hs. apply andb_true_iff in Hs as [H1 H2]. cbn [run_from fold_left].
  apply IH; [|exact H2]. apply ginv_step; assumption.
Qed.
