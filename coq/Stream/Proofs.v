(* C11 — the property theorems, derived from the invariant [ginv] of any state, and the witnesses. *)
From Verif Require Import Base.Lists.
From Verif Require Import Base.Prelude Stream.Model Stream.Amap Stream.Lookup Stream.Inv Stream.Preserve.
Local Open Scope N_scope.

Lemma ginv_of_env c ls : env_ok c ls -> ginv (run c ls).
Proof. intros H. unfold run. apply ginv_run; [apply ginv_init|exact H]. Qed.

Lemma run_snoc c ls l : run c (ls ++ [l]) = fst (step (run c ls) l).
Proof. unfold run, run_from. rewrite fold_left_app. reflexivity. Qed.

Lemma valid_from_app st a b : valid_from st (a ++ b) = true -> valid_from st a = true /\ valid_from (run_from st a) b = true.
Proof.
  revert st. induction a as [|l a IH]; intros st; cbn [app valid_from run_from fold_left]; [auto|].
  intros H. apply andb_true_iff in H as [H1 H2]. destruct (IH _ H2) as [H3 H4].
  split; [apply andb_true_iff; auto|exact H4].
Qed.

Lemma stream_inv st pub r k x :
  ginv_at st pub r -> client_of st k = Some x -> is_open x = true -> streaming x = true ->
  exists sb tb A D R E,
    c_sub x = Some sb /\ s_status sb = Open /\ find_buf (c_ts x) (st_bufs st) = Some tb /\
    tb_id tb = s_buf sb /\ streamok (hist_of st) (Some tb) x sb A D R E.
Proof.
  intros G Hx Hop Hstr. pose proof (gi_clients _ _ _ G k x Hx) as Hc.
  destruct (is_open_sub x Hop) as (sb & Es & Est).
  destruct (ci_live _ _ _ _ Hc sb Es Est) as (tb & Etb & _ & Hid). rewrite Etb in Hc.
  destruct (ci_sub _ _ _ _ Hc sb Es Est) as [A D R E Hst|acc rest A B2 D s _ Hpre _]; [eauto 12|].
  exfalso. unfold streaming in Hstr. rewrite Es in Hstr.
  destruct Hpre as [[Hh _]|(_ & _ & Hpre)]; [rewrite Hh in Hstr|rewrite Hpre in Hstr; destruct (c_h x)]; discriminate.
Qed.

Lemma pending_tail st x sb :
  c_sub x = Some sb ->
  pending st x = s_pre sb ++ filter (fun it => negb (skipped (s_snap sb) it))
                                   (tail (hist_of st) (c_ts x) (find_buf (c_ts x) (st_bufs st)) (s_off sb)).
Proof. intros Es. unfold pending. rewrite Es. reflexivity. Qed.

(* what Next will still deliver to a streaming client: E ++ D of the invariant *)
Lemma pending_stream st x sb tb A D R E :
  c_sub x = Some sb -> find_buf (c_ts x) (st_bufs st) = Some tb ->
  streamok (hist_of st) (Some tb) x sb A D R E -> pending st x = E ++ D.
Proof.
  intros Es Eb Hst. destruct (stream_ahead _ _ _ _ _ _ _ _ Hst) as [_ Hns].
  destruct Hst as [Hp _ _ _ _ Ht HR _]. rewrite (pending_tail _ _ _ Es), Hp, Eb, Ht. cbn [app].
  rewrite filter_app, filter_none, filter_all; [reflexivity| |].
  - eapply Forall_impl; [|exact Hns]. cbn. intros it ->. reflexivity.
  - eapply Forall_impl; [|exact HR]. cbn. intros it ->. reflexivity.
Qed.

Theorem view_exact st k x :
  ginv st -> client_of st k = Some x -> c_idx x <> 0 -> c_epoch x = st_epoch st ->
  forall key, aget key (c_view x) = content_at st (c_ts x) (c_idx x) key.
Proof.
  intros (pub & r & G) Hx Hne Hep.
  destruct (ci_knows _ _ _ _ (gi_clients _ _ _ G k x Hx)) as [Hk|[[_ (A & D & Hc)]|[Hk _]]];
    [contradiction| |contradiction].
  destruct (core_log _ _ _ _ _ _ Hc) as [HA _]. cbn [hist_of h_log h_base] in *.
  intros key. rewrite (co_view _ _ _ _ _ _ Hc key). unfold content_at. destruct (matches (c_ts x) key) eqn:Em; [|reflexivity].
  rewrite (aget_all_evs_proj (c_ts x)) by assumption. rewrite HA. reflexivity.
Qed.

(* what the direct query returns now is the content at the last raft index *)
Theorem query_is_log st T key : ginv st -> content_now st T key = content_at st T (st_hi st) key.
Proof.
  intros (pub & r & G). unfold content_now, content_at. destruct (matches T key); [|reflexivity].
  rewrite (gi_store _ _ _ G key). unfold log_upto. rewrite filter_all; [reflexivity|].
  eapply Forall_impl; [|apply (gi_bnd _ _ _ G)]. cbn. intros b H. apply N.leb_le. lia.
Qed.

Theorem eventual st k x :
  ginv st -> client_of st k = Some x -> is_open x = true -> streaming x = true -> pending st x = [] ->
  forall key, aget key (c_view x) = content_now st (c_ts x) key.
Proof.
  intros (pub & r & G) Hx Hop Hstr Hpen.
  destruct (stream_inv st pub r k x G Hx Hop Hstr) as (sb & tb & A & D & R & E & Es & _ & Eb & _ & Hst).
  rewrite (pending_stream _ _ _ _ _ _ _ _ Es Eb Hst) in Hpen. apply app_eq_nil in Hpen as [_ ->].
  destruct (sk_core _ _ _ _ _ _ _ _ Hst) as [Hsp Hv _ _ _]. cbn [hist_of h_log h_base] in *.
  rewrite app_nil_r in Hsp.
  intros key. rewrite (Hv key). unfold content_now. destruct (matches (c_ts x) key) eqn:Em; [|reflexivity].
  rewrite (gi_store _ _ _ G key), (aget_all_evs_proj (c_ts x)) by assumption. rewrite Hsp. reflexivity.
Qed.

(* [dup]: nothing, or the single batch at the client's own index — the one at the snapshot's index,
   which the view already contains and which Next delivers once more *)
Definition dup_batch (st : state) (x : client) (dup : list item) : Prop :=
  dup = [] \/ exists e, dup = [e] /\ item_idx e = c_idx x /\ In e (proj (c_ts x) (st_log st)).

Theorem no_skip st k x :
  ginv st -> client_of st k = Some x -> is_open x = true -> streaming x = true ->
  exists dup, dup_batch st x dup /\ pending st x = dup ++ proj (c_ts x) (log_after (c_idx x) (st_log st)).
Proof.
  intros (pub & r & G) Hx Hop Hstr.
  destruct (stream_inv st pub r k x G Hx Hop Hstr) as (sb & tb & A & D & R & E & Es & _ & Eb & _ & Hst).
  rewrite (pending_stream _ _ _ _ _ _ _ _ Es Eb Hst).
  destruct Hst as [_ _ _ _ Hc _ _ HE]. destruct (core_log _ _ _ _ _ _ Hc) as [_ HD].
  pose proof (co_split _ _ _ _ _ _ Hc) as Hsp. cbn [hist_of h_log] in Hsp, HD. exists E. split.
  { destruct HE as [->|(A' & e & -> & EA & Hei & _)]; [left; reflexivity|]. right. exists e.
    split; [reflexivity|]. split; [exact Hei|]. rewrite Hsp, EA, !in_app_iff. left; right; left; reflexivity. }
  rewrite HD. reflexivity.
Qed.

(* an open, streaming client has applied a snapshot of the CURRENT store incarnation *)
Theorem open_stream_epoch st k x :
  ginv st -> client_of st k = Some x -> is_open x = true -> streaming x = true ->
  c_epoch x = st_epoch st /\ c_idx x <> 0.
Proof.
  intros (pub & r & G) Hx Hop Hstr.
  destruct (stream_inv st pub r k x G Hx Hop Hstr) as (sb & tb & A & D & R & E & _ & _ & _ & _ & Hst).
  destruct Hst as [_ _ He _ [_ _ _ _ Hss] _ _ _]. split; [exact He|lia].
Qed.

Theorem next_monotone st k x st' it x' :
  ginv st -> client_of st k = Some x ->
  step st (LNext k) = (st', ODeliver it) -> it <> INstf -> client_of st' k = Some x' ->
  c_idx x <= c_idx x'.
Proof.
  intros (pub & r & G) Hx Hstep Hnot Hx'. cbn [step] in Hstep. unfold client_of in *.
  destruct (c_sub x) as [sb|] eqn:Es; [|rewrite do_next_nosub in Hstep by congruence; discriminate].
  destruct (status_dec (s_status sb)) as [Est|Est];
    [|rewrite (do_next_closed _ _ _ _ Hx Es Est) in Hstep; discriminate].
  rewrite (do_next_open _ _ _ _ Hx Es Est) in Hstep.
  destruct (next_item st x sb) as [[it1 sb']|] eqn:En; [|discriminate]. injection Hstep as <- <-.
  cbn [with_clients st_clients] in Hx'. rewrite find_put_client_same in Hx'. injection Hx' as <-.
  apply (next_deliver st pub r k x sb it1 sb' G Hx Es Est En), Hnot.
Qed.

Theorem monotone c ls k x st' it x' :
  env_ok c ls ->
  client_of (run c ls) k = Some x ->
  step (run c ls) (LNext k) = (st', ODeliver it) -> it <> INstf ->
  client_of st' k = Some x' ->
  c_idx x <= c_idx x'.
Proof. intros He. apply next_monotone, ginv_of_env, He. Qed.

Theorem next_is_pending_head st k x :
  ginv st -> client_of st k = Some x -> is_open x = true -> streaming x = true -> live_queue st = [] ->
  match pending st x with
  | [] => step st (LNext k) = (st, OBlock)
  | it :: rest =>
      snd (step st (LNext k)) = ODeliver it /\
      exists x', client_of (fst (step st (LNext k))) k = Some x' /\ is_open x' = true /\ streaming x' = true /\
                 pending (fst (step st (LNext k))) x' = rest /\ live_queue (fst (step st (LNext k))) = []
  end.
Proof.
  intros (pub & r & G) Hx Hop Hstr Hq.
  destruct (stream_inv st pub r k x G Hx Hop Hstr) as (sb & tb & A & D & R & E & Es & Est & Eb & Hid & Hst).
  destruct (stream_ahead _ _ _ _ _ _ _ _ Hst) as [_ Hns].
  rewrite (pending_stream _ _ _ _ _ _ _ _ Es Eb Hst).
  cbn [step]. unfold client_of in *. rewrite (do_next_open st k x sb Hx Es Est).
  destruct Hst as [Hp Hh _ _ _ Ht HR _]. unfold tail in Ht. cbn [ob_items hist_of h_lq] in Ht.
  rewrite Hq in Ht. cbn [proj flat_map] in Ht.
  unfold next_item, read_items. rewrite Hp, Eb, Hid, N.eqb_refl. cbn [drop_skipped].
  destruct (first_new _ _ _) as [[it off']|] eqn:Efn.
  - destruct (first_new_some _ _ _ _ _ _ _ _ Ht HR Hns Efn) as (l' & HS & HP & ->).
    rewrite HP, app_nil_r in *. cbn [fst snd with_clients st_clients]. split; [reflexivity|].
    rewrite find_put_client_same. eexists. split; [reflexivity|].
    assert (Hiev : is_iev it).
    { destruct (gi_bufs _ _ _ G _ _ Eb) as [X HX]. apply (proj_iev (c_ts x) pub). rewrite HX.
      apply in_or_app. right. apply (In_skipn _ (s_off sb)). rewrite HS, in_app_iff. right; left; reflexivity. }
    destruct it as [i evs| |]; try contradiction. rewrite handle_stream_ev by exact Hh.
    split; [reflexivity|]. split; [reflexivity|]. split; [|exact Hq].
    erewrite pending_tail by reflexivity. unfold tail.
    cbn [c_ts s_pre s_off s_snap snap_after with_clients st_bufs hist_of h_lq app].
    change (live_queue _) with (live_queue st). rewrite Eb, Hq. cbn [ob_items proj flat_map].
    rewrite (skipn_after _ _ _ _ _ HS), app_nil_r. apply filter_all. apply Forall_cons_iff in Hns as [_ Hns].
    eapply Forall_impl; [|exact Hns]. cbn. intros it ->. reflexivity.
  - pose proof (first_new_spec (s_snap sb) (skipn (s_off sb) (tb_items tb)) (s_off sb)) as Hfn.
    rewrite Efn, <- (app_nil_r (skipn _ _)), Ht in Hfn. apply Forall_app in Hfn as [_ Hfn].
    destruct (E ++ D) as [|a P]; [reflexivity|]. inversion Hfn; inversion Hns; congruence.
Qed.

Lemma next_other st k c : c <> k -> client_of (fst (do_next st k)) c = client_of st c.
Proof.
  intros Hne. unfold client_of.
  destruct (find_client k (st_clients st)) as [y|] eqn:Ek; [|rewrite do_next_nosub by congruence; reflexivity].
  destruct (c_sub y) as [sby|] eqn:Esy; [|rewrite do_next_nosub by congruence; reflexivity].
  destruct (status_dec (s_status sby)) as [E|E].
  - rewrite (do_next_open _ _ _ _ Ek Esy E). destruct (next_item st y sby) as [[? ?]|]; [|reflexivity].
    apply find_put_client_other, Hne.
  - rewrite (do_next_closed _ _ _ _ Ek Esy E). destruct (c_rpc y); [apply find_put_client_other, Hne|reflexivity].
Qed.

Lemma sub_core_other st k x0 q c :
  c <> k -> client_of (fst (do_subscribe_core st k x0 q)) c = client_of st c.
Proof.
  intros Hne. unfold client_of. rewrite sub_core_spec. cbn zeta.
  destruct (sub_path st (c_ts x0) (c_idx x0)); apply find_put_client_other, Hne.
Qed.

Lemma unsub_other st k c : c <> k -> client_of (fst (do_unsub st k)) c = client_of st c.
Proof.
  intros Hne. unfold do_unsub, client_of. destruct (find_client k (st_clients st)) as [x|]; [|reflexivity].
  destruct (c_sub x); [|reflexivity]. cbn [fst]. destruct (release_hist (c_ts x) (s_buf s)
    (with_clients st (put_client k (drop_sub x) (st_clients st)))) as [_ ->].
  apply find_put_client_other, Hne.
Qed.

(* a closed subscription stays closed until its client unsubscribes or subscribes again *)
Theorem closed_stays st c l :
  closed_for st c -> touches_client c l = false -> closed_for (fst (step st l)) c.
Proof.
  intros (x & sb & Hx & Hs & Hst) Ht. assert (Hn : is_open x = false) by (eapply closed_not_open; eauto).
  assert (Hsame : forall st', client_of st' c = client_of st c -> closed_for st' c).
  { intros st' E. exists x, sb. rewrite E. auto. }
  destruct l as [b| |k T tok rpc q|k|k|rows hi|T]; cbn [step fst touches_client] in *;
    try (apply Hsame; reflexivity).
  - unfold do_publish. destruct (st_queue st) as [|[g b] q]; [apply Hsame; reflexivity|].
    destruct (N.eqb g (st_epoch st)); cbn [fst]; [|apply Hsame; reflexivity]. apply Hsame. unfold client_of in *.
    cbn [st_clients]. rewrite find_client_map, Hx. cbn [option_map].
    rewrite close_sub_acl_eq, (close_when_not_open _ _ _ Hn). reflexivity.
  - apply N.eqb_neq in Ht. apply Hsame. unfold do_subscribe.
    destruct (find_client k (st_clients st)); rewrite sub_core_other by exact Ht; [apply unsub_other, Ht|reflexivity].
  - destruct (N.eq_dec k c) as [->|Hne]; [|apply Hsame, next_other; congruence].
    unfold client_of in Hx. rewrite (do_next_closed st c x sb Hx Hs Hst).
    destruct (c_rpc x); cbn [fst]; [|apply Hsame; reflexivity]. exists (reset_view x), sb. unfold client_of.
    cbn [with_clients st_clients]. rewrite find_put_client_same. auto.
  - apply N.eqb_neq in Ht. apply Hsame, unsub_other, Ht.
  - apply Hsame. unfold client_of in *. cbn [do_restore st_clients]. rewrite find_client_map, Hx. cbn [option_map].
    rewrite force_close_eq, (close_when_not_open _ _ _ Hn). reflexivity.
Qed.

Theorem closed_next st c :
  closed_for st c -> exists s, snd (step st (LNext c)) = OClosed s /\ s <> Open.
Proof.
  intros (x & sb & Hx & Hs & Hst). cbn [step]. rewrite (do_next_closed st c x sb Hx Hs Hst). cbn [snd]. eauto.
Qed.

Theorem restore_closes st rows hi c x sb :
  client_of st c = Some x -> c_sub x = Some sb -> closed_for (fst (step st (LRestore rows hi))) c.
Proof.
  intros Hx Hs. unfold closed_for, client_of in *. cbn [step fst do_restore st_clients].
  rewrite find_client_map, Hx. cbn [option_map]. rewrite force_close_eq.
  destruct (close_when_closed (fun _ => true) ForceClosed x sb) as (sb' & Es' & Hst' & _);
    [discriminate|reflexivity|exact Hs|eauto].
Qed.

Theorem acl_publish_closes st b q c x sb :
  st_queue st = (st_epoch st, b) :: q -> client_of st c = Some x -> c_sub x = Some sb ->
  In (c_tok x) (b_close b) -> closed_for (fst (step st LPublish)) c.
Proof.
  intros Hq Hx Hs Hin. unfold closed_for, client_of in *. cbn [step]. unfold do_publish. rewrite Hq, N.eqb_refl.
  cbn [fst st_clients]. rewrite find_client_map, Hx. cbn [option_map]. rewrite close_sub_acl_eq.
  destruct (close_when_closed (fun x => existsb (N.eqb (c_tok x)) (b_close b)) AclClosed x sb) as (sb' & Es' & Hst' & _);
    [discriminate| |exact Hs|eauto].
  apply existsb_exists. exists (c_tok x). split; [exact Hin|apply N.eqb_refl].
Qed.

Fixpoint none_touch (c : N) (ls : list label) : bool :=
  match ls with [] => true | l :: r => negb (touches_client c l) && none_touch c r end.

Theorem closed_until_resubscribe st c ls :
  closed_for st c -> none_touch c ls = true ->
  exists s, snd (step (run_from st ls) (LNext c)) = OClosed s /\ s <> Open.
Proof.
  revert st. induction ls as [|l r IH]; intros st Hc Hn; cbn [run_from fold_left].
  - apply closed_next, Hc.
  - cbn [none_touch] in Hn. apply andb_true_iff in Hn as [H1 H2]. apply negb_true_iff in H1.
    apply IH; [|exact H2]. apply closed_stays; assumption.
Qed.

(* a client whose view stems from a replaced store incarnation never resumes: when it subscribes again
   it is told to reset (NewSnapshotToFollow first) *)
Theorem stale_resubscribe st k T tok rpc q x x' :
  ginv st -> client_of st k = Some x -> c_idx x <> 0 -> c_epoch x <> st_epoch st ->
  client_of (fst (step st (LSubscribe k T tok rpc q))) k = Some x' ->
  match c_sub x' with
  | Some sb => exists rest, s_pre sb = INstf :: rest
  | None => True
  end.
Proof.
  intros (pub & r & G) Hx Hne Hep Hx'. cbn [step] in Hx'. unfold do_subscribe, client_of in *. rewrite Hx in Hx'.
  destruct (unsub_spec st k) as [Hh Hx1]. rewrite Hx in Hx1. cbn [option_map] in Hx1.
  pose proof (ginv_unsub st pub r k G) as G1. set (st1 := fst (do_unsub st k)) in *.
  (* the stale index is below every index of the log *)
  assert (Hle : c_idx x <= r).
  { destruct (ci_knows _ _ _ _ (gi_clients _ _ _ G1 k _ Hx1)) as [Hk|[[Hk _]|[_ Hk]]];
      cbn [set_sub c_idx c_epoch] in Hk; [contradiction|rewrite Hh in Hk; contradiction|exact Hk]. }
  rewrite sub_core_spec in Hx'. cbn zeta in Hx'. cbn [drop_sub c_ts c_idx] in Hx'.
  pose proof (sub_path_spec st1 (c_ts x) (c_idx x)) as Hp.
  destruct (sub_path st1 (c_ts x) (c_idx x)); cbn [with_clients st_clients] in Hx';
    rewrite find_put_client_same in Hx'; injection Hx' as <-; cbn [sub_client c_sub s_pre c_idx drop_sub].
  - exact I.
  - (* resume: the buffer's head would be a batch of the log at the stale index *)
    exfalso. destruct Hp as [_ Er]. apply head_index_spec in Er as (l & evs & Hit).
    unfold buf_items in Hit. destruct (find_buf (c_ts x) (st_bufs st1)) as [tb|] eqn:Eb;
      [|destruct l; discriminate].
    destruct (gi_bufs _ _ _ G1 _ _ Eb) as [X HX].
    assert (In (IEv (c_idx x) evs) (proj (c_ts x) (st_log st1))) as Hin.
    { rewrite (gi_log _ _ _ G1), proj_app, HX, Hit, !in_app_iff. left; right; right; left; reflexivity. }
    apply (ginv_log_ok _ _ _ _ G1) in Hin. cbn [item_idx] in Hin. lia.
  - destruct (N.eqb_spec (c_idx x) 0); [contradiction|eauto].
  - destruct (N.eqb_spec (c_idx x) 0); [contradiction|eauto].
Qed.

Definition T_web : ts := (0, Some 0).
Definition kA : key := (0, 0, 3).
Definition kB : key := (0, 0, 4).

(* the schedule of the commit/publish gap (/repo f559b0f, 716731d): two commits are queued, a subscription starts, then the
   queue is published.  The snapshot@11 is delivered; the queued batch 10 is skipped, the batch at the
   snapshot's own index 11 is delivered once more (same rows, same index). *)
Definition gap_sched : list label :=
  [ LCommit (Batch 10 [Ev kA (Some 1)] []);
    LCommit (Batch 11 [Ev kA (Some 2); Ev kB (Some 3)] []);
    LSubscribe 0 T_web 0 true 11;
    LPublish; LPublish;
    LNext 0; LNext 0; LNext 0; LNext 0 ].

(* a subscription on an empty subject gets the floor index 1 as its snapshot index; a write at index 1
   (upstream tests do this; Raft never does) must still be delivered.  Outside [env_ok]. *)
Definition floor_sched : list label :=
  [ LSubscribe 0 T_web 0 true 0; LNext 0;
    LCommit (Batch 1 [Ev kA (Some 1)] []); LPublish; LNext 0 ].

(* a second subscriber keeps its subscription across a restore: the topic buffer is dropped, the
   re-subscribing client gets a new buffer *)
Definition restore_buffer_sched : list label :=
  [ LCommit (Batch 10 [Ev kA (Some 1)] []); LPublish;
    LSubscribe 0 T_web 0 true 10; LSubscribe 1 T_web 1 true 10;
    LNext 0; LNext 0;
    LCommit (Batch 11 [Ev kB (Some 2)] []); LPublish; LNext 0;
    LRestore [(kA, 1)] 11;
    LNext 0;
    LSubscribe 0 T_web 0 true 10;
    LNext 0; LNext 0; LNext 0 ].

(* a batch of the replaced store is still queued when the restore happens: it is dropped *)
Definition restore_queue_sched : list label :=
  [ LCommit (Batch 10 [Ev kA (Some 1)] []); LPublish;
    LCommit (Batch 11 [Ev kB (Some 2)] []);
    LRestore [(kA, 1)] 11;
    LSubscribe 0 T_web 0 true 10;
    LPublish;
    LNext 0; LNext 0; LNext 0 ].

(* the query reports index 10 for a result that already contains commit 11 (known finding
   query-index-behind-content): the snapshot is {A, B} at "index 10" *)
Definition index_behind_sched : list label :=
  [ LCommit (Batch 10 [Ev kA (Some 1)] []); LPublish;
    LCommit (Batch 11 [Ev kB (Some 2)] []); LPublish;
    LSubscribe 0 T_web 0 true 10;
    LNext 0; LNext 0; LNext 0 ].

(* a schedule that delivers a snapshot and two events *)
Definition clean_sched : list label :=
  [ LCommit (Batch 10 [Ev kA (Some 1)] []); LPublish;
    LSubscribe 0 T_web 0 true 10; LNext 0; LNext 0;
    LCommit (Batch 11 [Ev kB (Some 2)] []); LPublish; LNext 0;
    LCommit (Batch 12 [Ev kA None] [7]); LPublish; LNext 0 ].

Definition settled (c : bool) (ls : list label) (view : amap) (idx : N) : Prop :=
  exists x,
    env_ok c ls /\ client_of (run c ls) 0 = Some x /\ is_open x = true /\ streaming x = true /\
    c_view x = view /\ c_idx x = idx /\ pending (run c ls) x = [] /\ st_queue (run c ls) = [] /\
    snd (step (run c ls) (LNext 0)) = OBlock.

Lemma gap_witness : settled true gap_sched [(kA, 2); (kB, 3)] 11.
Proof. eexists. do 8 (split; [vm_compute; reflexivity|]). vm_compute; reflexivity. Qed.

Lemma index_behind_witness :
  exists x,
    all_from raft_ok (init true) index_behind_sched = true /\
    client_of (run true index_behind_sched) 0 = Some x /\ c_idx x = 10 /\
    c_epoch x = st_epoch (run true index_behind_sched) /\
    aget kB (c_view x) = Some 2 /\
    content_at (run true index_behind_sched) (c_ts x) (c_idx x) kB = None.
Proof. eexists. do 5 (split; [vm_compute; reflexivity|]). vm_compute; reflexivity. Qed.

(* a schedule meeting the hypotheses of the ACL forced-resubscribe theorem *)

Definition acl_sched : list label :=
  [ LCommit (Batch 10 [Ev kA (Some 1)] []); LPublish;
    LSubscribe 0 T_web 5 true 10; LNext 0; LNext 0;
    LCommit (Batch 11 [] [5]) ].

