(* C11 — lemmas about keyed rows ([amap]) and the application of event lists. *)
From Verif Require Import Base.Prelude Stream.Model.

Lemma key_eqb_spec a b : reflect (a = b) (key_eqb a b).
Proof.
  destruct a as [[a1 a2] a3], b as [[b1 b2] b3]. unfold key_eqb, k_topic, k_subj, k_id; cbn [fst snd].
  destruct (N.eqb_spec a1 b1) as [->|], (N.eqb_spec a2 b2) as [->|], (N.eqb_spec a3 b3) as [->|];
    constructor; congruence.
Qed.

Lemma key_eqb_refl a : key_eqb a a = true.
Proof. destruct (key_eqb_spec a a); congruence. Qed.

Lemma ts_eqb_spec a b : reflect (a = b) (ts_eqb a b).
Proof.
  destruct a as [a1 a2], b as [b1 b2]. unfold ts_eqb; cbn [fst snd].
  destruct (N.eqb_spec a1 b1) as [->|]; [|constructor; congruence].
  destruct a2 as [a2|], b2 as [b2|]; cbn [andb option_eqb]; try (constructor; congruence).
  destruct (N.eqb_spec a2 b2) as [->|]; constructor; congruence.
Qed.

Lemma ts_eqb_refl a : ts_eqb a a = true.
Proof. destruct (ts_eqb_spec a a); congruence. Qed.

Lemma aget_adel k k' m : aget k (adel k' m) = if key_eqb k k' then None else aget k m.
Proof.
  induction m as [|[k0 v0] r IH]; cbn [adel filter aget fst].
  - destruct (key_eqb k k'); reflexivity.
  - fold (adel k' r). destruct (key_eqb_spec k' k0) as [<-|E0]; cbn [negb aget]; rewrite IH.
    + destruct (key_eqb k k'); reflexivity.
    + destruct (key_eqb_spec k k0) as [->|]; [|reflexivity].
      destruct (key_eqb_spec k0 k'); [congruence|reflexivity].
Qed.

Lemma aget_ains k k' v m :
  aget k' m = None -> aget k (ains k' v m) = if key_eqb k k' then Some v else aget k m.
Proof.
  induction m as [|[k0 v0] r IH]; cbn [ains aget]; intros Hn.
  - reflexivity.
  - destruct (key_eqb_spec k' k0) as [|E0]; [discriminate|].
    destruct (key_ltb k' k0); cbn [aget]; [reflexivity|].
    rewrite (IH Hn). destruct (key_eqb_spec k k0) as [->|]; [|reflexivity].
    destruct (key_eqb_spec k0 k'); [congruence|reflexivity].
Qed.

Lemma aget_aset k k' v m : aget k (aset k' v m) = if key_eqb k k' then Some v else aget k m.
Proof.
  unfold aset. rewrite aget_ains.
  - destruct (key_eqb k k') eqn:E; [reflexivity|]. rewrite aget_adel, E. reflexivity.
  - rewrite aget_adel, key_eqb_refl. reflexivity.
Qed.

Definition keys (m : amap) : list key := map fst m.

Lemma nodup_keys_spec m : nodup_keys m = true <-> NoDup (keys m).
Proof.
  induction m as [|[k v] r IH]; cbn [nodup_keys keys map fst].
  - split; [constructor|reflexivity].
  - rewrite andb_true_iff, negb_true_iff, IH. split.
    + intros [Hx Hr]. constructor; [|exact Hr]. intros Hin.
      apply in_map_iff in Hin as [[k1 v1] [Hk Hin]]. cbn in Hk; subst k1.
      assert (existsb (fun kv => key_eqb k (fst kv)) r = true) as Ht.
      { apply existsb_exists. exists (k, v1). split; [exact Hin|apply key_eqb_refl]. }
      congruence.
    + intros Hnd. inversion Hnd as [|? ? Hni Hr]; subst. split; [|exact Hr].
      destruct (existsb _ r) eqn:E; [|reflexivity]. exfalso.
      apply existsb_exists in E as [[k1 v1] [Hin Hk]]. cbn in Hk. destruct (key_eqb_spec k k1) as [<-|]; [|discriminate].
      apply Hni. apply in_map_iff. exists (k, v1); auto.
Qed.

Lemma aget_none k m : aget k m = None <-> ~ In k (keys m).
Proof.
  induction m as [|[k0 v0] r IH]; cbn [aget keys map fst In].
  - intuition.
  - destruct (key_eqb_spec k k0) as [<-|E].
    + split; [discriminate|]. intros H; exfalso; apply H; left; reflexivity.
    + rewrite IH. fold (keys r). intuition congruence.
Qed.

Lemma nodup_filter (p : key * N -> bool) m : NoDup (keys m) -> NoDup (keys (filter p m)).
Proof.
  induction m as [|kv r IH]; cbn [filter keys map]; intros Hnd; [constructor|].
  inversion Hnd as [|? ? Hni Hr]; subst. destruct (p kv); cbn [map].
  - constructor; [|apply IH; exact Hr]. intros Hin. apply Hni.
    apply in_map_iff in Hin as [x [Hx Hin]]. apply filter_In in Hin as [Hin _].
    apply in_map_iff. exists x; auto.
  - apply IH; exact Hr.
Qed.

Lemma keys_ains k v m x : In x (keys (ains k v m)) <-> x = k \/ In x (keys m).
Proof.
  induction m as [|[k0 v0] r IH]; cbn [ains keys map fst].
  - cbn. intuition.
  - destruct (key_ltb k k0); cbn [map fst In].
    + intuition.
    + fold (keys (ains k v r)). rewrite IH. fold (keys r). intuition.
Qed.

Lemma nodup_ains k v m : ~ In k (keys m) -> NoDup (keys m) -> NoDup (keys (ains k v m)).
Proof.
  induction m as [|[k0 v0] r IH]; cbn [ains keys map fst]; intros Hni Hnd.
  - constructor; [intros []|constructor].
  - destruct (key_ltb k k0); cbn [map fst].
    + constructor; assumption.
    + inversion Hnd as [|? ? Hni0 Hr]; subst. constructor.
      * fold (keys (ains k v r)). rewrite keys_ains. intros [->|Hin]; [apply Hni; left; reflexivity|contradiction].
      * apply IH; [intros Hin; apply Hni; right; exact Hin|exact Hr].
Qed.

Lemma nodup_aset k v m : NoDup (keys m) -> NoDup (keys (aset k v m)).
Proof.
  intros Hnd. unfold aset. apply nodup_ains.
  - apply aget_none. rewrite aget_adel, key_eqb_refl. reflexivity.
  - apply nodup_filter, Hnd.
Qed.

Lemma nodup_apply1 m e : NoDup (keys m) -> NoDup (keys (apply1 m e)).
Proof. unfold apply1. destruct (e_val e); [apply nodup_aset|apply nodup_filter]. Qed.

Lemma nodup_apply evs m : NoDup (keys m) -> NoDup (keys (apply evs m)).
Proof.
  unfold apply. revert m. induction evs as [|e r IH]; cbn [fold_left]; intros m Hnd; [exact Hnd|].
  apply IH, nodup_apply1, Hnd.
Qed.

Lemma aget_in k v m : NoDup (keys m) -> (aget k m = Some v <-> In (k, v) m).
Proof.
  induction m as [|[k0 v0] r IH]; cbn [aget keys map fst]; intros Hnd.
  - split; [discriminate|intros []].
  - inversion Hnd as [|? ? Hni Hr]; subst. destruct (key_eqb_spec k k0) as [<-|E].
    + split.
      * intros H; injection H as ->; left; reflexivity.
      * intros [H|H]; [injection H as ->; reflexivity|].
        exfalso. apply Hni. apply in_map_iff. exists (k, v); auto.
    + rewrite (IH Hr). split; [intros H; right; exact H|].
      intros [H|H]; [|exact H]. congruence.
Qed.

Fixpoint lastev (k : key) (evs : list ev) : option (option N) :=
  match evs with
  | [] => None
  | e :: r =>
      match lastev k r with
      | Some o => Some o
      | None => if key_eqb k (e_key e) then Some (e_val e) else None
      end
  end.

Lemma lastev_app k a b :
  lastev k (a ++ b) = match lastev k b with Some o => Some o | None => lastev k a end.
Proof.
  induction a as [|e r IH]; cbn [app lastev].
  - destruct (lastev k b); reflexivity.
  - rewrite IH. destruct (lastev k b); reflexivity.
Qed.

Lemma aget_apply1 k m e :
  aget k (apply1 m e) = if key_eqb k (e_key e) then e_val e else aget k m.
Proof.
  unfold apply1. destruct (e_val e) as [v|].
  - apply aget_aset.
  - apply aget_adel.
Qed.

Lemma aget_apply k evs m :
  aget k (apply evs m) = match lastev k evs with Some o => o | None => aget k m end.
Proof.
  unfold apply. revert m. induction evs as [|e r IH]; cbn [fold_left lastev]; intros m; [reflexivity|].
  rewrite IH. destruct (lastev k r); [reflexivity|]. rewrite aget_apply1.
  destruct (key_eqb k (e_key e)); reflexivity.
Qed.

Lemma apply_app a b m : apply (a ++ b) m = apply b (apply a m).
Proof. unfold apply. apply fold_left_app. Qed.

Lemma lastev_evs_for k T evs :
  lastev k (evs_for T evs) = if matches T k then lastev k evs else None.
Proof.
  unfold evs_for. induction evs as [|e r IH]; cbn [filter lastev].
  - destruct (matches T k); reflexivity.
  - destruct (matches T (e_key e)) eqn:Ep; cbn [lastev]; rewrite IH.
    + destruct (matches T k) eqn:Epk; [reflexivity|].
      destruct (key_eqb_spec k (e_key e)); [congruence|reflexivity].
    + destruct (matches T k) eqn:Epk; [|reflexivity].
      destruct (lastev k r); [reflexivity|].
      destruct (key_eqb_spec k (e_key e)); [congruence|reflexivity].
Qed.

Definition meq (a b : amap) : Prop := forall k, aget k a = aget k b.

Lemma meq_refl a : meq a a.
Proof. intros k; reflexivity. Qed.

Lemma meq_apply evs a b : meq a b -> meq (apply evs a) (apply evs b).
Proof. intros H k. rewrite !aget_apply. destruct (lastev k evs); [reflexivity|apply H]. Qed.

(* replaying a suffix of what a map was built from changes nothing *)
Lemma apply_replay x l m : meq (apply l (apply (x ++ l) m)) (apply (x ++ l) m).
Proof.
  intros k. rewrite !aget_apply, lastev_app. destruct (lastev k l); reflexivity.
Qed.

Definition row_ev (kv : key * N) : ev := Ev (fst kv) (Some (snd kv)).

Lemma lastev_rows k m :
  NoDup (keys m) ->
  lastev k (map row_ev m) = match aget k m with Some v => Some (Some v) | None => None end.
Proof.
  induction m as [|[k0 v0] r IH]; cbn [map lastev aget keys fst]; intros Hnd; [reflexivity|].
  inversion Hnd as [|? ? Hni Hr]; subst. rewrite (IH Hr). cbn [row_ev e_key e_val fst snd].
  destruct (key_eqb_spec k k0) as [<-|E].
  - apply aget_none in Hni. rewrite Hni. reflexivity.
  - destruct (aget k r); reflexivity.
Qed.

Lemma aget_rows_of k T m : aget k (rows_of T m) = if matches T k then aget k m else None.
Proof.
  unfold rows_of. induction m as [|[k0 v0] r IH]; cbn [filter aget fst].
  - destruct (matches T k); reflexivity.
  - destruct (matches T k0) eqn:E0; cbn [aget]; rewrite IH;
      (destruct (key_eqb_spec k k0) as [->|]; [rewrite E0|]; reflexivity).
Qed.

(* the rows of a snapshot, as Register events applied to nothing, are the rows *)
Lemma aget_apply_rows k T m :
  NoDup (keys m) ->
  aget k (apply (map row_ev (rows_of T m)) []) = if matches T k then aget k m else None.
Proof.
  intros Hnd. rewrite aget_apply, lastev_rows.
  - rewrite aget_rows_of. destruct (matches T k); [|reflexivity]. destruct (aget k m); reflexivity.
  - unfold rows_of. apply nodup_filter, Hnd.
Qed.
