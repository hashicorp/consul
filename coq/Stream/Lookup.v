(* C11 — the notions the invariant is stated with, and lemmas about the association lists of the
   publisher state, about projected logs, about what Next skips, and about the small functions of
   publish, subscribe and the handler. *)
From Coq Require Import Sorted.
From Verif Require Import Base.Lists.
From Verif Require Import Base.Prelude Stream.Model Stream.Amap.

(* the client holds a subscription (open or closed, not yet unsubscribed) attached to the topic buffer
   object [id] of T; [count_subs] counts such clients *)
Definition has_sub_on (T : ts) (id : N) (x : client) : bool :=
  match c_sub x with Some sb => ts_eqb T (c_ts x) && N.eqb id (s_buf sb) | None => false end.

Definition b2n (b : bool) : nat := if b then 1 else 0.

Fixpoint count_subs (T : ts) (id : N) (l : list (N * client)) : nat :=
  match l with
  | [] => 0
  | (_, x) :: r => b2n (has_sub_on T id x) + count_subs T id r
  end.

Definition item_idx (it : item) : N := match it with IEv i _ => i | IEos i => i | INstf => 0%N end.

Definition ievs (l : list item) : list ev :=
  flat_map (fun it => match it with IEv _ e => e | _ => [] end) l.

Definition is_iev (it : item) : Prop := match it with IEv _ _ => True | _ => False end.

Definition incr (l : list N) : Prop := StronglySorted N.lt l.

Lemma find_put_client c c' x l :
  find_client c' (put_client c x l) = if N.eqb c' c then Some x else find_client c' l.
Proof.
  induction l as [|[c0 y] r IH]; cbn [put_client find_client]; [reflexivity|].
  destruct (N.eqb_spec c c0) as [->|Hne]; cbn [find_client]; [destruct (N.eqb c' c0); reflexivity|].
  rewrite IH. destruct (N.eqb_spec c' c0) as [->|]; [|reflexivity].
  destruct (N.eqb_spec c0 c); [congruence|reflexivity].
Qed.

Lemma find_put_client_same c x l : find_client c (put_client c x l) = Some x.
Proof. rewrite find_put_client, N.eqb_refl. reflexivity. Qed.

Lemma find_put_client_other c c' x l : c' <> c -> find_client c' (put_client c x l) = find_client c' l.
Proof. intros Hne. rewrite find_put_client. destruct (N.eqb_spec c' c); [contradiction|reflexivity]. Qed.

Lemma find_client_map c f l :
  find_client c (map (fun cx => (fst cx, f (snd cx))) l) = option_map f (find_client c l).
Proof.
  induction l as [|[c' y] r IH]; cbn [map find_client fst snd option_map]; [reflexivity|].
  destruct (N.eqb c c'); [reflexivity|exact IH].
Qed.

Lemma find_client_map_some c f l x' :
  find_client c (map (fun cx => (fst cx, f (snd cx))) l) = Some x' ->
  exists x, find_client c l = Some x /\ x' = f x.
Proof.
  rewrite find_client_map. destruct (find_client c l) as [x|]; [|discriminate].
  intros [= <-]. eauto.
Qed.

Lemma find_client_in c x l : find_client c l = Some x -> In (c, x) l.
Proof.
  induction l as [|[c' y] r IH]; cbn [find_client]; [discriminate|].
  destruct (N.eqb_spec c c') as [->|].
  - intros [= ->]. left; reflexivity.
  - intros H; right; apply IH, H.
Qed.

Lemma in_find_client c y l : NoDup (map fst l) -> In (c, y) l -> find_client c l = Some y.
Proof.
  induction l as [|[c' z] r IH]; cbn [map fst find_client In]; intros Hnd; [intros []|].
  inversion Hnd as [|? ? Hni Hr]; subst. intros [[= -> ->]|H].
  - rewrite N.eqb_refl. reflexivity.
  - destruct (N.eqb_spec c c') as [->|]; [|apply IH; assumption].
    exfalso. apply Hni. apply in_map_iff. exists (c', y). auto.
Qed.

Lemma in_put_client c x l c' : In c' (map fst (put_client c x l)) -> c' = c \/ In c' (map fst l).
Proof.
  induction l as [|[c0 z] r IH]; cbn [put_client map fst In]; [intuition|].
  destruct (N.eqb_spec c c0) as [->|]; cbn [map fst In]; intuition.
Qed.

Lemma nodup_put_client c x l : NoDup (map fst l) -> NoDup (map fst (put_client c x l)).
Proof.
  induction l as [|[c' y] r IH]; cbn [put_client map fst]; intros Hnd.
  - constructor; [intros []|constructor].
  - inversion Hnd as [|? ? Hni Hr]; subst. destruct (N.eqb_spec c c') as [->|Hne]; cbn [map fst].
    + constructor; assumption.
    + constructor; [|apply IH; exact Hr]. intros Hin. apply in_put_client in Hin as [->|Hin]; auto.
Qed.

Lemma has_sub_on_own x sb : c_sub x = Some sb -> has_sub_on (c_ts x) (s_buf sb) x = true.
Proof. intros Es. unfold has_sub_on. rewrite Es, ts_eqb_refl, N.eqb_refl. reflexivity. Qed.

Lemma count_put_client T id c x l :
  count_subs T id (put_client c x l) + match find_client c l with Some y => b2n (has_sub_on T id y) | None => 0 end
  = count_subs T id l + b2n (has_sub_on T id x).
Proof.
  induction l as [|[c' y] r IH]; cbn [put_client find_client count_subs]; [lia|].
  destruct (N.eqb c c'); cbn [count_subs]; lia.
Qed.

Lemma count_put_client_le T id c x' l :
  (has_sub_on T id x' = true -> exists x, find_client c l = Some x /\ has_sub_on T id x = true) ->
  count_subs T id (put_client c x' l) <= count_subs T id l.
Proof.
  intros Hsub. pose proof (count_put_client T id c x' l) as H.
  destruct (has_sub_on T id x'); cbn [b2n] in H; [|lia].
  destruct (Hsub eq_refl) as (x & Ec & Hx). rewrite Ec, Hx in H. cbn [b2n] in H. lia.
Qed.

Lemma count_map T id f l :
  (forall x, has_sub_on T id (f x) = has_sub_on T id x) ->
  count_subs T id (map (fun cx => (fst cx, f (snd cx))) l) = count_subs T id l.
Proof.
  intros Hf. induction l as [|[c y] r IH]; cbn [map count_subs fst snd]; [reflexivity|].
  rewrite Hf, IH. reflexivity.
Qed.

Lemma count_ge_one T id c y l :
  find_client c l = Some y -> has_sub_on T id y = true -> 1 <= count_subs T id l.
Proof.
  induction l as [|[c' z] r IH]; cbn [find_client count_subs]; [discriminate|].
  destruct (N.eqb c c').
  - intros [= ->] ->. cbn [b2n]. lia.
  - intros H1 H2. specialize (IH H1 H2). lia.
Qed.

Lemma count_zero T id l :
  NoDup (map fst l) ->
  (forall c y sb, find_client c l = Some y -> c_sub y = Some sb -> s_buf sb <> id) ->
  count_subs T id l = 0.
Proof.
  intros Hnd H. assert (forall c y, In (c, y) l -> has_sub_on T id y = false) as Hall.
  { intros c y Hin. unfold has_sub_on. destruct (c_sub y) as [sb|] eqn:Es; [|reflexivity].
    specialize (H c y sb (in_find_client _ _ _ Hnd Hin) Es).
    destruct (N.eqb_spec id (s_buf sb)); [congruence|apply andb_false_r]. }
  clear H Hnd. induction l as [|[c y] r IH]; cbn [count_subs]; [reflexivity|].
  rewrite (Hall c y) by (left; reflexivity). cbn [b2n plus]. apply IH.
  intros c' y' Hin. apply (Hall c' y'). right. exact Hin.
Qed.

Lemma find_buf_ts T l b : find_buf T l = Some b -> tb_ts b = T.
Proof.
  induction l as [|b' r IH]; cbn [find_buf]; [discriminate|].
  destruct (ts_eqb_spec T (tb_ts b')) as [->|]; [intros [= <-]; reflexivity|exact IH].
Qed.

Lemma find_put_buf T b l :
  find_buf T (put_buf b l) = if ts_eqb T (tb_ts b) then Some b else find_buf T l.
Proof.
  induction l as [|b' r IH]; cbn [put_buf find_buf]; [reflexivity|].
  destruct (ts_eqb_spec (tb_ts b) (tb_ts b')) as [<-|Hne]; cbn [find_buf];
    [destruct (ts_eqb T (tb_ts b)); reflexivity|].
  rewrite IH. destruct (ts_eqb_spec T (tb_ts b')) as [->|]; [|reflexivity].
  destruct (ts_eqb_spec (tb_ts b') (tb_ts b)); [congruence|reflexivity].
Qed.

Lemma find_del_buf T T' l : find_buf T' (del_buf T l) = if ts_eqb T' T then None else find_buf T' l.
Proof.
  induction l as [|b' r IH]; cbn [del_buf filter find_buf]; [destruct (ts_eqb T' T); reflexivity|].
  fold (del_buf T r). destruct (ts_eqb_spec T (tb_ts b')) as [->|Hne]; cbn [negb find_buf]; rewrite IH.
  - destruct (ts_eqb T' (tb_ts b')); reflexivity.
  - destruct (ts_eqb_spec T' (tb_ts b')) as [->|]; [|reflexivity].
    destruct (ts_eqb_spec (tb_ts b') T); [congruence|reflexivity].
Qed.

Lemma find_buf_map T f l :
  (forall b, tb_ts (f b) = tb_ts b) -> find_buf T (map f l) = option_map f (find_buf T l).
Proof.
  intros Hf. induction l as [|b' r IH]; cbn [map find_buf option_map]; [reflexivity|].
  rewrite Hf. destruct (ts_eqb T (tb_ts b')); [reflexivity|exact IH].
Qed.

Lemma find_buf_map_some T f l tb' :
  (forall b, tb_ts (f b) = tb_ts b) -> find_buf T (map f l) = Some tb' ->
  exists tb, find_buf T l = Some tb /\ tb' = f tb.
Proof.
  intros Hf. rewrite find_buf_map by exact Hf. destruct (find_buf T l) as [tb|]; [|discriminate].
  intros [= <-]. eauto.
Qed.

Lemma find_snap_ts T l s : find_snap T l = Some s -> sn_ts s = T.
Proof.
  induction l as [|s' r IH]; cbn [find_snap]; [discriminate|].
  destruct (ts_eqb_spec T (sn_ts s')) as [->|]; [intros [= <-]; reflexivity|exact IH].
Qed.

Lemma find_del_snap T T' l : find_snap T' (del_snap T l) = if ts_eqb T' T then None else find_snap T' l.
Proof.
  induction l as [|s' r IH]; cbn [del_snap filter find_snap]; [destruct (ts_eqb T' T); reflexivity|].
  fold (del_snap T r). destruct (ts_eqb_spec T (sn_ts s')) as [->|Hne]; cbn [negb find_snap]; rewrite IH.
  - destruct (ts_eqb T' (sn_ts s')); reflexivity.
  - destruct (ts_eqb_spec T' (sn_ts s')) as [->|]; [|reflexivity].
    destruct (ts_eqb_spec (sn_ts s') T); [congruence|reflexivity].
Qed.

Lemma find_put_snap T s l :
  find_snap T (put_snap s l) = if ts_eqb T (sn_ts s) then Some s else find_snap T l.
Proof.
  unfold put_snap. cbn [find_snap]. rewrite find_del_snap. destruct (ts_eqb T (sn_ts s)); reflexivity.
Qed.

Lemma ievs_app a b : ievs (a ++ b) = ievs a ++ ievs b.
Proof. unfold ievs. apply flat_map_app. Qed.

Lemma ievs_cons_ev i evs l : ievs (IEv i evs :: l) = evs ++ ievs l.
Proof. reflexivity. Qed.

Lemma ievs_ev i evs : ievs [IEv i evs] = evs.
Proof. apply app_nil_r. Qed.

Lemma proj_app T a b : proj T (a ++ b) = proj T a ++ proj T b.
Proof. unfold proj. apply flat_map_app. Qed.

Lemma proj_cons T b r :
  proj T (b :: r) = match evs_for T (b_evs b) with [] => [] | evs => [IEv (b_idx b) evs] end ++ proj T r.
Proof. reflexivity. Qed.

Lemma in_proj T log it :
  In it (proj T log) -> exists b, In b log /\ it = IEv (b_idx b) (evs_for T (b_evs b)).
Proof.
  induction log as [|b r IH]; [intros []|]. rewrite proj_cons, in_app_iff. intros [H|H].
  - exists b. split; [left; reflexivity|].
    destruct (evs_for T (b_evs b)); [destruct H|destruct H as [<-|[]]; reflexivity].
  - destruct (IH H) as (b0 & Hb & E). exists b0. split; [right; exact Hb|exact E].
Qed.

Lemma proj_iev T log it : In it (proj T log) -> is_iev it.
Proof. intros Hit. apply in_proj in Hit as (b & _ & ->). exact I. Qed.

Lemma proj_evs_match T log i evs :
  In (IEv i evs) (proj T log) -> forall e, In e evs -> matches T (e_key e) = true.
Proof.
  intros Hit. apply in_proj in Hit as (b & _ & [= _ ->]). intros e He. apply filter_In in He. apply He.
Qed.

Lemma proj_bounds T log (P : N -> Prop) it :
  Forall (fun b => P (b_idx b)) log -> In it (proj T log) -> P (item_idx it).
Proof.
  intros Hall Hit. apply in_proj in Hit as (b & Hb & ->).
  rewrite Forall_forall in Hall. apply Hall, Hb.
Qed.

Lemma ievs_proj T log : ievs (proj T log) = evs_for T (flat_map b_evs log).
Proof.
  induction log as [|b r IH]; cbn [proj flat_map ievs]; [reflexivity|].
  fold (proj T r). unfold evs_for in *. rewrite filter_app.
  fold (ievs (proj T r)) in IH. rewrite <- IH.
  destruct (filter (fun e => matches T (e_key e)) (b_evs b)) eqn:E; cbn [app].
  - reflexivity.
  - change (ievs (IEv (b_idx b) (e :: l) :: proj T r)) with ((e :: l) ++ ievs (proj T r)). reflexivity.
Qed.

Lemma aget_all_evs_proj T k log base :
  matches T k = true ->
  aget k (apply (all_evs log) base) = aget k (apply (ievs (proj T log)) base).
Proof.
  intros Hm. rewrite !aget_apply, ievs_proj, lastev_evs_for, Hm. reflexivity.
Qed.

Lemma lastev_nomatch T k evs :
  (forall e, In e evs -> matches T (e_key e) = true) -> matches T k = false -> lastev k evs = None.
Proof.
  intros Hall Hk. induction evs as [|e r IH]; cbn [lastev]; [reflexivity|].
  rewrite IH by (intros e' He'; apply Hall; right; exact He').
  destruct (key_eqb_spec k (e_key e)) as [->|]; [|reflexivity].
  rewrite (Hall e) in Hk by (left; reflexivity). discriminate.
Qed.

Lemma view_apply T evs view M :
  (forall e, In e evs -> matches T (e_key e) = true) ->
  (forall k, aget k view = if matches T k then aget k M else None) ->
  forall k, aget k (apply evs view) = if matches T k then aget k (apply evs M) else None.
Proof.
  intros Hm HM k. rewrite (aget_apply k evs view), (aget_apply k evs M).
  destruct (matches T k) eqn:Ek.
  - destruct (lastev k evs); [reflexivity|]. rewrite HM, Ek. reflexivity.
  - rewrite (lastev_nomatch T) by assumption. rewrite HM, Ek. reflexivity.
Qed.

Lemma filter_all {A} (p : A -> bool) l : Forall (fun x => p x = true) l -> filter p l = l.
Proof. induction 1 as [|x l Hx _ IH]; cbn [filter]; [reflexivity|]. rewrite Hx, IH. reflexivity. Qed.

Lemma filter_none {A} (p : A -> bool) l : Forall (fun x => p x = false) l -> filter p l = [].
Proof. induction 1 as [|x l Hx _ IH]; cbn [filter]; [reflexivity|]. rewrite Hx, IH. reflexivity. Qed.

Lemma proj_filter T (p : N -> bool) log :
  proj T (filter (fun b => p (b_idx b)) log) = filter (fun it => p (item_idx it)) (proj T log).
Proof.
  induction log as [|b r IH]; cbn [filter proj flat_map]; [reflexivity|]. fold (proj T r).
  rewrite filter_app, <- IH.
  destruct (p (b_idx b)) eqn:E; cbn [proj flat_map]; fold (proj T (filter (fun b0 => p (b_idx b0)) r));
    (destruct (evs_for T (b_evs b)); cbn [app filter item_idx]; [reflexivity|]; rewrite E; reflexivity).
Qed.

Lemma incr_app_inv a b : incr (a ++ b) -> incr a /\ incr b /\ forall x y, In x a -> In y b -> (x < y)%N.
Proof.
  induction a as [|x a IH]; cbn [app]; intros H.
  - repeat split; [constructor|exact H|intros ? ? []].
  - inversion H as [|? ? Hs Hf]; subst. destruct (IH Hs) as (Ha & Hb & Hab).
    rewrite Forall_app in Hf. destruct Hf as [Hfa Hfb]. repeat split.
    + constructor; assumption.
    + exact Hb.
    + intros u y [<-|Hu] Hy; [|apply Hab; assumption]. rewrite Forall_forall in Hfb. apply Hfb, Hy.
Qed.

Lemma incr_app a b : incr a -> incr b -> (forall x y, In x a -> In y b -> (x < y)%N) -> incr (a ++ b).
Proof.
  induction a as [|x a IH]; cbn [app]; intros Ha Hb Hab; [exact Hb|].
  inversion Ha as [|? ? Hs Hf]; subst. constructor.
  - apply IH; [exact Hs|exact Hb|]. intros u y Hu Hy. apply Hab; [right; exact Hu|exact Hy].
  - rewrite Forall_app. split; [exact Hf|]. rewrite Forall_forall. intros y Hy. apply Hab; [left; reflexivity|exact Hy].
Qed.

Lemma incr_proj T log : incr (map b_idx log) -> incr (map item_idx (proj T log)).
Proof.
  induction log as [|b r IH]; intros H; [constructor|].
  rewrite proj_cons. cbn [map] in H. inversion H as [|? ? Hs Hf]; subst. rewrite map_app. apply incr_app.
  - destruct (evs_for T (b_evs b)); cbn; [constructor|constructor; [constructor|constructor]].
  - apply IH, Hs.
  - intros x y Hx Hy. destruct (evs_for T (b_evs b)); cbn in Hx; [destruct Hx|].
    destruct Hx as [<-|[]]. apply in_map_iff in Hy as (it & <- & Hit).
    apply (proj_bounds T r (fun i => b_idx b < i)%N); [|exact Hit].
    rewrite Forall_forall in *. intros b0 Hb0. apply Hf, in_map, Hb0.
Qed.

Lemma split_unique (s : N) (x y x' y' : list item) :
  Forall (fun it => (item_idx it <= s)%N) x -> Forall (fun it => (s < item_idx it)%N) y ->
  Forall (fun it => (item_idx it <= s)%N) x' -> Forall (fun it => (s < item_idx it)%N) y' ->
  x ++ y = x' ++ y' -> x = x' /\ y = y'.
Proof.
  revert x'. induction x as [|a x IH]; intros x' Hx Hy Hx' Hy' Heq.
  - destruct x' as [|a' x']; [auto|]. cbn [app] in Heq. subst y.
    inversion Hy as [|? ? Ha _]; subst. inversion Hx' as [|? ? Ha' _]; subst. lia.
  - destruct x' as [|a' x']; cbn [app] in Heq.
    + subst y'. inversion Hy' as [|? ? Ha _]; subst. inversion Hx as [|? ? Ha' _]; subst. lia.
    + injection Heq as <- Heq. inversion Hx; subst. inversion Hx'; subst.
      destruct (IH x') as [-> ->]; auto.
Qed.

Lemma incr_snoc_bounds (p q : list item) (a : item) :
  incr (map item_idx ((p ++ [a]) ++ q)) ->
  Forall (fun it => (item_idx it <= item_idx a)%N) (p ++ [a]) /\
  Forall (fun it => (item_idx a < item_idx it)%N) q.
Proof.
  intros Hinc. rewrite map_app in Hinc. apply incr_app_inv in Hinc as (Hp & Hq & Hpq).
  rewrite map_app in Hp. apply incr_app_inv in Hp as (_ & _ & Hpa). split.
  - rewrite Forall_app. split.
    + rewrite Forall_forall. intros it Hit. apply N.lt_le_incl. apply Hpa; [apply in_map, Hit|left; reflexivity].
    + constructor; [lia|constructor].
  - rewrite Forall_forall. intros it Hit. apply Hpq; [|apply in_map, Hit].
    rewrite map_app, in_app_iff. right. left. reflexivity.
Qed.

Lemma split_at_top (s : N) (l : list item) :
  incr (map item_idx l) -> Forall (fun it => (item_idx it <= s)%N) l ->
  exists l1 l2, l = l1 ++ l2 /\ Forall (fun it => (item_idx it < s)%N) l1 /\
                (l2 = [] \/ exists e, l2 = [e] /\ item_idx e = s).
Proof.
  induction l as [|a l' _] using rev_ind; intros Hinc Hle.
  - exists [], []. split; [reflexivity|]. split; [constructor|left; reflexivity].
  - apply Forall_app in Hle as [Hle' Ha]. apply Forall_cons_iff in Ha as [Ha _].
    rewrite map_app in Hinc. apply incr_app_inv in Hinc as (_ & _ & Hlt).
    assert (Hl' : Forall (fun it => (item_idx it < item_idx a)%N) l').
    { rewrite Forall_forall. intros it Hit. apply Hlt; [apply in_map, Hit|left; reflexivity]. }
    destruct (N.eq_dec (item_idx a) s) as [E|E].
    + exists l', [a]. split; [reflexivity|]. split; [rewrite <- E; exact Hl'|right; exists a; auto].
    + exists (l' ++ [a]), []. split; [rewrite app_nil_r; reflexivity|]. split; [|left; reflexivity].
      apply Forall_app. split; [eapply Forall_impl; [|exact Hl']; cbn; intros; lia|constructor; [lia|constructor]].
Qed.

Lemma skipn_after {A} off (l R : list A) it l' :
  skipn off l = R ++ it :: l' -> skipn (S (off + List.length R)) l = l'.
Proof.
  intros H. replace (S (off + List.length R)) with (off + List.length (R ++ [it])) by (rewrite app_length; cbn; lia).
  rewrite skipn_add, H. change (R ++ it :: l') with (R ++ [it] ++ l'). rewrite app_assoc.
  rewrite skipn_app_le, skipn_all by lia. reflexivity.
Qed.

Lemma skipn_off_le {A} off (l R : list A) it l' :
  skipn off l = R ++ it :: l' -> S (off + List.length R) <= List.length l.
Proof.
  intros H. apply (f_equal (@List.length A)) in H. rewrite skipn_length, app_length in H. cbn in H. lia.
Qed.

Lemma nth_error_skipn {A} n (l : list A) x : nth_error l n = Some x -> skipn n l = x :: skipn (S n) l.
Proof. apply nth_error_skipn_cons. Qed.

Lemma nth_error_none_skipn {A} n (l : list A) : nth_error l n = None -> skipn n l = [].
Proof. intros H. apply nth_error_None in H. apply skipn_all2, H. Qed.

Lemma skipped_zero it : skipped 0 it = false.
Proof.
  destruct it as [i evs| |]; cbn; try reflexivity. apply andb_false_iff. right. apply N.ltb_ge. lia.
Qed.

Lemma drop_skipped_zero l : drop_skipped 0 l = l.
Proof. destruct l as [|it r]; cbn [drop_skipped]; [reflexivity|]. rewrite skipped_zero. reflexivity. Qed.

Lemma skipped_iev snap it : is_iev it -> (1 <= item_idx it < snap)%N -> skipped snap it = true.
Proof.
  destruct it as [i evs| |]; cbn; try contradiction. intros _ [H1 H2].
  apply andb_true_iff. split; apply N.ltb_lt; lia.
Qed.

Lemma not_skipped_ge snap it : (snap <= item_idx it)%N -> skipped snap it = false.
Proof.
  destruct it as [i evs| |]; cbn; try reflexivity. intros H.
  apply andb_false_iff. right. apply N.ltb_ge. exact H.
Qed.

Lemma first_new_spec snap l off :
  match first_new snap l off with
  | Some (it, off') =>
      exists R l', l = R ++ it :: l' /\ Forall (fun i => skipped snap i = true) R /\
                   skipped snap it = false /\ off' = S (off + List.length R)
  | None => Forall (fun i => skipped snap i = true) l
  end.
Proof.
  revert off. induction l as [|a l IH]; intros off; cbn [first_new]; [constructor|].
  destruct (skipped snap a) eqn:Ea.
  - specialize (IH (S off)). destruct (first_new snap l (S off)) as [[it off']|].
    + destruct IH as (R & l' & -> & HR & Hit & ->). exists (a :: R), l'.
      split; [reflexivity|]. split; [constructor; assumption|]. split; [exact Hit|]. cbn [List.length]. lia.
    + constructor; assumption.
  - exists [], l. split; [reflexivity|]. split; [constructor|]. split; [exact Ea|]. cbn [List.length]. lia.
Qed.

Lemma skipped_prefix_unique snap (R R' : list item) a X P :
  R ++ a :: X = R' ++ P ->
  Forall (fun i => skipped snap i = true) R -> Forall (fun i => skipped snap i = true) R' ->
  skipped snap a = false -> Forall (fun i => skipped snap i = false) P ->
  R = R' /\ a :: X = P.
Proof.
  revert R'. induction R as [|x R IH]; intros [|y R'] Heq HR HR' Ha HP; cbn [app] in Heq.
  - auto.
  - injection Heq as -> _. inversion HR'; congruence.
  - subst P. inversion HP; inversion HR; congruence.
  - injection Heq as <- Heq. inversion HR; inversion HR'; subst.
    destruct (IH R' Heq) as [-> <-]; auto.
Qed.

(* Next on the buffer [items] (followed, later, by Q), when what lies ahead is R, all skipped, then P,
   none skipped: it returns the head of P and stops behind it *)
Lemma first_new_some snap items Q R P off it off' :
  items ++ Q = R ++ P ->
  Forall (fun i => skipped snap i = true) R -> Forall (fun i => skipped snap i = false) P ->
  first_new snap items off = Some (it, off') ->
  exists l', items = R ++ it :: l' /\ P = it :: l' ++ Q /\ off' = S (off + List.length R).
Proof.
  intros Heq HR HP Hfn. pose proof (first_new_spec snap items off) as H. rewrite Hfn in H.
  destruct H as (R0 & l' & -> & HR0 & Hit & ->). rewrite <- app_assoc in Heq. cbn [app] in Heq.
  destruct (skipped_prefix_unique _ _ _ _ _ _ Heq HR0 HR Hit HP) as [-> <-]. eauto.
Qed.

(* what the small functions of publish, subscribe and the handler compute *)
Local Open Scope N_scope.

Lemma find_del_buf_some T T' l tb : find_buf T' (del_buf T l) = Some tb -> find_buf T' l = Some tb.
Proof. rewrite find_del_buf. destruct (ts_eqb T' T); [discriminate|auto]. Qed.

Lemma live_queue_commit st b : live_queue (do_commit st b) = live_queue st ++ [b].
Proof.
  unfold live_queue. cbn [do_commit st_epoch st_queue].
  rewrite filter_app, map_app. cbn [filter fst]. rewrite N.eqb_refl. reflexivity.
Qed.

Lemma live_queue_none ep (q : list (N * batch)) :
  Forall (fun gb => fst gb < ep) q -> map snd (filter (fun gb => N.eqb (fst gb) ep) q) = [].
Proof.
  induction 1 as [|gb q Hlt _ IH]; cbn [filter map]; [reflexivity|].
  destruct (N.eqb_spec (fst gb) ep); [lia|exact IH].
Qed.

Lemma publish_items T tb b : tb_ts tb = T -> tb_items (publish_buf b tb) = tb_items tb ++ proj T [b].
Proof.
  intros <-. unfold publish_buf. cbn [proj flat_map].
  destruct (evs_for (tb_ts tb) (b_evs b)); cbn [tb_items app]; [rewrite app_nil_r|]; reflexivity.
Qed.

Lemma publish_fields b tb :
  tb_ts (publish_buf b tb) = tb_ts tb /\ tb_id (publish_buf b tb) = tb_id tb /\
  tb_refs (publish_buf b tb) = tb_refs tb.
Proof. unfold publish_buf. destruct (evs_for (tb_ts tb) (b_evs b)); auto. Qed.

Lemma handle_fields ep x s it : c_ts (handle ep x s it) = c_ts x /\ c_sub (handle ep x s it) = Some s.
Proof. unfold handle. destruct (c_h x), it; auto. Qed.

Lemma handle_stream_ev ep x s i evs :
  c_h x = HStream \/ c_h x = HResume ->
  handle ep x s (IEv i evs) =
    Client (c_ts x) (c_tok x) (c_rpc x) (apply evs (c_view x)) i HStream (Some s) (c_epoch x).
Proof. unfold handle. intros [-> | ->]; reflexivity. Qed.

Lemma last_item_spec items :
  match last_item items with
  | Some it => exists l, items = l ++ [it]
  | None => items = []
  end.
Proof.
  unfold last_item. induction items as [|a l _] using rev_ind; [reflexivity|].
  rewrite map_app. cbn [map]. rewrite last_last. exists l. reflexivity.
Qed.

Lemma splice_len items s :
  (forall it, In it items -> item_idx it <= s) -> splice_off items s = List.length items.
Proof.
  intros H. unfold splice_off. pose proof (last_item_spec items) as Hl.
  destruct (last_item items) as [[j evs| |]|]; try reflexivity.
  destruct Hl as (l & ->). specialize (H (IEv j evs)). rewrite in_app_iff in H.
  specialize (H (or_intror (or_introl eq_refl))). cbn [item_idx] in H.
  destruct (N.ltb_spec s j); [lia|reflexivity].
Qed.

Lemma head_index_spec items i :
  head_has_index items i = true -> exists l evs, items = l ++ [IEv i evs].
Proof.
  unfold head_has_index. pose proof (last_item_spec items) as Hl.
  destruct (last_item items) as [[j evs| |]|]; try discriminate.
  destruct Hl as (l & ->). intros E. apply N.eqb_eq in E. subst j. eauto.
Qed.

Lemma snap_events_spec T m idx :
  ievs (snap_events T m idx) = map row_ev (rows_of T m) /\ Forall is_iev (snap_events T m idx).
Proof.
  unfold snap_events. destruct (per_row (fst T)).
  - induction (rows_of T m) as [|kv l IH]; cbn [map ievs flat_map]; [split; [reflexivity|constructor]|].
    destruct IH as [IH1 IH2]. split.
    + fold (ievs (map (fun kv0 => IEv idx [Ev (fst kv0) (Some (snd kv0))]) l)). rewrite IH1. reflexivity.
    + constructor; [exact I|exact IH2].
  - destruct (rows_of T m) as [|kv l]; [split; [reflexivity|constructor]|].
    rewrite ievs_ev. split; [reflexivity|]. constructor; [exact I|constructor].
Qed.

Lemma proj_le T log q :
  Forall (fun b => touches T b = true -> b_idx b <= q) log ->
  Forall (fun it => item_idx it <= q) (proj T log).
Proof.
  induction 1 as [|b l Hb _ IH]; [constructor|]. rewrite proj_cons.
  apply Forall_app. split; [|exact IH].
  unfold touches in Hb. destruct (evs_for T (b_evs b)); [constructor|].
  constructor; [cbn [item_idx]; apply Hb; reflexivity|constructor].
Qed.

Lemma sub_path_spec st T idx :
  match sub_path st T idx with
  | PErr => True
  | PResume => idx <> 0 /\ head_has_index (buf_items T (st_bufs st)) idx = true
  | PCache => exists sn, find_snap T (st_cache st) = Some sn
  | PBuild => find_snap T (st_cache st) = None
  end.
Proof.
  (* the subject given, or a wildcard the topic allows, go the same way; a refused wildcard is PErr *)
  assert (Hgo : match (if negb (N.eqb idx 0) && head_has_index (buf_items T (st_bufs st)) idx then PResume
                       else match find_snap T (st_cache st) with Some _ => PCache | None => PBuild end) with
                | PErr => True
                | PResume => idx <> 0 /\ head_has_index (buf_items T (st_bufs st)) idx = true
                | PCache => exists sn, find_snap T (st_cache st) = Some sn
                | PBuild => find_snap T (st_cache st) = None
                end).
  { destruct (N.eqb_spec idx 0); cbn [negb andb]; [|destruct (head_has_index _ _); [auto|]];
      destruct (find_snap _ _); eauto. }
  unfold sub_path. destruct (snd T); [exact Hgo|]. destruct (wild_ok (fst T)); [exact Hgo|exact I].
Qed.

Lemma attach_ts st T : tb_ts (attach_buf st T) = T.
Proof. unfold attach_buf. destruct (find_buf T (st_bufs st)); reflexivity. Qed.
