(* C13, service-intentions config entries: the stored intentions of a valid table, lookups by
   case-folded name as filters, the two match lists as the sorted covering subsets, both routes, and
   observations as a function of the set of stored intentions. *)
From Coq Require Import Sorting.Permutation.
From Verif Require Import Base.Prelude.
From Verif Require Import Intention.Model.
From Verif Require Import Intention.Spec.
From Verif Require Import Base.Lists.
From Verif Require Import Intention.Lists.
From Verif Require Import Intention.OrderProofs.
From Verif Require Import Intention.Proofs.
Local Open Scope string_scope.
Local Open Scope list_scope.

Lemma src_key_eqb_iff a b : src_key_eqb a b = true <-> skey a = skey b.
Proof.
  unfold src_key_eqb, skey. rewrite andb_true_iff, !String.eqb_eq. split; [intros [-> ->]; reflexivity|intros [= -> ->]; auto].
Qed.

(* the checks are a cascade "if <test fails> then Some <code> else ...": it ends in None iff no test fails *)
Lemma if_some_none (c : bool) (k : N) (r : option N) :
  (if c then Some k else r) = None <-> negb c = true /\ r = None.
Proof. destruct c; cbn [negb]; intuition discriminate. Qed.

Lemma validate_srcs_cons dw seen a l :
  validate_srcs dw seen (a :: l) = None <->
  src_valid dw a = true /\ ~ In (skey a) (map skey seen) /\ validate_srcs dw (a :: seen) l = None.
Proof.
  assert (negb (existsb (src_key_eqb a) seen) = true <-> ~ In (skey a) (map skey seen)) as <-.
  { rewrite negb_true_iff, <- not_true_iff_false, existsb_exists, in_map_iff.
    split; intros H (x & H1 & H2); apply H; exists x.
    - split; [exact H2|apply src_key_eqb_iff; symmetry; exact H1].
    - apply src_key_eqb_iff in H2. split; [symmetry; exact H2|exact H1]. }
  cbn [validate_srcs]. rewrite !if_some_none. unfold src_valid. rewrite !andb_true_iff. tauto.
Qed.

Lemma validate_srcs_none dw l : forall seen,
  validate_srcs dw seen l = None <->
  forallb (src_valid dw) l = true /\ NoDup (map skey l) /\
  (forall s, In s l -> ~ In (skey s) (map skey seen)).
Proof.
  induction l as [|a l IH]; intros seen.
  - cbn. split; [intros _; repeat split; [constructor|intros s []]|reflexivity].
  - rewrite validate_srcs_cons, IH. cbn [forallb map In]. rewrite andb_true_iff, NoDup_cons_iff. split.
    + intros (Hv & Ha & Hf & Hn & Hs). repeat split; try assumption.
      * intros Hin. apply in_map_iff in Hin as (x & Ex & Hx). apply (Hs x Hx). left. symmetry. exact Ex.
      * intros s [<-|Hs'] Hin; [exact (Ha Hin)|exact (Hs s Hs' (or_intror Hin))].
    + intros ((Hv & Hf) & (Hnotin & Hn) & Hs). repeat split; auto.
      intros s Hs' [E|Hin]; [|exact (Hs s (or_intror Hs') Hin)].
      apply Hnotin. rewrite E. apply in_map. exact Hs'.
Qed.

Lemma validate_none e :
  validate e = None <->
  ename_valid (e_name e) = true /\ e_srcs e <> [] /\
  forallb (src_valid (is_wild (e_name e))) (e_srcs e) = true /\ NoDup (map skey (e_srcs e)).
Proof.
  unfold validate, ename_valid. rewrite !if_some_none, andb_true_iff.
  destruct (e_srcs e) as [|a l] eqn:E.
  - intuition (discriminate || congruence).
  - rewrite validate_srcs_none. cbn [map In]. intuition (discriminate || auto).
Qed.

Lemma in_call st i :
  In i (call st) <-> exists e s, In e st /\ In s (e_srcs e) /\ i = to_ixn e s.
Proof.
  unfold call, to_ixns. rewrite in_flat_map. split.
  - intros (e & He & Hi). apply in_map_iff in Hi as (s & <- & Hs). eauto.
  - intros (e & s & He & Hs & ->). exists e. split; [exact He|]. apply in_map. exact Hs.
Qed.

Lemma config_all_wf st : store_ok st -> forall i, In i (call st) -> wf i.
Proof.
  intros [_ Hok] i Hi. apply in_call in Hi as (e & s & He & Hs & ->).
  unfold wf. cbn [to_ixn i_sns i_sname i_dns i_dname i_prec]. change (is_wild dflt) with false.
  split; [discriminate|]. split; [discriminate|]. apply (Hok e He). exact Hs.
Qed.

Lemma entry_by_name st e e' :
  NoDup (map lname st) -> In e st -> In e' st -> e_name e = e_name e' -> e = e'.
Proof. intros Hn He He' E. apply (NoDup_map_inj lname st); try assumption. unfold lname. rewrite E. reflexivity. Qed.

Lemma config_all_key st : store_ok st ->
  forall i j, In i (call st) -> In j (call st) -> key5 i = key5 j -> i = j.
Proof.
  intros [Hnd Hok] i j Hi Hj E.
  apply in_call in Hi as (e & s & He & Hs & ->). apply in_call in Hj as (e' & s' & He' & Hs' & ->).
  unfold key5 in E. cbn [to_ixn i_peer i_sns i_sname i_dns i_dname] in E. injection E as E1 E2 E3.
  assert (e = e') as <- by (apply (entry_by_name st); assumption).
  assert (s = s') as <-; [|reflexivity].
  destruct (Hok e He) as [Hv _]. apply validate_none in Hv as (_ & _ & _ & Hn).
  apply (NoDup_map_inj skey (e_srcs e)); try assumption. unfold skey. congruence.
Qed.

Lemma store_ok_filter P st : store_ok st -> store_ok (filter P st).
Proof.
  intros [Hn Hok]. split; [apply NoDup_map_filter; exact Hn|].
  intros e He. apply filter_In in He as [He _]. apply Hok; exact He.
Qed.

Lemma lookup_some st n e : lookup st n = Some e -> In e st /\ lower (e_name e) = lower n.
Proof.
  unfold lookup. intros H. apply find_some in H as [Hi He]. split; [exact Hi|].
  unfold name_eqb in He. apply String.eqb_eq. exact He.
Qed.

Lemma call_ns st j : In j (call st) -> i_sns j = dflt /\ i_dns j = dflt.
Proof. intros Hj. apply in_call in Hj as (e & s & _ & _ & ->). split; reflexivity. Qed.

Lemma call_dname st j : In j (call st) -> In (i_dname j) (enames st).
Proof. intros Hj. apply in_call in Hj as (e & s & He & _ & ->). apply (in_map e_name). exact He. Qed.

Lemma to_ixns_dname e j : In j (to_ixns e) -> i_dname j = e_name e.
Proof. unfold to_ixns. intros H. apply in_map_iff in H as (s & <- & _). reflexivity. Qed.

Lemma call_filter (P : string -> bool) st :
  filter (fun j => P (i_dname j)) (call st) = call (filter (fun e => P (e_name e)) st).
Proof.
  unfold call. induction st as [|e st IH]; cbn [flat_map filter]; [reflexivity|]. rewrite filter_app, IH.
  destruct (P (e_name e)) eqn:E; cbn [flat_map].
  - rewrite filter_all; [reflexivity|]. intros j Hj. rewrite (to_ixns_dname _ _ Hj). exact E.
  - rewrite (proj2 (filter_nil_iff _ _)); [reflexivity|]. intros j Hj. rewrite (to_ixns_dname _ _ Hj). exact E.
Qed.

Lemma name_eqb_unique x st n y :
  ~ In (lname x) (map lname st) -> name_eqb (e_name x) n = true -> In y st -> name_eqb (e_name y) n = false.
Proof.
  unfold name_eqb. intros Hnotin E Hy. apply String.eqb_eq in E. apply String.eqb_neq. intros Ey.
  apply Hnotin. unfold lname at 1. rewrite E, <- Ey. apply (in_map lname). exact Hy.
Qed.

Lemma lookup_filter st n :
  NoDup (map lname st) ->
  filter (fun e => name_eqb (e_name e) n) st = match lookup st n with Some e => [e] | None => [] end.
Proof.
  unfold lookup. induction st as [|x st IH]; cbn [map filter find]; intros Hn; [reflexivity|].
  inversion Hn as [|? ? Hnotin Hn']; subst.
  destruct (name_eqb (e_name x) n) eqn:E; [|apply IH; exact Hn'].
  f_equal. apply filter_nil_iff. intros y. exact (name_eqb_unique x st n y Hnotin E).
Qed.

Lemma call_lookup st n :
  NoDup (map lname st) ->
  filter (fun j => name_eqb (i_dname j) n) (call st)
  = match lookup st n with Some e => to_ixns e | None => [] end.
Proof.
  intros Hn. rewrite (call_filter (fun m => name_eqb m n)), (lookup_filter st n Hn).
  destruct (lookup st n); [apply app_nil_r|reflexivity].
Qed.

(* getIntentionPrecedenceMatchServiceNames lists exactly the patterns that cover n *)
Lemma in_match_names m n : In m (match_names n) <-> wild_or_eq m n = true.
Proof.
  rewrite wild_or_eq_true. unfold match_names, is_wild.
  destruct (String.eqb_spec n wild) as [A|A]; cbn [In]; intuition congruence.
Qed.

Lemma match_names_lower_nodup n : NoDup (map lower (match_names n)).
Proof.
  unfold match_names. destruct (is_wild n) eqn:A; cbn [map]; repeat constructor; cbn [In]; try tauto.
  intros [E|[]]. apply is_wild_false in A. apply A. apply lower_wild_inv. rewrite <- E. reflexivity.
Qed.

Lemma match_names_nodup n : NoDup (match_names n).
Proof. apply (NoDup_map_inv lower), match_names_lower_nodup. Qed.

Lemma name_idx_b names e d :
  coherent (names ++ [d]) -> In e names ->
  existsb (name_eqb e) (match_names d) = wild_or_eq e d.
Proof.
  intros C He. apply eq_iff_eq_true. rewrite existsb_exists. split.
  - intros (m & Hm & E). apply String.eqb_eq in E. apply in_match_names, wild_or_eq_true in Hm.
    rewrite (coherent_fold _ e m C); [apply wild_or_eq_true; exact Hm| | |exact E].
    + apply in_or_app. left; exact He.
    + destruct Hm as [->| ->]; [left; reflexivity|right; apply in_or_app; right; left; reflexivity].
  - intros W. exists e. split; [apply in_match_names; exact W|apply String.eqb_refl].
Qed.

(* Store.IntentionMatch by destination = the sorted list of the stored intentions whose destination
   pattern covers the name *)
Theorem cmatch_dst_perm st d :
  store_ok st -> coherent (enames st ++ [d]) ->
  Permutation (cmatch_dst st d) (filter (fun j => wild_or_eq (i_dname j) d) (call st)).
Proof.
  intros [Hnd _] C. unfold cmatch_dst. rewrite sort_ixns_perm.
  rewrite (flat_map_ext _ (fun m => filter (fun j => name_eqb (i_dname j) m) (call st)))
    by (intros m; symmetry; apply call_lookup; exact Hnd).
  rewrite flat_map_filter_perm.
  - erewrite filter_ext_in; [reflexivity|]. intros j Hj.
    apply (name_idx_b (enames st)); [exact C|apply call_dname; exact Hj].
  - apply match_names_nodup.
  - intros j p q _ Hp Hq Ep Eq. apply (NoDup_map_inj lower (match_names d)); try assumption.
    + apply match_names_lower_nodup.
    + unfold name_eqb in *. apply String.eqb_eq in Ep, Eq. congruence.
Qed.

Lemma cmatch_dst_in st d j :
  store_ok st -> coherent (enames st ++ [d]) ->
  (In j (cmatch_dst st d) <-> In j (call st) /\ wild_or_eq (i_dname j) d = true).
Proof. intros Hst C. apply (perm_filter_in (fun j => wild_or_eq (i_dname j) d)), cmatch_dst_perm; assumption. Qed.

Lemma cmatch_dst_incl st d : incl (cmatch_dst st d) (call st).
Proof.
  intros j Hj. unfold cmatch_dst in Hj. apply sort_ixns_in, in_flat_map in Hj as (m & _ & Hj).
  destruct (lookup st m) as [e|] eqn:L; [|destruct Hj]. apply lookup_some in L as [He _].
  apply in_flat_map. exists e. auto.
Qed.

(* [src_sel] in parts: some stored LOCAL intention has source name m and the destination of j *)
Definition has_local_twin (all : list ixn) (m : string) (j : ixn) : bool :=
  existsb (fun j' => String.eqb (i_peer j') "" && String.eqb (i_sname j') m
                     && String.eqb (i_dname j') (i_dname j))%bool all.

Lemma has_local_twin_iff all m j :
  has_local_twin all m j = true <->
  exists j', In j' all /\ i_peer j' = "" /\ i_sname j' = m /\ i_dname j' = i_dname j.
Proof.
  unfold has_local_twin. rewrite existsb_exists.
  split; intros (j' & Hj' & H); exists j'; (split; [exact Hj'|]);
    rewrite !andb_true_iff, !String.eqb_eq in *; tauto.
Qed.

Lemma src_sel_iff all s j :
  src_sel all s j = true <-> wild_or_eq (i_sname j) s = true /\ has_local_twin all (i_sname j) j = true.
Proof.
  unfold src_sel. fold (has_local_twin all). rewrite existsb_exists. split.
  - intros (m & Hm & H). apply andb_true_iff in H as [E T]. apply String.eqb_eq in E. subst m.
    split; [apply in_match_names; exact Hm|exact T].
  - intros [W T]. exists (i_sname j). split; [apply in_match_names; exact W|].
    rewrite String.eqb_refl. exact T.
Qed.

Lemma has_local_src_call st e m x :
  store_ok st -> In e st -> has_local_twin (call st) m (to_ixn e x) = has_local_src e m.
Proof.
  intros [Hnd _] He. apply eq_iff_eq_true. rewrite has_local_twin_iff.
  unfold has_local_src. rewrite existsb_exists. split.
  - intros (j' & Hj' & Pe & Sn & Dn). apply in_call in Hj' as (e' & y & He' & Hy & ->).
    cbn [to_ixn i_peer i_sname i_dname] in *.
    assert (e' = e) as -> by (apply (entry_by_name st); assumption).
    exists y. split; [exact Hy|]. rewrite Pe, Sn, !String.eqb_refl. reflexivity.
  - intros (y & Hy & Ey). apply andb_true_iff in Ey as [E1 E2]. apply String.eqb_eq in E1, E2.
    exists (to_ixn e y). split; [apply in_call; eauto|]. auto.
Qed.

(* what the index lookup and the source loop of readSourceIntentions... select for one listed name m *)
Lemma cmatch_src_one st m :
  store_ok st ->
  flat_map (fun e => if has_local_src e m
                     then map (to_ixn e) (filter (fun x => String.eqb (s_name x) m) (e_srcs e))
                     else []) st
  = filter (fun j => String.eqb (i_sname j) m && has_local_twin (call st) m j)%bool (call st).
Proof.
  intros Hst. unfold call at 2. rewrite filter_flat_map. apply flat_map_ext_in. intros e He.
  unfold to_ixns. rewrite filter_map_comm.
  rewrite (filter_ext _ (fun x => String.eqb (s_name x) m && has_local_src e m)%bool
             (fun x => f_equal _ (has_local_src_call st e m x Hst He))).
  destruct (has_local_src e m).
  - f_equal. apply filter_ext. intros x. rewrite andb_true_r. reflexivity.
  - rewrite (proj2 (filter_nil_iff _ _)); [reflexivity|]. intros x _. apply andb_false_r.
Qed.

Theorem cmatch_src_perm st s :
  store_ok st ->
  Permutation (cmatch_src st s) (filter (src_sel (call st) s) (call st)).
Proof.
  intros Hst. unfold cmatch_src. rewrite sort_ixns_perm.
  rewrite (flat_map_ext _ _ (fun m => cmatch_src_one st m Hst)).
  apply flat_map_filter_perm; [apply match_names_nodup|].
  intros j p q _ _ _ Hp Hq. apply andb_true_iff in Hp as [Hp _], Hq as [Hq _].
  apply String.eqb_eq in Hp, Hq. congruence.
Qed.

Lemma cmatch_src_in st s j :
  store_ok st -> (In j (cmatch_src st s) <-> In j (call st) /\ src_sel (call st) s j = true).
Proof. intros Hst. apply perm_filter_in, cmatch_src_perm; exact Hst. Qed.

Lemma cmatch_src_incl st s : store_ok st -> incl (cmatch_src st s) (call st).
Proof. intros Hst j Hj. apply (cmatch_src_in st s j Hst) in Hj. tauto. Qed.

Lemma src_sel_clean st s j :
  store_ok st -> shadow_free st -> In j (call st) ->
  src_sel (call st) s j = (String.eqb (i_peer j) "" && wild_or_eq (i_sname j) s)%bool.
Proof.
  intros Hst Hsf Hj. apply eq_iff_eq_true.
  rewrite src_sel_iff, has_local_twin_iff, andb_true_iff, String.eqb_eq. split.
  - intros (W & j' & Hj' & Pe & Sn & Dn). split; [|exact W].
    apply in_call in Hj as (e & x & He & Hx & ->), Hj' as (e' & y & He' & Hy & ->).
    cbn [to_ixn i_peer i_sname i_dname] in *. destruct Hst as [Hnd _].
    assert (e' = e) as -> by (apply (entry_by_name st); assumption).
    assert (y = x) as -> by (apply (NoDup_map_inj s_name (e_srcs e)); auto).
    exact Pe.
  - intros [Pe W]. split; [exact W|]. exists j. auto.
Qed.

(* CE: every config-entry intention lives in the "default" namespace; so do the queries *)
Theorem config_route2 st peer s d :
  store_ok st -> coherent (enames st ++ [d]) ->
  decided (call st) peer dflt s dflt d (find (authz_match MSrc s dflt peer) (cmatch_dst st d)).
Proof.
  intros Hst C.
  assert (forall j, In j (call st) -> authz_match MDst d dflt "" j = wild_or_eq (i_dname j) d) as HD.
  { intros j Hj. destruct (call_ns st j Hj) as [_ E]. cbn [authz_match]. rewrite E. reflexivity. }
  apply route_generic; [apply config_all_wf; exact Hst|apply config_all_key; exact Hst|apply sort_ixns_sorted|].
  intros j. rewrite (cmatch_dst_in st d j Hst C). unfold covers. rewrite andb_true_iff.
  split; [intros ((Hj & A) & B)|intros (Hj & A & B)]; rewrite (HD j Hj) in *; auto.
Qed.

Theorem config_route1 st s d :
  store_ok st ->
  decided (call st) "" dflt s dflt d (find (authz_match MDst d dflt "") (cmatch_src st s)).
Proof.
  intros Hst.
  apply route1_generic; [apply config_all_wf; exact Hst|apply config_all_key; exact Hst|apply sort_ixns_sorted| |].
  - intros j Hj. apply (cmatch_src_in st s j Hst) in Hj as [Hj Sj]. apply src_sel_iff in Sj as [W T].
    destruct (call_ns st j Hj) as [Es Ed]. split; [exact Hj|]. split.
    + cbn [authz_match]. rewrite String.eqb_refl, Es, W. reflexivity.
    + apply has_local_twin_iff in T as (j' & Hj' & Pe & Sn & Dn). destruct (call_ns st j' Hj') as [Es' Ed'].
      exists j'. split; [|repeat split; congruence].
      apply (cmatch_src_in st s j' Hst). split; [exact Hj'|]. apply src_sel_iff. rewrite Sn. split; [exact W|].
      apply has_local_twin_iff. exists j'. auto.
  - intros j Hj Cj. apply covers_iff in Cj as (Pe & Sj & _). apply andb_true_iff in Sj as [_ W].
    apply (cmatch_src_in st s j Hst). split; [exact Hj|]. apply src_sel_iff. split; [exact W|].
    apply has_local_twin_iff. exists j. auto.
Qed.

Lemma src_sel_perm all all' s j : Permutation all all' -> src_sel all s j = src_sel all' s j.
Proof.
  intros Hp. unfold src_sel. induction (match_names s) as [|m ms IH]; cbn [existsb]; [reflexivity|].
  rewrite IH. f_equal. f_equal. apply existsb_same_members, Permutation_same_members, Hp.
Qed.

(* Everything that is read from the config-entry table: the list, the two match lists, the two routes.
   Lookups by destination fold case, so they are compared for destinations coherent with [names]. *)
Definition same_observations (names : list string) (a b : list entry) : Prop :=
  config_list a = config_list b /\
  (forall s, cmatch_src a s = cmatch_src b s) /\
  (forall d, coherent (names ++ [d]) -> cmatch_dst a d = cmatch_dst b d) /\
  (forall peer s d da ap, coherent (names ++ [d]) ->
     route1 (fun _ n => cmatch_src a n) dflt s dflt d da ap = route1 (fun _ n => cmatch_src b n) dflt s dflt d da ap /\
     route2 (fun _ n => cmatch_dst a n) peer dflt s dflt d da ap = route2 (fun _ n => cmatch_dst b n) peer dflt s dflt d da ap).

Theorem config_obs_equal a b (names : list string) :
  store_ok a -> store_ok b -> Permutation (call a) (call b) ->
  incl (enames a) names -> incl (enames b) names -> same_observations names a b.
Proof.
  intros Ha Hb Hp Ia Ib. unfold same_observations. pose proof (config_all_key a Ha) as Ka.
  assert (forall s, cmatch_src a s = cmatch_src b s) as Hs.
  { intros s. apply isorted_perm_eq; try apply sort_ixns_sorted.
    - rewrite (cmatch_src_perm a s Ha), (cmatch_src_perm b s Hb).
      erewrite filter_ext; [apply Permutation_filter; exact Hp|].
      intros j. apply src_sel_perm. exact Hp.
    - intros x y Hx Hy. apply Ka; apply (cmatch_src_incl a s Ha); assumption. }
  assert (forall d, coherent (names ++ [d]) -> cmatch_dst a d = cmatch_dst b d) as Hd.
  { intros d C.
    assert (forall st, incl (enames st) names -> coherent (enames st ++ [d])) as Cst.
    { intros st I. apply (coherent_incl _ _ (incl_app_app I (incl_refl [d])) C). }
    apply isorted_perm_eq; try apply sort_ixns_sorted.
    - rewrite (cmatch_dst_perm a d Ha (Cst a Ia)), (cmatch_dst_perm b d Hb (Cst b Ib)). apply Permutation_filter. exact Hp.
    - intros x y Hx Hy. apply Ka; apply (cmatch_dst_incl a d); assumption. }
  split; [apply sort_ixns_perm_eq; assumption|]. split; [exact Hs|]. split; [exact Hd|].
  intros peer s d da ap C. unfold route1, route2. rewrite Hs, (Hd d C). split; reflexivity.
Qed.
