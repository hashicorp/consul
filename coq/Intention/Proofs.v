(* C13, common to both representations: names and case folding; precedence = specificity, so a more
   specific intention comes first in every sorted list; and the decision: the first element of a
   sorted candidate list that passes the decision-side test is the unique most specific covering
   intention, along both routes the servers use. *)
From Coq Require Import Sorting.Sorted.
From Verif Require Import Base.Prelude.
From Verif Require Import Intention.Model.
From Verif Require Import Intention.Spec.
From Verif Require Import Intention.OrderProofs.
Local Open Scope string_scope.
Local Open Scope list_scope.

Lemma is_wild_true s : is_wild s = true <-> s = wild.
Proof. unfold is_wild. apply String.eqb_eq. Qed.

Lemma is_wild_false s : is_wild s = false <-> s <> wild.
Proof. unfold is_wild. apply String.eqb_neq. Qed.

(* lower-casing only moves 'A'..'Z' (65..90) up by 32, never onto '*' (42) *)
Lemma lower_ascii_star a : lower_ascii a = "*"%char -> a = "*"%char.
Proof.
  unfold lower_ascii.
  destruct (N.leb 65 (N_of_ascii a) && N.leb (N_of_ascii a) 90)%bool eqn:E; [|auto].
  apply andb_true_iff in E as [E1 E2]. apply N.leb_le in E1, E2.
  intros H. apply (f_equal N_of_ascii) in H. rewrite N_ascii_embedding in H by lia.
  change (N_of_ascii "*") with 42%N in H. lia.
Qed.

Lemma lower_wild : lower wild = wild.
Proof. reflexivity. Qed.

Lemma lower_wild_inv s : lower s = wild -> s = wild.
Proof.
  destruct s as [|a r]; cbn [lower]; [discriminate|].
  unfold wild. intros H. injection H as Ha Hr.
  destruct r; [|discriminate]. apply lower_ascii_star in Ha. subst. reflexivity.
Qed.

Lemma wild_or_eq_true p x : wild_or_eq p x = true <-> p = wild \/ p = x.
Proof.
  unfold wild_or_eq. rewrite orb_true_iff, is_wild_true, String.eqb_eq. tauto.
Qed.

Lemma coherent_incl l l' : incl l l' -> coherent l' -> coherent l.
Proof. intros Hi Hc a b Ha Hb. apply Hc; apply Hi; assumption. Qed.

Lemma coherent_fold names a x :
  coherent names -> In a names -> x = wild \/ In x names -> lower a = lower x -> a = x.
Proof. intros C Ha [->|Hx] E; [apply lower_wild_inv; exact E|apply C; assumption]. Qed.

(* UpdatePrecedence counts in base 3: destination digit, source digit, plus one *)
Lemma prec_of_count sns sn dns dn :
  prec_of sns sn dns dn = (3 * count_exact dns dn + count_exact sns sn + 1)%N.
Proof.
  unfold prec_of, count_exact.
  destruct (is_wild dns), (is_wild dn), (is_wild sns), (is_wild sn); reflexivity.
Qed.

Lemma count_exact_le ns n : (count_exact ns n <= 2)%N.
Proof. unfold count_exact. destruct (is_wild ns), (is_wild n); lia. Qed.

Lemma wf_prec i : wf i -> i_prec i = (3 * dspec i + sspec i + 1)%N /\ (dspec i <= 2)%N /\ (sspec i <= 2)%N.
Proof.
  intros (_ & _ & ->). split; [apply prec_of_count|]. split; apply count_exact_le.
Qed.

Lemma prec_lt_specific i j : wf i -> wf j -> ((i_prec j < i_prec i)%N <-> more_specific i j).
Proof.
  intros Wi Wj. destruct (wf_prec i Wi) as (-> & ? & ?), (wf_prec j Wj) as (-> & ? & ?).
  unfold more_specific. lia.
Qed.

Lemma prec_eq_specific i j :
  wf i -> wf j -> i_prec i = i_prec j -> dspec i = dspec j /\ sspec i = sspec j.
Proof.
  intros Wi Wj. destruct (wf_prec i Wi) as (-> & ? & ?), (wf_prec j Wj) as (-> & ? & ?). lia.
Qed.

Lemma more_specific_ileb i j : wf i -> wf j -> more_specific i j -> ileb j i = false.
Proof.
  intros Wi Wj M. apply (prec_lt_specific i j Wi Wj) in M.
  destruct (ileb j i) eqn:E; [|reflexivity]. apply ileb_prec in E. lia.
Qed.

Lemma sorted_precedes l i j :
  isorted l -> In i l -> In j l -> ileb j i = false -> precedes l i j.
Proof.
  induction l as [|a r IH]; intros Hs Hi Hj Hlt; [destruct Hi|].
  inversion Hs as [|? ? Hs' Hf]; subst. rewrite Forall_forall in Hf.
  destruct Hj as [<-|Hj].
  - exfalso. destruct Hi as [<-|Hi].
    + rewrite ileb_refl in Hlt. discriminate.
    + rewrite (Hf i Hi) in Hlt. discriminate.
  - destruct Hi as [<-|Hi].
    + apply in_split in Hj as (l2 & l3 & ->). exists [], l2, l3. reflexivity.
    + destruct (IH Hs' Hi Hj Hlt) as (l1 & l2 & l3 & ->). exists (a :: l1), l2, l3. reflexivity.
Qed.

Lemma src_valid_set_prec dw en s : src_valid dw (src_set_prec en s) = src_valid dw s.
Proof. reflexivity. Qed.

Lemma side_same ns n ns' n' tns t :
  (is_wild ns = true -> is_wild n = true) -> (is_wild ns' = true -> is_wild n' = true) ->
  wild_or_eq ns tns = true -> wild_or_eq n t = true ->
  wild_or_eq ns' tns = true -> wild_or_eq n' t = true ->
  count_exact ns n = count_exact ns' n' -> ns = ns' /\ n = n'.
Proof.
  intros W1 W2 H1 H2 H3 H4 HC.
  apply wild_or_eq_true in H1, H2, H3, H4. unfold count_exact in HC.
  destruct (is_wild ns) eqn:A.
  - specialize (W1 eq_refl). apply is_wild_true in A, W1.
    destruct (is_wild ns') eqn:B.
    + specialize (W2 eq_refl). apply is_wild_true in B, W2. split; congruence.
    + destruct (is_wild n'); discriminate.
  - destruct (is_wild ns') eqn:B.
    + destruct (is_wild n); discriminate.
    + apply is_wild_false in A, B.
      destruct (is_wild n) eqn:C, (is_wild n') eqn:D; try discriminate.
      * apply is_wild_true in C, D. split; [|congruence].
        destruct H1, H3; congruence.
      * apply is_wild_false in C, D. split; destruct H1, H2, H3, H4; congruence.
Qed.

Lemma decide_eq l mt t ns p da ap :
  decide l mt t ns p da ap = summary_of (find (authz_match mt t ns p) l) da ap.
Proof. reflexivity. Qed.

(* authz.go's predicate is the pattern test of the lookups on each side, plus the peer *)
Lemma covers_iff peer sns s dns d i :
  covers peer sns s dns d i = true <->
  i_peer i = peer /\ side_pred MSrc sns s i = true /\ side_pred MDst dns d i = true.
Proof.
  unfold covers, authz_match, side_pred. cbn [side fst snd].
  rewrite !andb_true_iff, String.eqb_eq. tauto.
Qed.

Lemma more_specific_asym i j : more_specific i j -> more_specific j i -> False.
Proof. unfold more_specific. lia. Qed.

Lemma decision_unique all peer sns s dns d o o' :
  (forall i j, In i all -> In j all -> key5 i = key5 j -> i = j) ->
  decided all peer sns s dns d o -> decided all peer sns s dns d o' -> o = o'.
Proof.
  intros Hk. destruct o as [i|], o' as [i'|]; cbn [decided]; try reflexivity.
  - intros (Hi & Ci & Mi) (Hi' & Ci' & Mi').
    destruct (list_eq_dec string_dec (key5 i) (key5 i')) as [E|E].
    + f_equal. apply Hk; assumption.
    + exfalso. assert (i <> i') by (intros ->; apply E; reflexivity).
      apply (more_specific_asym i i'); [apply Mi|apply Mi']; auto.
  - intros (Hi & Ci & _) H. rewrite (H _ Hi) in Ci. discriminate.
  - intros H (Hi & Ci & _). rewrite (H _ Hi) in Ci. discriminate.
Qed.

Section View.
  Variable all : list ixn.
  Hypothesis all_wf : forall i, In i all -> wf i.
  Hypothesis all_key : forall i j, In i all -> In j all -> key5 i = key5 j -> i = j.

  Local Notation decided := (Spec.decided all).

  Lemma decided_unique peer sns s dns d o o' :
    decided peer sns s dns d o -> decided peer sns s dns d o' -> o = o'.
  Proof using all_wf all_key. exact (decision_unique all peer sns s dns d o o' all_key). Qed.

  Lemma covers_same_prec peer sns s dns d i j :
    In i all -> In j all ->
    covers peer sns s dns d i = true -> covers peer sns s dns d j = true ->
    i_prec i = i_prec j -> i = j.
  Proof.
    intros Hi Hj Ci Cj Hp. apply all_key; try assumption.
    destruct (prec_eq_specific i j (all_wf _ Hi) (all_wf _ Hj) Hp) as [Hd Hs].
    apply covers_iff in Ci as (Pi & Si & Di), Cj as (Pj & Sj & Dj).
    apply andb_true_iff in Si as [Si1 Si2], Di as [Di1 Di2], Sj as [Sj1 Sj2], Dj as [Dj1 Dj2].
    destruct (all_wf _ Hi) as (Wsi & Wdi & _). destruct (all_wf _ Hj) as (Wsj & Wdj & _).
    destruct (side_same _ _ _ _ _ _ Wsi Wsj Si1 Si2 Sj1 Sj2 Hs) as [E1 E2].
    destruct (side_same _ _ _ _ _ _ Wdi Wdj Di1 Di2 Dj1 Dj2 Hd) as [E3 E4].
    unfold key5. congruence.
  Qed.

  (* The first element of a sorted list of candidates that passes the decision-side test is the most
     specific covering intention, provided the candidates passing the test are exactly the covering ones. *)
  Lemma route_generic (l : list ixn) (P : ixn -> bool) peer sns s dns d :
    isorted l ->
    (forall j, In j l /\ P j = true <-> In j all /\ covers peer sns s dns d j = true) ->
    decided peer sns s dns d (find P l).
  Proof.
    intros Hs H. destruct (find P l) as [i|] eqn:F; cbn [decided].
    - destruct (find_sorted_first ileb ileb_total P l i Hs F) as (Hi & Pi & Hfirst).
      destruct (proj1 (H i) (conj Hi Pi)) as [Hia Ci]. split; [exact Hia|]. split; [exact Ci|].
      intros j Hj Cj Hne. destruct (proj2 (H j) (conj Hj Cj)) as [Hjl Pj].
      pose proof (ileb_prec _ _ (Hfirst _ Hjl Pj)) as Hle.
      apply prec_lt_specific; try (apply all_wf; assumption).
      destruct (N.eq_dec (i_prec j) (i_prec i)) as [E|E]; [|lia].
      exfalso. apply Hne. eapply covers_same_prec; eauto.
    - intros j Hj. destruct (covers peer sns s dns d j) eqn:C; [|reflexivity].
      destruct (proj2 (H j) (conj Hj C)) as [Hjl Pj]. rewrite (find_none P l F _ Hjl) in Pj. discriminate.
  Qed.

  (* Route 1 (match by source, decide on the destination).  The candidate list may contain peered
     intentions, but only next to a local twin with the same names, which sorts first: so the first
     candidate passing the destination test is local. *)
  Lemma route1_generic (l : list ixn) sns s dns d :
    isorted l ->
    (forall j, In j l ->
       In j all /\ authz_match MSrc s sns (i_peer j) j = true /\
       exists j', In j' l /\ i_peer j' = "" /\ i_sns j' = i_sns j /\ i_sname j' = i_sname j /\
                  i_dns j' = i_dns j /\ i_dname j' = i_dname j) ->
    (forall j, In j all -> covers "" sns s dns d j = true -> In j l) ->
    decided "" sns s dns d (find (authz_match MDst d dns "") l).
  Proof.
    intros Hs H1 H2.
    rewrite (find_refine_sorted ileb ileb_total _ (fun j => String.eqb (i_peer j) "") l Hs).
    - apply route_generic; [exact Hs|]. intros j. rewrite andb_true_iff, String.eqb_eq. split.
      + intros (Hj & Pj & Ej). destruct (H1 _ Hj) as (Hja & Sj & _). split; [exact Hja|].
        unfold covers. rewrite <- Ej at 1. rewrite Sj. exact Pj.
      + intros [Hj Cj]. split; [apply H2; assumption|].
        apply covers_iff in Cj as (-> & _ & Dj). split; [exact Dj|reflexivity].
    - intros i Hi Pi Ei. destruct (H1 _ Hi) as (Hia & _ & j' & Hj' & Pe & E1 & E2 & E3 & E4).
      destruct (H1 _ Hj') as (Hja & _).
      exists j'. split; [exact Hj'|]. split.
      + unfold authz_match in *. rewrite E3, E4. exact Pi.
      + apply ileb_peer_first; [|apply String.eqb_neq; exact Ei|exact Pe].
        destruct (all_wf _ Hia) as (_ & _ & ->). destruct (all_wf _ Hja) as (_ & _ & ->).
        rewrite E1, E2, E3, E4. reflexivity.
  Qed.

  Lemma routes_agree mdst msrc peer sns s dns d da ap :
    decided peer sns s dns d (find (authz_match MSrc s sns peer) mdst) ->
    (peer = "" -> decided "" sns s dns d (find (authz_match MDst d dns "") msrc)) ->
    exists o, decided peer sns s dns d o /\
      decide mdst MSrc s sns peer da ap = summary_of o da ap /\
      (peer = "" -> decide msrc MDst d dns "" da ap = summary_of o da ap).
  Proof.
    intros R2 R1. exists (find (authz_match MSrc s sns peer) mdst).
    split; [exact R2|]. split; [reflexivity|].
    intros ->. rewrite decide_eq. f_equal. exact (decision_unique all _ _ _ _ _ _ _ all_key (R1 eq_refl) R2).
  Qed.
End View.

Lemma nodup_map_weaken {A B C} (f : A -> B) (g : A -> C) (l : list A) :
  (forall x y, g x = g y -> f x = f y) -> NoDup (map f l) -> NoDup (map g l).
Proof.
  intros H. induction l as [|x l IH]; cbn [map]; intros Hn; [constructor|].
  inversion Hn as [|? ? Hnotin Hn']; subst. constructor; [|apply IH; exact Hn'].
  intros Hin. apply Hnotin. apply in_map_iff in Hin as (y & Hy & Hyl).
  apply in_map_iff. exists y. split; [apply H; exact Hy|exact Hyl].
Qed.
