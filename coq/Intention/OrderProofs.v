(* Facts about the comparison of IntentionPrecedenceSorter and about sorting with it:
   the order is total and transitive, ties only between intentions with the same precedence and
   the same (peer, names) key; insertion sort returns THE sorted permutation, so any sorting
   algorithm (Go's sort.Sort) and any order of the input give the same list. *)
From Coq Require Import Sorting.Permutation Sorting.Sorted.
From Verif Require Import Base.Prelude.
From Verif Require Import Base.Lists.
From Verif Require Import Base.Sorting.
From Verif Require Import Intention.Model.

Section Lex.
  Context {A : Type} (cmp : A -> A -> comparison).
  Hypothesis cmp_refl : forall x, cmp x x = Eq.
  Hypothesis cmp_eq : forall x y, cmp x y = Eq -> x = y.
  Hypothesis cmp_antisym : forall x y, cmp x y = CompOpp (cmp y x).
  Hypothesis cmp_trans : forall x y z, cmp x y = Lt -> cmp y z = Lt -> cmp x z = Lt.

  Lemma lex_refl a : lex cmp a a = Eq.
  Proof. induction a as [|x a IH]; cbn [lex]; [reflexivity|]. rewrite cmp_refl. exact IH. Qed.

  Lemma lex_eq a : forall b, lex cmp a b = Eq -> a = b.
  Proof.
    induction a as [|x a IH]; intros [|y b]; cbn [lex]; try discriminate; [reflexivity|].
    destruct (cmp x y) eqn:E; try discriminate.
    intros H. apply cmp_eq in E. apply IH in H. congruence.
  Qed.

  Lemma lex_antisym a : forall b, lex cmp a b = CompOpp (lex cmp b a).
  Proof.
    induction a as [|x a IH]; intros [|y b]; cbn [lex]; try reflexivity.
    rewrite (cmp_antisym x y). destruct (cmp y x); cbn [CompOpp]; try reflexivity. apply IH.
  Qed.

  Lemma lex_trans a : forall b c, lex cmp a b = Lt -> lex cmp b c = Lt -> lex cmp a c = Lt.
  Proof.
    induction a as [|x a IH]; intros [|y b] [|z c]; cbn [lex]; try discriminate; try reflexivity.
    destruct (cmp x y) eqn:Exy; try discriminate.
    - apply cmp_eq in Exy; subst y.
      destruct (cmp x z) eqn:Exz; try discriminate; try reflexivity. apply IH.
    - intros _. destruct (cmp y z) eqn:Eyz; try discriminate.
      + apply cmp_eq in Eyz; subst z. rewrite Exy. reflexivity.
      + rewrite (cmp_trans _ _ _ Exy Eyz). reflexivity.
  Qed.
End Lex.

Lemma ncmp_trans x y z : N.compare x y = Lt -> N.compare y z = Lt -> N.compare x z = Lt.
Proof. rewrite !N.compare_lt_iff. apply N.lt_trans. Qed.

Lemma scmp_refl x : scmp x x = Eq.
Proof. apply lex_refl, N.compare_refl. Qed.
Lemma scmp_eq x y : scmp x y = Eq -> x = y.
Proof. intros H. apply bytes_of_string_inj. exact (lex_eq _ N.compare_eq _ _ H). Qed.
Lemma scmp_antisym x y : scmp x y = CompOpp (scmp y x).
Proof. apply lex_antisym. intros a b. apply N.compare_antisym. Qed.
Lemma scmp_trans x y z : scmp x y = Lt -> scmp y z = Lt -> scmp x z = Lt.
Proof. apply (lex_trans _ N.compare_eq ncmp_trans). Qed.

Lemma scmp_empty x : x <> EmptyString -> scmp x EmptyString = Gt.
Proof. destruct x; [congruence|reflexivity]. Qed.

Definition kcmp := lex scmp.
Lemma kcmp_refl x : kcmp x x = Eq. Proof. apply lex_refl, scmp_refl. Qed.
Lemma kcmp_eq x y : kcmp x y = Eq -> x = y. Proof. apply lex_eq, scmp_eq. Qed.
Lemma kcmp_antisym x y : kcmp x y = CompOpp (kcmp y x). Proof. apply lex_antisym, scmp_antisym. Qed.
Lemma kcmp_trans x y z : kcmp x y = Lt -> kcmp y z = Lt -> kcmp x z = Lt.
Proof. apply (lex_trans _ scmp_eq scmp_trans). Qed.

Lemma icmp_refl i : icmp i i = Eq.
Proof. unfold icmp. rewrite N.compare_refl. apply kcmp_refl. Qed.

Lemma icmp_eq i j : icmp i j = Eq -> i_prec i = i_prec j /\ key5 i = key5 j.
Proof.
  unfold icmp. destruct (N.compare (i_prec j) (i_prec i)) eqn:E; try discriminate.
  intros H. apply N.compare_eq in E. apply kcmp_eq in H. split; congruence.
Qed.

Lemma icmp_good : good_cmp icmp.
Proof.
  apply (good_lex _ (fun i j => kcmp (key5 i) (key5 j)) (good_N_desc i_prec)).
  split; intros a b; [apply kcmp_antisym|intros d; apply kcmp_trans|].
  intros d E. apply kcmp_eq in E. rewrite E. reflexivity.
Qed.

Lemma icmp_antisym i j : icmp i j = CompOpp (icmp j i).
Proof. apply (gc_antisym icmp icmp_good). Qed.

Lemma ileb_total i j : ileb i j = true \/ ileb j i = true.
Proof. apply (leb_of_cmp_total icmp icmp_good). Qed.

Lemma ileb_refl i : ileb i i = true.
Proof. unfold ileb. rewrite icmp_refl. reflexivity. Qed.

Lemma ileb_trans i j k : ileb i j = true -> ileb j k = true -> ileb i k = true.
Proof. apply (leb_of_cmp_trans icmp icmp_good). Qed.

Lemma ileb_antisym i j : ileb i j = true -> ileb j i = true -> i_prec i = i_prec j /\ key5 i = key5 j.
Proof.
  unfold ileb. rewrite (icmp_antisym j i). destruct (icmp i j) eqn:E; cbn; try discriminate.
  intros _ _. apply icmp_eq; assumption.
Qed.

Lemma ileb_prec i j : ileb i j = true -> (i_prec j <= i_prec i)%N.
Proof.
  unfold ileb, icmp. destruct (N.compare (i_prec j) (i_prec i)) eqn:E; try discriminate; intros _.
  - apply N.compare_eq in E. lia.
  - rewrite N.compare_lt_iff in E. lia.
Qed.

Lemma ileb_peer_first i j :
  i_prec i = i_prec j -> i_peer i <> EmptyString -> i_peer j = EmptyString -> ileb i j = false.
Proof.
  intros Hp Hi Hj. unfold ileb, icmp. rewrite Hp, N.compare_refl.
  unfold key5. rewrite Hj. cbn [lex]. rewrite (scmp_empty _ Hi). reflexivity.
Qed.

Section Find.
  Context {A : Type} (leb : A -> A -> bool).
  Hypothesis leb_total : forall x y, leb x y = true \/ leb y x = true.
  Let R x y := leb x y = true.

  Lemma find_sorted_first (P : A -> bool) l i :
    StronglySorted R l -> find P l = Some i ->
    In i l /\ P i = true /\ forall j, In j l -> P j = true -> leb i j = true.
  Proof.
    induction l as [|y l IH]; cbn [find]; [discriminate|].
    intros Hs. inversion Hs as [|? ? Hs' Hf]; subst.
    destruct (P y) eqn:E.
    - intros [= <-]. split; [left; reflexivity|]. split; [exact E|].
      intros j [<-|Hj] _.
      + destruct (leb_total y y); assumption.
      + rewrite Forall_forall in Hf. apply Hf; exact Hj.
    - intros H. destruct (IH Hs' H) as (Hi & HP & Hall). split; [right; exact Hi|]. split; [exact HP|].
      intros j [<-|Hj] Pj; [congruence|]. apply Hall; assumption.
  Qed.

  (* if every hit of P that fails Q has a hit of P strictly before it, the first hit of P passes Q *)
  Lemma find_refine_sorted (P Q : A -> bool) l :
    StronglySorted R l ->
    (forall i, In i l -> P i = true -> Q i = false -> exists j, In j l /\ P j = true /\ leb i j = false) ->
    find P l = find (fun j => P j && Q j)%bool l.
  Proof.
    induction l as [|a l IH]; cbn [find]; intros Hs H; [reflexivity|].
    inversion Hs as [|? ? Hs' Hf]; subst. rewrite Forall_forall in Hf.
    destruct (P a) eqn:Pa; cbn [andb].
    - destruct (Q a) eqn:Qa; [reflexivity|exfalso].
      destruct (H a (or_introl eq_refl) Pa Qa) as (j & [<-|Hj] & _ & Hlt).
      + destruct (leb_total a a); congruence.
      + rewrite (Hf j Hj) in Hlt. discriminate.
    - apply IH; [exact Hs'|]. intros i Hi Pi Qi.
      destruct (H i (or_intror Hi) Pi Qi) as (j & [<-|Hj] & Pj & Hlt); [congruence|eauto].
  Qed.
End Find.

Lemma isort_isort {A} (leb : A -> A -> bool) : insertion_sort leb (insert leb) (isort leb).
Proof. split; reflexivity. Qed.

Definition isorted (l : list ixn) : Prop := StronglySorted (fun a b => ileb a b = true) l.

Lemma sort_ixns_sorted l : isorted (sort_ixns l).
Proof.
  apply (isort_sorted (isort_isort ileb)); [exact ileb_trans|auto|exact (total_leb_false _ ileb_total)].
Qed.

Lemma sort_ixns_perm l : Permutation (sort_ixns l) l.
Proof. apply (isort_perm (isort_isort ileb)). Qed.

Lemma sort_ixns_in l i : In i (sort_ixns l) <-> In i l.
Proof. rewrite sort_ixns_perm. reflexivity. Qed.

Lemma isorted_perm_eq l1 l2 :
  isorted l1 -> isorted l2 -> Permutation l1 l2 ->
  (forall x y, In x l1 -> In y l1 -> key5 x = key5 y -> x = y) -> l1 = l2.
Proof.
  intros S1 S2 Hp Hk. apply (sorted_perm_unique _ l1 l2 S1 S2 Hp).
  intros x y Hx Hy H1 H2. apply Hk; try assumption. apply (ileb_antisym _ _ H1 H2).
Qed.

Lemma sort_ixns_perm_eq l1 l2 :
  Permutation l1 l2 ->
  (forall x y, In x l1 -> In y l1 -> key5 x = key5 y -> x = y) ->
  sort_ixns l1 = sort_ixns l2.
Proof.
  intros Hp Hk. apply isorted_perm_eq; try apply sort_ixns_sorted.
  - rewrite !sort_ixns_perm. exact Hp.
  - intros x y Hx Hy. apply Hk; apply sort_ixns_in; assumption.
Qed.
