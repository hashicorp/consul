(* List facts that only the intention proofs need (the shared ones are in Base/Lists.v): filters
   and flat_maps up to permutation. *)
From Coq Require Import Sorting.Permutation.
From Verif Require Import Base.Prelude.
From Verif Require Import Base.Lists.

Lemma filter_flat_map {A B} (P : B -> bool) (f : A -> list B) l :
  filter P (flat_map f l) = flat_map (fun x => filter P (f x)) l.
Proof.
  induction l as [|a l IH]; cbn [flat_map filter]; [reflexivity|]. rewrite filter_app, IH. reflexivity.
Qed.

Lemma filter_map_comm {A B} (P : B -> bool) (f : A -> B) l :
  filter P (map f l) = map f (filter (fun x => P (f x)) l).
Proof.
  induction l as [|a l IH]; cbn [map filter]; [reflexivity|]. destruct (P (f a)); cbn [map]; rewrite IH; reflexivity.
Qed.

Lemma fold_left_map {A B C} (f : A -> B -> A) (g : C -> B) l : forall a,
  fold_left f (map g l) a = fold_left (fun a x => f a (g x)) l a.
Proof. induction l as [|x l IH]; intros a; cbn [map fold_left]; [reflexivity|apply IH]. Qed.

Lemma forallb_filter {A} (f P : A -> bool) l : forallb f l = true -> forallb f (filter P l) = true.
Proof.
  rewrite !forallb_forall. intros H x Hx. apply filter_In in Hx as [Hx _]. apply H; exact Hx.
Qed.

Lemma perm_filter_in {A} (P : A -> bool) l t x :
  Permutation l (filter P t) -> (In x l <-> In x t /\ P x = true).
Proof.
  intros Hp. rewrite <- filter_In.
  split; apply Permutation_in; [exact Hp|symmetry; exact Hp].
Qed.

Lemma filter_or_perm {A} (a b : A -> bool) (t : list A) :
  (forall x, In x t -> a x = true -> b x = true -> False) ->
  Permutation (filter (fun x => a x || b x)%bool t) (filter a t ++ filter b t).
Proof.
  induction t as [|x t IH]; intros Hd; cbn [filter]; [reflexivity|].
  assert (Permutation (filter (fun x => a x || b x)%bool t) (filter a t ++ filter b t)) as IH'.
  { apply IH. intros y Hy. apply Hd. right; exact Hy. }
  destruct (a x) eqn:Ea, (b x) eqn:Eb; cbn [orb app].
  - exfalso. apply (Hd x (or_introl eq_refl) Ea Eb).
  - constructor. exact IH'.
  - rewrite IH'. apply Permutation_middle.
  - exact IH'.
Qed.

Lemma flat_map_filter_perm {A P} (f : P -> A -> bool) (ps : list P) (t : list A) :
  NoDup ps ->
  (forall x p q, In x t -> In p ps -> In q ps -> f p x = true -> f q x = true -> p = q) ->
  Permutation (flat_map (fun p => filter (f p) t) ps) (filter (fun x => existsb (fun p => f p x) ps) t).
Proof.
  induction ps as [|p ps IH]; intros Hnd Hdis; cbn [flat_map existsb].
  - rewrite filter_const. reflexivity.
  - inversion Hnd as [|? ? Hnotin Hnd']; subst.
    rewrite (filter_or_perm (f p) (fun x => existsb (fun q => f q x) ps)).
    + apply Permutation_app_head. apply IH; [exact Hnd'|].
      intros x a b Hx Ha Hb. apply Hdis; try assumption; right; assumption.
    + intros x Hx Fp Fe. apply existsb_exists in Fe as (q & Hq & Fq).
      assert (p = q) by (apply (Hdis x); try assumption; [left; reflexivity|right; assumption]).
      subst. contradiction.
Qed.

Lemma nodup_app_r {A} (l l' : list A) : NoDup (l ++ l') -> NoDup l'.
Proof. induction l as [|a l IH]; cbn [app]; intros H; [exact H|]. inversion H; subst. auto. Qed.
