(* C13: the concrete witnesses for the places where the faithful model (and the code) falls short, and
   the stores and write lists that show the hypotheses of the theorems can be met.  What is claimed
   of each is stated and proved in Properties/C13.v. *)
From Verif Require Import Base.Prelude.
From Verif Require Import Intention.Model.
From Verif Require Import Intention.Spec.
Local Open Scope string_scope.
Local Open Scope list_scope.

(* (1) Names that differ only in case.  The config-entry table (and the legacy indexes) fold case,
   authz.go does not: the entry "DB" answers a destination query for "db". *)
Definition cf_store : list entry := snd (ensure [] (Entry "DB" [Src "" "web" Allow 0 0])).

(* the same for legacy rows *)
Definition cf_table : list ixn :=
  snd (legacy_set [] (Ixn "00000000-0000-4000-8000-000000000001" "" dflt "web" dflt "DB" Allow 0 0)).

(* ... and the first writer fixes the spelling of the entry name, so two upserts whose destinations
   differ only in case do not commute *)
Definition cf_w1 : string * src := ("db", Src "" "web" Allow 0 0).
Definition cf_w2 : string * src := ("DB", Src "" "api" Allow 0 0).

(* (2) A local and a peered source with the same service name in one entry.  UpsertSourceByName looks at
   the name only: whether the later upsert of the LOCAL source is accepted depends on which of the two was
   stored first; and the match-by-source list of the local service "web" contains the peered intention. *)
Definition so_peer : src := Src "p" "web" Deny 0 0.
Definition so_local : src := Src "" "web" Allow 0 0.
Definition so_st1 : list entry := snd (ensure [] (Entry "db" [so_peer; so_local])).
Definition so_st2 : list entry := snd (ensure [] (Entry "db" [so_local; so_peer])).
Definition so_w : string * src := ("db", Src "" "web" Deny 0 0).

(* a store and a list of legacy writes that meet the hypotheses of the theorems, with non-trivial decisions *)

Definition ex_store : list entry :=
  upsert_all [] [("db", Src "" "web" Allow 0 0); ("db", Src "" "*" Deny 0 0);
                 ("*", Src "" "web" Deny 0 0); ("api", Src "" "web" NoAct 2 0)].

Definition ex_writes : list ixn :=
  [Ixn "00000000-0000-4000-8000-000000000001" "" dflt "web" dflt "db" Allow 0 0;
   Ixn "00000000-0000-4000-8000-000000000002" "" dflt "*" dflt "db" Deny 0 0;
   Ixn "00000000-0000-4000-8000-000000000003" "" "*" "*" "*" "*" Deny 0 0].
