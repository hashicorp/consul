(* Writes to the config-entry table: what one ConfigEntry.Apply (Normalize, Validate, put) and one
   IntentionMutation upsert do to the stored intentions, in closed form. *)
From Coq Require Import Sorting.Permutation.
From Verif Require Import Base.Prelude.
From Verif Require Import Intention.Model.
From Verif Require Import Intention.Spec.
From Verif Require Import Base.Lists.
From Verif Require Import Base.Sorting.
From Verif Require Import Intention.Lists.
From Verif Require Import Intention.OrderProofs.
From Verif Require Import Intention.Proofs.
From Verif Require Import Intention.Config.
Local Open Scope string_scope.
Local Open Scope list_scope.

Lemma normalize_srcs_perm e :
  Permutation (e_srcs (normalize e)) (map (src_set_prec (e_name e)) (e_srcs e)).
Proof. unfold normalize. cbn [e_srcs]. apply (isort_perm (isort_isort _)). Qed.

Lemma src_set_prec_id en s : src_ok en s -> src_set_prec en s = s.
Proof. unfold src_ok, src_set_prec. destruct s; cbn. intros ->. reflexivity. Qed.

(* the entry passes Normalize + Validate *)
Definition entry_valid (e : entry) : bool := match validate (normalize e) with None => true | Some _ => false end.

Lemma entry_valid_spec e :
  entry_valid e = true <->
  ename_valid (e_name e) = true /\ e_srcs e <> [] /\
  forallb (src_valid (is_wild (e_name e))) (e_srcs e) = true /\ NoDup (map skey (e_srcs e)).
Proof.
  assert (entry_valid e = true <-> validate (normalize e) = None) as ->
    by (unfold entry_valid; destruct (validate (normalize e)); split; congruence).
  rewrite validate_none. cbn [normalize e_name].
  pose proof (normalize_srcs_perm e) as Hp.
  rewrite (forallb_same_members _ _ _ (Permutation_same_members _ _ Hp)).
  assert (forallb (src_valid (is_wild (e_name e))) (map (src_set_prec (e_name e)) (e_srcs e))
          = forallb (src_valid (is_wild (e_name e))) (e_srcs e)) as ->.
  { clear Hp. induction (e_srcs e) as [|a l IH]; cbn [map forallb]; [reflexivity|].
    rewrite IH, src_valid_set_prec. reflexivity. }
  assert (Permutation (map skey (e_srcs (normalize e))) (map skey (e_srcs e))) as Hk.
  { rewrite Hp, map_map. reflexivity. }
  split; intros (A & B & C & D); repeat split; try assumption.
  - intros E. rewrite E in Hp. apply Permutation_sym, Permutation_nil in Hp. exact (B Hp).
  - eapply Permutation_NoDup; [exact Hk|exact D].
  - intros E. rewrite E in Hp. apply Permutation_nil in Hp.
    destruct (e_srcs e); [apply B; reflexivity|discriminate].
  - eapply Permutation_NoDup; [symmetry; exact Hk|exact D].
Qed.

Lemma entry_ok_normalize e : entry_valid e = true -> entry_ok (normalize e).
Proof.
  unfold entry_valid. intros H. split; [destruct (validate (normalize e)); [discriminate|reflexivity]|].
  intros s Hs. apply (Permutation_in _ (normalize_srcs_perm e)) in Hs.
  apply in_map_iff in Hs as (x & <- & _). reflexivity.
Qed.

Lemma put_perm e st :
  NoDup (map lname st) ->
  Permutation (put e st) (filter (fun x => negb (name_eqb (e_name x) (e_name e))) st ++ [e]).
Proof.
  induction st as [|y r IH]; cbn [put map filter]; intros Hn; [reflexivity|].
  inversion Hn as [|? ? Hnotin Hn']; subst.
  destruct (name_eqb (e_name y) (e_name e)) eqn:E; cbn [negb app].
  - rewrite filter_all; [apply Permutation_cons_append|].
    intros x Hx. rewrite (name_eqb_unique y r _ x Hnotin E Hx). reflexivity.
  - constructor. apply IH. exact Hn'.
Qed.

Lemma put_in e st x : In x (put e st) -> x = e \/ In x st.
Proof.
  induction st as [|y r IH]; cbn [put]; [intros [<-|[]]; auto|].
  destruct (name_eqb (e_name y) (e_name e)); intros [<-|H]; cbn [In]; auto.
  destruct (IH H); auto.
Qed.

Lemma put_nodup e st : NoDup (map lname st) -> NoDup (map lname (put e st)).
Proof.
  induction st as [|y r IH]; cbn [put map]; intros Hn; [repeat constructor; intros []|].
  inversion Hn as [|? ? Hnotin Hn']; subst.
  unfold name_eqb at 1. destruct (String.eqb_spec (lower (e_name y)) (lower (e_name e))) as [E|E]; cbn [map].
  - constructor; [|exact Hn']. unfold lname at 1. rewrite <- E. exact Hnotin.
  - constructor; [|apply IH; exact Hn']. intros Hin. apply in_map_iff in Hin as (x & Ex & Hx).
    apply put_in in Hx as [->|Hx]; [apply E; symmetry; exact Ex|].
    apply Hnotin. rewrite <- Ex. apply (in_map lname). exact Hx.
Qed.

(* ConfigEntry.Apply of one entry *)
Lemma ensure_step st e :
  store_ok st ->
  let st' := snd (ensure st e) in
  (entry_valid e = false -> st' = st) /\
  (entry_valid e = true ->
     store_ok st' /\ (forall x, In x st' -> x = normalize e \/ In x st) /\
     incl (enames st') (e_name e :: enames st) /\
     Permutation (call st') (filter (fun j => negb (name_eqb (i_dname j) (e_name e))) (call st)
                             ++ to_ixns (normalize e))).
Proof.
  intros [Hnd Hok]. pose proof (entry_ok_normalize e) as Hne. unfold ensure, entry_valid in *.
  destruct (validate (normalize e)); cbn [snd]; (split; [try reflexivity; discriminate|]); [discriminate|].
  intros _. split; [|split; [|split]].
  - split; [apply put_nodup; exact Hnd|].
    intros x Hx. apply put_in in Hx as [->|Hx]; [apply Hne; reflexivity|apply Hok; exact Hx].
  - intros x. apply put_in.
  - intros n Hn. apply in_map_iff in Hn as (x & <- & Hx). apply put_in in Hx as [->|Hx]; [left; reflexivity|].
    right. apply (in_map e_name). exact Hx.
  - unfold call at 1. rewrite (put_perm _ st Hnd), flat_map_app. cbn [flat_map]. rewrite app_nil_r.
    rewrite (call_filter (fun m => negb (name_eqb m (e_name e)))). reflexivity.
Qed.

Lemma upsert_src_perm n v l :
  NoDup (map s_name l) ->
  Permutation (upsert_src n v l) (v :: filter (fun x => negb (String.eqb (s_name x) n)) l).
Proof.
  induction l as [|a l IH]; cbn [upsert_src map filter]; intros Hn; [reflexivity|].
  inversion Hn as [|? ? Hnotin Hn']; subst.
  destruct (String.eqb_spec (s_name a) n) as [E|E]; cbn [negb].
  - constructor. rewrite filter_all; [reflexivity|].
    intros x Hx. apply negb_true_iff, String.eqb_neq. intros Ex. apply Hnotin. rewrite E, <- Ex.
    apply in_map. exact Hx.
  - rewrite (IH Hn'). apply perm_swap.
Qed.

Lemma upsert_rest_fresh n (l : list src) :
  ~ In n (map s_name (filter (fun x => negb (String.eqb (s_name x) n)) l)).
Proof.
  intros H. apply in_map_iff in H as (x & Ex & Hx). apply filter_In in Hx as [_ Hx].
  apply negb_true_iff, String.eqb_neq in Hx. exact (Hx Ex).
Qed.

(* the entry an upsert hands to Apply (old = the stored sources of the destination, none if it has
   no entry yet) is valid iff the new source is *)
Lemma upsert_entry_valid dn v old :
  forallb (src_valid (is_wild dn)) old = true -> NoDup (map skey old) -> NoDup (map s_name old) ->
  entry_valid (Entry dn (upsert_src (s_name v) v old)) = wvalid dn v.
Proof.
  intros Vf Vk Vn. pose proof (upsert_src_perm (s_name v) v old Vn) as Hu.
  apply eq_iff_eq_true. rewrite entry_valid_spec. cbn [e_name e_srcs].
  rewrite (forallb_same_members _ _ _ (Permutation_same_members _ _ Hu)). cbn [forallb]. unfold wvalid. rewrite !andb_true_iff. split.
  - intros (A & _ & (B & _) & _). auto.
  - intros [A B]. split; [exact A|]. split; [|split].
    + intros E. rewrite E in Hu. apply Permutation_nil in Hu. discriminate.
    + split; [exact B|apply forallb_filter; exact Vf].
    + eapply Permutation_NoDup; [symmetry; apply Permutation_map; exact Hu|]. cbn [map].
      constructor; [|apply NoDup_map_filter; exact Vk].
      intros Hin. apply in_map_iff in Hin as (x & Ex & Hx). apply (upsert_rest_fresh (s_name v) old).
      apply in_map_iff. exists x. split; [unfold skey in Ex; congruence|exact Hx].
Qed.

Lemma upsert_entry_srcs dn v old :
  NoDup (map s_name old) -> (forall x, In x old -> src_ok dn x) ->
  Permutation (e_srcs (normalize (Entry dn (upsert_src (s_name v) v old))))
              (src_set_prec dn v :: filter (fun x => negb (String.eqb (s_name x) (s_name v))) old).
Proof.
  intros Vn Sp. rewrite normalize_srcs_perm. cbn [e_name e_srcs].
  rewrite (upsert_src_perm (s_name v) v old Vn). cbn [map]. constructor.
  rewrite (map_ext_in _ (fun x => x)); [rewrite map_id; reflexivity|].
  intros x Hx. apply src_set_prec_id, Sp. apply filter_In in Hx. tauto.
Qed.

Lemma over_split dn v j :
  negb (over dn v j) =
  (negb (name_eqb (i_dname j) dn) || (name_eqb (i_dname j) dn && negb (String.eqb (i_sname j) (s_name v))))%bool.
Proof. unfold over. destruct (name_eqb (i_dname j) dn), (String.eqb (i_sname j) (s_name v)); reflexivity. Qed.

(* One upsert.  The entry it goes into (if the destination has one) must be spelled like the request
   and hold no two sources with the same service name: UpsertSourceByName replaces the first source
   with that NAME. *)
Lemma upsert_step st dn v :
  store_ok st ->
  (forall p, In p st -> lname p = lower dn -> e_name p = dn /\ NoDup (map s_name (e_srcs p))) ->
  let st' := snd (upsert st dn v) in
  (wvalid dn v = false -> st' = st) /\
  (wvalid dn v = true ->
     store_ok st' /\
     (forall x, In x st' -> In x st \/ (lname x = lower dn /\ NoDup (map s_name (e_srcs x)))) /\
     incl (enames st') (dn :: enames st) /\
     Permutation (call st') (filter (fun j => negb (over dn v j)) (call st) ++ [wixn dn v])).
Proof.
  intros Hst Hp. pose proof Hst as [Hnd Hok].
  (* the stored sources of the destination, none if it has no entry: everything below is about [old],
     the two outcomes of the lookup only matter for establishing what is known of it *)
  set (old := match lookup st dn with Some p => e_srcs p | None => [] end).
  assert (upsert st dn v = ensure st (Entry dn (upsert_src (s_name v) v old))
          /\ filter (fun j => name_eqb (i_dname j) dn) (call st) = map (to_ixn (Entry dn [])) old
          /\ forallb (src_valid (is_wild dn)) old = true /\ NoDup (map skey old) /\ NoDup (map s_name old)
          /\ (forall x, In x old -> src_ok dn x)) as (-> & Hsel & Vf & Vk & Vn & Sp).
  { rewrite (call_lookup st dn Hnd). unfold upsert, old. destruct (lookup st dn) as [p|] eqn:L.
    - apply lookup_some in L as [Hin El]. destruct (Hp p Hin El) as [En Hn]. destruct (Hok p Hin) as [Vp Sp].
      apply validate_none in Vp as (_ & _ & Vf & Vk). rewrite En in *. repeat split; try assumption.
      apply map_ext. intros x. unfold to_ixn. rewrite En. reflexivity.
    - repeat split; try constructor. intros x []. }
  set (rest := filter (fun x => negb (String.eqb (s_name x) (s_name v))) old).
  pose proof (upsert_entry_srcs dn v old Vn Sp) as Hs. fold rest in Hs.
  destruct (ensure_step st (Entry dn (upsert_src (s_name v) v old)) Hst) as [Hbad Hgood].
  rewrite (upsert_entry_valid dn v old Vf Vk Vn) in Hbad, Hgood.
  split; [exact Hbad|]. intros V. destruct (Hgood V) as (A & B & C & D).
  split; [exact A|]. split; [|split; [exact C|]].
  - intros x Hx. destruct (B x Hx) as [->|Hx']; [right|left; exact Hx']. split; [reflexivity|].
    eapply Permutation_NoDup; [symmetry; apply Permutation_map; exact Hs|]. cbn [map].
    constructor; [apply upsert_rest_fresh|apply NoDup_map_filter; exact Vn].
  - rewrite D. cbn [e_name]. unfold to_ixns.
    change (to_ixn (normalize (Entry dn (upsert_src (s_name v) v old)))) with (to_ixn (Entry dn [])).
    rewrite Hs. cbn [map]. fold (wixn dn v).
    erewrite (filter_ext (fun j => negb (over dn v j))); [|intros j; apply over_split].
    rewrite filter_or_perm.
    + rewrite <- filter_filter, Hsel, filter_map_comm. cbn [to_ixn i_sname]. fold rest.
      rewrite <- app_assoc. apply Permutation_app_head. apply Permutation_cons_append.
    + intros x _ X Y. apply andb_true_iff in Y as [Y _]. rewrite Y in X. discriminate.
Qed.

Lemma enames_of_call st1 st2 :
  store_ok st2 -> Permutation (call st1) (call st2) -> incl (enames st2) (enames st1).
Proof.
  intros [_ Hok] Hp n Hn. unfold enames in Hn. apply in_map_iff in Hn as (e & <- & He).
  destruct (Hok e He) as [Hv _]. apply validate_none in Hv as (_ & Hne & _).
  destruct (e_srcs e) as [|s l] eqn:E; [congruence|].
  assert (In (to_ixn e s) (call st2)) as Hi by (apply in_call; exists e, s; rewrite E; cbn; auto).
  apply (Permutation_in _ (Permutation_sym Hp)), call_dname in Hi. exact Hi.
Qed.
