(* C13, the legacy table: the case-folding index lookups return the rows whose pattern covers the
   query, both routes decide by the most specific covering row, and what is read depends only on the
   set of rows, so fresh writes commute. *)
From Coq Require Import Sorting.Permutation.
From Verif Require Import Base.Prelude.
From Verif Require Import Intention.Model.
From Verif Require Import Intention.Spec.
From Verif Require Import Base.Lists.
From Verif Require Import Intention.Lists.
From Verif Require Import Intention.OrderProofs.
From Verif Require Import Intention.Proofs.
Local Open Scope string_scope.
Local Open Scope list_scope.

Lemma key5_key4_eqb i j : key5 i = key5 j -> key4_eqb i j = true.
Proof.
  unfold key5, key4_eqb. intros [= _ -> -> -> ->]. rewrite !String.eqb_refl. reflexivity.
Qed.

Lemma legacy_all_key t : key4_unique t -> forall i j, In i t -> In j t -> key5 i = key5 j -> i = j.
Proof. intros H i j Hi Hj E. apply H; try assumption. apply key5_key4_eqb; exact E. Qed.

Lemma idx_eq_side mt p i :
  idx_eq mt p i = true <-> lower (fst (side mt i)) = lower (fst p) /\ lower (snd (side mt i)) = lower (snd p).
Proof. destruct mt; cbn [idx_eq side fst snd]; rewrite andb_true_iff, !String.eqb_eq; tauto. Qed.

(* intentionMatchGetParams lists exactly the well-formed patterns that cover (ns, n) *)
Lemma in_match_params a b ns n :
  In (a, b) (match_params ns n) <->
  wild_or_eq a ns = true /\ wild_or_eq b n = true /\ (is_wild a = true -> is_wild b = true).
Proof.
  rewrite !wild_or_eq_true, !is_wild_true. unfold match_params, is_wild.
  destruct (String.eqb_spec ns wild) as [A|A]; [|destruct (String.eqb_spec n wild) as [B|B]];
    cbn [In]; rewrite !pair_equal_spec;
    destruct (string_dec a wild); intuition congruence.
Qed.

Lemma match_params_nodup ns n : NoDup (match_params ns n).
Proof.
  unfold match_params. destruct (is_wild ns) eqn:A; [|destruct (is_wild n) eqn:B];
    repeat constructor; cbn [In]; try tauto;
    try apply is_wild_false in A; try apply is_wild_false in B; intuition congruence.
Qed.

Lemma match_params_fold a b ns n p :
  coherent [a; b; ns; n] -> In p (match_params ns n) ->
  lower a = lower (fst p) -> lower b = lower (snd p) -> p = (a, b).
Proof.
  intros C Hp Ea Eb. destruct p as [x y]. cbn [fst snd] in *.
  apply in_match_params in Hp as (Hx & Hy & _). apply wild_or_eq_true in Hx, Hy.
  f_equal; symmetry; apply (coherent_fold _ _ _ C); try assumption; cbn [In]; intuition auto.
Qed.

Lemma wf_side mt j : wf j -> is_wild (fst (side mt j)) = true -> is_wild (snd (side mt j)) = true.
Proof. intros (W1 & W2 & _). destruct mt; assumption. Qed.

Lemma side_idx_b mt ns n j :
  wf j -> coherent [fst (side mt j); snd (side mt j); ns; n] ->
  existsb (fun p => idx_eq mt p j) (match_params ns n) = side_pred mt ns n j.
Proof.
  intros W C. apply eq_iff_eq_true. rewrite existsb_exists. unfold side_pred. rewrite andb_true_iff. split.
  - intros (p & Hp & Hi). apply idx_eq_side in Hi as [Ea Eb].
    rewrite (match_params_fold _ _ _ _ _ C Hp Ea Eb) in Hp. apply in_match_params in Hp. tauto.
  - intros [A B]. exists (fst (side mt j), snd (side mt j)). split.
    + apply in_match_params. split; [exact A|]. split; [exact B|apply wf_side; exact W].
    + apply idx_eq_side. split; reflexivity.
Qed.

Lemma coh_side t j mt ns n :
  In j t -> coherent (tnames t ++ [ns; n]) ->
  coherent [fst (side mt j); snd (side mt j); ns; n].
Proof.
  intros Hj. apply coherent_incl. intros x Hx. apply in_or_app.
  destruct Hx as [<-|[<-|Hx]]; [left|left|right; exact Hx];
    apply in_flat_map; exists j; (split; [exact Hj|]); destruct mt; cbn; auto.
Qed.

(* Store.IntentionMatch on the legacy table = the sorted list of the rows whose pattern covers the name *)
Theorem legacy_match_perm t mt ns n :
  (forall i, In i t -> wf i) -> coherent (tnames t ++ [ns; n]) ->
  Permutation (legacy_match t mt ns n) (filter (side_pred mt ns n) t).
Proof.
  intros Hwf C. unfold legacy_match. rewrite sort_ixns_perm.
  rewrite (flat_map_filter_perm (idx_eq mt) (match_params ns n) t (match_params_nodup ns n)).
  - erewrite filter_ext_in; [reflexivity|]. intros j Hj.
    apply side_idx_b; [apply Hwf; exact Hj|apply (coh_side t); assumption].
  - intros j p q Hj Hp Hq Ip Iq. apply idx_eq_side in Ip as [P1 P2], Iq as [Q1 Q2].
    pose proof (coh_side t j mt ns n Hj C) as Cj.
    rewrite (match_params_fold _ _ _ _ p Cj Hp P1 P2), (match_params_fold _ _ _ _ q Cj Hq Q1 Q2). reflexivity.
Qed.

Lemma legacy_match_in t mt ns n j :
  (forall i, In i t -> wf i) -> coherent (tnames t ++ [ns; n]) ->
  (In j (legacy_match t mt ns n) <-> In j t /\ side_pred mt ns n j = true).
Proof. intros Hwf C. apply perm_filter_in, legacy_match_perm; assumption. Qed.

Lemma legacy_match_incl t mt ns n : incl (legacy_match t mt ns n) t.
Proof.
  intros j Hj. unfold legacy_match in Hj. apply sort_ixns_in, in_flat_map in Hj as (p & _ & Hj).
  apply filter_In in Hj. tauto.
Qed.

Theorem legacy_route2 t peer sns s dns d :
  legacy_ok t -> coherent (tnames t ++ [dns; d]) ->
  decided t peer sns s dns d (find (authz_match MSrc s sns peer) (legacy_match t MDst dns d)).
Proof.
  intros [Hrows Hk] C.
  assert (forall i, In i t -> wf i) as Hwf by (intros i Hi; apply Hrows; exact Hi).
  apply route_generic; [exact Hwf|apply legacy_all_key; exact Hk|apply sort_ixns_sorted|].
  intros j. rewrite (legacy_match_in t MDst dns d j Hwf C). unfold covers. rewrite andb_true_iff.
  change (authz_match MDst d dns "" j) with (side_pred MDst dns d j). tauto.
Qed.

Theorem legacy_route1 t sns s dns d :
  legacy_ok t -> coherent (tnames t ++ [sns; s]) ->
  decided t "" sns s dns d (find (authz_match MDst d dns "") (legacy_match t MSrc sns s)).
Proof.
  intros [Hrows Hk] C.
  assert (forall i, In i t -> wf i) as Hwf by (intros i Hi; apply Hrows; exact Hi).
  apply route1_generic; [exact Hwf|apply legacy_all_key; exact Hk|apply sort_ixns_sorted| |].
  - intros j Hjl. pose proof Hjl as Hj.
    apply (legacy_match_in t MSrc sns s j Hwf C) in Hj as [Hj Sj]. split; [exact Hj|]. split.
    + unfold authz_match. rewrite String.eqb_refl. exact Sj.
    + exists j. destruct (Hrows _ Hj) as [_ Pe]. auto 7.
  - intros j Hj Cj. apply covers_iff in Cj as (_ & Sj & _).
    apply (legacy_match_in t MSrc sns s j Hwf C). split; [exact Hj|exact Sj].
Qed.

Lemma replace_by_id_fresh i t :
  (forall j, In j t -> lower (i_id j) <> lower (i_id i)) -> replace_by_id i t = t ++ [i].
Proof.
  induction t as [|j t IH]; intros H; cbn [replace_by_id app]; [reflexivity|].
  unfold id_eqb. destruct (String.eqb_spec (lower (i_id j)) (lower (i_id i))) as [E|E].
  - exfalso. apply (H j); [left; reflexivity|exact E].
  - rewrite IH; [reflexivity|]. intros k Hk. apply H. right; exact Hk.
Qed.

Lemma set_prec_id w : i_id (set_prec w) = i_id w.
Proof. reflexivity. Qed.

Lemma legacy_apply_fresh ws : forall t,
  fresh_writes t ws -> legacy_apply t ws = t ++ map set_prec ws.
Proof.
  induction ws as [|w ws IH]; intros t (Hid & Hne & Hk); cbn [legacy_apply fold_left map].
  - rewrite app_nil_r. reflexivity.
  - fold (legacy_apply (snd (legacy_set t w)) ws).
    assert (legacy_set t w = (WOk, t ++ [set_prec w])) as ->.
    { unfold legacy_set.
      destruct (String.eqb_spec (i_id w) "") as [E|_]; [exfalso; apply (Hne w); [left; reflexivity|exact E]|].
      destruct (existsb _ t) eqn:X.
      - exfalso. apply existsb_exists in X as (j & Hj & Hx). apply andb_true_iff in Hx as [Hx Hy].
        assert (j = set_prec w) as ->.
        { apply Hk; [apply in_or_app; left; exact Hj|apply in_or_app; right; left; reflexivity|exact Hx]. }
        rewrite String.eqb_refl in Hy. discriminate.
      - rewrite replace_by_id_fresh; [reflexivity|].
        intros j Hj E. rewrite set_prec_id in E.
        rewrite map_app in Hid. apply NoDup_remove_2 in Hid.
        apply Hid. apply in_or_app. left. rewrite <- E. apply (in_map (fun i => lower (i_id i))). exact Hj. }
    cbn [snd]. rewrite IH.
    + rewrite <- app_assoc. reflexivity.
    + split; [|split].
      * rewrite <- app_assoc. cbn [app]. rewrite map_app. cbn [map]. rewrite set_prec_id.
        rewrite map_app in Hid. exact Hid.
      * intros x Hx. apply Hne. right; exact Hx.
      * rewrite <- app_assoc. exact Hk.
Qed.

Lemma fresh_writes_perm t ws ws' : Permutation ws ws' -> fresh_writes t ws -> fresh_writes t ws'.
Proof.
  intros Hp (Hid & Hne & Hk). split; [|split].
  - eapply Permutation_NoDup; [|exact Hid]. apply Permutation_map, Permutation_app_head, Hp.
  - intros w Hw. apply Hne. eapply Permutation_in; [symmetry; exact Hp|exact Hw].
  - assert (Permutation (t ++ map set_prec ws') (t ++ map set_prec ws)) as Hq
      by (apply Permutation_app_head, Permutation_map; symmetry; exact Hp).
    intros i j Hi Hj. apply Hk; eapply Permutation_in; try exact Hq; assumption.
Qed.

Lemma legacy_obs_perm t1 t2 :
  Permutation t1 t2 -> (forall x y, In x t1 -> In y t1 -> key5 x = key5 y -> x = y) ->
  legacy_list t1 = legacy_list t2 /\ forall mt ns n, legacy_match t1 mt ns n = legacy_match t2 mt ns n.
Proof.
  intros Hp Hk. split; [apply sort_ixns_perm_eq; assumption|].
  intros mt ns n. apply isorted_perm_eq; try apply sort_ixns_sorted.
  - unfold legacy_match. rewrite !sort_ixns_perm.
    induction (match_params ns n) as [|p ps IH]; cbn [flat_map]; [reflexivity|].
    apply Permutation_app; [apply Permutation_filter; exact Hp|exact IH].
  - intros x y Hx Hy. apply Hk; apply (legacy_match_incl t1 mt ns n); assumption.
Qed.

Theorem legacy_order_independent t ws ws' :
  fresh_writes t ws -> Permutation ws ws' ->
  let t1 := legacy_apply t ws in
  let t2 := legacy_apply t ws' in
  legacy_list t1 = legacy_list t2 /\ forall mt ns n, legacy_match t1 mt ns n = legacy_match t2 mt ns n.
Proof.
  intros Hf Hp. cbn zeta.
  rewrite (legacy_apply_fresh ws t Hf), (legacy_apply_fresh ws' t (fresh_writes_perm t ws ws' Hp Hf)).
  apply legacy_obs_perm.
  - apply Permutation_app_head, Permutation_map; exact Hp.
  - destruct Hf as (_ & _ & Hk). intros x y Hx Hy E. apply Hk; try assumption. apply key5_key4_eqb; exact E.
Qed.
