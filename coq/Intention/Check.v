(* Executable checkers for the hypotheses of the C13 theorems, with soundness lemmas.  They are used
   for the concrete witnesses / non-vacuity examples, and by Run/C13.v to report how many generated
   cases fall under the theorems' hypotheses. *)
From Coq Require Import Sorting.Permutation.
From Verif Require Import Base.Prelude.
From Verif Require Import Intention.Model.
From Verif Require Import Intention.Spec.
Local Open Scope string_scope.
Local Open Scope list_scope.

Lemma nodupb_sound {A} (eqb : A -> A -> bool) :
  (forall x y, x = y -> eqb x y = true) -> forall l, nodupb eqb l = true -> NoDup l.
Proof.
  intros Heq. induction l as [|x l IH]; cbn [nodupb]; intros H; [constructor|].
  apply andb_true_iff in H as [H1 H2]. constructor; [|apply IH; exact H2].
  intros Hin. apply negb_true_iff in H1.
  assert (existsb (eqb x) l = true); [|congruence].
  apply existsb_exists. exists x. split; [exact Hin|apply Heq; reflexivity].
Qed.

Lemma pair_eqb_refl a b : a = b -> pair_eqb a b = true.
Proof. intros ->. unfold pair_eqb. rewrite !String.eqb_refl. reflexivity. Qed.

Lemma str_eqb_refl (a b : string) : a = b -> String.eqb a b = true.
Proof. intros ->. apply String.eqb_refl. Qed.

Lemma coherentb_sound names : coherentb names = true -> coherent names.
Proof.
  unfold coherentb, coherent. intros H a b Ha Hb E.
  rewrite forallb_forall in H. specialize (H a Ha). rewrite forallb_forall in H. specialize (H b Hb).
  rewrite E, String.eqb_refl in H. cbn in H. apply String.eqb_eq. exact H.
Qed.

Lemma wfb_sound i : wfb i = true -> wf i.
Proof.
  unfold wfb, wf. rewrite !andb_true_iff, N.eqb_eq. intros [[A B] C]. repeat split; try exact C.
  - intros W. rewrite W in A. exact A.
  - intros W. rewrite W in B. exact B.
Qed.

Lemma key4_eqb_sym i j : key4_eqb i j = key4_eqb j i.
Proof.
  unfold key4_eqb.
  rewrite (String.eqb_sym (lower (i_sns i))), (String.eqb_sym (lower (i_sname i))),
          (String.eqb_sym (lower (i_dns i))), (String.eqb_sym (lower (i_dname i))). reflexivity.
Qed.

Lemma key4_nodupb_sound t : key4_nodupb t = true -> key4_unique t.
Proof.
  unfold key4_unique. induction t as [|x t IH]; cbn [key4_nodupb]; intros H i j Hi Hj E; [destruct Hi|].
  apply andb_true_iff in H as [H1 H2]. apply negb_true_iff in H1.
  assert (forall y, In y t -> key4_eqb x y = false) as Hx.
  { intros y Hy. destruct (key4_eqb x y) eqn:K; [|reflexivity].
    assert (existsb (key4_eqb x) t = true) by (apply existsb_exists; eauto). congruence. }
  destruct Hi as [<-|Hi], Hj as [<-|Hj]; try reflexivity.
  - rewrite (Hx j Hj) in E. discriminate.
  - rewrite key4_eqb_sym, (Hx i Hi) in E. discriminate.
  - apply IH; assumption.
Qed.

Lemma legacy_okb_sound t : legacy_okb t = true -> legacy_ok t.
Proof.
  unfold legacy_okb, legacy_ok. intros H. apply andb_true_iff in H as [H1 H2]. split.
  - intros i Hi. rewrite forallb_forall in H1. specialize (H1 i Hi). apply andb_true_iff in H1 as [A B].
    split; [apply wfb_sound; exact A|apply String.eqb_eq; exact B].
  - apply key4_nodupb_sound. exact H2.
Qed.

Lemma fresh_writesb_sound t ws : fresh_writesb t ws = true -> fresh_writes t ws.
Proof.
  unfold fresh_writesb, fresh_writes. rewrite !andb_true_iff. intros [[A B] C]. split; [|split].
  - apply (nodupb_sound String.eqb str_eqb_refl). exact A.
  - intros w Hw. rewrite forallb_forall in B. specialize (B w Hw). apply negb_true_iff in B.
    apply String.eqb_neq. exact B.
  - apply key4_nodupb_sound. exact C.
Qed.

Lemma store_okb_sound st : store_okb st = true -> store_ok st.
Proof.
  unfold store_okb, store_ok. intros H. apply andb_true_iff in H as [A B]. split.
  - apply (nodupb_sound String.eqb str_eqb_refl). exact A.
  - intros e He. rewrite forallb_forall in B. specialize (B e He). unfold entry_okb in B.
    apply andb_true_iff in B as [B1 B2]. split.
    + destruct (validate e); [discriminate|reflexivity].
    + intros s Hs. rewrite forallb_forall in B2. specialize (B2 s Hs). apply N.eqb_eq. exact B2.
Qed.

Lemma shadow_freeb_sound st : shadow_freeb st = true -> shadow_free st.
Proof.
  unfold shadow_freeb, shadow_free. intros H e He. rewrite forallb_forall in H.
  apply (nodupb_sound String.eqb str_eqb_refl). apply H. exact He.
Qed.

Lemma wkeys_okb_sound ws :
  wkeys_okb ws = true -> NoDup (map wkey ws) /\ (forall w, In w ws -> s_peer (snd w) = "").
Proof.
  unfold wkeys_okb. intros H. apply andb_true_iff in H as [A B]. split.
  - apply (nodupb_sound pair_eqb pair_eqb_refl). exact A.
  - intros w Hw. rewrite forallb_forall in B. apply String.eqb_eq. apply B. exact Hw.
Qed.
