(* C13, histories that mix whole-entry writes and upserts: the stored intentions after a history of
   pairwise independent writes have a closed form that does not mention the order, so such histories
   commute.  Also the witness write lists of Properties/C13.v. *)
From Coq Require Import Sorting.Permutation.
From Verif Require Import Base.Prelude.
From Verif Require Import Intention.Model.
From Verif Require Import Intention.Spec.
From Verif Require Import Base.Lists.
From Verif Require Import Intention.Lists.
From Verif Require Import Intention.OrderProofs.
From Verif Require Import Intention.Proofs.
From Verif Require Import Intention.Config.
From Verif Require Import Intention.Writes.
Local Open Scope string_scope.
Local Open Scope list_scope.

Definition cw_over (w : cwrite) (j : ixn) : bool :=
  match w with WEnt e => name_eqb (i_dname j) (e_name e) | WUps dn v => over dn v j end.
Definition cw_valid (w : cwrite) : bool :=
  match w with WEnt e => entry_valid e | WUps dn v => wvalid dn v end.
Definition cw_contrib (w : cwrite) : list ixn :=
  match w with WEnt e => to_ixns (normalize e) | WUps dn v => [wixn dn v] end.
Definition cw_name (w : cwrite) : string := match w with WEnt e => e_name e | WUps dn _ => dn end.
Definition cw_keeps (ws : list cwrite) (j : ixn) : bool := forallb (fun w => negb (cw_over w j)) ws.

Lemma in_cw_ents ws e : In e (cw_ents ws) <-> In (WEnt e) ws.
Proof.
  unfold cw_ents. rewrite in_flat_map. split.
  - intros ([e'|dn v] & Hw & H); [destruct H as [<-|[]]; exact Hw|destruct H].
  - intros H. exists (WEnt e). split; [exact H|left; reflexivity].
Qed.

Lemma in_cw_upss ws dn v : In (dn, v) (cw_upss ws) <-> In (WUps dn v) ws.
Proof.
  unfold cw_upss. rewrite in_flat_map. split.
  - intros ([e'|dn' v'] & Hw & H); [destruct H|destruct H as [[= <- <-]|[]]; exact Hw].
  - intros H. exists (WUps dn v). split; [exact H|left; reflexivity].
Qed.

Lemma cw_independent_tail w ws : cw_independent (w :: ws) -> cw_independent ws.
Proof.
  intros (A & B & C & D). unfold cw_ents, cw_upss in *. cbn [flat_map] in *. rewrite map_app in A, B.
  split; [exact (nodup_app_r _ _ A)|]. split; [exact (nodup_app_r _ _ B)|].
  split; [intros u Hu; apply C, in_or_app; right; exact Hu|].
  intros e u He Hu. apply D; apply in_or_app; right; assumption.
Qed.

Lemma cw_independent_perm ws ws' : Permutation ws ws' -> cw_independent ws -> cw_independent ws'.
Proof.
  intros Hp (A & B & C & D).
  assert (Permutation (cw_ents ws) (cw_ents ws')) as Pe by (apply Permutation_flat_map; exact Hp).
  assert (Permutation (cw_upss ws) (cw_upss ws')) as Pu by (apply Permutation_flat_map; exact Hp).
  repeat split.
  - eapply Permutation_NoDup; [apply Permutation_map; exact Pe|exact A].
  - eapply Permutation_NoDup; [apply Permutation_map; exact Pu|exact B].
  - intros w Hw. apply C. eapply Permutation_in; [symmetry; exact Pu|exact Hw].
  - intros e w He Hw. apply D; eapply Permutation_in; try (symmetry; eassumption); assumption.
Qed.

Lemma over_wixn dn' v' dn v : over dn' v' (wixn dn v) = true <-> wkey (dn', v') = wkey (dn, v).
Proof.
  unfold over, wixn, wkey, name_eqb. cbn [to_ixn i_dname i_sname src_set_prec s_name e_name fst snd].
  rewrite andb_true_iff, !String.eqb_eq. split; [intros [-> ->]; reflexivity|intros [= -> ->]; auto].
Qed.

Lemma cw_contrib_kept w ws j :
  cw_independent (w :: ws) -> In j (cw_contrib w) -> cw_keeps (filter cw_valid ws) j = true.
Proof.
  intros (A & B & _ & D) Hj. unfold cw_keeps. apply forallb_forall. intros w' Hw'.
  apply filter_In in Hw' as [Hw' _]. apply negb_true_iff.
  unfold cw_ents, cw_upss in A, B. cbn [flat_map] in A, B.
  destruct w as [e|dn v], w' as [e'|dn' v']; cbn [cw_contrib cw_over app map] in *.
  - rewrite (to_ixns_dname _ _ Hj). cbn [normalize e_name]. unfold name_eqb. apply String.eqb_neq. intros E.
    inversion A as [|? ? Hnotin _]; subst. apply Hnotin. unfold lname at 1. rewrite E.
    apply (in_map lname), in_cw_ents. exact Hw'.
  - unfold over. rewrite (to_ixns_dname _ _ Hj). cbn [normalize e_name].
    destruct (name_eqb (e_name e) dn') eqn:E; [exfalso|reflexivity]. apply String.eqb_eq in E.
    apply (D e (dn', v')); [left; reflexivity|apply in_cw_upss; right; exact Hw'|symmetry; exact E].
  - destruct Hj as [<-|[]]. apply String.eqb_neq. intros E.
    apply (D e' (dn, v)); [apply in_cw_ents; right; exact Hw'|left; reflexivity|exact E].
  - destruct Hj as [<-|[]]. destruct (over dn' v' (wixn dn v)) eqn:O; [exfalso|reflexivity].
    apply over_wixn in O. inversion B as [|? ? Hnotin _]; subst. apply Hnotin.
    rewrite <- O. apply (in_map wkey), in_cw_upss. exact Hw'.
Qed.

(* One write of an independent history.  Names need to be coherent only for an upsert. *)
Lemma capply_step names st w ws :
  store_ok st -> cw_independent (w :: ws) -> shadow_free_on (w :: ws) st ->
  (forall dn v, w = WUps dn v -> coherent names) -> incl (enames st) names -> In (cw_name w) names ->
  let st1 := capply st w in
  (cw_valid w = false -> st1 = st) /\
  (cw_valid w = true ->
     store_ok st1 /\ shadow_free_on ws st1 /\ incl (enames st1) names /\
     Permutation (call st1) (filter (fun j => negb (cw_over w j)) (call st) ++ cw_contrib w)).
Proof.
  intros Hst Hind Hsf C Hin Hw.
  destruct w as [e|dn v]; cbn [capply cw_valid cw_over cw_contrib cw_name] in *.
  - destruct (ensure_step st e Hst) as [Hbad Hgood]. split; [exact Hbad|]. intros V.
    destruct (Hgood V) as (A & B & D & E). split; [exact A|]. split; [|split; [|exact E]].
    + intros x u Hx Hu El. destruct (B x Hx) as [->|Hx']; [exfalso|exact (Hsf x u Hx' Hu El)].
      destruct Hind as (_ & _ & _ & I). apply (I e u); [left; reflexivity|exact Hu|symmetry; exact El].
    + intros n Hn. apply D in Hn as [<-|Hn]; auto.
  - destruct (upsert_step st dn v Hst) as [Hbad Hgood].
    { intros p Hp El. split; [|exact (Hsf p (dn, v) Hp (or_introl eq_refl) El)].
      apply (C dn v eq_refl); [apply Hin, (in_map e_name); exact Hp|exact Hw|exact El]. }
    split; [exact Hbad|]. intros V.
    destruct (Hgood V) as (A & B & D & E). split; [exact A|]. split; [|split; [|exact E]].
    + intros x u Hx Hu El. destruct (B x Hx) as [Hx'|[_ Hn]]; [|exact Hn].
      exact (Hsf x u Hx' (or_intror Hu) El).
    + intros n Hn. apply D in Hn as [<-|Hn]; auto.
Qed.

(* The stored intentions after a history: those no accepted write removes, plus what the accepted
   writes add.  [names]: any set holding the stored and the written entry names. *)
Lemma capply_all_call names ws : forall st,
  store_ok st -> cw_independent ws -> shadow_free_on ws st ->
  (forall dn v, In (WUps dn v) ws -> coherent names) ->
  incl (enames st) names -> incl (map cw_name ws) names ->
  let st' := capply_all st ws in
  store_ok st' /\ incl (enames st') names /\
  Permutation (call st') (filter (cw_keeps (filter cw_valid ws)) (call st)
                          ++ flat_map cw_contrib (filter cw_valid ws)).
Proof.
  induction ws as [|w ws IH]; intros st Hst Hind Hsf C Hin Hws; cbn [capply_all fold_left].
  - split; [exact Hst|]. split; [exact Hin|].
    cbn [filter flat_map]. rewrite app_nil_r, filter_all; reflexivity.
  - fold (capply_all (capply st w) ws). apply incl_cons_inv in Hws as [Hw Hws].
    pose proof (fun dn v H => C dn v (or_intror H)) as C'.
    destruct (capply_step names st w ws Hst Hind Hsf) as [Hbad Hgood]; try assumption.
    { intros dn v ->. apply (C dn v). left; reflexivity. }
    apply cw_independent_tail in Hind as Hind'.
    cbn [filter]. destruct (cw_valid w) eqn:V.
    + destruct (Hgood eq_refl) as (Hst1 & Hsf1 & Hin1 & Hc1).
      destruct (IH _ Hst1 Hind' Hsf1 C' Hin1 Hws) as (Hst2 & Hin2 & Hc2).
      split; [exact Hst2|]. split; [exact Hin2|].
      rewrite Hc2, (Permutation_filter _ _ _ Hc1), filter_app, filter_filter. cbn [flat_map].
      rewrite (filter_all _ (cw_contrib w)) by (intros j; apply (cw_contrib_kept w ws j Hind)).
      rewrite <- app_assoc. reflexivity.
    + rewrite (Hbad eq_refl). apply IH; try assumption.
      intros x u Hx Hu. apply (Hsf x u Hx). unfold cw_upss in *. cbn [flat_map]. apply in_or_app. right; exact Hu.
Qed.

Theorem mixed_order_independent names st1 st2 ws1 ws2 :
  store_ok st1 -> store_ok st2 -> Permutation (call st1) (call st2) -> Permutation ws1 ws2 ->
  cw_independent ws1 -> shadow_free_on ws1 st1 -> shadow_free_on ws1 st2 ->
  (forall dn v, In (WUps dn v) ws1 -> coherent names) ->
  incl (enames st1) names -> incl (map cw_name ws1) names ->
  same_observations names (capply_all st1 ws1) (capply_all st2 ws2).
Proof.
  intros H1 H2 Hc Hw Hind S1 S2 C I1 Iw.
  destruct (capply_all_call names ws1 st1 H1 Hind S1 C I1 Iw) as (A1 & A2 & A3).
  destruct (capply_all_call names ws2 st2 H2 (cw_independent_perm _ _ Hw Hind)) as (B1 & B2 & B3).
  { intros e w He Hu. apply (S2 e w He).
    eapply Permutation_in; [apply Permutation_flat_map; symmetry; exact Hw|exact Hu]. }
  { intros dn v Hu. apply (C dn v). eapply Permutation_in; [symmetry; exact Hw|exact Hu]. }
  { apply (incl_tran (enames_of_call st1 st2 H2 Hc) I1). }
  { intros n Hn. apply Iw. eapply Permutation_in; [apply Permutation_map; symmetry; exact Hw|exact Hn]. }
  apply config_obs_equal; try assumption.
  rewrite A3, B3. pose proof (Permutation_filter cw_valid _ _ Hw) as Hv. apply Permutation_app.
  - erewrite filter_ext; [apply Permutation_filter; exact Hc|].
    intros j. unfold cw_keeps. apply forallb_same_members, Permutation_same_members, Hv.
  - apply Permutation_flat_map. exact Hv.
Qed.

Lemma ensure_all_capply st es : ensure_all st es = capply_all st (map WEnt es).
Proof. unfold ensure_all, capply_all. rewrite fold_left_map. reflexivity. Qed.

Lemma upsert_all_capply st ws : upsert_all st ws = capply_all st (map (fun w => WUps (fst w) (snd w)) ws).
Proof. unfold upsert_all, capply_all. rewrite fold_left_map. reflexivity. Qed.

Lemma cw_ents_history es : cw_ents (map WEnt es) = es /\ cw_upss (map WEnt es) = [].
Proof.
  unfold cw_ents, cw_upss. induction es as [|e es [IH1 IH2]]; cbn [map flat_map app]; [|rewrite IH1, IH2]; auto.
Qed.

Lemma cw_upss_history (ws : list (string * src)) :
  cw_ents (map (fun w => WUps (fst w) (snd w)) ws) = [] /\ cw_upss (map (fun w => WUps (fst w) (snd w)) ws) = ws.
Proof.
  unfold cw_ents, cw_upss.
  induction ws as [|[dn v] ws [IH1 IH2]]; cbn [map flat_map app fst snd]; [|rewrite IH1, IH2]; auto.
Qed.

(* web -> db deny, web -> * allow: with "db" a destination-kind name the Check route does not see the first *)
Definition dkx_store : list entry :=
  upsert_all [] [("db", Src "" "web" Deny 0 0); ("*", Src "" "web" Allow 0 0)].

(* a concrete mixed history meets the hypotheses and is not trivial *)
Definition mx_writes : list cwrite :=
  [WEnt (Entry "db" [Src "p" "web" Deny 0 0; Src "" "web" Allow 0 0]);
   WUps "api" (Src "" "web" Deny 0 0); WUps "api" (Src "" "*" Allow 0 0);
   WEnt (Entry "*" [Src "" "*" Deny 0 0])].

(* the premises of the other order theorems are met by non-empty, genuinely permuted write lists *)
Definition ox_upserts : list (string * src) :=
  [("db", Src "" "web" Allow 0 0); ("db", Src "" "*" Deny 0 0); ("*", Src "" "web" Deny 0 0); ("api", Src "" "web" NoAct 2 0)].
Definition ox_entries : list entry :=
  [Entry "db" [Src "p" "web" Deny 0 0; Src "" "web" Allow 0 0]; Entry "*" [Src "" "*" Deny 0 0]; Entry "api" [Src "q" "*" Allow 0 0]].
