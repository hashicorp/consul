(* C08 — loadRules: which level ends up in which slot of which tree. *)
From Verif Require Import Base.Prelude.
From Verif Require Import Base.Lists.
From Verif Require Import ACL.Model.
From Verif Require Import ACL.Spec.
From Verif Require Import ACL.Assoc.
From Verif Require Import ACL.Merge.

Definition slot_of (t : tree) (pf : bool) (n : string) : option access :=
  match tree_get n t with
  | Some lf => if pf then l_prefix lf else l_exact lf
  | None => None
  end.

Definition wf_tree (t : tree) : Prop := NoDup (map fst t).

Definition kslot (a : authorizer) (k : rkind) := slot_of (tree_of a k).
Definition islot (a : authorizer) := slot_of (a_intention a).

(* every tree has one leaf per name; the traffic-permissions tree, which loadRules never populates, is empty *)
Definition wf_auth (a : authorizer) : Prop :=
  (forall k, wf_tree (tree_of a k)) /\ wf_tree (a_intention a) /\ a_traffic a = [].

Lemma insert_slot seg pol t pf t' :
  insert_policy_into_radix seg pol t pf = Some t' ->
  forall pf' n, slot_of t' pf' n
    = if String.eqb n seg && Bool.eqb pf' pf then access_level_from_string pol else slot_of t pf' n.
Proof.
  unfold insert_policy_into_radix. destruct (access_level_from_string pol) as [al|]; [|discriminate].
  intros [= <-] pf' n. unfold slot_of, tree_get. rewrite (alookup_aset _ String.eqb_eq).
  destruct (String.eqb n seg) eqn:E; [|reflexivity].
  apply String.eqb_eq in E; subst n.
  destruct (alookup String.eqb seg t) as [lf|]; destruct pf, pf'; reflexivity.
Qed.

Lemma insert_wf seg pol t pf t' :
  insert_policy_into_radix seg pol t pf = Some t' -> wf_tree t -> wf_tree t'.
Proof.
  unfold insert_policy_into_radix. destruct (access_level_from_string pol); [|discriminate].
  intros [= <-] H. apply (aset_nodup _ String.eqb_eq), H.
Qed.

Lemma tree_of_set_tree a k t k' : tree_of (set_tree a k t) k' = if rkind_eqb k' k then t else tree_of a k'.
Proof. destruct k, k'; reflexivity. Qed.

Lemma intention_set_tree a k t : a_intention (set_tree a k t) = a_intention a.
Proof. destruct k; reflexivity. Qed.

Lemma tree_of_set_intention a t k : tree_of (set_intention a t) k = tree_of a k.
Proof. destruct k; reflexivity. Qed.

Lemma rkey_eqb_unfold k pf n r :
  rkey_eqb (k, pf, n) (rule_key r) = rkind_eqb k (r_kind r) && Bool.eqb pf (r_prefix r) && String.eqb n (r_name r).
Proof. reflexivity. Qed.

(* the two writes of loadRules: into the tree of the rule's kind, and into the intention tree *)
Lemma set_tree_spec a k seg pol pf t :
  insert_policy_into_radix seg pol (tree_of a k) pf = Some t ->
  (forall k' pf' n, kslot (set_tree a k t) k' pf' n
     = if rkey_eqb (k', pf', n) (k, pf, seg) then access_level_from_string pol else kslot a k' pf' n)
  /\ islot (set_tree a k t) = islot a
  /\ (wf_auth a -> wf_auth (set_tree a k t)).
Proof.
  intros E. split; [|split].
  - intros k' pf' n. unfold kslot. rewrite tree_of_set_tree. cbn [rkey_eqb].
    destruct (rkind_eqb k' k) eqn:Ek; [|reflexivity].
    apply rkind_eqb_eq in Ek; subst k'. rewrite (insert_slot _ _ _ _ _ E), andb_comm. reflexivity.
  - unfold islot. rewrite intention_set_tree. reflexivity.
  - intros (W & Wi & Wt). split; [|split].
    + intros k'. rewrite tree_of_set_tree. destruct (rkind_eqb k' k) eqn:Ek; [|apply W].
      eapply insert_wf; [exact E|apply W].
    + rewrite intention_set_tree. exact Wi.
    + destruct k; exact Wt.
Qed.

Lemma set_intention_spec a seg pol pf ti :
  insert_policy_into_radix seg pol (a_intention a) pf = Some ti ->
  (forall k, kslot (set_intention a ti) k = kslot a k)
  /\ (forall pf' n, islot (set_intention a ti) pf' n
       = if String.eqb n seg && Bool.eqb pf' pf then access_level_from_string pol else islot a pf' n)
  /\ (wf_auth a -> wf_auth (set_intention a ti)).
Proof.
  intros E. split; [|split].
  - intros k. unfold kslot. rewrite tree_of_set_intention. reflexivity.
  - exact (insert_slot _ _ _ _ _ E).
  - intros (W & Wi & Wt). split; [intros k; rewrite tree_of_set_intention; apply W|].
    split; [exact (insert_wf _ _ _ _ _ E Wi)|exact Wt].
Qed.

Lemma load_rule_spec a r a' : load_rule (Some a) r = Some a' ->
  (forall k pf n, kslot a' k pf n
     = if rkey_eqb (k, pf, n) (rule_key r) then access_level_from_string (r_pol r) else kslot a k pf n)
  /\ (forall pf n, islot a' pf n
     = if rkey_eqb (KService, pf, n) (rule_key r)
       then access_level_from_string (intention_of (r_pol r) (r_int r)) else islot a pf n)
  /\ (wf_auth a -> wf_auth a').
Proof.
  cbn [load_rule].
  destruct (insert_policy_into_radix (r_name r) (r_pol r) (tree_of a (r_kind r)) (r_prefix r)) as [t|] eqn:E1;
    [|discriminate].
  destruct (set_tree_spec _ _ _ _ _ _ E1) as (K1 & I1 & W1).
  change (r_kind r, r_prefix r, r_name r) with (rule_key r) in K1.
  set (a1 := set_tree a (r_kind r) t) in *.
  destruct (r_kind r) eqn:Ekind;
    try (intros [= <-]; split; [exact K1|]; split; [|exact W1];
         intros pf n; rewrite I1, rkey_eqb_unfold, Ekind; reflexivity).
  destruct (insert_policy_into_radix (r_name r) (intention_of (r_pol r) (r_int r))
              (a_intention a1) (r_prefix r)) as [ti|] eqn:E2; [|discriminate].
  intros [= <-]. destruct (set_intention_spec _ _ _ _ _ E2) as (K2 & I2 & W2).
  split; [intros k pf n; rewrite K2; apply K1|]. split; [|intros W; apply W2, W1, W].
  intros pf n. rewrite I2, I1, rkey_eqb_unfold, Ekind. cbn [rkind_eqb andb]. rewrite andb_comm. reflexivity.
Qed.

Lemma load_fold_none rs : fold_left load_rule rs None = None.
Proof. induction rs; cbn; auto. Qed.

Lemma load_fold_spec rs : NoDup (map rule_key rs) -> forall a a',
  fold_left load_rule rs (Some a) = Some a' ->
  (forall r, In r rs ->
     kslot a' (r_kind r) (r_prefix r) (r_name r) = access_level_from_string (r_pol r)
     /\ (r_kind r = KService ->
         islot a' (r_prefix r) (r_name r) = access_level_from_string (intention_of (r_pol r) (r_int r))))
  /\ (forall k pf n, ~ In (k, pf, n) (map rule_key rs) ->
        kslot a' k pf n = kslot a k pf n /\ (k = KService -> islot a' pf n = islot a pf n))
  /\ (wf_auth a -> wf_auth a').
Proof.
  induction rs as [|r0 rs IH]; intros Hnd a a' Hf.
  - cbn in Hf. injection Hf as <-. split; [intros ? []|]. split; auto.
  - cbn [fold_left] in Hf. destruct (load_rule (Some a) r0) as [a1|] eqn:E1;
      [|rewrite load_fold_none in Hf; discriminate].
    cbn [map] in Hnd. inversion Hnd as [|? ? Hnotin Hnd']; subst.
    destruct (load_rule_spec _ _ _ E1) as (K1 & I1 & W1).
    destruct (IH Hnd' _ _ Hf) as (R & N & W). split; [|split].
    + intros r [<-|Hin]; [|apply R, Hin].
      destruct (N (r_kind r0) (r_prefix r0) (r_name r0) Hnotin) as [Nk Ni]. split.
      * rewrite Nk, K1. change (r_kind r0, r_prefix r0, r_name r0) with (rule_key r0).
        rewrite (proj2 (rkey_eqb_eq _ _) eq_refl). reflexivity.
      * intros Hs. rewrite (Ni Hs), I1. rewrite <- Hs. change (r_kind r0, r_prefix r0, r_name r0) with (rule_key r0).
        rewrite (proj2 (rkey_eqb_eq _ _) eq_refl). reflexivity.
    + intros k pf n Hn. cbn [map In] in Hn.
      assert (Hne : rkey_eqb (k, pf, n) (rule_key r0) = false).
      { apply (eqb_neq _ rkey_eqb_eq). intros E. apply Hn. left. symmetry. exact E. }
      destruct (N k pf n) as [Nk Ni]; [intros H; apply Hn; right; exact H|]. split.
      * rewrite Nk, K1, Hne. reflexivity.
      * intros ->. rewrite (Ni eq_refl), I1, Hne. reflexivity.
    + intros Wa. apply W, W1, Wa.
Qed.

Lemma authorizer_empty_wf : wf_auth authorizer_empty.
Proof. split; [intros []; constructor|split; [constructor|reflexivity]]. Qed.

Lemma load_rules_inv p a : load_rules p = Some a -> exists a1,
  fold_left load_rule (p_rules p) (Some authorizer_empty) = Some a1
  /\ (forall k, kslot a k = kslot a1 k) /\ islot a = islot a1 /\ (wf_auth a1 -> wf_auth a)
  /\ load_scalar (p_acl p) = Some (a_acl a) /\ load_scalar (p_keyring p) = Some (a_keyring a)
  /\ load_scalar (p_operator p) = Some (a_operator a) /\ load_scalar (p_mesh p) = Some (a_mesh a)
  /\ load_scalar (p_peering p) = Some (a_peering a).
Proof.
  unfold load_rules. destruct (fold_left load_rule (p_rules p) (Some authorizer_empty)) as [a1|]; [|discriminate].
  destruct (load_scalar (p_acl p)), (load_scalar (p_keyring p)), (load_scalar (p_operator p)),
           (load_scalar (p_mesh p)), (load_scalar (p_peering p)); try discriminate.
  intros [= <-]. exists a1. split; [reflexivity|]. split; [intros []; reflexivity|]. split; [reflexivity|].
  split; [intros W; exact W|]. repeat split.
Qed.

Lemma load_rules_spec p a : NoDup (map rule_key (p_rules p)) -> load_rules p = Some a ->
  (forall r, In r (p_rules p) ->
     kslot a (r_kind r) (r_prefix r) (r_name r) = access_level_from_string (r_pol r)
     /\ (r_kind r = KService ->
         islot a (r_prefix r) (r_name r) = access_level_from_string (intention_of (r_pol r) (r_int r))))
  /\ (forall k pf n, ~ In (k, pf, n) (map rule_key (p_rules p)) ->
        kslot a k pf n = None /\ (k = KService -> islot a pf n = None))
  /\ wf_auth a.
Proof.
  intros Hnd L. destruct (load_rules_inv p a L) as (a1 & F & Hk & Hi & Hw & _).
  destruct (load_fold_spec _ Hnd _ _ F) as (R & N & W). rewrite Hi. split; [|split].
  - intros r Hr. rewrite Hk. apply R, Hr.
  - intros k pf n Hn. destruct (N k pf n Hn) as [Nk Ni]. rewrite Hk, Nk. split; [destruct k; reflexivity|exact Ni].
  - exact (Hw (W authorizer_empty_wf)).
Qed.

Lemma load_scalar_lv p : lev_or_empty p = true -> load_scalar p = Some (option_map acc (doc_level p)).
Proof. destruct p; try discriminate; reflexivity. Qed.

Lemma intention_level pol int : lev_or_empty int = true ->
  access_level_from_string (intention_of pol int)
  = Some (acc (match doc_level int with
               | Some i => i
               | None => match doc_level pol with Some LRead | Some LWrite => LRead | _ => LDeny end
               end)).
Proof. destruct int as [|i|i|]; try discriminate; intros _; [|reflexivity|reflexivity]. destruct pol as [|[]|[]|]; reflexivity. Qed.

Lemma load_rule_some a r : levelled_rule r = true -> exists a', load_rule (Some a) r = Some a'.
Proof.
  unfold levelled_rule. intros H. apply andb_true_iff in H as [Hp Hi].
  assert (Hl : exists l, access_level_from_string (r_pol r) = Some l).
  { rewrite access_level_from_string_lv. unfold has_level in Hp. destruct (doc_level (r_pol r)); [cbn; eauto|discriminate]. }
  destruct Hl as [l Hl]. cbn [load_rule]. unfold insert_policy_into_radix at 1. rewrite Hl.
  revert Hi. destruct (r_kind r); intros Hi; try (eexists; reflexivity).
  unfold insert_policy_into_radix. rewrite (intention_level _ _ Hi). eexists; reflexivity.
Qed.

Lemma load_fold_some rs : forallb levelled_rule rs = true -> forall a,
  exists a', fold_left load_rule rs (Some a) = Some a'.
Proof.
  induction rs as [|r rs IH]; intros H a; cbn [fold_left]; [eauto|].
  cbn [forallb] in H. apply andb_true_iff in H as [Hr H].
  destruct (load_rule_some a r Hr) as [a1 ->]. apply IH, H.
Qed.
