(* C08 — the identity layer (ACL/Identity.v): what a token's policies are, that they come from
   the world only, and how they relate to the documented union of the token's own and inherited
   policies and identities.  First the membership facts about sorting, merging and deduplicating
   datacenter and id lists; then [KeyedDedup], the one loop behind both keyed Deduplicate functions;
   then [candidates] and the union. *)
From Verif Require Import Base.Prelude.
From Verif Require Import Base.Lists.
From Verif Require Import Base.Sorting.
From Verif Require Import ACL.Model.
From Verif Require Import ACL.Spec.
From Verif Require Import ACL.Assoc.
From Verif Require Import ACL.Proofs.
From Verif Require Import ACL.Cache.
From Verif Require Import ACL.Identity.
From Coq Require Import Permutation.

Lemma sort_n_isort : insertion_sort N.leb insert_n sort_n.
Proof. split; reflexivity. Qed.

Lemma sort_n_In x l : In x (sort_n l) <-> In x l.
Proof. apply (In_isort sort_n_isort). Qed.

Lemma sort_n_nil l : sort_n l = [] <-> l = [].
Proof.
  split; [|intros ->; reflexivity]. destruct l as [|y l]; [reflexivity|]. intros H.
  assert (Hin : In y (sort_n (y :: l))) by (apply sort_n_In; left; reflexivity). rewrite H in Hin. destruct Hin.
Qed.

Lemma unique_adjacent_In x l : In x (unique_adjacent l) <-> In x l.
Proof.
  induction l as [|y l IH]; [reflexivity|]. cbn [unique_adjacent]. destruct l as [|z l]; [reflexivity|].
  destruct (N.eqb y z) eqn:E.
  - apply N.eqb_eq in E; subst z. rewrite IH. cbn [In]. intuition.
  - cbn [In] in *. rewrite IH. reflexivity.
Qed.

Lemma dedupe_ids_In x l : In x (dedupe_ids l) <-> In x l.
Proof.
  destruct l as [|a [|b l]]; try reflexivity. unfold dedupe_ids. rewrite unique_adjacent_In, sort_n_In. reflexivity.
Qed.

Lemma merge_sorted_cons x a y b :
  merge_sorted (x :: a) (y :: b)
  = if N.ltb x y then x :: merge_sorted a (y :: b)
    else if N.ltb y x then y :: merge_sorted (x :: a) b else x :: merge_sorted a b.
Proof. reflexivity. Qed.

Lemma merge_sorted_In x a : forall b, In x (merge_sorted a b) <-> In x a \/ In x b.
Proof.
  induction a as [|y a IHa]; intros b; [destruct b; cbn; intuition|].
  induction b as [|z b IHb]; [cbn; intuition|].
  rewrite merge_sorted_cons. destruct (N.ltb y z) eqn:E1; [|destruct (N.ltb z y) eqn:E2]; cbn [In].
  - rewrite IHa. cbn [In]. intuition.
  - rewrite IHb. cbn [In]. intuition.
  - assert (y = z) by (apply N.ltb_ge in E1; apply N.ltb_ge in E2; lia). subst z. rewrite IHa. intuition.
Qed.

Lemma merge_sorted_nil a b : merge_sorted a b = [] <-> a = [] /\ b = [].
Proof.
  split; [|intros [-> ->]; reflexivity]. intros H.
  destruct a as [|x a]; [destruct b; [auto|discriminate]|].
  exfalso. assert (Hin : In x (merge_sorted (x :: a) b)) by (apply merge_sorted_In; left; left; reflexivity).
  rewrite H in Hin. destruct Hin.
Qed.

Lemma in_scope_spec dc l : in_scope dc l = true <-> l = [] \/ In dc l.
Proof.
  destruct l as [|y l]; [cbn; intuition|]. unfold in_scope. rewrite existsb_exists. split.
  - intros (x & Hin & E). apply N.eqb_eq in E; subst. right; exact Hin.
  - intros [H|H]; [discriminate|]. exists dc. split; [exact H|apply N.eqb_refl].
Qed.

Lemma nident_eqb_eq a b : nident_eqb a b = true <-> a = b.
Proof.
  destruct a, b. unfold nident_eqb. cbn. rewrite andb_true_iff, !N.eqb_eq. split; [intros [-> ->]; reflexivity|intros [= -> ->]; auto].
Qed.

Lemma existsb_nident x seen : existsb (nident_eqb x) seen = true <-> In x seen.
Proof.
  rewrite existsb_exists. split; [intros (y & Hy & E); apply nident_eqb_eq in E; subst; exact Hy|].
  intros H. exists x. split; [exact H|apply nident_eqb_eq; reflexivity].
Qed.

Lemma dedup_nis_from_In x l : forall seen, In x (dedup_nis_from seen l) <-> In x l /\ ~ In x seen.
Proof.
  induction l as [|y l IH]; intros seen; cbn [dedup_nis_from In]; [tauto|].
  (* whether x is the item at hand is decided by the model's own test *)
  assert (D : y = x \/ y <> x).
  { destruct (nident_eqb y x) eqn:E; [left; apply nident_eqb_eq, E|right; intros ->].
    rewrite (proj2 (nident_eqb_eq x x) eq_refl) in E. discriminate. }
  destruct (existsb (nident_eqb y) seen) eqn:E.
  - apply existsb_nident in E. rewrite IH. destruct D as [<-|D]; tauto.
  - assert (Hy : ~ In y seen) by (rewrite <- existsb_nident, E; discriminate).
    cbn [In]. rewrite IH. cbn [In]. destruct D as [<-|D]; tauto.
Qed.

Lemma dedup_nis_In x l : In x (dedup_nis l) <-> In x l.
Proof. unfold dedup_nis. rewrite dedup_nis_from_In. cbn. intuition. Qed.

Lemma tkey_eqb_eq a b : tkey_eqb a b = true <-> a = b.
Proof.
  destruct a, b. unfold tkey_eqb. cbn. rewrite andb_true_iff, !N.eqb_eq. split; [intros [-> ->]; reflexivity|intros [= -> ->]; auto].
Qed.

Lemma in_scope_sort dc l : in_scope dc (sort_n l) = in_scope dc l.
Proof.
  apply eq_true_iff_eq. rewrite !in_scope_spec, sort_n_nil, sort_n_In. reflexivity.
Qed.

Lemma merge_sorted_scope dc a b : a <> [] -> b <> [] ->
  in_scope dc (merge_sorted a b) = in_scope dc a || in_scope dc b.
Proof.
  intros Ha Hb. apply eq_true_iff_eq. rewrite orb_true_iff, !in_scope_spec, merge_sorted_nil, merge_sorted_In. tauto.
Qed.

Lemma merge_dcs_scope dc d acc : in_scope dc (merge_dcs d acc) = in_scope dc acc || in_scope dc d.
Proof.
  unfold merge_dcs. destruct acc as [|a acc]; [reflexivity|].
  destruct d as [|x d]; [cbn [is_nil orb]; rewrite orb_true_r; reflexivity|]. cbn [is_nil orb].
  rewrite merge_sorted_scope, in_scope_sort by (try discriminate; rewrite sort_n_nil; discriminate). apply orb_comm.
Qed.

Lemma tmerge_scope dc d kept : in_scope dc (tmerge d kept) = in_scope dc kept || in_scope dc d.
Proof.
  unfold tmerge. destruct kept as [|a kept]; [reflexivity|].
  destruct d as [|x d]; [cbn [is_nil]; rewrite orb_true_r; reflexivity|]. cbn [is_nil].
  rewrite merge_sorted_scope, !in_scope_sort by (rewrite sort_n_nil; discriminate). reflexivity.
Qed.

Lemma scoped_In {Y} (G : Y -> list (pentry * list N)) dc ys p :
  In p (map e_pol (map fst (filter (fun pd => in_scope dc (snd pd)) (flat_map G ys))))
  <-> exists y q ds, In y ys /\ In (q, ds) (G y) /\ in_scope dc ds = true /\ e_pol q = p.
Proof.
  rewrite map_map, in_map_iff. split.
  - intros ([q ds] & Hp & H). apply filter_In in H as [H Hsc]. apply in_flat_map in H as (y & Hy & H). eauto 8.
  - intros (y & q & ds & Hy & H & Hsc & Hp). exists (q, ds). split; [exact Hp|]. apply filter_In.
    split; [apply in_flat_map; eauto|exact Hsc].
Qed.

(* ACLServiceIdentities.Deduplicate and ACLTemplatedPolicies.Deduplicate are one loop: a map from
   the item's key to datacenters, [init] for a new key, [mrg] with what the key has so far.  Both
   merges keep an item valid here iff one of the merged ones is. *)
Section KeyedDedup.
  Context {K X : Type} (eqb : K -> K -> bool) (eqb_eq : forall a b, eqb a b = true <-> a = b)
          (key : X -> K) (dcs : X -> list N) (init : list N -> list N) (mrg : list N -> list N -> list N).
  Hypothesis init_scope : forall dc d, in_scope dc (init d) = in_scope dc d.
  Hypothesis mrg_scope : forall dc d old, in_scope dc (mrg d old) = in_scope dc old || in_scope dc d.

  Definition kstep (m : list (K * list N)) (x : X) : list (K * list N) :=
    match alookup eqb (key x) m with
    | Some old => aset eqb (key x) (mrg (dcs x) old) m
    | None => aset eqb (key x) (init (dcs x)) m
    end.

  Definition kacc (o : option (list N)) (x : X) : option (list N) :=
    Some (match o with None => init (dcs x) | Some old => mrg (dcs x) old end).

  Definition oscope (dc : N) (o : option (list N)) : bool :=
    match o with Some d => in_scope dc d | None => false end.

  Lemma kstep_lookup m x k :
    alookup eqb k (kstep m x) = if eqb k (key x) then kacc (alookup eqb (key x) m) x else alookup eqb k m.
  Proof. unfold kstep, kacc. destruct (alookup eqb (key x) m); rewrite (alookup_aset _ eqb_eq); reflexivity. Qed.

  Lemma kfold_nodup l : forall m, NoDup (map fst m) -> NoDup (map fst (fold_left kstep l m)).
  Proof.
    induction l as [|x l IH]; intros m H; cbn [fold_left]; [exact H|]. apply IH. unfold kstep.
    destruct (alookup eqb (key x) m); apply (aset_nodup _ eqb_eq), H.
  Qed.

  Lemma kfold_lookup l k : forall m,
    alookup eqb k (fold_left kstep l m) = fold_left kacc (filter (fun x => eqb (key x) k) l) (alookup eqb k m).
  Proof.
    induction l as [|x l IH]; intros m; cbn [fold_left filter]; [reflexivity|].
    rewrite IH, kstep_lookup, (eqb_sym _ eqb_eq (key x)). destruct (eqb k (key x)) eqn:E; [|reflexivity].
    apply eqb_eq in E. subst k. reflexivity.
  Qed.

  Lemma kacc_fold_scope dc l : forall o,
    oscope dc (fold_left kacc l o) = oscope dc o || existsb (fun x => in_scope dc (dcs x)) l.
  Proof.
    induction l as [|x l IH]; intros o; cbn [fold_left existsb]; [rewrite orb_false_r; reflexivity|].
    rewrite IH, orb_assoc. f_equal. destruct o; cbn [kacc oscope]; [apply mrg_scope|apply init_scope].
  Qed.

  Lemma kacc_fold_none l : forall o, fold_left kacc l o = None -> l = [] /\ o = None.
  Proof.
    induction l as [|x l IH]; intros o H; [auto|]. destruct (IH _ H) as [_ [=]].
  Qed.

  Definition kdedup (l : list X) : list (K * list N) := fold_left kstep l [].

  Lemma kdedup_nodup l : NoDup (map fst (kdedup l)).
  Proof. apply kfold_nodup. constructor. Qed.

  Lemma kdedup_occ l k : alookup eqb k (kdedup l) <> None <-> exists x, In x l /\ key x = k.
  Proof.
    unfold kdedup. rewrite kfold_lookup. cbn [alookup]. split.
    - intros H. destruct (filter (fun x => eqb (key x) k) l) as [|x r] eqn:E; [contradiction|].
      exists x. rewrite <- (eqb_eq (key x) k). apply (filter_In (fun y => eqb (key y) k)). rewrite E. left; reflexivity.
    - intros (x & Hx & Hk) H. apply kacc_fold_none in H as [H _].
      assert (Hin : In x (filter (fun x => eqb (key x) k) l)) by (apply filter_In; split; [exact Hx|apply eqb_eq, Hk]).
      rewrite H in Hin. destruct Hin.
  Qed.

  Lemma kdedup_scope dc l k ds : alookup eqb k (kdedup l) = Some ds ->
    (in_scope dc ds = true <-> exists x, In x l /\ key x = k /\ in_scope dc (dcs x) = true).
  Proof.
    unfold kdedup. rewrite kfold_lookup. cbn [alookup]. intros L.
    apply (f_equal (oscope dc)) in L. rewrite kacc_fold_scope in L. cbn [oscope orb] in L. rewrite <- L, existsb_exists.
    split; intros (x & Hx & Hs); exists x.
    - apply filter_In in Hx as [Hx Hk]. apply eqb_eq in Hk. auto.
    - destruct Hs as [Hk Hs]. split; [apply filter_In; split; [exact Hx|apply eqb_eq, Hk]|exact Hs].
  Qed.

  Lemma kdedup_policies (synth : list (K * pentry)) dc l :
    sameset
      (map e_pol (map fst (filter (fun pd => in_scope dc (snd pd))
         (flat_map (fun e => match alookup eqb (fst e) synth with Some q => [(q, snd e)] | None => [] end) (kdedup l)))))
      (flat_map (fun x => if in_scope dc (dcs x) then olist' (option_map e_pol (alookup eqb (key x) synth)) else []) l).
  Proof.
    intros p. rewrite scoped_In, in_flat_map. split.
    - intros ([k ds'] & q & ds & Hy & Hin & Hsc & <-). cbn [fst snd] in Hin.
      destruct (alookup eqb k synth) as [q'|] eqn:Lq; [|destruct Hin]. destruct Hin as [[= <- <-]|[]].
      apply (In_alookup _ eqb_eq _ _ _ (kdedup_nodup l)) in Hy.
      destruct (proj1 (kdedup_scope dc l k ds' Hy) Hsc) as (x & Hx & Hk & Hxs).
      exists x. split; [exact Hx|]. rewrite Hxs, Hk, Lq. left; reflexivity.
    - intros (x & Hx & Hp). destruct (in_scope dc (dcs x)) eqn:Hsc; [|destruct Hp].
      destruct (alookup eqb (key x) synth) as [q|] eqn:Lq; [|destruct Hp]. destruct Hp as [<-|[]].
      destruct (alookup eqb (key x) (kdedup l)) as [ds|] eqn:L; [|destruct (proj2 (kdedup_occ l (key x))); eauto].
      exists (key x, ds), q, ds. split; [apply (alookup_In _ eqb_eq), L|]. cbn [fst snd]. rewrite Lq.
      split; [left; reflexivity|]. split; [|reflexivity]. apply (kdedup_scope dc l _ ds L). eauto.
  Qed.
End KeyedDedup.

Lemma dedup_sis_kdedup l : dedup_sis l = kdedup N.eqb si_name si_dcs sort_n merge_dcs l.
Proof. reflexivity. Qed.
Lemma dedup_tps_kdedup l : dedup_tps l = kdedup tkey_eqb tp_key tp_dcs (fun d => d) tmerge l.
Proof. reflexivity. Qed.

Lemma dedup_sis_lookup_occ l n dcs : alookup N.eqb n (dedup_sis l) = Some dcs -> exists s, In s l /\ si_name s = n.
Proof.
  intros L. apply (kdedup_occ N.eqb N.eqb_eq si_name si_dcs sort_n merge_dcs).
  rewrite <- dedup_sis_kdedup. congruence.
Qed.

Definition in_world (w : world) (e : pentry) : Prop :=
  (exists id wp, In (id, wp) (w_pols w) /\ wp_entry wp = e)
  \/ (exists n, In (n, e) (w_synth_svc w)) \/ (exists n, In (n, e) (w_synth_node w))
  \/ (exists k, In (k, e) (w_synth_tp w)).

(* what resolvePoliciesForIdentity collects before filterPoliciesByScope *)
Definition candidates (w : world) (t : wtoken) : list (pentry * list N) :=
  let roles := roles_of w t in
  flat_map (fun id => match alookup N.eqb id (w_pols w) with
                      | Some wp => [(wp_entry wp, wp_dcs wp)] | None => [] end)
           (dedupe_ids (tk_pols t ++ flat_map ro_pols roles))
  ++ flat_map (fun e => match alookup N.eqb (fst e) (w_synth_svc w) with
                        | Some p => [(p, snd e)] | None => [] end)
              (dedup_sis (tk_sis t ++ flat_map ro_sis roles))
  ++ flat_map (fun n => match alookup N.eqb (ni_name n) (w_synth_node w) with
                        | Some p => [(p, [ni_dc n])] | None => [] end)
              (dedup_nis (tk_nis t ++ flat_map ro_nis roles))
  ++ flat_map (fun e => match alookup tkey_eqb (fst e) (w_synth_tp w) with
                        | Some p => [(p, snd e)] | None => [] end)
              (dedup_tps (tk_tps t ++ flat_map ro_tps roles)).

(* the early return for a token that holds nothing gives the same empty list *)
Lemma policies_for_identity_eq w t :
  policies_for_identity w t = map fst (filter (fun pd => in_scope (w_dc w) (snd pd)) (candidates w t)).
Proof.
  unfold policies_for_identity, candidates.
  destruct (tk_pols t); [|reflexivity]. destruct (tk_roles t) eqn:E; [|reflexivity].
  destruct (tk_sis t); [|reflexivity]. destruct (tk_nis t); [|reflexivity]. destruct (tk_tps t); [|reflexivity].
  unfold roles_of. rewrite E. reflexivity.
Qed.

Lemma candidates_in_world w t e d : In (e, d) (candidates w t) -> in_world w e.
Proof.
  unfold candidates. cbv zeta. intros H.
  apply in_app_or in H as [H|H]; [|apply in_app_or in H as [H|H]; [|apply in_app_or in H as [H|H]]];
    apply in_flat_map in H as (x & _ & H).
  - destruct (alookup N.eqb x (w_pols w)) as [wp|] eqn:L; [|destruct H]. destruct H as [[= <- <-]|[]].
    left. exists x, wp. split; [apply (alookup_In _ N.eqb_eq), L|reflexivity].
  - destruct (alookup N.eqb (fst x) (w_synth_svc w)) as [p|] eqn:L; [|destruct H]. destruct H as [[= <- <-]|[]].
    right; left. exists (fst x). apply (alookup_In _ N.eqb_eq), L.
  - destruct (alookup N.eqb (ni_name x) (w_synth_node w)) as [p|] eqn:L; [|destruct H]. destruct H as [[= <- <-]|[]].
    right; right; left. exists (ni_name x). apply (alookup_In _ N.eqb_eq), L.
  - destruct (alookup tkey_eqb (fst x) (w_synth_tp w)) as [p|] eqn:L; [|destruct H]. destruct H as [[= <- <-]|[]].
    right; right; right. exists (fst x). apply (alookup_In _ tkey_eqb_eq), L.
Qed.

Lemma policies_for_identity_in_world w t : Forall (in_world w) (policies_for_identity w t).
Proof.
  apply Forall_forall. intros e He. rewrite policies_for_identity_eq in He.
  apply in_map_iff in He as ([e' d] & <- & H). apply filter_In in H as [H _]. apply (candidates_in_world w t e' d H).
Qed.

(* the decisions of a token do not depend on what was resolved before, in this world or in earlier
   versions of it, as long as the whole store W is versioned *)
Theorem token_decide_pure_store (W : pentry -> Prop) w c t s m :
  versioned W -> (forall e, in_world w e -> W e) -> reach W c ->
  token_decide w c t s m = token_decide w caches_empty t s m.
Proof.
  intros V Hsub R. unfold token_decide. apply (resolve_decide_pure W); [exact V|exact R|].
  eapply Forall_impl; [exact Hsub|apply policies_for_identity_in_world].
Qed.

(* everything the token holds itself or inherits from its roles, each item valid here or not on
   its own: the rule lists the documented rule is applied to *)
Definition union_policies (w : world) (t : wtoken) : list policy :=
  let roles := roles_of w t in
  flat_map (fun id => match alookup N.eqb id (w_pols w) with
                      | Some wp => if in_scope (w_dc w) (wp_dcs wp) then [e_pol (wp_entry wp)] else []
                      | None => [] end) (tk_pols t ++ flat_map ro_pols roles)
  ++ flat_map (fun s => if in_scope (w_dc w) (si_dcs s)
                        then olist' (option_map e_pol (alookup N.eqb (si_name s) (w_synth_svc w))) else [])
              (tk_sis t ++ flat_map ro_sis roles)
  ++ flat_map (fun n => if N.eqb (w_dc w) (ni_dc n)
                        then olist' (option_map e_pol (alookup N.eqb (ni_name n) (w_synth_node w))) else [])
              (tk_nis t ++ flat_map ro_nis roles)
  ++ flat_map (fun x => if in_scope (w_dc w) (tp_dcs x)
                        then olist' (option_map e_pol (alookup tkey_eqb (tp_key x) (w_synth_tp w))) else [])
              (tk_tps t ++ flat_map ro_tps roles).

Lemma pids_source w ids :
  sameset
    (map e_pol (map fst (filter (fun pd => in_scope (w_dc w) (snd pd))
       (flat_map (fun id => match alookup N.eqb id (w_pols w) with
                            | Some wp => [(wp_entry wp, wp_dcs wp)] | None => [] end) (dedupe_ids ids)))))
    (flat_map (fun id => match alookup N.eqb id (w_pols w) with
                         | Some wp => if in_scope (w_dc w) (wp_dcs wp) then [e_pol (wp_entry wp)] else []
                         | None => [] end) ids).
Proof.
  intros p. rewrite scoped_In, in_flat_map. split.
  - intros (id & q & ds & Hy & Hin & Hsc & <-). exists id. split; [apply dedupe_ids_In, Hy|].
    destruct (alookup N.eqb id (w_pols w)) as [wp|]; [|destruct Hin]. destruct Hin as [[= <- <-]|[]].
    rewrite Hsc. left; reflexivity.
  - intros (id & Hid & Hp). destruct (alookup N.eqb id (w_pols w)) as [wp|] eqn:L; [|destruct Hp].
    destruct (in_scope (w_dc w) (wp_dcs wp)) eqn:Hsc; [|destruct Hp]. destruct Hp as [<-|[]].
    exists id, (wp_entry wp), (wp_dcs wp). split; [apply dedupe_ids_In, Hid|]. rewrite L.
    split; [left; reflexivity|]. split; [exact Hsc|reflexivity].
Qed.

Lemma nis_source w nis :
  sameset
    (map e_pol (map fst (filter (fun pd => in_scope (w_dc w) (snd pd))
       (flat_map (fun n => match alookup N.eqb (ni_name n) (w_synth_node w) with
                           | Some p => [(p, [ni_dc n])] | None => [] end) (dedup_nis nis)))))
    (flat_map (fun n => if N.eqb (w_dc w) (ni_dc n)
                        then olist' (option_map e_pol (alookup N.eqb (ni_name n) (w_synth_node w))) else []) nis).
Proof.
  intros p. rewrite scoped_In, in_flat_map. split.
  - intros (n & q & ds & Hy & Hin & Hsc & <-). exists n. split; [apply dedup_nis_In, Hy|].
    destruct (alookup N.eqb (ni_name n) (w_synth_node w)) as [q'|]; [|destruct Hin]. destruct Hin as [[= <- <-]|[]].
    cbn [in_scope existsb] in Hsc. rewrite orb_false_r in Hsc. rewrite Hsc. left; reflexivity.
  - intros (n & Hn & Hp). destruct (N.eqb (w_dc w) (ni_dc n)) eqn:Hsc; [|destruct Hp].
    destruct (alookup N.eqb (ni_name n) (w_synth_node w)) as [q|] eqn:Lq; [|destruct Hp]. destruct Hp as [<-|[]].
    exists n, q, [ni_dc n]. split; [apply dedup_nis_In, Hn|]. rewrite Lq. split; [left; reflexivity|].
    split; [cbn; rewrite Hsc; reflexivity|reflexivity].
Qed.

Theorem policies_are_union w t :
  sameset (map e_pol (policies_for_identity w t)) (union_policies w t).
Proof.
  rewrite policies_for_identity_eq. unfold candidates, union_policies. cbv zeta.
  rewrite !filter_app, !map_app. repeat apply sameset_app.
  - apply pids_source.
  - rewrite dedup_sis_kdedup. apply (kdedup_policies N.eqb N.eqb_eq si_name si_dcs sort_n merge_dcs in_scope_sort merge_dcs_scope).
  - apply nis_source.
  - rewrite dedup_tps_kdedup. apply (kdedup_policies tkey_eqb tkey_eqb_eq tp_key tp_dcs (fun d => d) tmerge (fun _ _ => eq_refl) tmerge_scope).
Qed.

(* the same links and identities, listed in another order *)
Definition token_equiv (t t' : wtoken) : Prop :=
  Permutation (tk_pols t) (tk_pols t') /\ Permutation (tk_roles t) (tk_roles t')
  /\ Permutation (tk_sis t) (tk_sis t') /\ Permutation (tk_nis t) (tk_nis t') /\ Permutation (tk_tps t) (tk_tps t').

Lemma held_sameset {A} w t t' (own : wtoken -> list A) (inh : wrole -> list A) :
  sameset (own t) (own t') -> sameset (tk_roles t) (tk_roles t') ->
  sameset (own t ++ flat_map inh (roles_of w t)) (own t' ++ flat_map inh (roles_of w t')).
Proof.
  intros P1 P2. apply sameset_app; [exact P1|]. apply sameset_flat_map. unfold roles_of. apply sameset_flat_map, P2.
Qed.

Lemma union_policies_sameset w t t' :
  sameset (tk_pols t) (tk_pols t') -> sameset (tk_roles t) (tk_roles t') -> sameset (tk_sis t) (tk_sis t') ->
  sameset (tk_nis t) (tk_nis t') -> sameset (tk_tps t) (tk_tps t') ->
  sameset (union_policies w t) (union_policies w t').
Proof.
  intros P1 P2 P3 P4 P5. unfold union_policies. repeat apply sameset_app; apply sameset_flat_map, held_sameset; assumption.
Qed.

Lemma union_policies_equiv w t t' : token_equiv t t' -> sameset (union_policies w t) (union_policies w t').
Proof. intros (P1 & P2 & P3 & P4 & P5). apply union_policies_sameset; apply Permutation_sameset; assumption. Qed.
