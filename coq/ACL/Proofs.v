(* C08 — the model (ACL/Model.v) computes the documented rule (ACL/Spec.v).
   ACL/Merge.v, ACL/Load.v and ACL/Walk.v treat MergePolicies, loadRules and the traversals one by
   one; here they are put together: the authorizer built from a policy list decides every request as
   the reference does, in whatever order the policies come and Go's map iteration hands the merged
   rules to loadRules; then what the list-level tests of the reference mean, for all names. *)
From Verif Require Import Base.Prelude.
From Verif Require Import Base.Lists.
From Verif Require Import ACL.Model.
From Verif Require Import ACL.Spec.
From Verif Require Import ACL.Assoc.
From Verif Require Import ACL.Merge.
From Verif Require Import ACL.Load.
From Verif Require Import ACL.Walk.
From Coq Require Import Permutation.

Local Notation lookup := (alookup rkey_eqb).

(* S lists (at least) every name that has a rule *)
Definition covers (S : list string) (v : view) : Prop := forall pf n, v pf n <> None -> In n S.

Lemma acc_inj a b : acc a = acc b -> a = b.
Proof. destruct a, b; cbn; congruence. Qed.

Lemma traffic_set_tree a k t : a_traffic (set_tree a k t) = a_traffic a.
Proof. destruct k; reflexivity. Qed.

Section Merged.
  Variable ps : list policy.
  Hypothesis Hlev : forallb levelled ps = true.

  Let rs := all_rules ps.
  Let ctx := fold_left merge_rule rs [].

  Lemma ctx_nodup : NoDup (map fst ctx).
  Proof. apply merge_fold_nodup. constructor. Qed.

  Lemma ctx_levelled key e : lookup key ctx = Some e -> levelled_rule (entry_rule (key, e)) = true.
  Proof. apply (merge_fold_levelled rs (all_rules_levelled ps Hlev) []). intros ? ? [=]. Qed.

  (* any policy whose rules are the merged rules in some order (Go's map iteration order in fill) *)
  Variable p' : policy.
  Hypothesis Hperm : Permutation (p_rules p') (p_rules (merge_policies ps)).

  Lemma filled_keys : map rule_key (map entry_rule ctx) = map fst ctx.
  Proof. rewrite map_map. apply map_ext. intros [[[k pf] n] v]. reflexivity. Qed.

  Lemma rules'_nodup : NoDup (map rule_key (p_rules p')).
  Proof.
    eapply Permutation_NoDup; [apply Permutation_sym, Permutation_map, Hperm|].
    rewrite (filled_rules ps : _ = map entry_rule ctx), filled_keys. apply ctx_nodup.
  Qed.

  Lemma entry_in k pf n val : lookup (k, pf, n) ctx = Some val -> In (Rule k pf n (v_pol val) (v_int val)) (p_rules p').
  Proof.
    intros L. eapply Permutation_in; [apply Permutation_sym, Hperm|]. rewrite (filled_rules ps : _ = map entry_rule ctx).
    apply (in_map entry_rule _ _ (alookup_In _ rkey_eqb_eq _ _ _ L)).
  Qed.

  Lemma no_entry_no_rule key : lookup key ctx = None -> ~ In key (map rule_key (p_rules p')).
  Proof.
    intros L H. apply (alookup_None _ rkey_eqb_eq) in L. apply L. rewrite <- filled_keys, <- (filled_rules ps : _ = map entry_rule ctx).
    eapply Permutation_in; [apply Permutation_map, Hperm|exact H].
  Qed.

  Lemma rules'_levelled : forallb levelled_rule (p_rules p') = true.
  Proof.
    apply forallb_forall. intros r Hr. eapply Permutation_in in Hr; [|exact Hperm]. rewrite (filled_rules ps : _ = map entry_rule ctx) in Hr.
    apply in_map_iff in Hr as ([key val] & <- & Hin). apply ctx_levelled, (In_alookup _ rkey_eqb_eq), Hin. apply ctx_nodup.
  Qed.

  Variable a : authorizer.
  Hypothesis Hload : load_rules p' = Some a.

  Lemma auth_wf : wf_auth a.
  Proof. apply (load_rules_spec _ _ rules'_nodup Hload). Qed.

  Lemma auth_kslot k pf n : kslot a k pf n = option_map acc (eff rs k pf n).
  Proof.
    destruct (load_rules_spec _ _ rules'_nodup Hload) as (R & N & _).
    rewrite <- (merged_pol rs k pf n). fold ctx.
    destruct (lookup (k, pf, n) ctx) as [val|] eqn:L; cbn [olevel option_map].
    - destruct (R _ (entry_in _ _ _ _ L)) as [Rk _]. cbn [r_kind r_prefix r_name r_pol] in Rk.
      rewrite Rk. apply access_level_from_string_lv.
    - exact (proj1 (N k pf n (no_entry_no_rule _ L))).
  Qed.

  Lemma auth_islot pf n : islot a pf n = option_map acc (eff_int rs pf n).
  Proof.
    destruct (load_rules_spec _ _ rules'_nodup Hload) as (R & N & _).
    unfold eff_int. rewrite <- (merged_pol rs KService pf n), <- (merged_int rs pf n). fold ctx.
    destruct (lookup (KService, pf, n) ctx) as [val|] eqn:L; cbn [olevel].
    - assert (Hlv := ctx_levelled _ _ L). unfold levelled_rule in Hlv. cbn [entry_rule r_pol r_int r_kind] in Hlv.
      apply andb_true_iff in Hlv as [Hp Hi].
      destruct (R _ (entry_in _ _ _ _ L)) as [_ Ri]. specialize (Ri eq_refl).
      cbn [r_kind r_prefix r_name r_pol r_int] in Ri. rewrite Ri, (intention_level _ _ Hi).
      unfold has_level in Hp. destruct (doc_level (v_pol val)) as [s|]; [|discriminate].
      destruct (doc_level (v_int val)); [reflexivity|destruct s; reflexivity].
    - exact (proj2 (N KService pf n (no_entry_no_rule _ L)) eq_refl).
  Qed.

  Lemma auth_traffic : a_traffic a = [].
  Proof using Hperm Hload. apply auth_wf. Qed.
End Merged.

Lemma merged_scalar_loads (f : policy -> pstr) (g : mctx -> pstr) ps :
  (forall c q, g (merge_policy c q) = merge_scalar (f q) (g c)) -> g mctx_init = PEmpty ->
  (forall c, f (fill c) = g c) ->
  load_scalar (f (merge_policies ps)) = Some (option_map acc (scalar f ps)).
Proof.
  intros Hg H0 Hf. unfold merge_policies. rewrite Hf. destruct (merged_scalar f g ps Hg H0) as [E V].
  rewrite (load_scalar_lv _ V), E. reflexivity.
Qed.

Lemma covers_eff rs k : covers (names_of rs k) (eff rs k).
Proof.
  intros pf n H. unfold eff in H.
  destruct (matching rs k pf n) as [|r l] eqn:E; [exact (False_ind _ (H eq_refl))|].
  assert (Hin : In r (matching rs k pf n)) by (rewrite E; left; reflexivity).
  apply filter_In in Hin as [Hin Hk]. apply rkey_eqb_eq in Hk. unfold rule_key in Hk. injection Hk as Hk _ Hn.
  unfold names_of. apply in_map_iff. exists r. split; [exact Hn|]. apply filter_In. split; [exact Hin|].
  apply rkind_eqb_eq, Hk.
Qed.

Lemma covers_eff_int rs : covers (names_of rs KService) (eff_int rs).
Proof.
  intros pf n H. apply (covers_eff rs KService pf n). intros E. apply H. unfold eff_int. rewrite E. reflexivity.
Qed.

(* [p'] is what policyRulesMergeContext.fill could have produced for [ps]: the merged scalar rules,
   and the merged rules in whatever order Go's map iteration yields them *)
Definition fill_of (ps : list policy) (p' : policy) : Prop :=
  p_acl p' = p_acl (merge_policies ps) /\ p_keyring p' = p_keyring (merge_policies ps)
  /\ p_operator p' = p_operator (merge_policies ps) /\ p_mesh p' = p_mesh (merge_policies ps)
  /\ p_peering p' = p_peering (merge_policies ps)
  /\ Permutation (p_rules p') (p_rules (merge_policies ps)).

Lemma fill_of_merge ps : fill_of ps (merge_policies ps).
Proof. repeat split. apply Permutation_refl. Qed.

(* The authorizer built from a policy list decides every request as the documented rule does;
   this holds for whatever order Go's map iteration hands the merged rules to loadRules. *)
Theorem policy_authorizer_spec ps p' a :
  forallb levelled ps = true -> fill_of ps p' ->
  load_rules p' = Some a ->
  forall m, policy_decide a m = spec_decide ps m.
Proof.
  intros Hc (H1 & H2 & H3 & H4 & H5 & HP) HL m.
  assert (Rk : forall k, repr (tree_of a k) (eff (all_rules ps) k))
    by (intros k pf n; apply (auth_kslot ps p' HP a HL)).
  assert (Ri : repr (a_intention a) (eff_int (all_rules ps)))
    by (intros pf n; apply (auth_islot ps Hc p' HP a HL)).
  destruct (auth_wf ps p' HP a HL) as (Wk & Wi & Wt).
  destruct (load_rules_inv _ _ HL) as (_ & _ & _ & _ & _ & S1 & S2 & S3 & S4 & S5).
  rewrite H1, (merged_scalar_loads p_acl m_acl) in S1 by reflexivity.
  rewrite H2, (merged_scalar_loads p_keyring m_keyring) in S2 by reflexivity.
  rewrite H3, (merged_scalar_loads p_operator m_operator) in S3 by reflexivity.
  rewrite H4, (merged_scalar_loads p_mesh m_mesh) in S4 by reflexivity.
  rewrite H5, (merged_scalar_loads p_peering m_peering) in S5 by reflexivity.
  injection S1 as S1. injection S2 as S2. injection S3 as S3. injection S4 as S4. injection S5 as S5.
  assert (Ck := covers_eff (all_rules ps)). assert (Ci := covers_eff_int (all_rules ps)).
  assert (Look : forall k n need, dec_of (applicable (eff (all_rules ps) k) n) need = lookup_decide (tree_of a k) n need)
    by (intros; symmetry; apply lookup_decide_spec, Rk).
  assert (Any : forall k need, any_allowed (tree_of a k) need = spec_any (eff (all_rules ps) k) (names_of (all_rules ps) k) need)
    by (intros k need; apply (any_allowed_spec _ _ (Rk k) _ (Wk k) (Ck k))).
  assert (All : forall k need, all_allowed (tree_of a k) need = spec_all (eff (all_rules ps) k) (names_of (all_rules ps) k) need)
    by (intros k need; apply (all_allowed_spec _ _ (Rk k) _ (Wk k) (Ck k))).
  (* the scalar rules and the plain lookups go through at once *)
  destruct m; cbn [policy_decide spec_decide];
    rewrite <- ?S1, <- ?S2, <- ?S3, <- ?S4, <- ?S5, ?Wt, ?scalar_decide_spec, ?fallback_decide_spec;
    try reflexivity; try (symmetry; apply Look).
  - (* IntentionRead *)
    destruct (String.eqb n star); [apply (any_allowed_spec _ _ Ri _ Wi Ci)|apply lookup_decide_spec, Ri].
  - (* IntentionWrite *)
    destruct (String.eqb n star); [apply (all_allowed_spec _ _ Ri _ Wi Ci)|apply lookup_decide_spec, Ri].
  - (* KeyWrite *)
    change (a_key a) with (tree_of a KKey). rewrite (get_policy_spec _ _ (Rk KKey)).
    destruct (applicable (eff (all_rules ps) KKey) n) as [l|]; cbn [option_map dec_of]; [|reflexivity].
    rewrite enforce_grants. destruct (grants l AWrite); reflexivity.
  - (* KeyWritePrefix *) apply (key_write_prefix_spec _ _ (Rk KKey) _ (Wk KKey) (Ck KKey)).
  - (* NodeRead *)
    destruct peer; [|symmetry; apply (Look KNode)].
    change (a_service a) with (tree_of a KService). change (a_node a) with (tree_of a KNode). rewrite Any, All.
    destruct (spec_any _ _ AWrite); reflexivity.
  - (* NodeReadAll *) apply (All KNode).
  - (* ServiceRead *)
    destruct peer; [|symmetry; apply (Look KService)].
    change (a_service a) with (tree_of a KService). rewrite Any, All.
    destruct (spec_any _ _ AWrite); reflexivity.
  - (* ServiceReadAll *) apply (All KService).
  - (* ServiceReadPrefix *) apply (service_read_prefix_spec _ _ (Rk KService) _ (Wk KService) (Ck KService)).
  - (* ServiceWriteAny *) apply (Any KService).
  - (* TrafficPermissionsRead *) destruct (String.eqb n star); [reflexivity|apply lookup_decide_nil].
  - (* TrafficPermissionsWrite *) destruct (String.eqb n star); [reflexivity|apply lookup_decide_nil].
Qed.

Lemma load_rules_some ps p' :
  forallb levelled ps = true -> fill_of ps p' ->
  exists a, load_rules p' = Some a.
Proof.
  intros Hc (H1 & H2 & H3 & H4 & H5 & HP). unfold load_rules.
  destruct (load_fold_some _ (rules'_levelled ps Hc p' HP) authorizer_empty) as [a1 ->].
  rewrite H1, H2, H3, H4, H5, (merged_scalar_loads p_acl m_acl), (merged_scalar_loads p_keyring m_keyring),
    (merged_scalar_loads p_operator m_operator), (merged_scalar_loads p_mesh m_mesh),
    (merged_scalar_loads p_peering m_peering) by reflexivity.
  eexists; reflexivity.
Qed.

Lemma new_policy_authorizer_some ps :
  forallb levelled ps = true -> exists a, new_policy_authorizer ps = Some a.
Proof. intros Hc. apply (load_rules_some ps (merge_policies ps) Hc), fill_of_merge. Qed.

Lemma static_decide_spec s m : static_decide s m = spec_default s m.
Proof. destruct m; cbn; unfold bool_decision; reflexivity. Qed.

(* the static authorizer of the default policy never answers Default *)
Lemma chain_decide_spec a s m ps :
  policy_decide a m = spec_decide ps m -> chain_decide a s m = spec_chain ps s m.
Proof.
  intros E. unfold chain_decide, spec_chain. cbn [execute_chain]. rewrite E, static_decide_spec.
  destruct (spec_decide ps m); try reflexivity. destruct s as [[] []], m; reflexivity.
Qed.

Lemma authorizer_spec ps a : forallb levelled ps = true -> new_policy_authorizer ps = Some a ->
  forall m, policy_decide a m = spec_decide ps m.
Proof. intros Hc Ha. apply (policy_authorizer_spec ps (merge_policies ps) a Hc (fill_of_merge ps) Ha). Qed.

(* every policy PolicyRules.Validate accepts is levelled: the theorems cover all policies that parse *)
Lemma validate_levelled p : validate p = true -> levelled p = true.
Proof.
  unfold validate, levelled. intros H. apply andb_true_iff in H as [_ H].
  apply forallb_forall. intros r Hr. assert (Hv := proj1 (forallb_forall _ _) H r Hr).
  unfold rule_valid in Hv. unfold levelled_rule.
  assert (V : forall s b, is_policy_valid s b = true -> has_level s = true).
  { intros s b. unfold is_policy_valid, has_level. rewrite access_level_from_string_lv. destruct (doc_level s); [reflexivity|discriminate]. }
  destruct (r_kind r); try (rewrite (V _ _ Hv); reflexivity).
  apply andb_true_iff in Hv as [Hp Hi]. rewrite (V _ _ Hp). cbn [andb].
  destruct (r_int r); try reflexivity. cbn in Hi. discriminate.
Qed.

Theorem semantics ps :
  forallb levelled ps = true ->
  exists a, new_policy_authorizer ps = Some a
    /\ forall m, policy_decide a m = spec_decide ps m
    /\ forall s, chain_decide a s m = spec_chain ps s m.
Proof.
  intros Hc. destruct (new_policy_authorizer_some ps Hc) as [a Ha]. exists a. split; [exact Ha|].
  intros m. assert (E := authorizer_spec ps a Hc Ha m). split; [exact E|]. intros s. apply chain_decide_spec, E.
Qed.

(* two lists with the same elements (order and multiplicity ignored) *)
Definition sameset {A} (l l' : list A) : Prop := forall x, In x l <-> In x l'.

Lemma Permutation_sameset {A} (l l' : list A) : Permutation l l' -> sameset l l'.
Proof. exact (Permutation_same_members l l'). Qed.

Lemma sameset_app {A} (a a' b b' : list A) : sameset a a' -> sameset b b' -> sameset (a ++ b) (a' ++ b').
Proof. intros Ha Hb x. rewrite !in_app_iff, (Ha x), (Hb x). reflexivity. Qed.

Lemma sameset_filter {A} (f : A -> bool) l l' : sameset l l' -> sameset (filter f l) (filter f l').
Proof. intros H x. rewrite !filter_In, (H x). reflexivity. Qed.

Lemma sameset_flat_map {A B} (f : A -> list B) l l' : sameset l l' -> sameset (flat_map f l) (flat_map f l').
Proof.
  intros H y. rewrite !in_flat_map. split; intros (x & Hx & Hy); exists x; (split; [apply H, Hx|exact Hy]).
Qed.

Lemma sameset_map {A B} (f : A -> B) l l' : sameset l l' -> sameset (map f l) (map f l').
Proof.
  intros H y. rewrite !in_map_iff. split; intros (x & Hy & Hx); exists x; (split; [exact Hy|apply H, Hx]).
Qed.

Lemma strongest_sameset l1 l2 : sameset l1 l2 -> strongest l1 = strongest l2.
Proof.
  intros P. assert (H1 := strongest_spec l1). assert (H2 := strongest_spec l2).
  destruct (strongest l1) as [a|], (strongest l2) as [b|].
  - destruct H1 as [I1 M1], H2 as [I2 M2]. f_equal. apply rank_inj.
    assert (rank a <= rank b) by (apply M2, P, I1).
    assert (rank b <= rank a) by (apply M1, P, I2).
    lia.
  - subst l2. destruct H1 as [I1 _]. apply P in I1. destruct I1.
  - subst l1. destruct H2 as [I2 _]. apply P in I2. destruct I2.
  - reflexivity.
Qed.

Lemma strongest_perm l1 l2 : Permutation l1 l2 -> strongest l1 = strongest l2.
Proof. intros P. apply strongest_sameset, Permutation_sameset, P. Qed.

Section SameSet.
  Variables ps ps' : list policy.
  Hypothesis HP : sameset ps ps'.

  Lemma rules_same : sameset (all_rules ps) (all_rules ps').
  Proof. apply sameset_flat_map, HP. Qed.

  Lemma eff_same k pf n : eff (all_rules ps) k pf n = eff (all_rules ps') k pf n.
  Proof. apply strongest_sameset, sameset_flat_map, sameset_filter, rules_same. Qed.

  Lemma eff_int_same pf n : eff_int (all_rules ps) pf n = eff_int (all_rules ps') pf n.
  Proof.
    unfold eff_int. rewrite eff_same.
    assert (P : sameset (flat_map (fun r => olist (doc_level (r_int r))) (matching (all_rules ps) KService pf n))
                        (flat_map (fun r => olist (doc_level (r_int r))) (matching (all_rules ps') KService pf n)))
      by apply sameset_flat_map, sameset_filter, rules_same.
    rewrite (strongest_sameset _ _ P). reflexivity.
  Qed.

  Lemma names_same k : sameset (names_of (all_rules ps) k) (names_of (all_rules ps') k).
  Proof. apply sameset_map, sameset_filter, rules_same. Qed.

  Lemma scalar_same f : scalar f ps = scalar f ps'.
  Proof. apply strongest_sameset, sameset_flat_map, HP. Qed.
End SameSet.

Section ViewExt.
  Variables (v v' : view) (S S' : list string).
  Hypothesis E : forall pf x, v pf x = v' pf x.
  Hypothesis P : sameset S S'.

  Lemma longest_prefix_ext n : longest_prefix v n = longest_prefix v' n.
  Proof.
    unfold longest_prefix. generalize (@None level). induction (prefixes n) as [|x L IH]; intros o; [reflexivity|].
    cbn [fold_left]. rewrite E. apply IH.
  Qed.

  Lemma applicable_ext n : applicable v n = applicable v' n.
  Proof. unfold applicable. rewrite E, longest_prefix_ext. reflexivity. Qed.

  Lemma rules_at_ext T T' : sameset T T' -> sameset (rules_at v T) (rules_at v' T').
  Proof.
    intros HT. unfold rules_at.
    rewrite (flat_map_ext _ (fun n => olist (v' false n) ++ olist (v' true n))) by (intros x; rewrite !E; reflexivity).
    apply sameset_flat_map, HT.
  Qed.

  Lemma spec_quant_ext (X nX : decision) (Q : level -> bool) :
    (if existsb Q (rules_at v S) then X else if is_some (v true EmptyString) then nX else Default)
    = (if existsb Q (rules_at v' S') then X else if is_some (v' true EmptyString) then nX else Default).
  Proof. rewrite (existsb_same_members _ _ _ (rules_at_ext _ _ P)), E. reflexivity. Qed.

  Lemma spec_subtree_ext good p : spec_subtree good v S p = spec_subtree good v' S' p.
  Proof.
    unfold spec_subtree.
    rewrite longest_prefix_ext, (existsb_same_members _ _ _ (rules_at_ext _ _ (sameset_filter (String.prefix p) _ _ P))).
    reflexivity.
  Qed.
End ViewExt.

(* the documented rule only looks at WHICH policies a token has: not at their order, not at how
   often one occurs *)
Theorem spec_decide_sameset ps ps' m : sameset ps ps' -> spec_decide ps m = spec_decide ps' m.
Proof.
  intros HP.
  assert (Ek := eff_same ps ps' HP). assert (Ei := eff_int_same ps ps' HP).
  assert (En := names_same ps ps' HP). assert (Es := scalar_same ps ps' HP).
  assert (A : forall k n, applicable (eff (all_rules ps) k) n = applicable (eff (all_rules ps') k) n)
    by (intros; apply applicable_ext, Ek).
  assert (Ai : forall n, applicable (eff_int (all_rules ps)) n = applicable (eff_int (all_rules ps')) n)
    by (intros; apply applicable_ext, Ei).
  assert (Q := fun k => spec_quant_ext _ _ _ _ (Ek k) (En k)).
  assert (Qi := spec_quant_ext _ _ _ _ Ei (En KService)).
  assert (Sub : forall good k p, spec_subtree good (eff (all_rules ps) k) (names_of (all_rules ps) k) p
                               = spec_subtree good (eff (all_rules ps') k) (names_of (all_rules ps') k) p)
    by (intros; apply spec_subtree_ext; [apply Ek|apply En]).
  destruct m; cbn [spec_decide]; unfold spec_any, spec_all; rewrite ?A, ?Ai, ?Q, ?Qi, ?Sub, ?Es; reflexivity.
Qed.

Theorem policy_set_independent ps ps' a a' :
  forallb levelled ps = true -> sameset ps ps' ->
  new_policy_authorizer ps = Some a -> new_policy_authorizer ps' = Some a' ->
  forall m, policy_decide a m = policy_decide a' m /\ forall s, chain_decide a s m = chain_decide a' s m.
Proof.
  intros Hc HP Ha Ha' m.
  assert (Hc' : forallb levelled ps' = true).
  { apply forallb_forall. intros p Hp. apply (proj1 (forallb_forall _ _) Hc), HP, Hp. }
  assert (E := authorizer_spec ps a Hc Ha m). assert (E' := authorizer_spec ps' a' Hc' Ha' m).
  rewrite <- (spec_decide_sameset ps ps' m HP) in E'.
  split; [congruence|]. intros s. rewrite (chain_decide_spec a s m ps E). symmetry. apply chain_decide_spec, E'.
Qed.

(* the fold returns the last prefix rule met, or the initial value if it met none *)
Lemma longest_prefix_fold v L : forall cur,
  match fold_left (lp_step v) L cur with
  | Some l => (cur = Some l /\ forall x, In x L -> v true x = None)
              \/ exists l1 p l2, L = l1 ++ p :: l2 /\ v true p = Some l /\ forall x, In x l2 -> v true x = None
  | None => cur = None /\ forall x, In x L -> v true x = None
  end.
Proof.
  induction L as [|x L IH]; intros cur; cbn [fold_left].
  - destruct cur; [left|]; split; auto; intros ? [].
  - specialize (IH (lp_step v cur x)). destruct (fold_left (lp_step v) L (lp_step v cur x)) as [l|].
    + destruct IH as [[Hc Hn]|(l1 & p & l2 & -> & Hp & Hn)].
      * unfold lp_step in Hc. destruct (v true x) as [lx|] eqn:Ex.
        -- right. exists [], x, L. injection Hc as ->. auto.
        -- left. split; [exact Hc|]. intros y [<-|Hy]; auto.
      * right. exists (x :: l1), p, l2. auto.
    + destruct IH as [Hc Hn]. unfold lp_step in Hc. destruct (v true x) eqn:Ex; [discriminate|].
      split; [exact Hc|]. intros y [<-|Hy]; auto.
Qed.

Theorem longest_prefix_spec v n :
  match longest_prefix v n with
  | Some l => exists p, String.prefix p n = true /\ v true p = Some l
                /\ forall q, String.prefix q n = true -> v true q <> None -> String.length q <= String.length p
  | None => forall q, String.prefix q n = true -> v true q = None
  end.
Proof.
  change (longest_prefix v n) with (fold_left (lp_step v) (prefixes n) None).
  assert (H := longest_prefix_fold v (prefixes n) None).
  destruct (fold_left (lp_step v) (prefixes n) None) as [l|].
  - destruct H as [[H _]|(l1 & p & l2 & E & Hp & Hn)]; [discriminate|].
    exists p. split; [apply prefixes_In; rewrite E; apply in_or_app; right; left; reflexivity|].
    split; [exact Hp|]. intros q Hq Hv. apply prefixes_In in Hq. rewrite E in Hq.
    apply in_app_or in Hq as [Hq|[<-|Hq]].
    + (* q comes earlier: it is shorter *)
      apply in_split in Hq as (m1 & m2 & ->). rewrite <- app_assoc in E. cbn [app] in E.
      apply Nat.lt_le_incl. eapply (prefixes_lengths n m1 q (m2 ++ p :: l2) E). apply in_or_app. right; left; reflexivity.
    + lia.
    + exfalso. apply Hv, Hn, Hq.
  - destruct H as [_ Hn]. intros q Hq. apply Hn, prefixes_In, Hq.
Qed.

Lemma rules_at_In v S l : In l (rules_at v S) <-> exists pf n, In n S /\ v pf n = Some l.
Proof.
  unfold rules_at. rewrite in_flat_map. split.
  - intros (n & Hn & Hl). apply in_app_or in Hl as [Hl|Hl].
    + exists false, n. destruct (v false n); [|destruct Hl]. destruct Hl as [->|[]]. auto.
    + exists true, n. destruct (v true n); [|destruct Hl]. destruct Hl as [->|[]]. auto.
  - intros (pf & n & Hn & Hv). exists n. split; [exact Hn|]. apply in_or_app.
    destruct pf; [right|left]; rewrite Hv; left; reflexivity.
Qed.

Lemma rules_at_exists v S (P : level -> bool) : covers S v ->
  (existsb P (rules_at v S) = true <-> exists pf n l, v pf n = Some l /\ P l = true).
Proof.
  intros C. rewrite existsb_exists. split.
  - intros (l & Hin & HP). apply rules_at_In in Hin as (pf & n & _ & Hv). eauto.
  - intros (pf & n & l & Hv & HP). exists l. split; [|exact HP]. apply rules_at_In. exists pf, n.
    split; [apply (C pf); congruence|exact Hv].
Qed.

Lemma rules_below_exists v S p (P : level -> bool) : covers S v ->
  (existsb P (rules_at v (filter (String.prefix p) S)) = true
   <-> exists pf n l, String.prefix p n = true /\ v pf n = Some l /\ P l = true).
Proof.
  intros C. rewrite existsb_exists. split.
  - intros (l & Hin & HP). apply rules_at_In in Hin as (pf & n & Hn & Hv). apply filter_In in Hn as [_ Hpre]. eauto 7.
  - intros (pf & n & l & Hpre & Hv & HP). exists l. split; [|exact HP]. apply rules_at_In. exists pf, n.
    split; [|exact Hv]. apply filter_In. split; [apply (C pf); congruence|exact Hpre].
Qed.

(* spec_any (X = Allow, P = grants) and spec_all (X = Deny, P = does not grant) are one test: X when
   some rule satisfies P; otherwise the other answer when a catch-all "" prefix rule exists *)
Theorem quant_meaning (X nX : decision) (P : level -> bool) v S : covers S v ->
  X <> nX -> X <> Default -> nX <> Default ->
  let q := if existsb P (rules_at v S) then X else if is_some (v true EmptyString) then nX else Default in
  (q = X <-> exists pf n l, v pf n = Some l /\ P l = true)
  /\ (q = nX <-> (forall pf n l, v pf n = Some l -> P l = false) /\ v true EmptyString <> None)
  /\ (q = Default <-> (forall pf n l, v pf n = Some l -> P l = false) /\ v true EmptyString = None).
Proof.
  intros C H1 H2 H3 q. subst q. assert (H := rules_at_exists v S P C).
  destruct (existsb P (rules_at v S)).
  - assert (Hex := proj1 H eq_refl).
    assert (Hno : ~ forall pf n l, v pf n = Some l -> P l = false).
    { intros Hn. destruct Hex as (pf & n & l & Hv & HP). rewrite (Hn _ _ _ Hv) in HP. discriminate. }
    intuition congruence.
  - assert (Hall : forall pf n l, v pf n = Some l -> P l = false).
    { intros pf n l Hv. destruct (P l) eqn:G; [|reflexivity].
      assert (false = true) by (apply H; eauto). discriminate. }
    assert (Hnex : ~ exists pf n l, v pf n = Some l /\ P l = true).
    { intros (pf & n & l & Hv & HP). rewrite (Hall _ _ _ Hv) in HP. discriminate. }
    destruct (v true EmptyString); cbn [is_some]; intuition congruence.
Qed.

(* KeyWritePrefix / ServiceReadPrefix: the rule applying to the prefix itself and EVERY rule whose
   name lies below the prefix must be good *)
Theorem spec_subtree_meaning good v S p : covers S v ->
  (spec_subtree good v S p = Deny <->
     (exists l, longest_prefix v p = Some l /\ good l = false)
     \/ (exists pf n l, String.prefix p n = true /\ v pf n = Some l /\ good l = false))
  /\ (spec_subtree good v S p = Allow <->
     (exists l, longest_prefix v p = Some l /\ good l = true)
     /\ (forall pf n l, String.prefix p n = true -> v pf n = Some l -> good l = true)).
Proof.
  intros C. unfold spec_subtree. assert (H := rules_below_exists v S p (fun l => negb (good l)) C).
  (* either some rule below p is not good, or all are: the second test of spec_subtree decides which *)
  destruct (existsb (fun l => negb (good l)) (rules_at v (filter (String.prefix p) S))).
  - destruct (proj1 H eq_refl) as (pf & n & l & Hp & Hv & Hg). apply negb_true_iff in Hg.
    assert (Hbad : exists pf n l, String.prefix p n = true /\ v pf n = Some l /\ good l = false) by eauto 6.
    assert (Hnall : ~ forall pf n l, String.prefix p n = true -> v pf n = Some l -> good l = true)
      by (intros Ha; rewrite (Ha _ _ _ Hp Hv) in Hg; discriminate).
    destruct (longest_prefix v p) as [b|]; [destruct (good b) eqn:Gb|]; cbn [negb];
      (split; split; [auto|reflexivity|discriminate|intros [_ Ha]; contradiction]).
  - assert (Hall : forall pf n l, String.prefix p n = true -> v pf n = Some l -> good l = true).
    { intros pf n l Hp Hv. destruct (good l) eqn:G; [reflexivity|].
      assert (false = true) by (apply H; exists pf, n, l; rewrite G; auto). discriminate. }
    assert (Hnbad : ~ exists pf n l, String.prefix p n = true /\ v pf n = Some l /\ good l = false)
      by (intros (pf & n & l & Hp & Hv & Hg); rewrite (Hall _ _ _ Hp Hv) in Hg; discriminate).
    destruct (longest_prefix v p) as [b|]; [destruct (good b) eqn:Gb|]; cbn [negb].
    + split; split; [discriminate| |eauto|reflexivity].
      intros [(l & [= <-] & Hg)|Hb]; [congruence|contradiction].
    + split; split; [eauto|reflexivity|discriminate|]. intros [(l & [= <-] & Hg) _]. congruence.
    + split; split; try discriminate; [intros [(l & [=] & _)|Hb]; contradiction|intros [(l & [=] & _) _]].
Qed.
