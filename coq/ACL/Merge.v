(* C08 — MergePolicies, seen through lookups: for every rule key the merged entry carries the
   strongest of the levels the policies give, field by field, and so does every scalar rule. *)
From Verif Require Import Base.Prelude.
From Verif Require Import Base.Lists.
From Verif Require Import ACL.Model.
From Verif Require Import ACL.Spec.
From Verif Require Import ACL.Assoc.

(* [sstep] is the step of the fold [Spec.strongest]; [omax] is the same maximum on two optional levels:
   every lemma below says that a merged field moves up by [omax]. *)
Definition sstep (o : option level) (l : level) : option level :=
  Some (match o with None => l | Some m => stronger l m end).
Definition omax (a b : option level) : option level :=
  match a, b with
  | Some x, Some y => Some (stronger x y)
  | Some x, None => Some x
  | None, _ => b
  end.

Lemma rank_inj a b : rank a = rank b -> a = b.
Proof. destruct a, b; cbn; intros; try reflexivity; lia. Qed.

Lemma rank_stronger a b : rank (stronger a b) = Nat.max (rank a) (rank b).
Proof. destruct a, b; reflexivity. Qed.

Lemma stronger_cases a b : stronger a b = a \/ stronger a b = b.
Proof. unfold stronger. destruct (rank b <=? rank a); auto. Qed.

Lemma stronger_assoc a b c : stronger a (stronger b c) = stronger (stronger a b) c.
Proof. destruct a, b, c; reflexivity. Qed.

Lemma strongest_fold ls : forall o, fold_left sstep ls o = omax (strongest ls) o.
Proof.
  induction ls as [|x ls IH]; intros o; [reflexivity|].
  change (strongest (x :: ls)) with (fold_left sstep ls (Some x)). cbn [fold_left].
  rewrite (IH (sstep o x)), (IH (Some x)).
  destruct (strongest ls) as [a|], o as [b|]; try reflexivity.
  exact (f_equal Some (stronger_assoc a x b)).
Qed.

Lemma strongest_cons x ls : strongest (x :: ls) = omax (strongest ls) (Some x).
Proof. exact (strongest_fold ls (Some x)). Qed.

Lemma strongest_spec ls :
  match strongest ls with
  | None => ls = []
  | Some m => In m ls /\ forall l, In l ls -> rank l <= rank m
  end.
Proof.
  induction ls as [|x ls IH]; [reflexivity|]. rewrite strongest_cons.
  destruct (strongest ls) as [m|]; cbn [omax].
  - destruct IH as [Hin Hmax]. split.
    + destruct (stronger_cases m x) as [-> | ->]; [right; exact Hin|left; reflexivity].
    + intros l [<-|Hl]; rewrite rank_stronger; [|specialize (Hmax l Hl)]; lia.
  - subst ls. split; [left; reflexivity|]. intros l [<-|[]]. lia.
Qed.

(* takesPrecedenceOver only looks at the levels the two strings stand for, whatever their spelling *)
Lemma merge_scalar_level a b : doc_level (merge_scalar a b) = omax (doc_level a) (doc_level b).
Proof. destruct a as [|[]|[]|], b as [|[]|[]|]; reflexivity. Qed.

Lemma merge_scalar_cases p cur :
  merge_scalar p cur = cur \/ (merge_scalar p cur = p /\ has_level p = true).
Proof. destruct p as [|[]|[]|], cur as [|[]|[]|]; cbn; auto. Qed.

Lemma merge_scalar_has_level p cur : has_level cur = true -> has_level (merge_scalar p cur) = true.
Proof. intros H. destruct (merge_scalar_cases p cur) as [-> | [-> Hp]]; assumption. Qed.

Lemma merge_scalar_lev_or_empty p cur : lev_or_empty cur = true -> lev_or_empty (merge_scalar p cur) = true.
Proof.
  intros H. destruct (merge_scalar_cases p cur) as [-> | [-> Hp]]; [exact H|].
  destruct p; try discriminate Hp; reflexivity.
Qed.

Lemma access_level_from_string_lv p : access_level_from_string p = option_map acc (doc_level p).
Proof. destruct p; reflexivity. Qed.

(* A fold whose state, seen through [pr], moves up by the level of each item ends at the strongest
   of the levels met.  The merge of one rule field and of one scalar rule are both of this kind. *)
Lemma level_fold {A X} (step : X -> A -> X) (lv : A -> option level) (pr : X -> option level) l :
  (forall a, In a l -> forall x, pr (step x a) = omax (lv a) (pr x)) ->
  forall x, pr (fold_left step l x) = fold_left sstep (flat_map (fun a => olist (lv a)) l) (pr x).
Proof.
  induction l as [|a l IH]; intros H x; cbn [fold_left flat_map]; [reflexivity|].
  rewrite fold_left_app, IH, (H a (or_introl eq_refl)) by (intros b Hb; apply H; right; exact Hb).
  f_equal. destruct (lv a), (pr x); reflexivity.
Qed.

(* the entry for the key of [r] after merging [r] into a context that held [ex] there: the two
   code shapes of policyRulesMergeContext.merge *)
Definition combine (ex : option mval) (r : rule) : mval :=
  match ex with
  | None => MVal (r_pol r) (r_int r)
  | Some e =>
      match r_kind r with
      | KService => MVal (merge_scalar (r_pol r) (v_pol e)) (merge_scalar (r_int r) (v_int e))
      | _ => if takes_precedence_over (r_pol r) (v_pol e) then MVal (r_pol r) (r_int r) else e
      end
  end.

Local Notation lookup := (alookup rkey_eqb).

Lemma merge_rule_cases rs r :
  merge_rule rs r = aset rkey_eqb (rule_key r) (combine (lookup (rule_key r) rs) r) rs
  \/ merge_rule rs r = rs /\ lookup (rule_key r) rs = Some (combine (lookup (rule_key r) rs) r).
Proof.
  unfold merge_rule, combine, merge_scalar. destruct (lookup (rule_key r) rs) as [ex|]; destruct (r_kind r);
    try destruct (takes_precedence_over (r_pol r) (v_pol ex)); try (left; reflexivity);
    right; split; reflexivity.
Qed.

Lemma merge_rule_lookup rs r key :
  lookup key (merge_rule rs r)
  = if rkey_eqb key (rule_key r) then Some (combine (lookup (rule_key r) rs) r) else lookup key rs.
Proof.
  destruct (merge_rule_cases rs r) as [-> | [-> E]]; [apply (alookup_aset _ rkey_eqb_eq)|].
  destruct (rkey_eqb key (rule_key r)) eqn:K; [|reflexivity]. apply rkey_eqb_eq in K. subst key. exact E.
Qed.

Lemma merge_rule_nodup rs r : NoDup (map fst rs) -> NoDup (map fst (merge_rule rs r)).
Proof.
  intros H. destruct (merge_rule_cases rs r) as [-> | [-> _]]; [apply (aset_nodup _ rkey_eqb_eq)|]; exact H.
Qed.

Lemma merge_fold_nodup rs : forall ctx, NoDup (map fst ctx) -> NoDup (map fst (fold_left merge_rule rs ctx)).
Proof. induction rs as [|r rs IH]; intros ctx H; cbn [fold_left]; [exact H|]. apply IH, merge_rule_nodup, H. Qed.

Lemma combine_pol e r : v_pol (combine (Some e) r) = merge_scalar (r_pol r) (v_pol e).
Proof.
  unfold combine, merge_scalar.
  destruct (r_kind r); try reflexivity; destruct (takes_precedence_over (r_pol r) (v_pol e)); reflexivity.
Qed.

Lemma combine_int e r : r_kind r = KService -> v_int (combine (Some e) r) = merge_scalar (r_int r) (v_int e).
Proof. intros K. unfold combine. rewrite K. reflexivity. Qed.

Lemma merge_fold_lookup rs k pf n : forall ctx,
  lookup (k, pf, n) (fold_left merge_rule rs ctx)
  = fold_left (fun o r => Some (combine o r)) (matching rs k pf n) (lookup (k, pf, n) ctx).
Proof.
  induction rs as [|r rs IH]; intros ctx; cbn [fold_left matching filter]; [reflexivity|].
  fold (matching rs k pf n). rewrite IH, merge_rule_lookup, (eqb_sym _ rkey_eqb_eq (rule_key r)).
  destruct (rkey_eqb (k, pf, n) (rule_key r)) eqn:E; [|reflexivity].
  apply rkey_eqb_eq in E. rewrite <- E. reflexivity.
Qed.

Definition olevel (g : mval -> pstr) (o : option mval) : option level :=
  match o with Some e => doc_level (g e) | None => None end.

Lemma merged_level (f : rule -> pstr) (g : mval -> pstr) l :
  (forall r, g (combine None r) = f r) ->
  (forall r, In r l -> forall e, g (combine (Some e) r) = merge_scalar (f r) (g e)) ->
  olevel g (fold_left (fun o r => Some (combine o r)) l None)
  = strongest (flat_map (fun r => olist (doc_level (f r))) l).
Proof.
  intros H0 H1. apply (level_fold (fun o r => Some (combine o r)) (fun r => doc_level (f r)) (olevel g)).
  intros r Hr [e|]; cbn [olevel].
  - rewrite (H1 r Hr). apply merge_scalar_level.
  - rewrite H0. destruct (doc_level (f r)); reflexivity.
Qed.

Lemma merged_pol rs k pf n :
  olevel v_pol (lookup (k, pf, n) (fold_left merge_rule rs [])) = eff rs k pf n.
Proof.
  rewrite merge_fold_lookup. apply (merged_level r_pol v_pol); [reflexivity|]. intros r _ e. apply combine_pol.
Qed.

Lemma merged_int rs pf n :
  olevel v_int (lookup (KService, pf, n) (fold_left merge_rule rs []))
  = strongest (flat_map (fun r => olist (doc_level (r_int r))) (matching rs KService pf n)).
Proof.
  rewrite merge_fold_lookup. apply (merged_level r_int v_int); [reflexivity|]. intros r Hr e.
  apply combine_int. apply filter_In in Hr as [_ K]. apply rkey_eqb_eq in K. unfold rule_key in K. congruence.
Qed.

(* fill turns an entry back into a rule *)
Definition entry_rule (e : rkey * mval) : rule :=
  let '((k, pf, n), v) := e in Rule k pf n (v_pol v) (v_int v).

Lemma combine_levelled o r : levelled_rule r = true ->
  (forall e, o = Some e -> levelled_rule (entry_rule (rule_key r, e)) = true) ->
  levelled_rule (entry_rule (rule_key r, combine o r)) = true.
Proof.
  unfold levelled_rule, combine, rule_key. cbn [entry_rule r_pol r_int r_kind].
  destruct o as [e|]; [|auto]. intros Hr He. specialize (He e eq_refl).
  destruct (r_kind r); try (destruct (takes_precedence_over (r_pol r) (v_pol e)); assumption).
  cbn [v_pol v_int]. apply andb_true_iff in He as [Hp Hi].
  rewrite (merge_scalar_has_level _ _ Hp), (merge_scalar_lev_or_empty _ _ Hi). reflexivity.
Qed.

Lemma merge_fold_levelled rs : forallb levelled_rule rs = true -> forall ctx,
  (forall key e, lookup key ctx = Some e -> levelled_rule (entry_rule (key, e)) = true) ->
  forall key e, lookup key (fold_left merge_rule rs ctx) = Some e -> levelled_rule (entry_rule (key, e)) = true.
Proof.
  induction rs as [|r rs IH]; intros Hl ctx Hc; cbn [fold_left]; [exact Hc|].
  cbn [forallb] in Hl. apply andb_true_iff in Hl as [Hr Hl]. apply (IH Hl). intros key e.
  rewrite merge_rule_lookup. destruct (rkey_eqb key (rule_key r)) eqn:K; [|apply Hc].
  apply rkey_eqb_eq in K. subst key. intros [= <-]. apply combine_levelled; [exact Hr|].
  intros e' L. apply (Hc _ _ L).
Qed.

Lemma all_rules_levelled ps : forallb levelled ps = true -> forallb levelled_rule (all_rules ps) = true.
Proof.
  induction ps as [|p ps IH]; intros H; [reflexivity|].
  cbn [forallb] in H. apply andb_true_iff in H as [Hp H].
  cbn [all_rules flat_map]. rewrite forallb_app. fold (all_rules ps). rewrite (IH H), andb_true_r. exact Hp.
Qed.

Lemma merge_policies_rules ps : forall c,
  m_rules (fold_left merge_policy ps c) = fold_left merge_rule (all_rules ps) (m_rules c).
Proof.
  induction ps as [|p ps IH]; intros c; cbn [fold_left all_rules flat_map]; [reflexivity|].
  rewrite IH. cbn [merge_policy m_rules]. rewrite fold_left_app. reflexivity.
Qed.

Lemma filled_rules ps :
  p_rules (merge_policies ps) = map entry_rule (fold_left merge_rule (all_rules ps) []).
Proof. unfold merge_policies, fill. cbn [p_rules]. rewrite merge_policies_rules. reflexivity. Qed.

(* the merged scalar rules need no hypothesis: they start empty, and a string only ever wins when it
   names a level *)
Lemma merged_scalar (f : policy -> pstr) (g : mctx -> pstr) ps :
  (forall c p, g (merge_policy c p) = merge_scalar (f p) (g c)) -> g mctx_init = PEmpty ->
  doc_level (g (fold_left merge_policy ps mctx_init)) = scalar f ps
  /\ lev_or_empty (g (fold_left merge_policy ps mctx_init)) = true.
Proof.
  intros Hg H0. split.
  - rewrite (level_fold merge_policy (fun p => doc_level (f p)) (fun c => doc_level (g c)))
      by (intros p _ c; rewrite Hg; apply merge_scalar_level).
    rewrite H0. reflexivity.
  - assert (G : forall c, lev_or_empty (g c) = true -> lev_or_empty (g (fold_left merge_policy ps c)) = true).
    { induction ps as [|p l IH]; intros c H; cbn [fold_left]; [exact H|].
      apply IH. rewrite Hg. apply merge_scalar_lev_or_empty, H. }
    apply G. rewrite H0. reflexivity.
Qed.
