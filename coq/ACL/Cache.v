(* C08 — the two caches of ACLPolicies.Compile never change a decision.
   Caches reachable by resolving any tokens whose policies come from one versioned policy store,
   interleaved with arbitrary evictions and purges, give every token the authorizer it would get
   from freshly parsed policies in an empty cache. *)
From Verif Require Import Base.Prelude.
From Verif Require Import ACL.Model.
From Verif Require Import ACL.Assoc.

(* the policy store is versioned: (ID, ModifyIndex) determines the content hash, and the content
   hash determines the rules text (hence whether it decodes, and to what) *)
Definition versioned (W : pentry -> Prop) : Prop :=
  forall e1 e2, W e1 -> W e2 ->
    (e_id e1 = e_id e2 -> e_idx e1 = e_idx e2 -> e_hash e1 = e_hash e2)
    /\ (e_hash e1 = e_hash e2 -> e_ok e1 = e_ok e2 /\ e_pol e1 = e_pol e2).

Fixpoint parse_all (es : list pentry) (acc : list policy) : option (list policy) :=
  match es with
  | [] => Some (rev acc)
  | e :: es' => match parse e with Some p => parse_all es' (p :: acc) | None => None end
  end.

Definition compile_pure (es : list pentry) : option authorizer :=
  match parse_all es [] with
  | Some parsed => new_policy_authorizer parsed
  | None => None
  end.

Lemma parse_all_ok es : forall acc,
  forallb (fun e => e_ok e && validate (e_pol e)) es = true ->
  parse_all es acc = Some (rev acc ++ map e_pol es).
Proof.
  induction es as [|e es IH]; intros acc H; cbn [parse_all map].
  - rewrite app_nil_r. reflexivity.
  - cbn [forallb] in H. apply andb_true_iff in H as [He H]. unfold parse. rewrite He.
    rewrite (IH _ H). cbn [rev]. rewrite <- app_assoc. reflexivity.
Qed.

Definition parsed_ok (W : pentry -> Prop) (cp : list (N * policy)) : Prop :=
  forall h p, alookup N.eqb h cp = Some p -> forall e, W e -> e_hash e = h -> parse e = Some p.

Definition cache_ok (W : pentry -> Prop) (c : caches) : Prop :=
  parsed_ok W (c_parsed c)
  /\ (forall k a, alookup akey_eqb k (c_authz c) = Some a ->
        forall es, Forall W es -> hash_key es = k -> compile_pure es = Some a).

Lemma parse_same W e1 e2 : versioned W -> W e1 -> W e2 -> e_hash e1 = e_hash e2 -> parse e1 = parse e2.
Proof.
  intros V W1 W2 Hh. destruct (V e1 e2 W1 W2) as [_ H]. destruct (H Hh) as [Ho Hp].
  unfold parse. rewrite Ho, Hp. reflexivity.
Qed.

Lemma resolve_with_cache_ok W (V : versioned W) es : forall c acc,
  parsed_ok W (c_parsed c) -> Forall W es ->
  snd (resolve_with_cache c es acc) = parse_all es acc
  /\ c_authz (fst (resolve_with_cache c es acc)) = c_authz c
  /\ parsed_ok W (c_parsed (fst (resolve_with_cache c es acc))).
Proof.
  induction es as [|e es IH]; intros c acc Hc HW; cbn [resolve_with_cache parse_all].
  - auto.
  - inversion HW as [|? ? We HW']; subst.
    destruct (alookup N.eqb (e_hash e) (c_parsed c)) as [p|] eqn:L.
    + rewrite (Hc _ _ L e We eq_refl). apply IH; assumption.
    + destruct (parse e) as [p|] eqn:P; [|cbn; auto].
      apply (IH (Caches (aset N.eqb (e_hash e) p (c_parsed c)) (c_authz c))); [|assumption].
      cbn [c_parsed]. intros h q. rewrite (alookup_aset _ N.eqb_eq).
      destruct (N.eqb h (e_hash e)) eqn:E; [|apply Hc].
      apply N.eqb_eq in E. intros [= <-] e' We' Hh. rewrite <- P. apply (parse_same W); auto. congruence.
Qed.

Lemma parse_all_same W (V : versioned W) es1 : forall es2 acc,
  Forall W es1 -> Forall W es2 -> hash_key es1 = hash_key es2 -> parse_all es1 acc = parse_all es2 acc.
Proof.
  induction es1 as [|e1 es1 IH]; intros [|e2 es2] acc H1 H2 Hk; cbn in Hk; try discriminate; [reflexivity|].
  inversion H1; inversion H2; subst. injection Hk as Hi Hx Hk. cbn [parse_all].
  destruct (V e1 e2) as [Hh _]; try assumption.
  rewrite (parse_same W e1 e2) by auto. destruct (parse e2); [|reflexivity]. apply IH; assumption.
Qed.

Lemma compile_ok W (V : versioned W) c es :
  cache_ok W c -> Forall W es ->
  snd (compile c es) = compile_pure es /\ cache_ok W (fst (compile c es)).
Proof.
  intros [Cp Ca] HW. unfold compile.
  destruct (alookup akey_eqb (hash_key es) (c_authz c)) as [a|] eqn:L.
  - cbn [fst snd]. split; [symmetry; apply (Ca _ _ L es HW eq_refl)|split; assumption].
  - destruct (resolve_with_cache_ok W V es c [] Cp HW) as (R1 & R2 & R3).
    destruct (resolve_with_cache c es []) as [c1 res]. cbn [fst snd] in R1, R2, R3.
    unfold compile_pure. rewrite <- R1.
    assert (K : cache_ok W c1) by (split; [exact R3|rewrite R2; exact Ca]).
    destruct res as [parsed|]; [|split; [reflexivity|exact K]].
    destruct (new_policy_authorizer parsed) as [a|] eqn:Na; [|split; [reflexivity|exact K]].
    cbn [fst snd]. split; [reflexivity|]. split; [exact R3|]. cbn [c_authz].
    intros k a'. rewrite (alookup_aset _ akey_eqb_eq), R2.
    destruct (akey_eqb k (hash_key es)) eqn:E; [|apply Ca].
    apply akey_eqb_eq in E. intros [= <-] es' HW' Hk. unfold compile_pure.
    rewrite (parse_all_same W V es' es []) by (auto; congruence). rewrite <- R1. exact Na.
Qed.

Lemma cache_ok_empty W : cache_ok W caches_empty.
Proof. split; intros ? ? [=]. Qed.

Inductive reach (W : pentry -> Prop) : caches -> Prop :=
| reach_empty : reach W caches_empty
| reach_compile c es : reach W c -> Forall W es -> reach W (fst (compile c es))   (* another token resolved *)
| reach_evict_parsed c h : reach W c -> reach W (Caches (aremove N.eqb h (c_parsed c)) (c_authz c))
| reach_evict_authz c k : reach W c -> reach W (Caches (c_parsed c) (aremove akey_eqb k (c_authz c)))
| reach_purge c : reach W c -> reach W caches_empty.

Lemma reach_ok W (V : versioned W) c : reach W c -> cache_ok W c.
Proof.
  induction 1 as [|c es _ IH HW|c h _ [Cp Ca]|c k _ [Cp Ca]|c _ _].
  - apply cache_ok_empty.
  - apply (compile_ok W V c es IH HW).
  - split; [|exact Ca]. cbn [c_parsed]. intros h' p. rewrite (alookup_aremove _ N.eqb_eq).
    destruct (N.eqb h h'); [discriminate|apply Cp].
  - split; [exact Cp|]. cbn [c_authz]. intros k' a. rewrite (alookup_aremove _ akey_eqb_eq).
    destruct (akey_eqb k k'); [discriminate|apply Ca].
  - apply cache_ok_empty.
Qed.

Theorem compile_cache_independent W c c' es :
  versioned W -> reach W c -> reach W c' -> Forall W es ->
  snd (compile c es) = snd (compile c' es).
Proof.
  intros V R R' HW.
  rewrite (proj1 (compile_ok W V c es (reach_ok W V c R) HW)).
  rewrite (proj1 (compile_ok W V c' es (reach_ok W V c' R') HW)). reflexivity.
Qed.

Theorem resolve_decide_pure W c es s m :
  versioned W -> reach W c -> Forall W es ->
  resolve_decide c es s m = resolve_decide caches_empty es s m.
Proof.
  intros V R HW. unfold resolve_decide.
  rewrite (compile_cache_independent W c caches_empty es V R (reach_empty W) HW). reflexivity.
Qed.
