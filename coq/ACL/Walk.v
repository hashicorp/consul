(* C08 — the traversals of the policy authorizer (getPolicy, anyAllowed, allAllowed, KeyWritePrefix,
   ServiceReadPrefix) over a tree that holds the rules of a view compute the tests of the reference
   (ACL/Spec.v) on that view. *)
From Verif Require Import Base.Prelude.
From Verif Require Import Base.Lists.
From Verif Require Import ACL.Model.
From Verif Require Import ACL.Spec.
From Verif Require Import ACL.Assoc.
From Verif Require Import ACL.Load.

Definition repr (t : tree) (v : view) : Prop :=
  forall pf n, slot_of t pf n = option_map acc (v pf n).

Lemma omap_acc_none (o : option level) : option_map acc o = None -> o = None.
Proof. destruct o; [discriminate|reflexivity]. Qed.

Lemma enforce_grants l need : enforce (acc l) need = if grants l need then Allow else Deny.
Proof. destruct l, need; reflexivity. Qed.

Lemma scalar_decide_spec o need : scalar_decide (option_map acc o) need = dec_of o need.
Proof. destruct o; cbn; [apply enforce_grants|reflexivity]. Qed.

(* mesh and peering rules fall back to another decision when absent *)
Lemma fallback_decide_spec o d need :
  match option_map acc o with Some r => enforce r need | None => d end
  = match o with Some l => dec_of (Some l) need | None => d end.
Proof. destruct o; [apply enforce_grants|reflexivity]. Qed.

Lemma decision_eqb_refl d : decision_eqb d d = true.
Proof. destruct d; reflexivity. Qed.

Lemma leaf_eta lf : lf = Leaf (l_exact lf) (l_prefix lf).
Proof. destruct lf; reflexivity. Qed.

(* the leaves stored at the names L, in the order of L: [walk_path seg t] is [leaves_at (prefixes seg) t] *)
Definition leaves_at (L : list string) (t : tree) : list (string * leaf) :=
  flat_map (fun p => match tree_get p t with Some lf => [(p, lf)] | None => [] end) L.

Lemma leaves_at_app L1 L2 t : leaves_at (L1 ++ L2) t = leaves_at L1 t ++ leaves_at L2 t.
Proof. apply flat_map_app. Qed.

Definition lp_step (v : view) (cur : option level) (p : string) : option level :=
  match v true p with Some l => Some l | None => cur end.

Definition base_dec (good : level -> bool) (o : option level) : decision :=
  match o with Some l => if good l then Allow else Deny | None => Default end.

(* the callbacks of anyAllowed / allAllowed on one leaf: it says Allow (Deny) iff one of its two rules
   grants (does not grant) *)
Lemma leaf_says need e p :
  decision_eqb (leaf_any need (Leaf (option_map acc e) (option_map acc p)) false) Allow
    = existsb (fun l => grants l need) (olist e ++ olist p)
  /\ decision_eqb (leaf_all need (Leaf (option_map acc e) (option_map acc p)) false) Deny
    = existsb (fun l => negb (grants l need)) (olist e ++ olist p).
Proof.
  unfold leaf_any, leaf_all. destruct e as [le|], p as [lp|];
    cbn [l_exact l_prefix option_map olist app existsb is_none orb]; rewrite ?enforce_grants;
    try destruct (grants lp need); try destruct (grants le need); split; reflexivity.
Qed.

Section Walk.
  Variables (t : tree) (v : view).
  Hypothesis R : repr t v.

  Lemma repr_some n lf : tree_get n t = Some lf ->
    l_exact lf = option_map acc (v false n) /\ l_prefix lf = option_map acc (v true n).
  Proof.
    intros G. split; [rewrite <- (R false n)|rewrite <- (R true n)]; unfold slot_of; rewrite G; reflexivity.
  Qed.

  Lemma repr_none n : tree_get n t = None -> v false n = None /\ v true n = None.
  Proof.
    intros G. split; apply omap_acc_none; [rewrite <- (R false n)|rewrite <- (R true n)];
      unfold slot_of; rewrite G; reflexivity.
  Qed.

  (* A callback that, on the names of L, only updates its state by the prefix rule of the leaf,
     run along L: the state follows the last prefix rule met.  [phi] reads the state off the rule
     found so far; a name without a leaf has no prefix rule and changes nothing. *)
  Lemma path_walk {X} (walk : list (string * leaf) -> X -> X) (h : option access -> X -> X)
      (phi : option level -> X) L :
    (forall k lf rest c, In k L -> walk ((k, lf) :: rest) c = walk rest (h (l_prefix lf) c)) ->
    (forall o cur, h (option_map acc o) (phi cur) = phi (match o with Some l => Some l | None => cur end)) ->
    forall rest cur, walk (leaves_at L t ++ rest) (phi cur) = walk rest (phi (fold_left (lp_step v) L cur)).
  Proof.
    intros Hw Hh. induction L as [|x L IH]; intros rest cur; [reflexivity|].
    cbn [leaves_at flat_map fold_left]. fold (leaves_at L t).
    assert (IH' := IH (fun k lf rest c Hk => Hw k lf rest c (or_intror Hk))).
    destruct (tree_get x t) as [lf|] eqn:G.
    - destruct (repr_some _ _ G) as [_ Hp]. cbn [app].
      rewrite (Hw x lf _ _ (or_introl eq_refl)), Hp, Hh. apply IH'.
    - destruct (repr_none _ G) as [_ Hp]. cbn [app].
      replace (lp_step v cur x) with cur by (unfold lp_step; rewrite Hp; reflexivity). apply IH'.
  Qed.

  Lemma gp_pre seg L : (forall x, In x L -> x <> seg) -> forall rest cur,
    get_policy_loop seg (leaves_at L t ++ rest) (option_map acc cur)
    = get_policy_loop seg rest (option_map acc (fold_left (lp_step v) L cur)).
  Proof.
    intros Hne.
    apply (path_walk (get_policy_loop seg) (fun o c => match o with Some p => Some p | None => c end) (option_map acc)).
    - intros k lf rest c Hk. cbn [get_policy_loop].
      rewrite (proj2 (String.eqb_neq k seg) (Hne k Hk)). destruct (l_exact lf); reflexivity.
    - intros [l|] cur; reflexivity.
  Qed.

  Lemma get_policy_spec seg : get_policy seg t = option_map acc (applicable v seg).
  Proof.
    unfold get_policy, applicable, longest_prefix. change (walk_path seg t) with (leaves_at (prefixes seg) t).
    destruct (prefixes_snoc seg) as (pre & -> & Hne).
    pose proof (gp_pre seg pre Hne (leaves_at [seg] t) None) as Gp. cbn [option_map] in Gp.
    rewrite leaves_at_app, Gp, fold_left_app.
    cbn [fold_left leaves_at flat_map]. fold (lp_step v).
    destruct (tree_get seg t) as [lf|] eqn:G.
    - destruct (repr_some _ _ G) as [He Hp]. cbn [app get_policy_loop]. rewrite He, Hp, String.eqb_refl.
      destruct (v false seg); cbn [option_map]; [reflexivity|].
      unfold lp_step at 2. destruct (v true seg); reflexivity.
    - destruct (repr_none _ G) as [He Hp]. cbn [app get_policy_loop]. rewrite He.
      unfold lp_step at 1. rewrite Hp. reflexivity.
  Qed.

  Lemma lookup_decide_spec n need : lookup_decide t n need = dec_of (applicable v n) need.
  Proof. unfold lookup_decide. rewrite get_policy_spec. apply scalar_decide_spec. Qed.

  (* the WalkPath loops of KeyWritePrefix and ServiceReadPrefix: the last prefix rule on the path
     decides, by the test [ok] *)
  Lemma base_walk_spec (walk : list (string * leaf) -> decision -> decision) (ok : access -> bool) good :
    (forall k lf rest c, walk ((k, lf) :: rest) c
       = walk rest (match l_prefix lf with Some a => if ok a then Allow else Deny | None => c end)) ->
    (forall c, walk [] c = c) ->
    (forall l, ok (acc l) = good l) ->
    forall p, walk (walk_path p t) Default = base_dec good (longest_prefix v p).
  Proof.
    intros Hw H0 Hok p.
    assert (P := path_walk walk (fun o c => match o with Some a => if ok a then Allow else Deny | None => c end)
                   (base_dec good) (prefixes p) (fun k lf rest c _ => Hw k lf rest c)).
    rewrite <- (H0 (base_dec good _)), <- (app_nil_r (walk_path p t)). apply (fun H => P H [] None).
    intros [l|] cur; cbn [option_map base_dec]; [rewrite Hok|]; reflexivity.
  Qed.

  (* Walk / WalkPrefix: a test over the stored leaves is a test over the rules of the names in S *)

  Variable S : list string.
  Hypothesis W : wf_tree t.
  (* S lists every name that has a rule: [covers S v] of ACL/Proofs.v *)
  Hypothesis C : forall pf n, v pf n <> None -> In n S.

  Lemma tree_existsb (F : string -> option access -> option access -> bool) :
    (forall k, F k None None = false) ->
    existsb (fun e => F (fst e) (l_exact (snd e)) (l_prefix (snd e))) t
    = existsb (fun n => F n (option_map acc (v false n)) (option_map acc (v true n))) S.
  Proof.
    intros F0. apply eq_true_iff_eq. rewrite !existsb_exists. split.
    - intros ([k lf] & Hin & HF). cbn [fst snd] in HF.
      assert (G : tree_get k t = Some lf) by (apply (In_alookup _ String.eqb_eq); assumption).
      destruct (repr_some _ _ G) as [He Hp]. exists k. rewrite <- He, <- Hp. split; [|exact HF].
      destruct (v false k) as [l|] eqn:E1; [apply (C false k); congruence|].
      destruct (v true k) as [l|] eqn:E2; [apply (C true k); congruence|].
      cbn in He, Hp. rewrite He, Hp, F0 in HF. discriminate.
    - intros (n & Hin & HF). destruct (tree_get n t) as [lf|] eqn:G.
      + destruct (repr_some _ _ G) as [He Hp]. exists (n, lf). split.
        * apply (alookup_In _ String.eqb_eq), G.
        * cbn [fst snd]. rewrite He, Hp. exact HF.
      + destruct (repr_none _ G) as [He Hp]. rewrite He, Hp in HF. cbn in HF. rewrite F0 in HF. discriminate.
  Qed.

  (* anyAllowed (X = Allow) and allAllowed (X = Deny): the catch-all "" prefix rule is tried first,
     then every leaf; X as soon as one of them says X.  [P] tells which rules say X. *)
  Lemma quant_walk_spec (X nX : decision) (P : level -> bool) (lf_dec : leaf -> bool -> decision) need :
    decision_eqb nX X = false -> decision_eqb Default X = false ->
    (forall l, dec_of (Some l) need = if P l then X else nX) ->
    (forall lf, lf_dec lf true = scalar_decide (l_prefix lf) need) ->
    (forall e p, decision_eqb (lf_dec (Leaf (option_map acc e) (option_map acc p)) false) X
                 = existsb P (olist e ++ olist p)) ->
    (let d0 := match tree_get EmptyString t with Some lf => lf_dec lf true | None => Default end in
     if decision_eqb d0 X then X
     else if existsb (fun e => decision_eqb (lf_dec (snd e) false) X) t then X else d0)
    = if existsb P (rules_at v S) then X else if is_some (v true EmptyString) then nX else Default.
  Proof.
    intros HnX HdX Hdec Hpre Hleaf. cbv zeta.
    assert (D0 : match tree_get EmptyString t with Some lf => lf_dec lf true | None => Default end
                 = dec_of (v true EmptyString) need).
    { destruct (tree_get EmptyString t) as [lf|] eqn:G.
      - destruct (repr_some _ _ G) as [_ Hp]. rewrite Hpre, Hp. apply scalar_decide_spec.
      - destruct (repr_none _ G) as [_ Hp]. rewrite Hp. reflexivity. }
    assert (E : existsb (fun e => decision_eqb (lf_dec (snd e) false) X) t = existsb P (rules_at v S)).
    { transitivity (existsb (fun n => decision_eqb (lf_dec (Leaf (option_map acc (v false n)) (option_map acc (v true n))) false) X) S).
      - rewrite <- (tree_existsb (fun _ e p => decision_eqb (lf_dec (Leaf e p) false) X)) by (intros _; exact (Hleaf None None)).
        apply existsb_ext_in. intros [k lf] _. cbn [fst snd]. rewrite <- leaf_eta. reflexivity.
      - unfold rules_at. rewrite existsb_flat_map. apply existsb_ext_in. intros n _. apply Hleaf. }
    rewrite D0, E. destruct (v true EmptyString) as [l|] eqn:E0; cbn [is_some].
    - rewrite Hdec. destruct (P l) eqn:Pl; [|rewrite HnX; reflexivity].
      (* the "" prefix rule says X, and it is one of the rules *)
      rewrite decision_eqb_refl. replace (existsb P (rules_at v S)) with true; [reflexivity|].
      symmetry. apply existsb_exists. exists l. split; [|exact Pl]. apply in_flat_map. exists EmptyString.
      split; [apply (C true); congruence|]. apply in_or_app. right. rewrite E0. left; reflexivity.
    - cbn [dec_of]. rewrite HdX. reflexivity.
  Qed.

  Lemma any_allowed_spec need : any_allowed t need = spec_any v S need.
  Proof.
    unfold any_allowed, spec_any.
    apply (quant_walk_spec Allow Deny (fun l => grants l need) (leaf_any need) need); try reflexivity.
    intros e p. apply leaf_says.
  Qed.

  Lemma all_allowed_spec need : all_allowed t need = spec_all v S need.
  Proof.
    unfold all_allowed, spec_all.
    apply (quant_walk_spec Deny Allow (fun l => negb (grants l need)) (leaf_all need) need); try reflexivity.
    - intros l. cbn [dec_of]. destruct (grants l need); reflexivity.
    - intros e p. apply leaf_says.
  Qed.

  Lemma below_spec (bad : option access -> bool) (good : level -> bool) p :
    bad None = false -> (forall l, bad (Some (acc l)) = negb (good l)) ->
    existsb (fun e => bad (l_prefix (snd e)) || bad (l_exact (snd e))) (walk_prefix p t)
    = existsb (fun l => negb (good l)) (rules_at v (filter (String.prefix p) S)).
  Proof.
    intros B0 B1. unfold walk_prefix, rules_at. rewrite existsb_filter, existsb_flat_map, existsb_filter.
    rewrite (tree_existsb (fun k e pf => String.prefix p k && (bad pf || bad e)))
      by (intros k; rewrite B0; apply andb_false_r).
    apply existsb_ext_in. intros n _. f_equal. rewrite existsb_app.
    destruct (v false n), (v true n); cbn [option_map olist existsb]; rewrite ?B0, ?B1, ?orb_false_r;
      try reflexivity; apply orb_comm.
  Qed.

  Lemma subtree_walk_spec (walk : list (string * leaf) -> decision -> decision) (ok : access -> bool)
      (bad : option access -> bool) (good : level -> bool) p :
    (forall k lf rest c, walk ((k, lf) :: rest) c
       = walk rest (match l_prefix lf with Some a => if ok a then Allow else Deny | None => c end)) ->
    (forall c, walk [] c = c) ->
    (forall l, ok (acc l) = good l) ->
    bad None = false -> (forall l, bad (Some (acc l)) = negb (good l)) ->
    (if existsb (fun e => bad (l_prefix (snd e)) || bad (l_exact (snd e))) (walk_prefix p t)
     then Deny else walk (walk_path p t) Default)
    = spec_subtree good v S p.
  Proof.
    intros Hw H0 Hok B0 B1. rewrite (base_walk_spec walk ok good Hw H0 Hok), (below_spec bad good p B0 B1).
    unfold spec_subtree. destruct (longest_prefix v p) as [l|]; cbn [base_dec]; [destruct (good l)|];
      cbn [negb]; destruct (existsb _ _); reflexivity.
  Qed.

  Lemma service_read_prefix_spec p : service_read_prefix t p = spec_subtree is_rw v S p.
  Proof.
    unfold service_read_prefix.
    apply (subtree_walk_spec srp_base read_or_write not_rw is_rw); try reflexivity; intros []; reflexivity.
  Qed.

  (* KeyWritePrefix first asks whether the path already denies; the test adds nothing *)
  Lemma key_write_prefix_spec p : key_write_prefix t p = spec_subtree is_write v S p.
  Proof.
    rewrite <- (subtree_walk_spec kwp_base (fun a => access_eqb a AWrite) not_write is_write)
      by (try reflexivity; intros []; reflexivity).
    unfold key_write_prefix. cbv zeta.
    destruct (kwp_base (walk_path p t) Default), (existsb _ _); reflexivity.
  Qed.
End Walk.

Lemma lookup_decide_nil n need : lookup_decide [] n need = Default.
Proof.
  rewrite (lookup_decide_spec [] no_view) by (intros pf x; reflexivity).
  unfold applicable, longest_prefix, no_view. generalize (prefixes n). intros L.
  induction L as [|x L IH]; [reflexivity|exact IH].
Qed.
