(* Lemmas about the list helpers of ACL/Model.v: association lists ([alookup], [aset], [aremove]), the
   decidable equalities of the model's key types, and [prefixes]. *)
From Verif Require Import Base.Prelude.
From Verif Require Import Base.Lists.
From Verif Require Import ACL.Model.

Lemma existsb_flat_map {A B} (g : B -> bool) (f : A -> list B) l :
  existsb g (flat_map f l) = existsb (fun x => existsb g (f x)) l.
Proof. induction l as [|x l IH]; cbn; [reflexivity|]. rewrite existsb_app, IH. reflexivity. Qed.

Section Assoc.
  Context {K V : Type} (eqb : K -> K -> bool).
  Hypothesis eqb_eq : forall a b, eqb a b = true <-> a = b.

  Lemma alookup_aset k k' (v : V) l :
    alookup eqb k' (aset eqb k v l) = if eqb k' k then Some v else alookup eqb k' l.
  Proof.
    induction l as [|[k0 v0] l IH]; cbn [aset alookup].
    - reflexivity.
    - destruct (eqb k k0) eqn:E0; cbn [alookup].
      + apply eqb_eq in E0; subst k0. destruct (eqb k' k); reflexivity.
      + destruct (eqb k' k0) eqn:E1.
        * apply eqb_eq in E1; subst k0.
          destruct (eqb k' k) eqn:E2; [|reflexivity].
          apply eqb_eq in E2; subst. rewrite (eqb_refl' _ eqb_eq) in E0. discriminate.
        * exact IH.
  Qed.

  Lemma aset_keys k (v : V) l :
    forall x, In x (map fst (aset eqb k v l)) <-> k = x \/ In x (map fst l).
  Proof.
    induction l as [|[k0 v0] l IH]; intros x; cbn [aset map fst In]; [reflexivity|].
    destruct (eqb k k0) eqn:E0; cbn [map fst In].
    - apply eqb_eq in E0; subst. tauto.
    - rewrite IH. tauto.
  Qed.

  Lemma aset_nodup k (v : V) l : NoDup (map fst l) -> NoDup (map fst (aset eqb k v l)).
  Proof.
    induction l as [|[k0 v0] l IH]; intros H; cbn [aset map fst].
    - constructor; [intros []|constructor].
    - inversion H as [|? ? Hn Hd]; subst.
      destruct (eqb k k0) eqn:E0; cbn [map fst].
      + apply eqb_eq in E0; subst. constructor; assumption.
      + constructor; [|apply IH; assumption].
        intros Hin. apply aset_keys in Hin as [->|Hin]; [|contradiction].
        rewrite (eqb_refl' _ eqb_eq) in E0; discriminate.
  Qed.

  Lemma alookup_In k (v : V) l : alookup eqb k l = Some v -> In (k, v) l.
  Proof.
    induction l as [|[k0 v0] l IH]; cbn [alookup]; [discriminate|].
    destruct (eqb k k0) eqn:E.
    - apply eqb_eq in E; subst. intros [= ->]. left; reflexivity.
    - intros H. right. apply IH, H.
  Qed.

  Lemma In_alookup k (v : V) l : NoDup (map fst l) -> In (k, v) l -> alookup eqb k l = Some v.
  Proof.
    induction l as [|[k0 v0] l IH]; intros Hd Hin; [destruct Hin|].
    inversion Hd as [|? ? Hn Hd']; subst. cbn [alookup].
    destruct Hin as [[= -> ->]|Hin].
    - rewrite (eqb_refl' _ eqb_eq). reflexivity.
    - destruct (eqb k k0) eqn:E; [|apply IH; assumption].
      apply eqb_eq in E; subst. exfalso. apply Hn.
      change k0 with (fst (k0, v)). apply in_map, Hin.
  Qed.

  Lemma alookup_None k l : alookup eqb k l = None <-> ~ In k (map (@fst K V) l).
  Proof.
    induction l as [|[k0 v0] l IH]; cbn [alookup map fst In].
    - intuition.
    - destruct (eqb k k0) eqn:E.
      + apply eqb_eq in E; subst. split; [discriminate|]. intros H; exfalso; apply H; left; reflexivity.
      + rewrite IH. apply (eqb_neq _ eqb_eq) in E. intuition.
  Qed.

  Lemma alookup_aremove k k' (l : list (K * V)) :
    alookup eqb k' (aremove eqb k l) = if eqb k k' then None else alookup eqb k' l.
  Proof.
    induction l as [|[k0 v0] l IH]; cbn [aremove alookup].
    - destruct (eqb k k'); reflexivity.
    - destruct (eqb k k0) eqn:E0.
      + apply eqb_eq in E0; subst k0. rewrite IH.
        destruct (eqb k k') eqn:E1; [reflexivity|].
        destruct (eqb k' k) eqn:E2; [|reflexivity].
        apply eqb_eq in E2; subst. rewrite (eqb_refl' _ eqb_eq) in E1; discriminate.
      + cbn [alookup]. destruct (eqb k' k0) eqn:E1; [|exact IH].
        apply eqb_eq in E1; subst k0. rewrite E0. reflexivity.
  Qed.
End Assoc.

Lemma rkind_eqb_eq a b : rkind_eqb a b = true <-> a = b.
Proof. destruct a, b; cbn; split; intros H; try reflexivity; try discriminate. Qed.

Lemma string_eqb_eq a b : String.eqb a b = true <-> a = b.
Proof. apply String.eqb_eq. Qed.

Lemma rkey_eqb_eq (a b : rkey) : rkey_eqb a b = true <-> a = b.
Proof.
  destruct a as [[k1 p1] n1], b as [[k2 p2] n2]. unfold rkey_eqb.
  rewrite !andb_true_iff, rkind_eqb_eq, Bool.eqb_true_iff, String.eqb_eq.
  split; [intros [[-> ->] ->]; reflexivity|intros [= -> -> ->]; auto].
Qed.

Lemma akey_eqb_eq (a b : akey) : akey_eqb a b = true <-> a = b.
Proof.
  revert b; induction a as [|[i x] a IH]; intros [|[j y] b]; cbn [akey_eqb]; split;
    try congruence; try reflexivity.
  - rewrite !andb_true_iff, !N.eqb_eq, IH. intros [[-> ->] ->]; reflexivity.
  - intros [= -> -> ->]. rewrite !andb_true_iff, !N.eqb_eq, IH. auto.
Qed.

Lemma prefixes_In p s : In p (prefixes s) <-> String.prefix p s = true.
Proof.
  revert p; induction s as [|c s IH]; intros p; cbn [prefixes].
  - destruct p; cbn; intuition; discriminate.
  - destruct p as [|d p]; cbn [In String.prefix].
    + split; auto.
    + rewrite in_map_iff. split.
      * intros [H|[x [Hx Hin]]]; [discriminate|]. injection Hx as -> ->.
        apply IH in Hin. destruct (ascii_dec d d); [assumption|contradiction].
      * intros H. right. destruct (ascii_dec d c) as [->|]; [|discriminate].
        exists p. split; [reflexivity|]. apply IH, H.
Qed.

Lemma prefixes_snoc s : exists pre, prefixes s = pre ++ [s] /\ forall x, In x pre -> x <> s.
Proof.
  induction s as [|c s (pre & E & Hne)]; cbn [prefixes].
  - exists []. split; [reflexivity|intros ? []].
  - exists (EmptyString :: map (String c) pre). split.
    + rewrite E, map_app. reflexivity.
    + intros x [<-|Hin]; [discriminate|]. apply in_map_iff in Hin as (y & <- & Hy).
      intros [= ->]. exact (Hne _ Hy eq_refl).
Qed.

Lemma prefixes_lengths s l1 p l2 :
  prefixes s = l1 ++ p :: l2 -> forall q, In q l2 -> String.length p < String.length q.
Proof.
  revert l1 p l2; induction s as [|c s IH]; intros l1 p l2 E q Hq; cbn [prefixes] in E.
  - destruct l1 as [|? [|? ?]]; cbn in E; try discriminate. injection E as <- <-. destruct Hq.
  - destruct l1 as [|x l1]; cbn [app] in E.
    + injection E as <- <-. apply in_map_iff in Hq as (y & <- & _). cbn. lia.
    + injection E as <- E. apply map_eq_app in E as (m1 & m2 & E1 & <- & E2).
      destruct m2 as [|y m2]; [discriminate|]. cbn [map] in E2. injection E2 as <- <-.
      apply in_map_iff in Hq as (z & <- & Hz). cbn [String.length].
      apply -> Nat.succ_lt_mono. eapply IH; eassumption.
Qed.

Lemma prefix_refl s : String.prefix s s = true.
Proof. induction s as [|c s IH]; cbn; [reflexivity|]. destruct (ascii_dec c c); [exact IH|contradiction]. Qed.
