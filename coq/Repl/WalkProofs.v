(* The sorted merge walk computes the set difference (C19_walk_is_set_difference), by induction on the
   two lists: objects with an empty id are only counted (walk_live); the results are taken from the
   inputs (walk_incl) and, on strictly sorted lists, are the two filters of the specification
   (walk_sorted); the sort supplies such lists (walk_is_set_difference). *)
From Verif Require Import Base.Prelude.
From Verif Require Import Base.Lists.
From Verif Require Import Repl.Model.
From Verif Require Import Repl.Order.
From Coq Require Import Sorting.Sorted Sorting.Permutation.

Section WalkProofs.
  Context {K H : Type}.
  Variable keqb : K -> K -> bool.
  Variable kltb : K -> K -> bool.
  Variable is_empty : K -> bool.
  Variable same_hash : H -> H -> bool.
  Hypothesis keqb_spec : forall a b, keqb a b = true <-> a = b.
  Hypothesis kltb_irrefl : forall a, kltb a a = false.
  Hypothesis kltb_trans : forall a b c, kltb a b = true -> kltb b c = true -> kltb a c = true.
  Hypothesis kltb_total : forall a b, keqb a b = false -> kltb a b = false -> kltb b a = true.

  Notation item := (@item K H).
  Notation diffres := (@diffres K H).
  Notation isort := (@isort K H kltb).
  Notation live := (@live K H is_empty).
  Notation memk := (@memk K keqb).
  Notation need_update := (@need_update K H same_hash).
  Notation tail_local := (@tail_local K H is_empty).
  Notation tail_remote := (@tail_remote K H is_empty).
  Notation walk := (@walk K H keqb kltb is_empty same_hash).
  Notation diff := (@diff K H keqb kltb is_empty same_hash).
  Notation ilt := (@ilt K H kltb).

  Definition findk (k : K) (l : list item) : option item :=
    find (fun x => keqb (it_id x) k) l.

  (* does the remote object y have to be written, given the local objects L? *)
  Definition upd_needed (last : N) (L : list item) (y : item) : bool :=
    match findk (it_id y) L with
    | None => true
    | Some x => need_update last x y
    end.

  Definition spec_del (L R : list item) : list item :=
    filter (fun x => negb (memk (it_id x) (ids R))) L.

  Definition spec_ups (last : N) (L R : list item) : list item :=
    filter (upd_needed last L) R.

  Definition nempty (l : list item) : N :=
    N.of_nat (List.length (filter (fun x => negb (live x)) l)).

  Lemma walk_nil_l last r : walk last [] r = tail_remote r.
  Proof. destruct r; reflexivity. Qed.

  Lemma walk_nil_r last l : walk last l [] = tail_local l.
  Proof. destruct l; reflexivity. Qed.

  Lemma walk_cons last x l y r :
    walk last (x :: l) (y :: r) =
      if is_empty (it_id x) then add_lskip (walk last l (y :: r))
      else if is_empty (it_id y) then add_rskip (walk last (x :: l) r)
      else if keqb (it_id x) (it_id y) then
             (if need_update last x y then add_ups y (walk last l r) else walk last l r)
      else if kltb (it_id x) (it_id y) then add_del x (walk last l (y :: r))
      else add_ups y (walk last (x :: l) r).
  Proof. reflexivity. Qed.

  Definition with_counts (W : diffres) (a b : N) : diffres := DiffRes (d_del W) (d_ups W) a b.

  Lemma skip_empty x l :
    is_empty (it_id x) = true ->
    filter live (x :: l) = filter live l /\ nempty (x :: l) = N.succ (nempty l).
  Proof.
    intros E. unfold nempty. cbn [filter]. unfold Model.live. rewrite E. cbn [negb List.length].
    split; [reflexivity|apply Nat2N.inj_succ].
  Qed.

  Lemma keep_live x l :
    is_empty (it_id x) = false ->
    filter live (x :: l) = x :: filter live l /\ nempty (x :: l) = nempty l.
  Proof. intros E. unfold nempty. cbn [filter]. unfold Model.live. rewrite E. split; reflexivity. Qed.

  Lemma tail_local_live l :
    tail_local l = with_counts (tail_local (filter live l)) (nempty l) 0.
  Proof.
    induction l as [|x l IH]; [reflexivity|]. cbn [Model.tail_local].
    destruct (is_empty (it_id x)) eqn:E.
    - destruct (skip_empty x l E) as [-> ->]. rewrite IH. reflexivity.
    - destruct (keep_live x l E) as [-> ->]. cbn [Model.tail_local]. rewrite E, IH. reflexivity.
  Qed.

  Lemma tail_remote_live r :
    tail_remote r = with_counts (tail_remote (filter live r)) 0 (nempty r).
  Proof.
    induction r as [|y r IH]; [reflexivity|]. cbn [Model.tail_remote].
    destruct (is_empty (it_id y)) eqn:E.
    - destruct (skip_empty y r E) as [-> ->]. rewrite IH. reflexivity.
    - destruct (keep_live y r E) as [-> ->]. cbn [Model.tail_remote]. rewrite E, IH. reflexivity.
  Qed.

  Lemma walk_live last l r :
    walk last l r = with_counts (walk last (filter live l) (filter live r)) (nempty l) (nempty r).
  Proof.
    revert r. induction l as [|x l IHl]; intros r.
    - rewrite walk_nil_l. cbn [filter]. rewrite walk_nil_l. apply tail_remote_live.
    - induction r as [|y r IHr].
      + rewrite walk_nil_r. cbn [filter]. rewrite walk_nil_r. apply tail_local_live.
      + rewrite walk_cons.
        destruct (is_empty (it_id x)) eqn:Ex.
        * destruct (skip_empty x l Ex) as [-> ->]. rewrite IHl. reflexivity.
        * destruct (is_empty (it_id y)) eqn:Ey.
          -- destruct (skip_empty y r Ey) as [-> ->]. rewrite IHr. reflexivity.
          -- destruct (keep_live x l Ex) as [Fx Nx], (keep_live y r Ey) as [Fy Ny].
             rewrite Fx, Fy, Nx, Ny, walk_cons, Ex, Ey.
             destruct (keqb (it_id x) (it_id y)).
             ++ rewrite IHl. destruct (need_update last x y); reflexivity.
             ++ destruct (kltb (it_id x) (it_id y)); [rewrite IHl, Fy, Ny|rewrite IHr, Fx, Nx]; reflexivity.
  Qed.

  Lemma all_live_filter l : Forall (fun x => live x = true) (filter live l).
  Proof. apply Forall_forall. intros x Hx. apply filter_In in Hx as [_ Hx]. exact Hx. Qed.

  Lemma all_live_tail_local l :
    Forall (fun x => live x = true) l -> tail_local l = DiffRes l [] 0 0.
  Proof.
    induction 1 as [|x l Hx _ IH]; [reflexivity|].
    cbn [Model.tail_local]. apply negb_true_iff in Hx. rewrite Hx, IH. reflexivity.
  Qed.

  Lemma all_live_tail_remote r :
    Forall (fun x => live x = true) r -> tail_remote r = DiffRes [] r 0 0.
  Proof.
    induction 1 as [|x l Hx _ IH]; [reflexivity|].
    cbn [Model.tail_remote]. apply negb_true_iff in Hx. rewrite Hx, IH. reflexivity.
  Qed.

  Lemma walk_cons_live last x l y r :
    live x = true -> live y = true ->
    walk last (x :: l) (y :: r) =
      if keqb (it_id x) (it_id y) then
        (if need_update last x y then add_ups y (walk last l r) else walk last l r)
      else if kltb (it_id x) (it_id y) then add_del x (walk last l (y :: r))
      else add_ups y (walk last (x :: l) r).
  Proof. intros Hx Hy. apply negb_true_iff in Hx, Hy. rewrite walk_cons, Hx, Hy. reflexivity. Qed.

  Lemma walk_incl last l : forall r,
    Forall (fun x => live x = true) l -> Forall (fun x => live x = true) r ->
    incl (d_del (walk last l r)) l /\ incl (d_ups (walk last l r)) r.
  Proof.
    induction l as [|x l IHl]; intros r Ll Lr.
    - rewrite walk_nil_l, (all_live_tail_remote r Lr). split; [apply incl_nil_l|apply incl_refl].
    - induction r as [|y r IHr].
      + rewrite walk_nil_r, (all_live_tail_local _ Ll). split; [apply incl_refl|apply incl_nil_l].
      + rewrite (walk_cons_live last x l y r (Forall_inv Ll) (Forall_inv Lr)).
        destruct (IHl r (Forall_inv_tail Ll) (Forall_inv_tail Lr)) as [D1 U1].
        destruct (IHl (y :: r) (Forall_inv_tail Ll) Lr) as [D2 U2].
        destruct (IHr (Forall_inv_tail Lr)) as [D3 U3].
        destruct (keqb (it_id x) (it_id y)); [destruct (need_update last x y)|destruct (kltb (it_id x) (it_id y))];
          cbn [d_del d_ups add_del add_ups]; split; auto using incl_tl, incl_cons, in_eq.
  Qed.

  Lemma lt_all_not_mem k (l : list item) :
    Forall (fun z => kltb k (it_id z) = true) l -> memk k (ids l) = false.
  Proof.
    induction 1 as [|z l Hz _ IH]; [reflexivity|].
    unfold Model.memk, ids in *. cbn [map existsb]. rewrite IH.
    rewrite (kltb_keqb keqb_spec kltb_irrefl _ _ Hz). reflexivity.
  Qed.

  Lemma lt_all_find_none k (l : list item) :
    Forall (fun z => kltb k (it_id z) = true) l -> findk k l = None.
  Proof.
    induction 1 as [|z l Hz _ IH]; [reflexivity|].
    unfold findk in *. cbn [find]. rewrite (keqb_sym keqb_spec).
    rewrite (kltb_keqb keqb_spec kltb_irrefl _ _ Hz). exact IH.
  Qed.

  Lemma spec_del_skip_r (l : list item) y r :
    Forall (fun z => kltb (it_id y) (it_id z) = true) l -> spec_del l (y :: r) = spec_del l r.
  Proof.
    intros Hl. apply filter_ext_in. intros z Hz. rewrite Forall_forall in Hl.
    cbn [ids map Model.memk existsb]. rewrite (keqb_sym keqb_spec).
    rewrite (kltb_keqb keqb_spec kltb_irrefl _ _ (Hl z Hz)). reflexivity.
  Qed.

  Lemma spec_ups_skip_l last x l (r : list item) :
    Forall (fun z => kltb (it_id x) (it_id z) = true) r -> spec_ups last (x :: l) r = spec_ups last l r.
  Proof.
    intros Hr. apply filter_ext_in. intros z Hz. rewrite Forall_forall in Hr.
    unfold upd_needed, findk. cbn [find].
    rewrite (kltb_keqb keqb_spec kltb_irrefl _ _ (Hr z Hz)). reflexivity.
  Qed.

  Lemma walk_sorted last l : forall r,
    Forall (fun x => live x = true) l -> Forall (fun x => live x = true) r ->
    StronglySorted ilt l -> StronglySorted ilt r ->
    d_del (walk last l r) = spec_del l r /\ d_ups (walk last l r) = spec_ups last l r.
  Proof.
    induction l as [|x l IHl]; intros r Ll Lr Sl Sr.
    - rewrite walk_nil_l, (all_live_tail_remote r Lr). cbn [d_del d_ups]. split; [reflexivity|].
      unfold spec_ups, upd_needed, findk. cbn [find]. symmetry. apply (filter_const true).
    - induction r as [|y r IHr].
      + rewrite walk_nil_r, (all_live_tail_local _ Ll). cbn [d_del d_ups]. split; [|reflexivity].
        unfold spec_del. cbn [ids map Model.memk existsb negb]. symmetry. apply (filter_const true).
      + rewrite (walk_cons_live last x l y r (Forall_inv Ll) (Forall_inv Lr)).
        pose proof (Forall_inv_tail Ll) as Ll'. pose proof (Forall_inv_tail Lr) as Lr'.
        destruct (StronglySorted_inv Sl) as [Sl' Hxl]. destruct (StronglySorted_inv Sr) as [Sr' Hyr].
        unfold Order.ilt in Hxl, Hyr.
        destruct (keqb (it_id x) (it_id y)) eqn:Exy.
        * (* same id: both advance *)
          destruct (IHl r Ll' Lr' Sl' Sr') as [Hd Hu].
          apply keqb_spec in Exy. rewrite Exy in Hxl. rewrite <- Exy in Hyr.
          rewrite <- (spec_del_skip_r l y r Hxl) in Hd. rewrite <- (spec_ups_skip_l last x l r Hyr) in Hu.
          unfold spec_del at 1, spec_ups at 1. cbn [filter]. unfold upd_needed at 1, findk.
          cbn [find ids map Model.memk existsb]. rewrite Exy, (keqb_refl keqb_spec). cbn [orb negb].
          destruct (need_update last x y); cbn [d_del d_ups add_ups]; rewrite Hd, Hu; split; reflexivity.
        * destruct (kltb (it_id x) (it_id y)) eqn:Lxy.
          -- (* local only: delete *)
             destruct (IHl (y :: r) Ll' Lr Sl' Sr) as [Hd Hu].
             assert (Hxr : Forall (fun z => kltb (it_id x) (it_id z) = true) (y :: r)).
             { constructor; [exact Lxy|]. eapply Forall_impl; [|exact Hyr].
               intros z Hz. eapply kltb_trans; eassumption. }
             cbn [d_del d_ups add_del]. rewrite Hd, Hu, (spec_ups_skip_l last x l _ Hxr). split; [|reflexivity].
             unfold spec_del at 2. cbn [filter]. rewrite (lt_all_not_mem _ _ Hxr). reflexivity.
          -- (* remote only: upsert *)
             destruct (IHr Lr' Sr') as [Hd Hu].
             assert (Hyl : Forall (fun z => kltb (it_id y) (it_id z) = true) (x :: l)).
             { constructor; [exact (kltb_total _ _ Exy Lxy)|]. eapply Forall_impl; [|exact Hxl].
               intros z Hz. eapply kltb_trans; [exact (kltb_total _ _ Exy Lxy)|exact Hz]. }
             cbn [d_del d_ups add_ups]. rewrite Hd, Hu, (spec_del_skip_r _ y r Hyl). split; [reflexivity|].
             unfold spec_ups at 2. cbn [filter]. unfold upd_needed at 1.
             rewrite (lt_all_find_none _ _ Hyl). reflexivity.
  Qed.

  Lemma live_isort_perm l : Permutation (filter live (isort l)) (filter live l).
  Proof. apply Permutation_filter, isort_perm. Qed.

  Lemma memk_perm k (l l' : list K) : Permutation l l' -> memk k l = memk k l'.
  Proof.
    intros Hp. apply eq_true_iff_eq. rewrite !(memk_In keqb_spec), Hp. reflexivity.
  Qed.

  Lemma findk_some k l x : findk k l = Some x -> In x l /\ it_id x = k.
  Proof.
    unfold findk. intros Hf. apply find_some in Hf as [Hin Heq]. apply keqb_spec in Heq. split; assumption.
  Qed.

  Lemma findk_none k l : findk k l = None -> ~ In k (ids l).
  Proof.
    unfold findk. intros Hf Hin. apply in_map_iff in Hin as [z [Hz Hin]].
    pose proof (find_none _ _ Hf z Hin) as Hn. cbn in Hn. rewrite Hz, (keqb_refl keqb_spec) in Hn. discriminate.
  Qed.

  Lemma upd_needed_false_iff last (L : list item) y :
    NoDup (ids L) ->
    (upd_needed last L y = false <->
     exists x, In x L /\ it_id x = it_id y /\ need_update last x y = false).
  Proof.
    intros Hnd. unfold upd_needed. destruct (findk (it_id y) L) as [x|] eqn:E.
    - apply findk_some in E as [Hx Hid]. split.
      + intros Hn. exists x. auto.
      + intros (x' & Hx' & Hid' & Hn). rewrite (nodup_ids_inj L x x' Hnd Hx Hx'); congruence.
    - apply findk_none in E. split; [discriminate|].
      intros (x & Hx & Hid & _). exfalso. apply E. rewrite <- Hid. apply in_map; exact Hx.
  Qed.

  Lemma upd_needed_perm last (L L' : list item) y :
    NoDup (ids L) -> Permutation L L' -> upd_needed last L y = upd_needed last L' y.
  Proof.
    intros Hnd Hp.
    assert (Hnd' : NoDup (ids L')) by (unfold ids; rewrite <- Hp; exact Hnd).
    enough (upd_needed last L y = false <-> upd_needed last L' y = false)
      by (destruct (upd_needed last L y), (upd_needed last L' y); intuition congruence).
    rewrite !upd_needed_false_iff by assumption.
    split; intros (x & Hx & Hn); exists x; (split; [|exact Hn]); [rewrite <- Hp|rewrite Hp]; exact Hx.
  Qed.

  Lemma nempty_perm l l' : Permutation l l' -> nempty l = nempty l'.
  Proof.
    intros Hp. unfold nempty. f_equal. apply Permutation_length. apply Permutation_filter; exact Hp.
  Qed.

  Lemma nodup_live_isort l : NoDup (ids (filter live l)) -> NoDup (ids (filter live (isort l))).
  Proof. intros Hnd. unfold ids. rewrite live_isort_perm. exact Hnd. Qed.

  Lemma live_sorted_strict l :
    NoDup (ids (filter live l)) -> StronglySorted ilt (filter live (isort l)).
  Proof.
    intros Hnd. apply (sorted_nodup_strict keqb_spec kltb_total).
    - apply StronglySorted_filter. apply (isort_sorted keqb_spec kltb_irrefl kltb_trans kltb_total).
    - apply nodup_live_isort; exact Hnd.
  Qed.

  (* The merge walk over the sorted lists equals the set-based specification:
       deletions = the live local objects whose id no live remote object has,
       upserts   = the live remote objects that are new, or newer than [last] with another hash,
     each in key order (the other list of each clause is only tested for membership, so it is left
     unsorted); objects with an empty id are only counted. *)
  Theorem walk_is_set_difference last local remote :
    NoDup (ids (filter live local)) -> NoDup (ids (filter live remote)) ->
    diff last local remote =
      DiffRes (spec_del (filter live (isort local)) (filter live remote))
              (spec_ups last (filter live local) (filter live (isort remote)))
              (nempty local) (nempty remote).
  Proof.
    intros Hl Hr. unfold Model.diff. rewrite walk_live. unfold with_counts.
    destruct (walk_sorted last (filter live (isort local)) (filter live (isort remote)))
      as [Hd Hu]; try apply all_live_filter; try (apply live_sorted_strict; assumption).
    rewrite Hd, Hu. f_equal.
    - unfold spec_del. apply filter_ext. intros x. f_equal. apply memk_perm.
      apply Permutation_map, live_isort_perm.
    - unfold spec_ups. apply filter_ext. intros y. symmetry.
      apply upd_needed_perm; [exact Hl|apply Permutation_sym, live_isort_perm].
    - apply nempty_perm, isort_perm.
    - apply nempty_perm, isort_perm.
  Qed.

  Lemma in_del_iff last local remote x :
    NoDup (ids (filter live local)) -> NoDup (ids (filter live remote)) ->
    In x (d_del (diff last local remote)) <->
    In x (filter live local) /\ ~ In (it_id x) (ids (filter live remote)).
  Proof.
    intros Hl Hr. rewrite (walk_is_set_difference last local remote Hl Hr). cbn [d_del].
    unfold spec_del. rewrite filter_In, negb_true_iff, (memk_false keqb_spec), live_isort_perm. reflexivity.
  Qed.

  Lemma in_ups_iff last local remote y :
    NoDup (ids (filter live local)) -> NoDup (ids (filter live remote)) ->
    In y (d_ups (diff last local remote)) <->
    In y (filter live remote) /\ upd_needed last (filter live local) y = true.
  Proof.
    intros Hl Hr. rewrite (walk_is_set_difference last local remote Hl Hr). cbn [d_ups].
    unfold spec_ups. rewrite filter_In, live_isort_perm. reflexivity.
  Qed.

  Lemma diff_sub last local remote :
    (forall x, In x (d_del (diff last local remote)) -> In x local /\ live x = true) /\
    (forall y, In y (d_ups (diff last local remote)) -> In y remote /\ live y = true).
  Proof.
    unfold Model.diff. rewrite walk_live. cbn [with_counts d_del d_ups].
    destruct (walk_incl last _ _ (all_live_filter (isort local)) (all_live_filter (isort remote))) as [D U].
    split; intros z Hz; [apply D in Hz|apply U in Hz];
      rewrite live_isort_perm in Hz; apply filter_In; exact Hz.
  Qed.

  Lemma diff_skips last local remote :
    d_lskip (diff last local remote) = nempty local /\ d_rskip (diff last local remote) = nempty remote.
  Proof.
    unfold Model.diff. rewrite walk_live. cbn [with_counts d_lskip d_rskip]. split; apply nempty_perm, isort_perm.
  Qed.

  Lemma diff_no_empty_ids last local remote :
    (forall k, is_empty k = false) -> NoDup (ids local) -> NoDup (ids remote) ->
    diff last local remote =
      DiffRes (spec_del (isort local) remote) (spec_ups last local (isort remote)) 0 0.
  Proof.
    intros Hne Hl Hr.
    assert (Hall : forall l : list item, filter live l = l).
    { intros l. rewrite <- (filter_all (fun _ => true) l) at 2 by reflexivity. apply filter_ext. intros x.
      unfold Model.live. rewrite Hne. reflexivity. }
    assert (H0 : forall l, nempty l = 0%N).
    { intros l. unfold nempty. rewrite (proj2 (filter_nil_iff _ l)); [reflexivity|].
      intros x _. unfold Model.live. rewrite Hne. reflexivity. }
    rewrite walk_is_set_difference by (rewrite Hall; assumption).
    rewrite !Hall, !H0. reflexivity.
  Qed.
End WalkProofs.

(* the functions are determined by their laws and by the goal *)
Arguments upd_needed_false_iff {K H keqb same_hash}.
Arguments walk_is_set_difference {K H keqb kltb is_empty same_hash}.
Arguments in_del_iff {K H keqb kltb is_empty same_hash}.
Arguments in_ups_iff {K H keqb kltb is_empty same_hash}.
Arguments diff_no_empty_ids {K H keqb kltb is_empty same_hash}.
