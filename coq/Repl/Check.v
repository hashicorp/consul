(* Boolean forms of the hypotheses of the round theorems, for concrete tables: each is sound for the
   proposition it decides, so an example meets a hypothesis by evaluation. *)
From Verif Require Import Base.Prelude.
From Verif Require Import Repl.Model.
From Verif Require Import Repl.Order.
From Verif Require Import Repl.RoundProofs.

Section Check.
  Context {K H : Type}.
  Variable keqb : K -> K -> bool.
  Hypothesis keqb_spec : forall a b, keqb a b = true <-> a = b.

  Notation item := (@item K H).

  Fixpoint nodupb (l : list K) : bool :=
    match l with
    | [] => true
    | k :: l' => negb (memk keqb k l') && nodupb l'
    end.

  Lemma nodupb_sound l : nodupb l = true -> NoDup l.
  Proof.
    induction l as [|k l IH]; cbn [nodupb]; intros Hb; constructor;
      apply andb_true_iff in Hb as [Hk Hl].
    - apply (memk_false keqb_spec), negb_true_iff; exact Hk.
    - apply IH; exact Hl.
  Qed.

  Definition all_global_b (R : list item) : bool := forallb (fun y => negb (it_local y)) R.

  Lemma all_global_b_sound R : all_global_b R = true -> all_global R.
  Proof.
    intros Hb y Hy. apply negb_true_iff. exact (proj1 (forallb_forall _ R) Hb y Hy).
  Qed.

  Definition same_id_b (p : item -> item -> bool) (L R : list item) : bool :=
    forallb (fun x => forallb (fun y => implb (keqb (it_id x) (it_id y)) (p x y)) R) L.

  Lemma same_id_b_sound p L R :
    same_id_b p L R = true ->
    forall x y, In x L -> In y R -> it_id x = it_id y -> p x y = true.
  Proof.
    intros Hb x y Hx Hy Hid. unfold same_id_b in Hb. rewrite forallb_forall in Hb.
    pose proof (proj1 (forallb_forall _ R) (Hb x Hx) y Hy) as Hp. cbn beta in Hp.
    rewrite (proj2 (keqb_spec _ _) Hid) in Hp. exact Hp.
  Qed.

  Definition consistent_b (last : N) : list item -> list item -> bool :=
    same_id_b (fun x y => implb (it_mod y <=? last)%N (it_body x =? it_body y)%N).

  Lemma consistent_b_sound last L R : consistent_b last L R = true -> consistent last L R.
  Proof.
    intros Hb x y Hx Hy Hid Hm. pose proof (same_id_b_sound _ L R Hb x y Hx Hy Hid) as Hp. cbn beta in Hp.
    apply N.leb_le in Hm. rewrite Hm in Hp. apply N.eqb_eq; exact Hp.
  Qed.

  Definition hash_sound_b (same_hash : H -> H -> bool) : list item -> list item -> bool :=
    same_id_b (fun x y => implb (same_hash (it_hash x) (it_hash y)) (it_body x =? it_body y)%N).

  Lemma hash_sound_b_sound same_hash L R :
    hash_sound_b same_hash L R = true -> hash_sound same_hash L R.
  Proof.
    intros Hb x y Hx Hy Hid Hh. pose proof (same_id_b_sound _ L R Hb x y Hx Hy Hid) as Hp. cbn beta in Hp.
    rewrite Hh in Hp. apply N.eqb_eq; exact Hp.
  Qed.
End Check.

Arguments nodupb_sound {K keqb}.
Arguments same_id_b_sound {K H keqb}.
Arguments consistent_b_sound {K H keqb}.
Arguments hash_sound_b_sound {K H keqb}.
