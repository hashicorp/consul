(* Applying the diff: one round makes the replicated set equal to the primary's, leaves
   everything else alone, and an equal secondary is not written to; then what holds across rounds
   (the consistency a round produces for the next one), the two-snapshot variant of the ACL round,
   and when the store accepts the upserts of a round (property C19). *)
From Verif Require Import Base.Prelude.
From Verif Require Import Base.Lists.
From Verif Require Import Repl.Model.
From Verif Require Import Repl.Order.
From Verif Require Import Repl.WalkProofs.
From Coq Require Import Sorting.Sorted Sorting.Permutation.

Section RoundProofs.
  Context {K H : Type}.
  Variable keqb : K -> K -> bool.
  Variable kltb : K -> K -> bool.
  Variable is_empty : K -> bool.
  Variable same_hash : H -> H -> bool.
  Variable applies : K -> bool.
  Hypothesis keqb_spec : forall a b, keqb a b = true <-> a = b.
  Hypothesis kltb_irrefl : forall a, kltb a a = false.
  Hypothesis kltb_trans : forall a b c, kltb a b = true -> kltb b c = true -> kltb a c = true.
  Hypothesis kltb_total : forall a b, keqb a b = false -> kltb a b = false -> kltb b a = true.

  Notation item := (@item K H).
  Notation isort := (@isort K H kltb).
  Notation live := (@live K H is_empty).
  Notation memk := (@memk K keqb).
  Notation need_update := (@need_update K H same_hash).
  Notation diff := (@diff K H keqb kltb is_empty same_hash).
  Notation remove_id := (@remove_id K H keqb).
  Notation upsert := (@upsert K H keqb).
  Notation delete_all := (@delete_all K H keqb).
  Notation upsert_all := (@upsert_all K H keqb).
  Notation issued := (@issued K H applies).
  Notation apply_round := (@apply_round K H keqb applies).
  Notation round := (@round K H keqb kltb is_empty same_hash applies).
  Notation acl_round := (@acl_round K H keqb kltb is_empty same_hash applies).
  Notation fetch_updated := (@fetch_updated K H keqb).
  Notation upd_needed := (@upd_needed K H keqb same_hash).

  (* the objects replication is responsible for: a usable id, a kind the apply step writes,
     not a token of local scope *)
  Definition repl (l : list item) : list item :=
    filter (fun x => live x && applies (it_id x) && negb (it_local x)) l.

  Definition untouchable (x : item) : bool :=
    it_local x || is_empty (it_id x) || negb (applies (it_id x)).

  Definition content (l : list item) : list (K * N) := map (fun x => (it_id x, it_body x)) l.

  (* "last is consistent with what the secondary has applied": whatever the primary has not
     modified after [last] is already there with the primary's content *)
  Definition consistent (last : N) (L R : list item) : Prop :=
    forall x y, In x L -> In y R -> it_id x = it_id y -> (it_mod y <= last)%N -> it_body x = it_body y.

  (* equal hashes mean equal content (no collision between two versions of one object) *)
  Definition hash_sound (L R : list item) : Prop :=
    forall x y, In x L -> In y R -> it_id x = it_id y ->
      same_hash (it_hash x) (it_hash y) = true -> it_body x = it_body y.

  (* equal content is recognised: by the hash test or because the primary has not touched it since [last] *)
  Definition hash_complete (last : N) (L R : list item) : Prop :=
    forall x y, In x L -> In y R -> it_id x = it_id y -> it_body x = it_body y ->
      need_update last x y = false.

  Definition all_global (R : list item) : Prop := forall y, In y R -> it_local y = false.

  Lemma In_remove_id k st z : In z (remove_id k st) <-> In z st /\ k <> it_id z.
  Proof.
    unfold Model.remove_id.
    rewrite filter_In, negb_true_iff, (keqb_sym keqb_spec), (keqb_false keqb_spec). reflexivity.
  Qed.

  Lemma delete_all_filter ds : forall st,
    delete_all ds st = filter (fun x => negb (memk (it_id x) (ids ds))) st.
  Proof.
    induction ds as [|d ds IH]; intros st; cbn [Model.delete_all fold_left ids map].
    - symmetry. apply (filter_const true).
    - fold (delete_all ds (remove_id (it_id d) st)). rewrite IH. unfold Model.remove_id. rewrite filter_filter.
      apply filter_ext. intros x. cbn [Model.memk existsb]. rewrite negb_orb. reflexivity.
  Qed.

  Lemma In_delete_all ds st z :
    In z (delete_all ds st) <-> In z st /\ ~ In (it_id z) (ids ds).
  Proof. rewrite delete_all_filter, filter_In, negb_true_iff, (memk_false keqb_spec). reflexivity. Qed.

  Lemma In_upsert stamp y st z :
    In z (upsert stamp y st) <-> (In z st /\ it_id y <> it_id z) \/ restamp stamp y = z.
  Proof. unfold Model.upsert. rewrite in_app_iff, In_remove_id. cbn [In]. tauto. Qed.

  Lemma upsert_all_app stamp us : forall st,
    NoDup (ids us) ->
    upsert_all stamp us st = filter (fun x => negb (memk (it_id x) (ids us))) st ++ map (restamp stamp) us.
  Proof.
    induction us as [|u us IH]; intros st Hnd; cbn [Model.upsert_all fold_left ids map].
    - rewrite app_nil_r. symmetry. apply (filter_const true).
    - fold (upsert_all stamp us (upsert stamp u st)). fold (ids us).
      cbn [ids map] in Hnd. fold (ids us) in Hnd. apply NoDup_cons_iff in Hnd as [Hnin Hnd].
      rewrite (IH _ Hnd). unfold Model.upsert, Model.remove_id. rewrite filter_app, filter_filter. cbn [filter restamp it_id].
      rewrite (proj2 (memk_false keqb_spec _ _) Hnin), <- app_assoc. cbn [negb app]. f_equal.
      apply filter_ext. intros x. cbn [Model.memk existsb]. rewrite negb_orb. reflexivity.
  Qed.

  Lemma In_upsert_all stamp us st z :
    NoDup (ids us) ->
    (In z (upsert_all stamp us st) <->
     (In z st /\ ~ In (it_id z) (ids us)) \/ (exists y, In y us /\ restamp stamp y = z)).
  Proof.
    intros Hnd. rewrite (upsert_all_app stamp us st Hnd), in_app_iff, filter_In, negb_true_iff,
      (memk_false keqb_spec), in_map_iff.
    split; intros [Hz|[y Hy]]; auto; right; exists y; tauto.
  Qed.

  Lemma live_id (x y : item) : it_id x = it_id y -> live x = live y.
  Proof. unfold Model.live. intros ->. reflexivity. Qed.

  Lemma nodup_live_filter (p : item -> bool) st :
    NoDup (ids (filter live st)) -> NoDup (ids (filter live (filter p st))).
  Proof. rewrite filter_comm. apply NoDup_ids_filter. Qed.

  Lemma nodup_delete_all ds st :
    NoDup (ids (filter live st)) -> NoDup (ids (filter live (delete_all ds st))).
  Proof. rewrite delete_all_filter. apply nodup_live_filter. Qed.

  Lemma nodup_upsert stamp y st :
    NoDup (ids (filter live st)) -> NoDup (ids (filter live (upsert stamp y st))).
  Proof.
    intros Hnd. unfold Model.upsert. rewrite filter_app.
    assert (Hrem : NoDup (ids (filter live (remove_id (it_id y) st))))
      by (unfold Model.remove_id; apply nodup_live_filter; exact Hnd).
    cbn [filter]. destruct (live (restamp stamp y)); [|rewrite app_nil_r; exact Hrem].
    unfold ids. rewrite map_app. cbn [map restamp it_id].
    eapply Permutation_NoDup; [apply Permutation_cons_append|].
    constructor; [|exact Hrem].
    intros Hin. apply in_map_iff in Hin as [z [Hz Hin]]. apply filter_In in Hin as [Hin _].
    apply In_remove_id in Hin as [_ Hne]. congruence.
  Qed.

  Lemma nodup_upsert_all stamp us : forall st,
    NoDup (ids (filter live st)) -> NoDup (ids (filter live (upsert_all stamp us st))).
  Proof.
    induction us as [|u us IH]; intros st Hnd; cbn [Model.upsert_all fold_left]; [exact Hnd|].
    apply IH. apply nodup_upsert; exact Hnd.
  Qed.

  Lemma nodup_apply_round stamp d st :
    NoDup (ids (filter live st)) -> NoDup (ids (filter live (apply_round stamp d st))).
  Proof. intros Hnd. unfold Model.apply_round. apply nodup_upsert_all, nodup_delete_all; exact Hnd. Qed.

  Lemma in_live_view st x :
    In x (filter live (view st)) <-> In x st /\ live x = true /\ it_local x = false.
  Proof.
    unfold Model.view. rewrite !filter_In, negb_true_iff. tauto.
  Qed.

  Lemma in_repl l x :
    In x (repl l) <-> In x l /\ live x = true /\ applies (it_id x) = true /\ it_local x = false.
  Proof.
    unfold repl. rewrite filter_In, !andb_true_iff, negb_true_iff. tauto.
  Qed.

  Lemma in_repl_view st x :
    In x (repl st) <-> In x (filter live (view st)) /\ applies (it_id x) = true.
  Proof. rewrite in_repl, in_live_view. tauto. Qed.

  Lemma in_content_repl l k b :
    In (k, b) (content (repl l)) <-> exists x, In x (repl l) /\ it_id x = k /\ it_body x = b.
  Proof.
    unfold content. rewrite in_map_iff. split; intros [x Hx]; exists x.
    - destruct Hx as [Hkb Hx]. injection Hkb as <- <-. auto.
    - destruct Hx as (Hx & <- & <-). auto.
  Qed.

  Lemma nodup_live_view st : NoDup (ids (filter live st)) -> NoDup (ids (filter live (view st))).
  Proof. intros Hnd. unfold Model.view. apply nodup_live_filter; exact Hnd. Qed.

  Lemma in_issued l x : In x (issued l) <-> In x l /\ applies (it_id x) = true.
  Proof. unfold Model.issued. apply filter_In. Qed.

  (* the two reasons for which the walk leaves an object alone both mean: same content *)
  Lemma not_needed_same_body last L R x y :
    consistent last L R -> hash_sound L R -> In x L -> In y R -> it_id x = it_id y ->
    need_update last x y = false -> it_body x = it_body y.
  Proof.
    intros Hc Hs Hx Hy Hid Hn. unfold Model.need_update in Hn. apply andb_false_iff in Hn as [Hn|Hn].
    - apply N.ltb_ge in Hn. exact (Hc x y Hx Hy Hid Hn).
    - apply negb_false_iff in Hn. exact (Hs x y Hx Hy Hid Hn).
  Qed.

  Section Round.
    Variables (stamp last : N) (remote st : list item).
    Hypothesis Hst : NoDup (ids (filter live st)).
    Hypothesis Hrem : NoDup (ids (filter live remote)).
    Hypothesis Hglob : all_global remote.

    Let d := diff last (view st) remote.
    Let result := apply_round stamp d st.

    Let Hview : NoDup (ids (filter live (view st))) := nodup_live_view st Hst.

    Lemma del_iff x :
      In x (d_del d) <-> In x (filter live (view st)) /\ ~ In (it_id x) (ids (filter live remote)).
    Proof. apply (in_del_iff keqb_spec kltb_irrefl kltb_trans kltb_total); assumption. Qed.

    Lemma ups_iff y :
      In y (d_ups d) <-> In y (filter live remote) /\ upd_needed last (filter live (view st)) y = true.
    Proof. apply (in_ups_iff keqb_spec kltb_irrefl kltb_trans kltb_total); assumption. Qed.

    Lemma nodup_issued_ups : NoDup (ids (issued (d_ups d))).
    Proof.
      unfold d. rewrite (walk_is_set_difference keqb_spec kltb_irrefl kltb_trans kltb_total
                           last (view st) remote Hview Hrem). cbn [d_ups].
      unfold Model.issued, spec_ups. apply NoDup_ids_filter, NoDup_ids_filter, nodup_live_isort. exact Hrem.
    Qed.

    Lemma in_result z :
      In z result <->
      (In z st /\ ~ In (it_id z) (ids (issued (d_del d))) /\ ~ In (it_id z) (ids (issued (d_ups d)))) \/
      (exists y, In y (issued (d_ups d)) /\ restamp stamp y = z).
    Proof.
      unfold result, Model.apply_round. rewrite (In_upsert_all stamp _ _ _ nodup_issued_ups), In_delete_all. tauto.
    Qed.

    (* A replicated object after the round is one the secondary had, neither deleted nor overwritten: then a
       live object of the primary has its id and needed no write, which means equal content; or it is an object
       of the primary that needed a write, as written.  Conversely every replicated object of the primary
       either needed a write, or left its equal counterpart in place. *)
    Theorem round_converges :
      consistent last (repl st) remote -> hash_sound (repl st) remote ->
      forall kb, In kb (content (repl result)) <-> In kb (content (repl remote)).
    Proof.
      intros Hcons Hsound [k b]. rewrite !in_content_repl. split.
      - intros (z & Hz & <- & <-). apply in_repl in Hz as (Hz & Hlz & Haz & Hgz).
        apply in_result in Hz as [(Hzst & Hnd & Hnu)|(y & Hy & <-)].
        + assert (Hzv : In z (filter live (view st))) by (apply in_live_view; auto).
          destruct (memk (it_id z) (ids (filter live remote))) eqn:Hi.
          2:{ exfalso. apply Hnd, in_map, in_issued. split; [|exact Haz]. apply del_iff.
              split; [exact Hzv|apply (memk_false keqb_spec); exact Hi]. }
          apply (memk_In keqb_spec), in_map_iff in Hi as (y & Hyid & Hy).
          destruct (upd_needed last (filter live (view st)) y) eqn:E.
          { exfalso. apply Hnu. rewrite <- Hyid. apply in_map, in_issued.
            split; [apply ups_iff; auto|rewrite Hyid; exact Haz]. }
          apply (upd_needed_false_iff keqb_spec last _ y Hview) in E as (x & Hx & Hxid & Hn).
          assert (x = z) by (eapply nodup_ids_inj; [exact Hview|exact Hx|exact Hzv|congruence]). subst x.
          apply filter_In in Hy as [Hyr Hly].
          exists y. split; [apply in_repl; rewrite Hyid; auto|]. split; [exact Hyid|].
          symmetry. eapply not_needed_same_body; try eassumption. apply in_repl; auto.
        + apply in_issued in Hy as [Hy Hay]. apply ups_iff in Hy as [Hy _]. apply filter_In in Hy as [Hyr Hly].
          exists y. split; [apply in_repl; auto|split; reflexivity].
      - intros (y & Hy & <- & <-). apply in_repl in Hy as (Hyr & Hly & Hay & Hgy).
        assert (Hyl : In y (filter live remote)) by (apply filter_In; auto).
        destruct (upd_needed last (filter live (view st)) y) eqn:Hupd.
        + exists (restamp stamp y). split; [|split; reflexivity]. apply in_repl. split; [|auto].
          apply in_result. right. exists y. split; [|reflexivity].
          apply in_issued. split; [apply ups_iff; auto|exact Hay].
        + pose proof (proj1 (upd_needed_false_iff keqb_spec last _ y Hview) Hupd) as (x & Hx & Hxid & Hn).
          assert (Hxr : In x (repl st)) by (apply in_repl_view; rewrite Hxid; auto).
          exists x. split; [|split; [exact Hxid|eapply not_needed_same_body; eassumption]].
          pose proof Hxr as Hxr'. apply in_repl in Hxr' as (Hxst & Hx'). apply in_repl. split; [|exact Hx'].
          apply in_result. left. split; [exact Hxst|split]; intros Hin;
            apply in_map_iff in Hin as (e & He & Hin); apply in_issued in Hin as [Hin _].
          * apply del_iff in Hin as [_ Hne]. apply Hne. rewrite He, Hxid. apply in_map; exact Hyl.
          * apply ups_iff in Hin as [Hel Hen].
            assert (e = y) by (eapply nodup_ids_inj; [exact Hrem|exact Hel|exact Hyl|congruence]).
            congruence.
    Qed.
  End Round.

  Lemma nodup_content (l : list item) : NoDup (ids (filter live l)) -> NoDup (content (repl l)).
  Proof.
    intros Hnd. apply (NoDup_map_inv fst). unfold content. rewrite map_map. cbn [fst].
    fold (ids (repl l)). unfold repl.
    replace (filter (fun x => live x && applies (it_id x) && negb (it_local x)) l)
      with (filter (fun x => applies (it_id x) && negb (it_local x)) (filter live l)).
    - apply NoDup_ids_filter; exact Hnd.
    - rewrite filter_filter. apply filter_ext. intros x. apply andb_assoc.
  Qed.

  Theorem round_permutation stamp last remote st :
    NoDup (ids (filter live st)) -> NoDup (ids (filter live remote)) -> all_global remote ->
    consistent last (repl st) remote -> hash_sound (repl st) remote ->
    Permutation (content (repl (apply_round stamp (diff last (view st) remote) st)))
                (content (repl remote)).
  Proof.
    intros Hst Hrem Hglob Hc Hs. apply NoDup_Permutation.
    - apply nodup_content. apply nodup_apply_round; exact Hst.
    - apply nodup_content; exact Hrem.
    - apply round_converges; assumption.
  Qed.

  (* a full sync needs no assumption on [last]: raft indexes are positive *)
  Lemma consistent_zero L R : (forall y, In y R -> (0 < it_mod y)%N) -> consistent 0 L R.
  Proof. intros Hpos x y _ Hy _ Hle. specialize (Hpos y Hy). lia. Qed.

  Lemma hash_complete_old last L R : (forall y, In y R -> (it_mod y <= last)%N) -> hash_complete last L R.
  Proof.
    intros Hm x y _ Hy _ _. unfold Model.need_update. rewrite (proj2 (N.ltb_ge _ _) (Hm y Hy)). reflexivity.
  Qed.

  Lemma effective_last_backwards ri last : (ri < last)%N -> effective_last ri last = 0%N.
  Proof. intros Hlt. unfold effective_last. apply N.ltb_lt in Hlt. rewrite Hlt. reflexivity. Qed.

  Lemma effective_last_forward ri last : (last <= ri)%N -> effective_last ri last = last.
  Proof. intros Hle. unfold effective_last. apply N.ltb_ge in Hle. rewrite Hle. reflexivity. Qed.

  (* the primary's index went backwards: the round is a full sync, whatever [last] was *)
  Theorem full_sync stamp ri last remote st :
    (ri < last)%N -> (forall y, In y remote -> (0 < it_mod y)%N) ->
    NoDup (ids (filter live st)) -> NoDup (ids (filter live remote)) -> all_global remote ->
    hash_sound (repl st) remote ->
    Permutation (content (repl (round stamp ri last remote st))) (content (repl remote)).
  Proof.
    intros Hlt Hpos Hst Hrem Hglob Hs. unfold Model.round. rewrite (effective_last_backwards _ _ Hlt).
    apply round_permutation; try assumption. apply consistent_zero; exact Hpos.
  Qed.

  (* FetchUpdated: fetching the upserts by id returns exactly the objects the walk chose *)
  Lemma fetch_updated_exact last local remote :
    NoDup (ids (filter live local)) -> NoDup (ids (filter live remote)) ->
    fetch_updated (ids (d_ups (diff last local remote))) (isort remote) = d_ups (diff last local remote).
  Proof.
    intros Hl Hr.
    rewrite (walk_is_set_difference keqb_spec kltb_irrefl kltb_trans kltb_total last local remote Hl Hr).
    cbn [d_ups]. unfold Model.fetch_updated, spec_ups. rewrite filter_filter.
    apply filter_ext_in. intros y Hy.
    destruct (live y && WalkProofs.upd_needed keqb same_hash last (filter live local) y) eqn:E.
    - apply (memk_In keqb_spec). apply in_map. apply filter_In. split; [exact Hy|exact E].
    - apply (memk_false keqb_spec). intros Hin. apply in_map_iff in Hin as [u [Hu Hin]].
      apply filter_In in Hin as [Hus Hun]. apply andb_true_iff in Hun as [Hlu Hpu].
      assert (Hly : live y = true) by (rewrite <- (live_id u y Hu); exact Hlu).
      assert (u = y).
      { eapply nodup_ids_inj; [exact (nodup_live_isort kltb is_empty remote Hr)| | |exact Hu];
          apply filter_In; split; assumption. }
      subst u. rewrite Hly, Hpu in E. discriminate.
  Qed.

  Theorem acl_round_is_round stamp ri last remote st :
    NoDup (ids (filter live st)) -> NoDup (ids (filter live remote)) ->
    acl_round stamp ri last remote st = round stamp ri last remote st.
  Proof.
    intros Hst Hrem. unfold Model.acl_round, Model.round, Model.apply_round.
    rewrite fetch_updated_exact; [reflexivity|apply nodup_live_view; exact Hst|exact Hrem].
  Qed.

  Section Kept.
    Variable p : item -> bool.

    Lemma filter_remove_id k st :
      (forall x, In x st -> p x = true -> it_id x <> k) ->
      filter p (remove_id k st) = filter p st.
    Proof.
      intros Hne. unfold Model.remove_id. apply filter_filter_in. intros x Hx Hp.
      apply negb_true_iff, (keqb_false keqb_spec), Hne; assumption.
    Qed.

    Lemma filter_delete_all ds st :
      (forall e x, In e ds -> In x st -> p x = true -> it_id x <> it_id e) ->
      filter p (delete_all ds st) = filter p st.
    Proof.
      intros Hne. rewrite delete_all_filter. apply filter_filter_in. intros x Hx Hp.
      apply negb_true_iff, (memk_false keqb_spec). intros Hin. apply in_map_iff in Hin as (e & He & Hin).
      exact (Hne e x Hin Hx Hp (eq_sym He)).
    Qed.

    Lemma filter_upsert_all stamp us : forall st,
      (forall u, In u us -> p (restamp stamp u) = false) ->
      (forall u x, In u us -> In x st -> p x = true -> it_id x <> it_id u) ->
      filter p (upsert_all stamp us st) = filter p st.
    Proof.
      induction us as [|u us IH]; intros st Hun Hne; cbn [Model.upsert_all fold_left]; [reflexivity|].
      fold (upsert_all stamp us (upsert stamp u st)).
      pose proof (Hun u (or_introl eq_refl)) as Hu.
      rewrite IH.
      - unfold Model.upsert. rewrite filter_app. cbn [filter].
        rewrite Hu, app_nil_r. apply filter_remove_id. intros x. apply Hne. left; reflexivity.
      - intros u' Hu'. apply Hun. right; exact Hu'.
      - intros u' x Hu' Hx Hpx. apply In_upsert in Hx as [[Hx _]|Hx]; [|congruence].
        apply Hne; [right; exact Hu'|exact Hx|exact Hpx].
    Qed.
  End Kept.

  Lemma untouchable_issued_id x w :
    untouchable x = true -> it_id x = it_id w -> live w = true -> applies (it_id w) = true ->
    it_local x = true /\ live x = true.
  Proof.
    unfold untouchable, Model.live. intros Hu Hid Hl Ha. apply negb_true_iff in Hl.
    rewrite Hid, Hl, Ha, !orb_false_r in Hu. rewrite Hid, Hl. auto.
  Qed.

  Theorem local_untouched stamp last remote st :
    NoDup (ids (filter live st)) -> all_global remote ->
    (forall x, In x st -> it_local x = true -> live x = true -> ~ In (it_id x) (ids (filter live remote))) ->
    filter untouchable (apply_round stamp (diff last (view st) remote) st) = filter untouchable st.
  Proof.
    intros Hst Hglob Hdisj. unfold Model.apply_round.
    destruct (diff_sub keqb kltb is_empty same_hash last (view st) remote) as [Hd Hu].
    rewrite filter_upsert_all.
    - apply filter_delete_all. intros e x He Hx Hux Heq.
      apply in_issued in He as [He Hae]. destruct (Hd e He) as [Hev Hle].
      destruct (untouchable_issued_id x e Hux Heq Hle Hae) as [Hlx Hvx].
      (* x would be the row e, which the view lists: not local-scoped *)
      apply filter_In in Hev as [Hest Hge]. apply negb_true_iff in Hge.
      assert (x = e) by (eapply nodup_ids_inj; [exact Hst| | |exact Heq]; apply filter_In; auto).
      congruence.
    - intros u Hin. apply in_issued in Hin as [Hin Hau]. destruct (Hu u Hin) as [Hur Hlu].
      unfold untouchable. cbn [restamp it_local it_id]. apply negb_true_iff in Hlu.
      rewrite (Hglob u Hur), Hau, Hlu. reflexivity.
    - intros u x Hin Hx Hux Heq. apply in_issued in Hin as [Hin Hau]. destruct (Hu u Hin) as [Hur Hlu].
      apply In_delete_all in Hx as [Hx _].
      destruct (untouchable_issued_id x u Hux Heq Hlu Hau) as [Hlx Hvx].
      apply (Hdisj x Hx Hlx Hvx). rewrite Heq. apply in_map, filter_In. auto.
  Qed.

  Theorem idempotent last remote st :
    NoDup (ids (filter live st)) -> NoDup (ids (filter live remote)) -> all_global remote ->
    (forall kb, In kb (content (repl st)) <-> In kb (content (repl remote))) ->
    hash_complete last (repl st) remote ->
    issued (d_del (diff last (view st) remote)) = [] /\ issued (d_ups (diff last (view st) remote)) = [].
  Proof.
    intros Hst Hrem Hglob Heq Hcomp.
    pose proof (nodup_live_view st Hst) as Hview.
    split; unfold Model.issued; apply filter_nil_iff.
    - (* a deleted object would be a replicated one whose id the primary lacks *)
      intros e He. destruct (applies (it_id e)) eqn:Ha; [|reflexivity]. exfalso.
      apply (del_iff last remote st Hst Hrem) in He as [Hev Hn].
      assert (Hin : In (it_id e, it_body e) (content (repl st))).
      { apply in_content_repl. exists e. split; [apply in_repl_view|]; auto. }
      apply Heq, in_content_repl in Hin as (y & Hy & Hid & _).
      apply in_repl in Hy as (Hyr & Hly & _). apply Hn. rewrite <- Hid. apply in_map, filter_In. auto.
    - (* a written object has an equal counterpart, which the hash test recognises *)
      intros y Hy. destruct (applies (it_id y)) eqn:Ha; [|reflexivity]. exfalso.
      apply (ups_iff last remote st Hst Hrem) in Hy as [Hyl Hupd].
      apply filter_In in Hyl as [Hyr Hly].
      assert (Hin : In (it_id y, it_body y) (content (repl remote))).
      { apply in_content_repl. exists y. split; [apply in_repl|]; auto. }
      apply Heq, in_content_repl in Hin as (x & Hx & Hid & Hb).
      enough (upd_needed last (filter live (view st)) y = false) by congruence.
      apply (upd_needed_false_iff keqb_spec last _ y Hview). exists x.
      split; [apply in_repl_view; exact Hx|split; [exact Hid|apply Hcomp; assumption]].
  Qed.

  (* Across rounds: what a round leaves is what the next round may assume. *)

  (* R' is a later snapshot of the primary than R, which was taken at index ri: whatever R' has not
     modified after ri is in R, unchanged *)
  Definition evolves_above (ri : N) (R R' : list item) : Prop :=
    forall y, In y R' -> (it_mod y <= ri)%N -> In y R.

  Theorem round_reestablishes_consistent stamp ri last remote st R' :
    NoDup (ids (filter live st)) -> NoDup (ids (filter live remote)) -> all_global remote ->
    consistent last (repl st) remote -> hash_sound (repl st) remote ->
    evolves_above ri remote R' ->
    consistent ri (repl (apply_round stamp (diff last (view st) remote) st)) R'.
  Proof.
    intros Hst Hrem Hglob Hc Hs Hev x y Hx Hy Hid Hm.
    pose proof (Hev y Hy Hm) as Hyr.
    pose proof Hx as Hx'. apply in_repl in Hx' as [Hxs [Hlx [Hax Hgx]]].
    (* y is a replicated object of the snapshot the round ran on: the result holds its content, under x's id *)
    assert (Hin : In (it_id y, it_body y) (content (repl remote))).
    { apply in_content_repl. exists y. split; [apply in_repl|auto].
      rewrite <- (live_id x y Hid), <- Hid. auto. }
    apply (round_converges stamp last remote st Hst Hrem Hglob Hc Hs), in_content_repl in Hin
      as (x2 & Hx2 & Hid2 & Hb2).
    apply in_repl in Hx2 as [Hx2s [Hlx2 _]].
    assert (x2 = x).
    { eapply nodup_ids_inj;
        [apply (nodup_apply_round stamp (diff last (view st) remote) st Hst)| | |congruence];
        apply filter_In; split; eassumption. }
    subst x2. exact Hb2.
  Qed.

  Theorem second_round_silent stamp ri last remote st :
    NoDup (ids (filter live st)) -> NoDup (ids (filter live remote)) -> all_global remote ->
    consistent last (repl st) remote -> hash_sound (repl st) remote ->
    (forall y, In y remote -> (it_mod y <= ri)%N) ->
    let st' := apply_round stamp (diff last (view st) remote) st in
    issued (d_del (diff ri (view st') remote)) = [] /\ issued (d_ups (diff ri (view st') remote)) = [].
  Proof.
    intros Hst Hrem Hglob Hc Hs Hm st'. apply idempotent; try assumption.
    - apply nodup_apply_round; exact Hst.
    - apply round_converges; assumption.
    - apply hash_complete_old; exact Hm.
  Qed.

  Theorem two_rounds stamp stamp' ri last remote st R' :
    NoDup (ids (filter live st)) -> NoDup (ids (filter live remote)) -> all_global remote ->
    consistent last (repl st) remote -> hash_sound (repl st) remote ->
    evolves_above ri remote R' -> NoDup (ids (filter live R')) -> all_global R' ->
    let st' := apply_round stamp (diff last (view st) remote) st in
    hash_sound (repl st') R' ->
    Permutation (content (repl (apply_round stamp' (diff ri (view st') R') st'))) (content (repl R')).
  Proof.
    intros Hst Hrem Hglob Hc Hs Hev Hr' Hg' st' Hs'. apply round_permutation; try assumption.
    - apply nodup_apply_round; exact Hst.
    - apply round_reestablishes_consistent; assumption.
  Qed.

  Theorem two_rounds_run stamp stamp' ri ri' last remote st R' :
    NoDup (ids (filter live st)) -> NoDup (ids (filter live remote)) -> all_global remote ->
    consistent (effective_last ri last) (repl st) remote -> hash_sound (repl st) remote ->
    (ri <= ri')%N -> evolves_above ri remote R' -> NoDup (ids (filter live R')) -> all_global R' ->
    hash_sound (repl (round stamp ri last remote st)) R' ->
    Permutation (content (repl (round stamp' ri' ri R' (round stamp ri last remote st)))) (content (repl R')).
  Proof.
    intros Hst Hrem Hglob Hc Hs Hle Hev Hr' Hg' Hs'. unfold Model.round at 1.
    rewrite (effective_last_forward ri' ri Hle). apply two_rounds; assumption.
  Qed.

  Lemma restamp_keeps stamp (y : item) :
    it_id (restamp stamp y) = it_id y /\ it_hash (restamp stamp y) = it_hash y /\
    it_body (restamp stamp y) = it_body y /\ it_local (restamp stamp y) = it_local y.
  Proof. repeat split. Qed.

  Notation acl_round_two := (@acl_round_two K H keqb kltb is_empty same_hash applies).

  Lemma acl_round_two_same stamp ri last remote st :
    acl_round_two stamp ri last remote remote st = acl_round stamp ri last remote st.
  Proof. reflexivity. Qed.

  Theorem two_snapshots_agree stamp ri last remote batch st :
    (let d := diff (effective_last ri last) (view st) remote in
     fetch_updated (ids (d_ups d)) (isort batch) = fetch_updated (ids (d_ups d)) (isort remote)) ->
    acl_round_two stamp ri last remote batch st = acl_round stamp ri last remote st.
  Proof. intros Heq. unfold Model.acl_round_two, Model.acl_round. cbn zeta in Heq. rewrite Heq. reflexivity. Qed.

  (* Writes the state store refuses (unique names). *)
  Variable name_of : N -> option N.
  Notation upsert_batch := (@upsert_batch K H keqb name_of).
  Notation name_conflict := (@name_conflict K H keqb name_of).
  Notation holds_name := (@holds_name K H name_of).

  Lemma upsert_batch_some stamp us : forall st st',
    upsert_batch stamp us st = Some st' -> st' = upsert_all stamp us st.
  Proof.
    induction us as [|y us IH]; intros st st'; cbn [Model.upsert_batch Model.upsert_all fold_left].
    - intros Heq. injection Heq as <-. reflexivity.
    - destruct (name_conflict y st); [discriminate|]. apply IH.
  Qed.

  (* A sufficient condition for acceptance that can be read off the two tables: no upserted object takes
     a name that another id of the table [st] holds, and the upserts' names are pairwise different. *)
  Definition name_free (us st : list item) : Prop :=
    forall u x n, In u us -> In x st -> name_of (it_body u) = Some n ->
      it_id x <> it_id u -> holds_name n x = false.

  Definition names_distinct (us : list item) : Prop :=
    forall u v n, In u us -> In v us -> name_of (it_body u) = Some n -> name_of (it_body v) = Some n ->
      it_id u = it_id v.

  Lemma name_conflict_false y st :
    (forall x n, In x st -> name_of (it_body y) = Some n -> it_id x <> it_id y -> holds_name n x = false) ->
    name_conflict y st = false.
  Proof.
    intros Hf. unfold Model.name_conflict. destruct (name_of (it_body y)) as [n|] eqn:E; [|reflexivity].
    destruct (existsb _ st) eqn:Ex; [|reflexivity].
    apply existsb_exists in Ex as [x [Hx Hc]]. apply andb_true_iff in Hc as [Hne Hh].
    apply negb_true_iff in Hne. apply (keqb_false keqb_spec) in Hne.
    rewrite (Hf x n Hx eq_refl Hne) in Hh. discriminate.
  Qed.

  Theorem accepted_when_names_free stamp us : forall st,
    name_free us st -> names_distinct us ->
    upsert_batch stamp us st = Some (upsert_all stamp us st).
  Proof.
    induction us as [|y us IH]; intros st Hfree Hdist; cbn [Model.upsert_batch Model.upsert_all fold_left]; [reflexivity|].
    rewrite name_conflict_false.
    - apply IH.
      + intros u x n Hu Hx Hn Hne. apply In_upsert in Hx as [[Hx _]|Hx].
        * apply (Hfree u x n); [right; exact Hu|exact Hx|exact Hn|exact Hne].
        * subst x. unfold Model.holds_name. cbn [restamp it_body it_id] in *.
          destruct (name_of (it_body y)) as [m|] eqn:Em; [|reflexivity].
          destruct (N.eqb m n) eqn:Emn; [|reflexivity]. apply N.eqb_eq in Emn. subst m.
          exfalso. apply Hne. apply (Hdist y u n); [left; reflexivity|right; exact Hu|exact Em|exact Hn].
      + intros u v n Hu Hv. apply Hdist; right; assumption.
    - intros x n Hx Hn Hne. apply (Hfree y x n); [left; reflexivity|exact Hx|exact Hn|exact Hne].
  Qed.
End RoundProofs.

(* the functions are determined by their laws and by the goal *)
Arguments nodup_apply_round {K H keqb is_empty applies}.
Arguments round_permutation {K H keqb kltb is_empty same_hash applies}.
Arguments full_sync {K H keqb kltb is_empty same_hash applies}.
Arguments acl_round_is_round {K H keqb kltb is_empty same_hash applies}.
Arguments local_untouched {K H keqb kltb is_empty same_hash applies}.
Arguments round_reestablishes_consistent {K H keqb kltb is_empty same_hash applies}.
Arguments second_round_silent {K H keqb kltb is_empty same_hash applies}.
Arguments two_rounds {K H keqb kltb is_empty same_hash applies}.
Arguments two_rounds_run {K H keqb kltb is_empty same_hash applies}.
Arguments accepted_when_names_free {K H keqb}.
