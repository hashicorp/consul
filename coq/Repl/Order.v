(* Keys, their order, and the sort used by the replication diff (property C19).
   Everything is proved for an arbitrary key type with a decidable equality and a
   strict total order; Instances.v discharges these laws for Go strings (byte lists)
   and for (kind, name) pairs. *)
From Verif Require Import Base.Prelude.
From Verif Require Import Base.Lists.
From Verif Require Import Base.Sorting.
From Verif Require Import Repl.Model.
From Coq Require Import Sorting.Sorted Sorting.Permutation.

Section Order.
  Context {K H : Type} {keqb kltb : K -> K -> bool}.
  Hypothesis keqb_spec : forall a b, keqb a b = true <-> a = b.
  Hypothesis kltb_irrefl : forall a, kltb a a = false.
  Hypothesis kltb_trans : forall a b c, kltb a b = true -> kltb b c = true -> kltb a c = true.
  Hypothesis kltb_total : forall a b, keqb a b = false -> kltb a b = false -> kltb b a = true.

  Notation item := (@item K H).
  Notation isort := (@isort K H kltb).
  Notation insert := (@insert K H kltb).
  Notation memk := (@memk K keqb).

  Lemma keqb_refl a : keqb a a = true.
  Proof. apply keqb_spec; reflexivity. Qed.

  Lemma keqb_false a b : keqb a b = false <-> a <> b.
  Proof. rewrite <- not_true_iff_false, keqb_spec. reflexivity. Qed.

  Lemma keqb_sym a b : keqb a b = keqb b a.
  Proof. apply (eqb_sym _ keqb_spec). Qed.

  Lemma kltb_asym a b : kltb a b = true -> kltb b a = false.
  Proof.
    intros Hab. destruct (kltb b a) eqn:E; [|reflexivity].
    pose proof (kltb_trans _ _ _ Hab E) as Haa. rewrite kltb_irrefl in Haa. discriminate.
  Qed.

  Lemma kltb_keqb a b : kltb a b = true -> keqb a b = false.
  Proof. intros Hlt. apply keqb_false. intros ->. rewrite kltb_irrefl in Hlt. discriminate. Qed.

  (* a <= b  as  not (b < a) *)
  Lemma kle_trans a b c : kltb b a = false -> kltb c b = false -> kltb c a = false.
  Proof.
    intros Hab Hbc. destruct (kltb c a) eqn:Hca; [|reflexivity].
    destruct (keqb a b) eqn:Eab.
    - apply keqb_spec in Eab. subst. congruence.
    - destruct (kltb a b) eqn:Lab.
      + pose proof (kltb_trans _ _ _ Hca Lab). congruence.
      + pose proof (kltb_total _ _ Eab Lab). congruence.
  Qed.

  Lemma memk_In k ks : memk k ks = true <-> In k ks.
  Proof.
    unfold Model.memk. rewrite existsb_exists. split.
    - intros [x [Hin Heq]]. apply keqb_spec in Heq. subst. assumption.
    - intros Hin. exists k. split; [assumption|apply keqb_refl].
  Qed.

  Lemma memk_false k ks : memk k ks = false <-> ~ In k ks.
  Proof. rewrite <- not_true_iff_false, memk_In. reflexivity. Qed.

  Definition ile (x y : item) : Prop := kltb (it_id y) (it_id x) = false.
  Definition ilt (x y : item) : Prop := kltb (it_id x) (it_id y) = true.

  Lemma isort_isort : insertion_sort (fun x y => negb (kltb (it_id y) (it_id x))) insert isort.
  Proof.
    split; try reflexivity. intros x y l. cbn [Model.insert].
    destruct (kltb (it_id y) (it_id x)); reflexivity.
  Qed.

  Lemma isort_perm l : Permutation (isort l) l.
  Proof. apply (Base.Sorting.isort_perm isort_isort). Qed.

  Lemma isort_sorted l : StronglySorted ile (isort l).
  Proof.
    apply (Base.Sorting.isort_sorted isort_isort).
    - intros x y z Hxy Hyz. exact (kle_trans _ _ _ Hxy Hyz).
    - intros x y. apply negb_true_iff.
    - intros x y E. apply kltb_asym, negb_false_iff, E.
  Qed.

  Lemma StronglySorted_filter {A} (R : A -> A -> Prop) (p : A -> bool) l :
    StronglySorted R l -> StronglySorted R (filter p l).
  Proof.
    induction l as [|x l IH]; intros Hs; cbn [filter]; [constructor|].
    apply StronglySorted_inv in Hs as [Hs Hall].
    destruct (p x); [|apply IH; exact Hs].
    constructor; [apply IH; exact Hs|].
    apply Forall_forall. intros z Hz. apply filter_In in Hz as [Hz _].
    rewrite Forall_forall in Hall. apply Hall; exact Hz.
  Qed.

  Lemma sorted_nodup_strict (l : list item) :
    StronglySorted ile l -> NoDup (ids l) -> StronglySorted ilt l.
  Proof.
    induction l as [|x l IH]; intros Hs Hnd; [constructor|].
    apply StronglySorted_inv in Hs as [Hs Hall]. cbn [ids map] in Hnd.
    apply NoDup_cons_iff in Hnd as [Hnin Hnd].
    constructor; [apply IH; assumption|].
    apply Forall_forall. intros z Hz. rewrite Forall_forall in Hall. specialize (Hall z Hz).
    unfold ile in Hall. unfold ilt.
    destruct (kltb (it_id x) (it_id z)) eqn:E; [reflexivity|].
    assert (Hne : keqb (it_id z) (it_id x) = false).
    { apply keqb_false. intros Heq. apply Hnin. rewrite <- Heq. apply in_map; exact Hz. }
    pose proof (kltb_total _ _ Hne Hall). congruence.
  Qed.

  Lemma ids_filter_incl (p : item -> bool) (l : list item) : incl (ids (filter p l)) (ids l).
  Proof.
    intros k Hk. apply in_map_iff in Hk as [z [Hz Hin]]. apply filter_In in Hin as [Hin _].
    apply in_map_iff. exists z. split; assumption.
  Qed.

  Lemma NoDup_ids_filter (p : item -> bool) (l : list item) :
    NoDup (ids l) -> NoDup (ids (filter p l)).
  Proof. apply NoDup_map_filter. Qed.

  Lemma nodup_ids_inj (l : list item) x y :
    NoDup (ids l) -> In x l -> In y l -> it_id x = it_id y -> x = y.
  Proof. apply NoDup_map_inj. Qed.

  Lemma filter_comm {A} (p q : A -> bool) l : filter p (filter q l) = filter q (filter p l).
  Proof. rewrite !filter_filter. apply filter_ext. intros x. apply andb_comm. Qed.

End Order.

Arguments ile {K H} kltb x y.
Arguments ilt {K H} kltb x y.
