(* The three instances of the replication diff (ACL objects, config entries, federation states):
   their key orders satisfy the laws the generic proofs need; the vocabulary of the property per instance;
   what each instance's hash test recognises (the condition under which an equal secondary is not written
   to); the tables of the examples and counterexamples of Properties/C19.v. *)
From Verif Require Import Base.Prelude.
From Verif Require Import Repl.Model.
From Verif Require Import Repl.Order.
From Verif Require Import Repl.WalkProofs.
From Verif Require Import Repl.RoundProofs.
From Verif Require Import Repl.Check.
From Coq Require Import Sorting.Permutation.

Lemma bytes_ltb_irrefl a : bytes_ltb a a = false.
Proof. induction a as [|x a IH]; cbn [bytes_ltb]; [reflexivity|]. rewrite N.ltb_irrefl. exact IH. Qed.

(* trichotomy of the byte-wise order, with the two comparisons it decides: all order laws of the
   instances come from it *)
Lemma bytes_cmp_cases a : forall b,
  (bytes_ltb a b = true /\ bytes_ltb b a = false /\ a <> b) \/ a = b \/
  (bytes_ltb b a = true /\ bytes_ltb a b = false /\ a <> b).
Proof.
  induction a as [|x a IH]; intros [|y b]; cbn [bytes_ltb].
  - right; left; reflexivity.
  - left. repeat split; congruence.
  - right; right. repeat split; congruence.
  - destruct (N.ltb x y) eqn:Exy.
    + left. assert (Eyx : N.ltb y x = false) by (apply N.ltb_ge; apply N.ltb_lt in Exy; lia).
      rewrite Eyx. repeat split. intros Heq. injection Heq as -> _. rewrite N.ltb_irrefl in Exy. discriminate.
    + destruct (N.ltb y x) eqn:Eyx.
      * right; right. repeat split. intros Heq. injection Heq as -> _. rewrite N.ltb_irrefl in Eyx. discriminate.
      * assert (x = y) by (apply N.ltb_ge in Exy, Eyx; lia). subst y.
        destruct (IH b) as [[H1 [H2 H3]]|[H1|[H1 [H2 H3]]]].
        -- left. repeat split; try assumption. congruence.
        -- right; left. congruence.
        -- right; right. repeat split; try assumption. congruence.
Qed.

Lemma bytes_ltb_cons x a y b :
  bytes_ltb (x :: a) (y :: b) = ((x <? y) || (x =? y) && bytes_ltb a b)%N.
Proof.
  cbn [bytes_ltb]. destruct (N.ltb_spec x y) as [L|L]; [reflexivity|]. destruct (N.ltb_spec y x) as [G|G].
  - rewrite (proj2 (N.eqb_neq x y)); [reflexivity|lia].
  - rewrite (proj2 (N.eqb_eq x y)); [reflexivity|lia].
Qed.

Lemma bytes_ltb_trans a : forall b c, bytes_ltb a b = true -> bytes_ltb b c = true -> bytes_ltb a c = true.
Proof.
  induction a as [|x a IH]; intros [|y b] [|z c]; try (cbn [bytes_ltb]; congruence).
  rewrite !bytes_ltb_cons, !orb_true_iff, !andb_true_iff, !N.ltb_lt, !N.eqb_eq.
  intros [Hxy|[-> Hab]] [Hyz|[-> Hbc]]; [left; lia|left; assumption|left; assumption|right].
  split; [reflexivity|exact (IH _ _ Hab Hbc)].
Qed.

Lemma bytes_ltb_total a b : bytes_eqb a b = false -> bytes_ltb a b = false -> bytes_ltb b a = true.
Proof.
  intros Hne Hlt. apply bytes_eqb_neq in Hne.
  destruct (bytes_cmp_cases a b) as [[H1 _]|[H1|[H1 _]]]; [congruence|contradiction|exact H1].
Qed.

Lemma cfg_eqb_spec (a b : ckey) : cfg_eqb a b = true <-> a = b.
Proof.
  destruct a as [a1 a2], b as [b1 b2]. unfold cfg_eqb. cbn [fst snd].
  rewrite andb_true_iff, !bytes_eqb_eq. split; [intros [-> ->]; reflexivity|intros Heq; injection Heq; auto].
Qed.

Lemma cfg_ltb_irrefl a : cfg_ltb a a = false.
Proof. destruct a as [a1 a2]. unfold cfg_ltb. cbn [fst snd]. rewrite !bytes_ltb_irrefl. reflexivity. Qed.

Lemma cfg_ltb_trans a b c : cfg_ltb a b = true -> cfg_ltb b c = true -> cfg_ltb a c = true.
Proof.
  destruct a as [a1 a2], b as [b1 b2], c as [c1 c2]. unfold cfg_ltb. cbn [fst snd].
  destruct (bytes_cmp_cases a1 b1) as [[H1 [H2 _]]|[->|[H1 [H2 _]]]];
  destruct (bytes_cmp_cases b1 c1) as [[H3 [H4 _]]|[->|[H3 [H4 _]]]];
    rewrite ?H1, ?H2, ?H3, ?H4, ?bytes_ltb_irrefl; try congruence.
  - rewrite (bytes_ltb_trans _ _ _ H1 H3). reflexivity.
  - apply bytes_ltb_trans.
Qed.

Lemma cfg_ltb_total a b : cfg_eqb a b = false -> cfg_ltb a b = false -> cfg_ltb b a = true.
Proof.
  destruct a as [a1 a2], b as [b1 b2]. unfold cfg_ltb, cfg_eqb. cbn [fst snd].
  destruct (bytes_cmp_cases a1 b1) as [[H1 [H2 _]]|[->|[H1 [H2 _]]]];
    rewrite ?H1, ?H2, ?bytes_ltb_irrefl, ?bytes_eqb_refl; try congruence.
  cbn [andb]. apply bytes_ltb_total.
Qed.

Definition acl_live := @live bytes bytes bytes_is_empty.
Definition acl_repl := @repl bytes bytes bytes_is_empty acl_applies.
Definition acl_untouchable := @untouchable bytes bytes bytes_is_empty acl_applies.
Definition acl_hash_sound := @hash_sound bytes bytes bytes_eqb.
Definition acl_issued := @issued bytes bytes acl_applies.

Definition cfg_repl := @repl ckey N cfg_is_empty cfg_applies.
Definition cfg_untouchable := @untouchable ckey N cfg_is_empty cfg_applies.
Definition cfg_hash_sound := @hash_sound ckey N cfg_same_hash.
Definition cfg_issued := @issued ckey N cfg_applies.

Definition fed_repl := @repl bytes unit fed_is_empty fed_applies.
Definition fed_issued := @issued bytes unit fed_applies.

(* the hash is a function of the content (what SetHash computes) *)
Definition hash_functional {K H} (L R : list (@item K H)) : Prop :=
  forall x y, In x L -> In y R -> it_id x = it_id y -> it_body x = it_body y -> it_hash x = it_hash y.

Lemma acl_walk_is_set_difference last (local remote : list acl_item) :
  NoDup (ids (filter acl_live local)) -> NoDup (ids (filter acl_live remote)) ->
  acl_diff last local remote =
    DiffRes (spec_del bytes_eqb (filter acl_live (isort bytes_ltb local)) (filter acl_live remote))
            (spec_ups bytes_eqb bytes_eqb last (filter acl_live local) (filter acl_live (isort bytes_ltb remote)))
            (nempty bytes_is_empty local) (nempty bytes_is_empty remote).
Proof. exact (walk_is_set_difference bytes_eqb_eq bytes_ltb_irrefl bytes_ltb_trans bytes_ltb_total last local remote). Qed.

(* fetching the upserts by id: with unique ids, replicateACLType runs the generic round *)
Lemma acl_round_m_eq stamp ri last (remote st : list acl_item) :
  NoDup (ids (filter acl_live st)) -> NoDup (ids (filter acl_live remote)) ->
  acl_round_m stamp ri last remote st =
  round bytes_eqb bytes_ltb bytes_is_empty bytes_eqb acl_applies stamp ri last remote st.
Proof.
  exact (acl_round_is_round bytes_eqb_eq bytes_ltb_irrefl bytes_ltb_trans bytes_ltb_total stamp ri last remote st).
Qed.

(* bytes.Equal on hashes that are a function of the content recognises equal content *)
Lemma acl_hash_complete last (L R : list acl_item) :
  hash_functional L R -> hash_complete bytes_eqb last L R.
Proof.
  intros Hf x y Hx Hy Hid Hb. unfold need_update. rewrite (Hf x y Hx Hy Hid Hb), bytes_eqb_refl.
  apply andb_false_r.
Qed.

Theorem acl_two_snapshots_agree stamp ri last (remote batch st : list acl_item) :
  fetch_updated bytes_eqb (ids (d_ups (acl_diff (effective_last ri last) (view st) remote))) (isort bytes_ltb batch) =
  fetch_updated bytes_eqb (ids (d_ups (acl_diff (effective_last ri last) (view st) remote))) (isort bytes_ltb remote) ->
  acl_round_two_m stamp ri last remote batch st = acl_round_m stamp ri last remote st.
Proof. apply (two_snapshots_agree bytes_eqb bytes_ltb bytes_is_empty bytes_eqb acl_applies). Qed.

Lemma cfg_walk_is_set_difference last (local remote : list cfg_item) :
  NoDup (ids local) -> NoDup (ids remote) ->
  cfg_diff last local remote =
    DiffRes (spec_del cfg_eqb (isort cfg_ltb local) remote)
            (spec_ups cfg_eqb cfg_same_hash last local (isort cfg_ltb remote)) 0 0.
Proof.
  exact (diff_no_empty_ids cfg_eqb_spec cfg_ltb_irrefl cfg_ltb_trans cfg_ltb_total last local remote
           (fun _ => eq_refl)).
Qed.

(* configentry.SameHash recognises equal content only between two non-zero hashes: a zero hash (an entry
   stored before hashes existed) never passes, so such a pair must not be newer than [last] *)
Lemma cfg_hash_complete last (L R : list cfg_item) :
  hash_functional L R ->
  (forall x y, In x L -> In y R -> it_id x = it_id y ->
     (it_hash x <> 0%N /\ it_hash y <> 0%N) \/ (it_mod y <= last)%N) ->
  hash_complete cfg_same_hash last L R.
Proof.
  intros Hf Hz x y Hx Hy Hid Hb. unfold need_update.
  destruct (Hz x y Hx Hy Hid) as [[Hx0 Hy0]|Hm].
  - unfold cfg_same_hash. apply N.eqb_neq in Hx0, Hy0. rewrite Hx0, Hy0. cbn [orb].
    rewrite (Hf x y Hx Hy Hid Hb), N.eqb_refl. apply andb_false_r.
  - apply N.ltb_ge in Hm. rewrite Hm. reflexivity.
Qed.

(* there is no hash test: [hash_sound] holds of any two tables (and equal content is recognised only
   when nothing is newer than [last]: hash_complete_old) *)
Lemma fed_hash_sound (L R : list fed_item) : hash_sound fed_same_hash L R.
Proof. intros x y _ _ _ Hs. discriminate. Qed.

(* Unique ids are needed: with the same id twice in the secondary's list the walk deletes an
   object the primary still has, and the round does not converge. *)
Definition dup_st : list acl_item := [Item [97]%N 2 [1]%N 1 false; Item [97]%N 3 [1]%N 1 false].
Definition dup_remote : list acl_item := [Item [97]%N 2 [1]%N 1 false].

(* A non-trivial state meeting every hypothesis of the round theorem: the secondary holds an
   up-to-date policy, an outdated one, one the primary deleted, a local token and an unmigrated
   object; the primary also has a new object. *)
Definition ex_st : list acl_item :=
  [ Item [98]%N 4 [2]%N 20 false;       (* b : changed at the primary after last *)
    Item [97]%N 3 [1]%N 10 false;       (* a : up to date *)
    Item [100]%N 2 [4]%N 40 false;      (* d : deleted at the primary *)
    Item [108]%N 6 [7]%N 70 true;       (* l : local scope *)
    Item []%N 1 [9]%N 90 false ].       (* unmigrated, empty id *)
Definition ex_remote : list acl_item :=
  [ Item [99]%N 8 [3]%N 30 false; Item [97]%N 3 [1]%N 10 false; Item [98]%N 7 [5]%N 21 false ].

Lemma ex_hash_sound : acl_hash_sound (acl_repl ex_st) ex_remote.
Proof. apply (hash_sound_b_sound bytes_eqb_eq); reflexivity. Qed.

(* Where the code departs from the idealised round:
   (a) a write the state store refuses: two policies (or roles) whose names were swapped at the primary *)
Definition swap_st : list acl_item :=
  [Item [1]%N 3 [11]%N 1048577 false; Item [2]%N 3 [12]%N 2097154 false].     (* id1: name 1, id2: name 2 *)
Definition swap_remote : list acl_item :=
  [Item [1]%N 8 [13]%N 2097155 false; Item [2]%N 9 [14]%N 1048580 false].     (* id1: name 2, id2: name 1 *)

(* (b) two snapshots: the token batch read is answered from an older snapshot than the list *)
Definition stale_st : list acl_item := [Item [1]%N 5 [1]%N 1 false].
Definition stale_list : list acl_item := [Item [1]%N 10 [2]%N 2 false].    (* what ACL.TokenList shows *)
Definition stale_batch : list acl_item := [Item [1]%N 5 [1]%N 1 false].    (* what ACL.TokenBatchRead returns *)

Definition eq_st : list acl_item := [Item [98]%N 4 [2]%N 20 false; Item [97]%N 9 [1]%N 10 false; Item [108]%N 6 [7]%N 70 true].
Definition eq_remote : list acl_item := [Item [97]%N 7 [1]%N 10 false; Item [98]%N 8 [2]%N 20 false].

(* config entries: an outdated entry, an unhashed equal one not newer than last, exported-services entries on
   both sides with different content *)
Definition k_svc_a : ckey := ([115;118;99]%N, [97]%N).
Definition k_exp_z : ckey := (exported_services, [122]%N).
Definition cex_st : list cfg_item :=
  [Item k_svc_a 3 5%N 1 false; Item k_exp_z 2 6%N 9 false; Item ([115;118;99]%N, [98]%N) 4 0%N 2 false].
Definition cex_remote : list cfg_item :=
  [Item ([115;118;99]%N, [98]%N) 2 0%N 2 false; Item k_svc_a 7 8%N 3 false; Item k_exp_z 9 7%N 4 false].

Definition fex_st : list fed_item := [Item [100;99;50]%N 3 tt 1 false; Item [100;99;51]%N 3 tt 5 false].
Definition fex_remote : list fed_item := [Item [100;99;50]%N 7 tt 2 false; Item [100;99;49]%N 2 tt 3 false].
