(* C03 — the KV store behaves as a sequential versioned map.
   [SpecKV] is the abstract map (key -> value, flags, holder, lock counter, create, modify);
   spec_* are its one-line verb semantics (Store/Theorems.v). *)
From stdpp Require Import gmap strings.
From Coq Require Import NArith.
From Verif Require Import Store.Model Store.Inv Store.Theorems Store.EndInv.
Local Open Scope N_scope.

(* Refinement: each store verb (with its graveyard, index-table and session bookkeeping) has
   exactly the effect and the reported outcome of the abstract verb. *)
Theorem C03_refines_set : forall idx k e s, kvs (kvs_set idx k e false s).1 = spec_set idx k e (kvs s).
Proof. intros idx k e s. apply kvs_set_write. Qed.
Theorem C03_refines_cas : forall idx k e s,
  ((kvs_set_cas idx k e s).1, kvs (kvs_set_cas idx k e s).2.1) = spec_cas idx k e (kvs s).
Proof.
  intros idx k e s. unfold kvs_set_cas, spec_cas. destruct (kvs s !! k) as [x|] eqn:Ek.
  - destruct (bool_decide (kv_modify e = 0)); cbn; [reflexivity|].
    destruct (bool_decide _); cbn; [rewrite C03_refines_set|]; reflexivity.
  - destruct (bool_decide (kv_modify e = 0)); cbn; [rewrite C03_refines_set|]; reflexivity.
Qed.
Theorem C03_refines_delete : forall idx k s, kvs (kvs_delete idx k s) = spec_delete k (kvs s).
Proof.
  intros idx k s. unfold kvs_delete, spec_delete. destruct (kvs s !! k) eqn:Ek; [reflexivity|].
  symmetry. apply delete_notin. exact Ek.
Qed.
Theorem C03_refines_delete_cas : forall idx cidx k s,
  ((kvs_delete_cas idx cidx k s).1, kvs (kvs_delete_cas idx cidx k s).2) = spec_delete_cas cidx k (kvs s).
Proof.
  intros idx cidx k s. unfold kvs_delete_cas, spec_delete_cas. destruct (kvs s !! k) as [x|] eqn:Ek; [|reflexivity].
  destruct (bool_decide _); cbn; [|reflexivity]. rewrite C03_refines_delete. reflexivity.
Qed.
Theorem C03_refines_delete_tree : forall idx p s,
  kvs (kvs_delete_tree idx p s) = spec_delete_tree p (kvs s).
Proof.
  intros idx p s. unfold kvs_delete_tree, spec_delete_tree.
  destruct (bool_decide (filter (fun kv : string * kvent => has_prefix p kv.1 = true) (kvs s) = ∅)) eqn:Ev;
    [|destruct (bool_decide (p = "")); reflexivity].
  apply bool_decide_eq_true in Ev. symmetry. apply map_filter_id.
  intros k x Hk. change (has_prefix p k = false). destruct (has_prefix p k) eqn:Ep; [|reflexivity].
  destruct (map_filter_empty_not_lookup _ _ k x Ev Ep Hk).
Qed.
Theorem C03_refines_lock : forall idx k e s r,
  kvs_lock idx k e s = Ok r -> (r.1, kvs r.2.1) = spec_lock idx k e (kvs s).
Proof.
  intros idx k e s r. unfold kvs_lock, spec_lock. destruct (bool_decide (kv_session e = "")); [discriminate|].
  destruct (sessions s !! kv_session e); [|discriminate].
  destruct (kvs s !! k) as [x|] eqn:Ek.
  - destruct (bool_decide (kv_session x = kv_session e)).
    + intros Heq; injection Heq as <-. cbn. rewrite kvs_set_write. reflexivity.
    + destruct (bool_decide (kv_session x = "")); intros Heq; injection Heq as <-; cbn;
        [rewrite kvs_set_write|]; reflexivity.
  - intros Heq; injection Heq as <-. cbn. rewrite kvs_set_write. reflexivity.
Qed.
Theorem C03_refines_unlock : forall idx k e s r,
  kvs_unlock idx k e s = Ok r -> (r.1, kvs r.2.1) = spec_unlock idx k e (kvs s).
Proof.
  intros idx k e s r. unfold kvs_unlock, spec_unlock. destruct (bool_decide (kv_session e = "")); [discriminate|].
  destruct (kvs s !! k) as [x|] eqn:Ek; [|intros Heq; injection Heq as <-; reflexivity].
  destruct (bool_decide (kv_session x = kv_session e)); intros Heq; injection Heq as <-; cbn;
    [rewrite kvs_set_write|]; reflexivity.
Qed.
(* the same verbs inside transactions are these functions (C05_txn_kv_is_command); get returns the map *)
Theorem C03_get_returns_map : forall idx k q s,
  q_key q = k ->
  txn_kv idx VGet q s = match kvs s !! k with Some x => Ok (s, [RKV k x true]) | None => Err ENotFound s end.
Proof. intros idx k q s <-. reflexivity. Qed.

(* the list verb returns exactly the map's entries under the prefix, each key once *)
Theorem C03_list_returns_map : forall idx q s,
  exists l, txn_kv idx VGetTree q s = Ok (s, (fun kv : string * kvent => RKV kv.1 kv.2 true) <$> l) /\
            NoDup l.*1 /\
            forall k e, (k, e) ∈ l <-> kvs s !! k = Some e /\ has_prefix (q_key q) k = true.
Proof. exact read_tree. Qed.

(* The laws of one write of the abstract map ([spec_write], which every store write refines by
   C03_refines_set/_lock/_unlock).
   A write that changes nothing does not advance the modify index (the entry is untouched). *)
Theorem C03_noop_keeps_modify : forall idx k v f l m x,
  m !! k = Some x -> kv_value x = v -> kv_flags x = f -> kv_lock x = l ->
  spec_write idx k v f (kv_session x) l m = m.
Proof.
  intros idx k v f l m x Hx <- <- <-. unfold spec_write. rewrite Hx. unfold kv_same; cbn.
  rewrite !bool_decide_eq_true_2 by reflexivity. reflexivity.
Qed.
(* ... and one that changes something stamps exactly the command's index. *)
Theorem C03_change_advances_modify : forall idx k v f sess l m x,
  m !! k = Some x -> spec_write idx k v f sess l m ≠ m ->
  spec_write idx k v f sess l m !! k = Some (KV v f sess l (kv_create x) idx).
Proof.
  intros idx k v f sess l m x Hx Hne. rewrite spec_write_lookup, decide_True, Hx by reflexivity.
  destruct (kv_same x _) eqn:Es; [|reflexivity]. destruct Hne. unfold spec_write. rewrite Hx, Es. reflexivity.
Qed.
(* A write to an existing key keeps its create index. *)
Theorem C03_create_stable : forall idx k v f sess l m x x',
  m !! k = Some x -> spec_write idx k v f sess l m !! k = Some x' -> kv_create x' = kv_create x.
Proof.
  intros idx k v f sess l m x x' Hx. rewrite spec_write_lookup, decide_True, Hx by reflexivity.
  destruct (kv_same x _); intros Heq; injection Heq as <-; reflexivity.
Qed.
Theorem C03_other_keys_untouched : forall idx k v f sess l m k',
  k' ≠ k -> spec_write idx k v f sess l m !! k' = m !! k'.
Proof. intros idx k v f sess l m k' Hne. rewrite spec_write_lookup, decide_False by exact Hne. reflexivity. Qed.
(* Lock counter: +1 on a fresh acquisition, unchanged on re-acquisition and on release. *)
Theorem C03_lock_counter : forall idx k e m,
  match m !! k with
  | None => forall x', (spec_lock idx k e m).2 !! k = Some x' -> kv_lock x' = 1
  | Some x =>
    (forall x', (spec_lock idx k e m).1 = true -> (spec_lock idx k e m).2 !! k = Some x' ->
       kv_lock x' = if bool_decide (kv_session x = kv_session e) then kv_lock x else kv_lock x + 1) /\
    (forall x', (spec_unlock idx k e m).2 !! k = Some x' -> kv_lock x' = kv_lock x)
  end.
Proof.
  intros idx k e m. unfold spec_lock, spec_unlock. destruct (m !! k) as [x|] eqn:Ex.
  - split; intros x'.
    + destruct (bool_decide (kv_session x = kv_session e)); [|destruct (bool_decide (kv_session x = ""))];
        cbn; [| |discriminate]; intros _; rewrite spec_write_lookup, decide_True, Ex by reflexivity;
        destruct (kv_same x _) eqn:Es; intros Heq; injection Heq as <-; try reflexivity.
      unfold kv_same in Es; cbn in Es. repeat (apply andb_true_iff in Es as [Es ?]).
      apply bool_decide_eq_true in Es. lia.
    + destruct (bool_decide (kv_session x = kv_session e)); cbn;
        [rewrite spec_write_lookup, decide_True, Ex by reflexivity; destruct (kv_same x _)|rewrite Ex];
        intros Heq; injection Heq as <-; reflexivity.
  - intros x'. cbn. rewrite spec_write_lookup, decide_True, Ex by reflexivity.
    intros Heq; injection Heq as <-. reflexivity.
Qed.

(* Interleaved session destruction / deregistration (with all their cascades) alter the map only by
   ending sessions: every key is untouched, or its holder's session is gone and the key is
   deleted or released with value, flags, lock counter and create index kept. *)
Theorem C03_session_destroy_frame : forall idx sid s,
  LockInv s -> post (KVFrame s) id (delete_session_top idx sid s).
Proof. intros idx sid s Hs. apply (cat_step_KVFrame idx s); [exact Hs|constructor]. Qed.
Theorem C03_deregister_frame : forall idx nd svc cid s,
  LockInv s ->
  post (KVFrame s) id (if negb (bool_decide (svc = "")) then delete_service idx nd svc s
                       else if negb (bool_decide (cid = "")) then delete_check idx nd cid s
                            else delete_node idx nd s).
Proof.
  intros idx nd svc cid s Hs. destruct (negb _); [|destruct (negb _)];
    (apply (cat_step_KVFrame idx s); [exact Hs|constructor]).
Qed.
(* Every command that is not a KV write, a transaction or a reap -- session create and destroy,
   registration, deregistration, prepared-query writes -- leaves every key either untouched (row and
   tombstone) or, when its holder's session ended in this command, deleted with a tombstone at the
   command's index or released with value, flags, lock counter and create index kept, according to
   the session's behaviour.  Nothing else can happen to the map. *)
Theorem C03_other_commands_frame : forall idx c s,
  LockInv s ->
  match c with KVS _ _ | Txn _ | Reap _ => True | _ => KVEnd s idx (apply idx c s).1 end.
Proof. exact kv_frame_command. Qed.

(* The same for the node, service, check and session operations of a transaction, each on the state
   it ran on; the KV operations of a transaction are the standalone verbs (C05_txn_kv_is_command),
   so a committed transaction's effect on the map is the composition of verb steps and frame steps. *)
Theorem C03_txn_frame : forall idx ops s, LockInv s -> TxnKVSteps idx ops s.
Proof.
  intros idx ops. induction ops as [|op ops IH]; intros s Hs; cbn; [exact I|].
  pose proof (txn_op_LockInv idx op s Hs) as Hinv.
  destruct (txn_op idx op s) as [[s1 r]|e p] eqn:Hop; [|exact I].
  split; [|apply IH; exact Hinv].
  destruct (is_kv_op op) eqn:Ek; [exact I|]. eapply kv_frame_txn_op; eassumption.
Qed.

(* tombstone reaping never touches the map *)
Theorem C03_reap_keeps_map : forall upto s, kvs (reap_tombstones upto s) = kvs s.
Proof. reflexivity. Qed.

(* Non-vacuity: a map with a locked key and prefix-related siblings. *)
Example C03_example :
  let m : SpecKV := <["a" := KV [1] 0 "s1" 1 5 7]> (<["a/b" := KV [] 0 "" 0 6 6]> ∅) in
  (spec_lock 9 "a" (KV [2] 0 "s1" 0 0 0) m).2 !! "a" = Some (KV [2] 0 "s1" 1 5 9) /\
  (spec_lock 9 "a" (KV [2] 0 "s2" 0 0 0) m).1 = false /\
  spec_delete_tree "a/" m !! "a/b" = None /\ spec_delete_tree "a/" m !! "a" = m !! "a".
Proof. vm_compute. repeat split; reflexivity. Qed.

Print Assumptions C03_refines_set.
Print Assumptions C03_refines_cas.
Print Assumptions C03_refines_delete.
Print Assumptions C03_refines_delete_cas.
Print Assumptions C03_refines_delete_tree.
Print Assumptions C03_refines_lock.
Print Assumptions C03_refines_unlock.
Print Assumptions C03_get_returns_map.
Print Assumptions C03_list_returns_map.
Print Assumptions C03_noop_keeps_modify.
Print Assumptions C03_change_advances_modify.
Print Assumptions C03_create_stable.
Print Assumptions C03_other_keys_untouched.
Print Assumptions C03_lock_counter.
Print Assumptions C03_session_destroy_frame.
Print Assumptions C03_deregister_frame.
Print Assumptions C03_other_commands_frame.
Print Assumptions C03_txn_frame.
Print Assumptions C03_reap_keeps_map.
Print Assumptions C03_example.
