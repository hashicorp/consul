(* C13 — intention decisions follow precedence, independent of write order.
   Each theorem is derived here from the general lemmas of coq/Intention (Proofs.v, Legacy.v, Config.v, Writes.v, Mixed.v);
   the claims about the concrete witnesses of Theorems.v and Mixed.v are evaluated here.

   Vocabulary (Intention/Spec.v, definitions only):
     covers peer sns s dns d i      authz.go's IntentionMatch holds of i on the source side (peer, sns/s)
                                    and on the destination side (dns/d)
     more_specific i j              (destination specificity, source specificity) of i is lexicographically
                                    above that of j; specificity = number of exact (non-"*") parts
     best all q i                   i is stored, covers q, and every other stored covering intention is
                                    strictly less specific
     decided all q o                o = Some (the best intention) or None when nothing stored covers q
     summary_of o default aperms    the IntentionDecisionSummary that o must produce
     route1 / route2 (Model.v)      Store.IntentionMatch by source + IntentionDecision on the destination
                                    (Intention.Check), resp. by destination + decision on the source
                                    (agent authorize, xDS, topology)
     legacy_ok / store_ok           the invariants the legacy table / the config-entry table maintain
     coherent names                 no two of the names differ only in letter case
     shadow_free st                 no entry has two sources with the same service name (local + peered) *)
From Coq Require Import Sorting.Permutation.
From Verif Require Import Base.Prelude.
From Verif Require Import Intention.Model.
From Verif Require Import Intention.Spec.
From Verif Require Import Base.Lists.
From Verif Require Import Intention.Lists.
From Verif Require Import Intention.OrderProofs.
From Verif Require Import Intention.Proofs.
From Verif Require Import Intention.Legacy.
From Verif Require Import Intention.Config.
From Verif Require Import Intention.Writes.
From Verif Require Import Intention.Check.
From Verif Require Import Intention.Theorems.
From Verif Require Import Intention.Mixed.
Local Open Scope string_scope.
Local Open Scope list_scope.

(* Precedence numbers order intentions exactly by (destination specificity, source specificity). *)
Theorem C13_precedence_is_specificity : forall i j,
  wf i -> wf j -> ((i_prec j < i_prec i)%N <-> more_specific i j).
Proof. exact prec_lt_specific. Qed.

(* At most one intention can be "the most specific one covering the pair". *)
Theorem C13_decision_unique : forall all peer sns s dns d o o',
  (forall i j, In i all -> In j all -> key5 i = key5 j -> i = j) ->
  decided all peer sns s dns d o -> decided all peer sns s dns d o' -> o = o'.
Proof. exact decision_unique. Qed.

(* The decision is the action of the unique most specific covering intention, the default policy when
   none covers the pair — along both routes — for config entries (sources of any peer) ... *)
Theorem C13_most_specific : forall st peer s d default_allow allow_perms,
  store_ok st -> coherent (enames st ++ [d]) ->
  exists o, decided (call st) peer dflt s dflt d o /\
    route2 (fun _ n => cmatch_dst st n) peer dflt s dflt d default_allow allow_perms
      = summary_of o default_allow allow_perms /\
    (peer = "" ->
     route1 (fun _ n => cmatch_src st n) dflt s dflt d default_allow allow_perms
      = summary_of o default_allow allow_perms).
Proof.
  intros st peer s d da ap Hst C. apply (routes_agree (call st) (config_all_key st Hst)).
  - apply config_route2; assumption.
  - intros ->. apply config_route1. exact Hst.
Qed.

(* ... and for the legacy table (any namespaces). *)
Theorem C13_most_specific_legacy : forall t peer sns s dns d default_allow allow_perms,
  legacy_ok t -> coherent (tnames t ++ [sns; s; dns; d]) ->
  exists o, decided t peer sns s dns d o /\
    route2 (legacy_match t MDst) peer sns s dns d default_allow allow_perms
      = summary_of o default_allow allow_perms /\
    (peer = "" ->
     route1 (legacy_match t MSrc) sns s dns d default_allow allow_perms
      = summary_of o default_allow allow_perms).
Proof.
  intros t peer sns s dns d da ap Ht C.
  assert (forall a b, incl [a; b] [sns; s; dns; d] -> coherent (tnames t ++ [a; b])) as Cab.
  { intros a b I. apply (coherent_incl _ _ (incl_app_app (incl_refl _) I) C). }
  apply (routes_agree t (legacy_all_key t (proj2 Ht))).
  - apply legacy_route2; [exact Ht|]. apply Cab. intros x Hx. cbn in *. tauto.
  - intros ->. apply legacy_route1; [exact Ht|]. apply Cab. intros x Hx. cbn in *. tauto.
Qed.

(* The check path (match by source, decide on destination) and the authorize path (match by destination,
   decide on source) give the same answer. *)
Theorem C13_paths_agree : forall st s d default_allow allow_perms,
  store_ok st -> coherent (enames st ++ [d]) ->
  route1 (fun _ n => cmatch_src st n) dflt s dflt d default_allow allow_perms
  = route2 (fun _ n => cmatch_dst st n) "" dflt s dflt d default_allow allow_perms.
Proof.
  intros st s d da ap Hst C. destruct (C13_most_specific st "" s d da ap Hst C) as (o & _ & R2 & R1).
  rewrite R2, (R1 eq_refl). reflexivity.
Qed.

Theorem C13_paths_agree_legacy : forall t sns s dns d default_allow allow_perms,
  legacy_ok t -> coherent (tnames t ++ [sns; s; dns; d]) ->
  route1 (legacy_match t MSrc) sns s dns d default_allow allow_perms
  = route2 (legacy_match t MDst) "" sns s dns d default_allow allow_perms.
Proof.
  intros t sns s dns d da ap Ht C.
  destruct (C13_most_specific_legacy t "" sns s dns d da ap Ht C) as (o & _ & R2 & R1).
  rewrite R2, (R1 eq_refl). reflexivity.
Qed.

(* The full statements without the case hypothesis are false of the code: the table indexes fold case,
   authz.go does not.  Entry "DB": nothing covers web -> db, route 2 allows it, route 1 does not. *)
Theorem C13_case_folding_refuted :
  store_ok cf_store /\
  decided (call cf_store) "" dflt "web" dflt "db" None /\
  d_allowed (route2 (fun _ n => cmatch_dst cf_store n) "" dflt "web" dflt "db" false false) = true /\
  d_allowed (route1 (fun _ n => cmatch_src cf_store n) dflt "web" dflt "db" false false) = false.
Proof.
  split; [apply store_okb_sound; vm_compute; reflexivity|]. split; [|split; vm_compute; reflexivity].
  (* one intention is stored, web -> DB; authz.go compares names exactly, so it does not cover web -> db *)
  cbn [decided]. intros j Hj. vm_compute in Hj. destruct Hj as [<-|[]]. vm_compute. reflexivity.
Qed.

Theorem C13_case_folding_legacy_refuted :
  legacy_ok cf_table /\
  decided cf_table "" dflt "web" dflt "db" None /\
  d_allowed (route2 (legacy_match cf_table MDst) "" dflt "web" dflt "db" false false) = true /\
  d_allowed (route1 (legacy_match cf_table MSrc) dflt "web" dflt "db" false false) = false.
Proof.
  split; [apply legacy_okb_sound; vm_compute; reflexivity|]. split; [|split; vm_compute; reflexivity].
  cbn [decided]. intros j Hj. vm_compute in Hj. destruct Hj as [<-|[]]. vm_compute. reflexivity.
Qed.

(* Match and list results: sorted by (precedence descending, tie-break) and a permutation of the stored
   intentions whose pattern covers the queried name. *)
Theorem C13_sorted_legacy : forall t mt ns n,
  (forall i, In i t -> wf i) -> coherent (tnames t ++ [ns; n]) ->
  isorted (legacy_match t mt ns n) /\
  Permutation (legacy_match t mt ns n) (filter (side_pred mt ns n) t).
Proof. intros t mt ns n Hwf C. split; [apply sort_ixns_sorted|apply legacy_match_perm; assumption]. Qed.

Theorem C13_sorted_dst : forall st d,
  store_ok st -> coherent (enames st ++ [d]) ->
  isorted (cmatch_dst st d) /\
  Permutation (cmatch_dst st d) (filter (fun j => wild_or_eq (i_dname j) d) (call st)).
Proof. intros st d Hst C. split; [apply sort_ixns_sorted|apply cmatch_dst_perm; assumption]. Qed.

(* by source: for EVERY valid store, sorted and exactly what [src_sel] selects ... *)
Theorem C13_sorted_src : forall st s,
  store_ok st ->
  isorted (cmatch_src st s) /\
  Permutation (cmatch_src st s) (filter (src_sel (call st) s) (call st)).
Proof. intros st s Hst. split; [apply sort_ixns_sorted|apply cmatch_src_perm; assumption]. Qed.

(* ... which is "the local intentions whose source covers s" when no entry mixes a local and a peered
   source of the same name ... *)
Theorem C13_sorted_src_partial : forall st s,
  store_ok st -> shadow_free st ->
  Permutation (cmatch_src st s)
              (filter (fun j => String.eqb (i_peer j) "" && wild_or_eq (i_sname j) s)%bool (call st)).
Proof.
  intros st s Hst Hsf. rewrite (cmatch_src_perm st s Hst).
  erewrite filter_ext_in; [reflexivity|]. intros j Hj. apply src_sel_clean; assumption.
Qed.

(* ... and contains a peered intention that does not match the local service otherwise. *)
Theorem C13_sorted_src_refuted :
  store_ok so_st1 /\
  exists j, In j (cmatch_src so_st1 "web") /\ i_peer j = "p" /\
            authz_match MSrc "web" dflt "" j = false.
Proof.
  split; [apply store_okb_sound; vm_compute; reflexivity|].
  exists (Ixn "" "p" dflt "web" dflt "db" Deny 0 9). split; [vm_compute; auto|]. split; reflexivity.
Qed.

Theorem C13_sorted_lists : forall t st,
  (isorted (legacy_list t) /\ Permutation (legacy_list t) t) /\
  (isorted (config_list st) /\ Permutation (config_list st) (call st)).
Proof. intros t st. repeat split; try apply sort_ixns_sorted; apply sort_ixns_perm. Qed.

(* the order is strict on stored intentions: no two distinct ones tie *)
Theorem C13_sorted_strict : forall all l,
  (forall i j, In i all -> In j all -> key5 i = key5 j -> i = j) -> incl l all ->
  forall i j, In i l -> In j l -> ileb i j = true -> ileb j i = true -> i = j.
Proof.
  intros all l Hk Hin i j Hi Hj A B. apply Hk; [apply Hin; exact Hi|apply Hin; exact Hj|].
  apply (ileb_antisym _ _ A B).
Qed.

(* Order independence.  Legacy table: creating fresh intentions in any order. *)
Theorem C13_order_independent_legacy : forall t ws ws',
  fresh_writes t ws -> Permutation ws ws' ->
  let t1 := legacy_apply t ws in
  let t2 := legacy_apply t ws' in
  legacy_list t1 = legacy_list t2 /\
  (forall mt ns n, legacy_match t1 mt ns n = legacy_match t2 mt ns n) /\
  (forall peer sns s dns d da ap,
     route1 (legacy_match t1 MSrc) sns s dns d da ap = route1 (legacy_match t2 MSrc) sns s dns d da ap /\
     route2 (legacy_match t1 MDst) peer sns s dns d da ap = route2 (legacy_match t2 MDst) peer sns s dns d da ap).
Proof.
  intros t ws ws' Hf Hp. destruct (legacy_order_independent t ws ws' Hf Hp) as (Hl & Hm). cbn zeta in *.
  split; [exact Hl|]. split; [exact Hm|].
  intros peer sns s dns d da ap. unfold route1, route2. rewrite !Hm. split; reflexivity.
Qed.

(* Whole service-intentions entries (ConfigEntry.Apply), any sources incl. peered ones: any order of writes
   of distinct entries, starting from any two valid stores holding the same intentions in any stored order. *)
Theorem C13_order_independent_entries : forall st1 st2 es1 es2,
  store_ok st1 -> store_ok st2 -> Permutation (call st1) (call st2) ->
  Permutation es1 es2 -> NoDup (map lname es1) ->
  let a := ensure_all st1 es1 in
  let b := ensure_all st2 es2 in
  config_list a = config_list b /\
  (forall s, cmatch_src a s = cmatch_src b s) /\
  (forall d, coherent ((enames st1 ++ map e_name es1) ++ [d]) -> cmatch_dst a d = cmatch_dst b d) /\
  (forall peer s d da ap, coherent ((enames st1 ++ map e_name es1) ++ [d]) ->
     route1 (fun _ n => cmatch_src a n) dflt s dflt d da ap = route1 (fun _ n => cmatch_src b n) dflt s dflt d da ap /\
     route2 (fun _ n => cmatch_dst a n) peer dflt s dflt d da ap = route2 (fun _ n => cmatch_dst b n) peer dflt s dflt d da ap).
Proof.
  intros st1 st2 es1 es2 H1 H2 Hc He Hk. cbn zeta. rewrite !ensure_all_capply.
  destruct (cw_ents_history es1) as [E1 E2].
  apply (mixed_order_independent (enames st1 ++ map e_name es1)); try assumption.
  - apply Permutation_map. exact He.
  - unfold cw_independent. rewrite E1, E2. repeat split; [exact Hk|constructor|intros w []|intros e w _ []].
  - intros e w _ Hw. rewrite E2 in Hw. destruct Hw.
  - intros e w _ Hw. rewrite E2 in Hw. destruct Hw.
  - intros dn v H. apply in_map_iff in H as (e & E & _). discriminate.
  - apply incl_appl, incl_refl.
  - rewrite map_map. apply incl_appr, incl_refl.
Qed.

(* Upserts (Intention.Apply -> Store.IntentionMutation), valid or rejected ones alike: any order of upserts of
   distinct (destination, source) pairs, from any two valid stores holding the same intentions in any stored
   order — provided no entry mixes a local and a peered source of the same name ... *)
Theorem C13_order_independent_upsert_partial : forall st1 st2 ws1 ws2,
  store_ok st1 -> store_ok st2 -> shadow_free st1 -> shadow_free st2 ->
  Permutation (call st1) (call st2) -> Permutation ws1 ws2 ->
  NoDup (map wkey ws1) -> (forall w, In w ws1 -> s_peer (snd w) = "") ->
  coherent (enames st1 ++ map fst ws1) ->
  let a := upsert_all st1 ws1 in
  let b := upsert_all st2 ws2 in
  config_list a = config_list b /\
  (forall s, cmatch_src a s = cmatch_src b s) /\
  (forall d, coherent ((enames st1 ++ map fst ws1) ++ [d]) -> cmatch_dst a d = cmatch_dst b d) /\
  (forall peer s d da ap, coherent ((enames st1 ++ map fst ws1) ++ [d]) ->
     route1 (fun _ n => cmatch_src a n) dflt s dflt d da ap = route1 (fun _ n => cmatch_src b n) dflt s dflt d da ap /\
     route2 (fun _ n => cmatch_dst a n) peer dflt s dflt d da ap = route2 (fun _ n => cmatch_dst b n) peer dflt s dflt d da ap).
Proof.
  intros st1 st2 ws1 ws2 H1 H2 S1 S2 Hc Hw Hk Hpe C. cbn zeta. rewrite !upsert_all_capply.
  destruct (cw_upss_history ws1) as [E1 E2].
  apply (mixed_order_independent (enames st1 ++ map fst ws1)); try assumption.
  - apply Permutation_map. exact Hw.
  - unfold cw_independent. rewrite E1, E2. repeat split; [constructor|exact Hk|exact Hpe|intros e w []].
  - intros e w He _ _. apply S1. exact He.
  - intros e w He _ _. apply S2. exact He.
  - intros _ _ _. exact C.
  - apply incl_appl, incl_refl.
  - rewrite map_map. apply incl_appr, incl_refl.
Qed.

(* ... without that proviso the stored order decides whether the upsert of the local source is accepted
   (UpsertSourceByName ignores the peer), and with it the decision ... *)
Theorem C13_stored_order_refuted :
  store_ok so_st1 /\ store_ok so_st2 /\ Permutation (call so_st1) (call so_st2) /\
  s_peer (snd so_w) = "" /\ coherent (enames so_st1 ++ ["db"; "web"]) /\
  fst (upsert so_st1 (fst so_w) (snd so_w)) = WInvalid 10 /\
  fst (upsert so_st2 (fst so_w) (snd so_w)) = WOk /\
  d_allowed (route2 (fun _ n => cmatch_dst (upsert_all so_st1 [so_w]) n) "" dflt "web" dflt "db" false false) = true /\
  d_allowed (route2 (fun _ n => cmatch_dst (upsert_all so_st2 [so_w]) n) "" dflt "web" dflt "db" false false) = false.
Proof.
  split; [apply store_okb_sound; vm_compute; reflexivity|].
  split; [apply store_okb_sound; vm_compute; reflexivity|].
  split; [vm_compute; apply perm_swap|].
  split; [reflexivity|].
  split; [apply coherentb_sound; vm_compute; reflexivity|].
  repeat split; vm_compute; reflexivity.
Qed.

(* ... and without [coherent] two upserts whose destinations differ only in case do not commute. *)
Theorem C13_case_folding_order_refuted :
  NoDup (map wkey [cf_w1; cf_w2]) /\
  d_allowed (route1 (fun _ n => cmatch_src (upsert_all [] [cf_w1; cf_w2]) n) dflt "web" dflt "db" false false) = true /\
  d_allowed (route1 (fun _ n => cmatch_src (upsert_all [] [cf_w2; cf_w1]) n) dflt "web" dflt "db" false false) = false.
Proof.
  split; [|split; vm_compute; reflexivity].
  apply (nodupb_sound pair_eqb pair_eqb_refl). vm_compute. reflexivity.
Qed.

(* The key-injectivity premise of C13_decision_unique / C13_sorted_strict is met by every valid store / table. *)
Theorem C13_store_keys_distinct : forall st, store_ok st ->
  forall i j, In i (call st) -> In j (call st) -> key5 i = key5 j -> i = j.
Proof. exact config_all_key. Qed.

Theorem C13_legacy_keys_distinct : forall t, key4_unique t ->
  forall i j, In i t -> In j t -> key5 i = key5 j -> i = j.
Proof. exact legacy_all_key. Qed.

(* "Returned in precedence order" in the property's own terms: in every sorted list of well-formed
   intentions a more specific intention comes before a less specific one ... *)
Theorem C13_more_specific_first : forall l i j,
  isorted l -> (forall x, In x l -> wf x) -> In i l -> In j l -> more_specific i j -> precedes l i j.
Proof.
  intros l i j Hs Hwf Hi Hj M. apply sorted_precedes; try assumption.
  apply more_specific_ileb; auto.
Qed.

(* ... in particular in Store.Intentions and in both match results, for every valid store / table. *)
Theorem C13_more_specific_first_config : forall st s d i j,
  store_ok st -> more_specific i j ->
  (In i (config_list st) -> In j (config_list st) -> precedes (config_list st) i j) /\
  (In i (cmatch_src st s) -> In j (cmatch_src st s) -> precedes (cmatch_src st s) i j) /\
  (In i (cmatch_dst st d) -> In j (cmatch_dst st d) -> precedes (cmatch_dst st d) i j).
Proof.
  intros st s d i j Hst M. pose proof (config_all_wf st Hst) as W.
  split; [|split]; intros Hi Hj; apply C13_more_specific_first; try assumption; try apply sort_ixns_sorted;
    intros x Hx; apply W.
  - apply sort_ixns_in. exact Hx.
  - apply (cmatch_src_incl st s Hst). exact Hx.
  - apply (cmatch_dst_incl st d). exact Hx.
Qed.

Theorem C13_more_specific_first_legacy : forall t mt ns n i j,
  (forall x, In x t -> wf x) -> more_specific i j ->
  (In i (legacy_list t) -> In j (legacy_list t) -> precedes (legacy_list t) i j) /\
  (In i (legacy_match t mt ns n) -> In j (legacy_match t mt ns n) -> precedes (legacy_match t mt ns n) i j).
Proof.
  intros t mt ns n i j W M.
  split; intros Hi Hj; apply C13_more_specific_first; try assumption; try apply sort_ixns_sorted;
    intros x Hx; apply W.
  - apply sort_ixns_in. exact Hx.
  - apply (legacy_match_incl t mt ns n). exact Hx.
Qed.

(* Histories that mix whole-entry writes and upserts: any order, any stored order, provided the writes are
   pairwise independent, the entries upserts go into are shadow free (finding) and names are coherent (finding). *)
Theorem C13_order_independent_mixed_partial : forall st1 st2 ws1 ws2,
  store_ok st1 -> store_ok st2 -> Permutation (call st1) (call st2) -> Permutation ws1 ws2 ->
  cw_independent ws1 -> shadow_free_on ws1 st1 -> shadow_free_on ws1 st2 ->
  coherent (enames st1 ++ map cw_name ws1) ->
  let a := capply_all st1 ws1 in
  let b := capply_all st2 ws2 in
  config_list a = config_list b /\
  (forall s, cmatch_src a s = cmatch_src b s) /\
  (forall d, coherent ((enames st1 ++ map cw_name ws1) ++ [d]) -> cmatch_dst a d = cmatch_dst b d) /\
  (forall peer s d da ap, coherent ((enames st1 ++ map cw_name ws1) ++ [d]) ->
     route1 (fun _ n => cmatch_src a n) dflt s dflt d da ap = route1 (fun _ n => cmatch_src b n) dflt s dflt d da ap /\
     route2 (fun _ n => cmatch_dst a n) peer dflt s dflt d da ap = route2 (fun _ n => cmatch_dst b n) peer dflt s dflt d da ap).
Proof.
  intros st1 st2 ws1 ws2 H1 H2 Hc Hw Hind S1 S2 C.
  apply (mixed_order_independent (enames st1 ++ map cw_name ws1)); try assumption.
  - intros _ _ _. exact C.
  - apply incl_appl, incl_refl.
  - apply incl_appr, incl_refl.
Qed.

(* Destination-kind services (a service-defaults entry with a Destination block, names [dk]): the Check route
   decides by the most specific covering intention among those whose destination is NOT such a name ... *)
Theorem C13_check_route_dest_kind : forall dk st s d,
  store_ok st ->
  decided (call (filter (visible dk false) st)) "" dflt s dflt d
          (find (authz_match MDst d dflt "") (cmatch_src_k dk false st s)).
Proof. intros dk st s d Hst. apply config_route1, store_ok_filter. exact Hst. Qed.

(* ... so the two routes agree when no stored destination is destination-kind ... *)
Theorem C13_paths_agree_dest_kind_partial : forall dk st s d default_allow allow_perms,
  store_ok st -> coherent (enames st ++ [d]) ->
  (forall e, In e st -> is_dest_kind dk (e_name e) = false) ->
  route1 (fun _ n => cmatch_src_k dk false st n) dflt s dflt d default_allow allow_perms
  = route2 (fun _ n => cmatch_dst st n) "" dflt s dflt d default_allow allow_perms.
Proof.
  intros dk st s d da ap Hst C Hk. unfold route1, cmatch_src_k. rewrite filter_all.
  - apply (C13_paths_agree st s d da ap Hst C).
  - intros e He. unfold visible. rewrite (Hk e He). reflexivity.
Qed.

(* ... and disagree otherwise: web -> db deny, web -> * allow, db destination-kind: Check allows. *)
Theorem C13_dest_kind_refuted :
  store_ok dkx_store /\ coherent (enames dkx_store ++ ["db"]) /\
  d_allowed (route1 (fun _ n => cmatch_src_k ["db"] false dkx_store n) dflt "web" dflt "db" false false) = true /\
  d_allowed (route2 (fun _ n => cmatch_dst dkx_store n) "" dflt "web" dflt "db" false false) = false.
Proof.
  split; [apply store_okb_sound; vm_compute; reflexivity|].
  split; [apply coherentb_sound; vm_compute; reflexivity|]. split; vm_compute; reflexivity.
Qed.

(* The premises of the order theorems are met by non-empty write lists and their (different) reversals. *)
Example C13_order_hypotheses_satisfiable :
  (store_ok [] /\ shadow_free [] /\ Permutation ox_upserts (rev ox_upserts) /\ ox_upserts <> rev ox_upserts /\
   NoDup (map wkey ox_upserts) /\ (forall w, In w ox_upserts -> s_peer (snd w) = "") /\
   coherent (enames [] ++ map fst ox_upserts)) /\
  (Permutation ox_entries (rev ox_entries) /\ ox_entries <> rev ox_entries /\ NoDup (map lname ox_entries)) /\
  (fresh_writes [] ex_writes /\ Permutation ex_writes (rev ex_writes) /\ ex_writes <> rev ex_writes).
Proof.
  split; [|split].
  - split; [apply store_okb_sound; reflexivity|]. split; [apply shadow_freeb_sound; reflexivity|].
    split; [apply Permutation_rev|]. split; [vm_compute; discriminate|].
    destruct (wkeys_okb_sound ox_upserts) as [A B]; [vm_compute; reflexivity|].
    split; [exact A|]. split; [exact B|]. apply coherentb_sound. vm_compute. reflexivity.
  - split; [apply Permutation_rev|]. split; [vm_compute; discriminate|].
    apply (nodupb_sound String.eqb str_eqb_refl). vm_compute. reflexivity.
  - split; [apply fresh_writesb_sound; vm_compute; reflexivity|]. split; [apply Permutation_rev|vm_compute; discriminate].
Qed.

Example C13_mixed_hypotheses_satisfiable :
  cw_independent mx_writes /\ shadow_free_on mx_writes [] /\ coherent (enames [] ++ map cw_name mx_writes) /\
  Permutation mx_writes (rev mx_writes) /\
  List.length (call (capply_all [] mx_writes)) = 5%nat.
Proof.
  split.
  { repeat split.
    - apply (nodupb_sound String.eqb str_eqb_refl). vm_compute. reflexivity.
    - apply (nodupb_sound pair_eqb pair_eqb_refl). vm_compute. reflexivity.
    - intros w Hw. vm_compute in Hw. destruct Hw as [<-|[<-|[]]]; reflexivity.
    - intros e w He Hw. vm_compute in He, Hw.
      destruct He as [<-|[<-|[]]], Hw as [<-|[<-|[]]]; vm_compute; discriminate. }
  split; [intros e w []|].
  split; [apply coherentb_sound; vm_compute; reflexivity|].
  split; [apply Permutation_rev|vm_compute; reflexivity].
Qed.

(* Non-vacuity: concrete stores meet every hypothesis used above, with non-trivial decisions
   (exact allow; wildcard deny over default allow; wildcard-destination deny; L7; default). *)
Example C13_hypotheses_satisfiable_config :
  store_ok ex_store /\ shadow_free ex_store /\ coherent (enames ex_store ++ ["web"; "db"; "api"; "zz"]) /\
  summary_code' (route2 (fun _ n => cmatch_dst ex_store n) "" dflt "web" dflt "db" false false) = (true, false, true) /\
  summary_code' (route2 (fun _ n => cmatch_dst ex_store n) "" dflt "zz" dflt "db" true false) = (false, false, false) /\
  summary_code' (route2 (fun _ n => cmatch_dst ex_store n) "" dflt "web" dflt "zz" true false) = (false, false, false) /\
  summary_code' (route2 (fun _ n => cmatch_dst ex_store n) "" dflt "web" dflt "api" true false) = (false, true, true) /\
  summary_code' (route2 (fun _ n => cmatch_dst ex_store n) "" dflt "zz" dflt "zz" true false) = (true, false, false).
Proof.
  split; [apply store_okb_sound; vm_compute; reflexivity|].
  split; [apply shadow_freeb_sound; vm_compute; reflexivity|].
  split; [apply coherentb_sound; vm_compute; reflexivity|].
  repeat split; vm_compute; reflexivity.
Qed.

Example C13_hypotheses_satisfiable_legacy :
  fresh_writes [] ex_writes /\ legacy_ok (legacy_apply [] ex_writes) /\
  coherent (tnames (legacy_apply [] ex_writes) ++ [dflt; "web"; dflt; "db"]) /\
  d_allowed (route1 (legacy_match (legacy_apply [] ex_writes) MSrc) dflt "web" dflt "db" false false) = true /\
  d_allowed (route1 (legacy_match (legacy_apply [] ex_writes) MSrc) dflt "api" dflt "db" true false) = false.
Proof.
  split; [apply fresh_writesb_sound; vm_compute; reflexivity|].
  split; [apply legacy_okb_sound; vm_compute; reflexivity|].
  split; [apply coherentb_sound; vm_compute; reflexivity|].
  split; vm_compute; reflexivity.
Qed.

Print Assumptions C13_precedence_is_specificity.
Print Assumptions C13_decision_unique.
Print Assumptions C13_most_specific.
Print Assumptions C13_most_specific_legacy.
Print Assumptions C13_paths_agree.
Print Assumptions C13_paths_agree_legacy.
Print Assumptions C13_case_folding_refuted.
Print Assumptions C13_case_folding_legacy_refuted.
Print Assumptions C13_sorted_legacy.
Print Assumptions C13_sorted_dst.
Print Assumptions C13_sorted_src.
Print Assumptions C13_sorted_src_partial.
Print Assumptions C13_sorted_src_refuted.
Print Assumptions C13_sorted_lists.
Print Assumptions C13_sorted_strict.
Print Assumptions C13_order_independent_legacy.
Print Assumptions C13_order_independent_entries.
Print Assumptions C13_order_independent_upsert_partial.
Print Assumptions C13_stored_order_refuted.
Print Assumptions C13_case_folding_order_refuted.
Print Assumptions C13_hypotheses_satisfiable_config.
Print Assumptions C13_hypotheses_satisfiable_legacy.
Print Assumptions C13_store_keys_distinct.
Print Assumptions C13_legacy_keys_distinct.
Print Assumptions C13_more_specific_first.
Print Assumptions C13_more_specific_first_config.
Print Assumptions C13_more_specific_first_legacy.
Print Assumptions C13_order_independent_mixed_partial.
Print Assumptions C13_check_route_dest_kind.
Print Assumptions C13_paths_agree_dest_kind_partial.
Print Assumptions C13_dest_kind_refuted.
Print Assumptions C13_order_hypotheses_satisfiable.
Print Assumptions C13_mixed_hypotheses_satisfiable.
