(* C06 -- blocking-query contract: a change is never missed.
   Model: Blocking/Model.v (state.Store index rules, watch sets, blockingquery.Query).
   Two full statements (never missed, monotone) are false of the faithful model (and of the code: see
   known_findings.json); each comes with its refutation and the theorem for the query kinds outside
   the failing classes.  The non-zero, loop and wake theorems are unconditional. *)
From stdpp Require Import gmap strings.
From Coq Require Import NArith Lia.
From Verif Require Import Blocking.Model Blocking.Lemmas Blocking.Valid Blocking.IndexCat Blocking.Fires Blocking.Proofs Blocking.Witness.
Local Open Scope N_scope.

(* ---- a change is never missed: index strictly grows, the registered watch fires ---- *)
Definition never_missed_statement : Prop :=
  forall hi s i c q, Reach hi s -> hi < i ->
    res q (apply i c s) <> res q s ->
    idx q s < idx q (apply i c s) /\ fires (ws q s) (touched i c s) = true.

(* refuted: ConnectServiceNodes reports the index row of the destination service, which a proxy
   registration does not touch (one more class below; the delete-tree, service-rename, check-move and
   check-delete classes were repaired in /repo by d2fdf7c, 2c57fbe, e956cb5, 566301e and are now
   covered by the theorems; see C06_repaired_classes) *)
Theorem C06_never_missed_refuted : ~ never_missed_statement.
Proof.
  intros H. destruct w_connect_violates as (HR & Hlt & Hc & Hn). apply Hn, (H _ _ _ _ _ HR Hlt Hc).
Qed.
Theorem C06_never_missed_refuted_classes : violates w_connect /\ violates w_csn_connect.
Proof. exact (conj w_connect_violates w_csn_connect_violates). Qed.

(* partial: for every query outside the Connect pair (okq = safe_query), every reachable state and
   every write.  Since 77429de no hypothesis on the state (Coherent) or on the write (safe_cmd) is
   left: renames, check moves (also of checks whose stored service name is stale), check deletes,
   delete-trees and registrations that rename their service while carrying checks are covered. *)
Theorem C06_never_missed_partial :
  forall hi s i c q, Reach hi s -> hi < i -> safe_query q ->
    res q (apply i c s) <> res q s ->
    idx q s < idx q (apply i c s) /\ fires (ws q s) (touched i c s) = true.
Proof.
  intros hi s i c q HR Hlt Hq Hc.
  destruct (write_contract hi s i c q (Reach_Bnd _ _ HR) Hlt Hq) as (Hle & _ & _ & Hch).
  destruct (Hch Hc) as [Hi Hf]. split; [lia|exact Hf].
Qed.

(* coherence (every check row carries its service's current name) is not a hypothesis of any
   theorem here; it stays as a fact about the data: it holds initially and is kept by every write that
   registers no service id under another name (see C06_covers_incoherent for a state without it) *)
Theorem C06_coherent_invariant :
  Coherent st0 /\ forall i c s, Coherent s -> rename_free c s -> Coherent (apply i c s).
Proof. exact (conj Coherent_st0 Coherent_apply). Qed.

(* ---- the reported index is never zero ---- *)
Theorem C06_nonzero : forall q s, 1 <= reported q s.
Proof. intros q s. unfold reported. lia. Qed.

(* ---- the index never decreases, except by a tombstone reap ----
   (still refuted: CheckConnectServiceNodes reports the maximum over the names currently in the
   result and falls when the instances of one name leave) *)
Definition monotone_statement : Prop :=
  forall hi s i c q, Reach hi s -> hi < i -> (forall u, c <> Reap u) -> idx q s <= idx q (apply i c s).
Theorem C06_monotone_refuted : ~ monotone_statement.
Proof.
  intros H. destruct w_csn_connect_violates as (HR & Hlt & _ & _).
  assert (Hr : forall u, v_c w_csn_connect <> Reap u) by discriminate.
  pose proof (H _ _ _ _ (QCSNConnect "web") HR Hlt Hr) as Hle.
  destruct (obs_spec _ _ _ _ _ _ w_csn_connect_obs) as (_ & Ha & Hb & _).
  cbn [v_i v_c w_csn_connect] in Hle, Hb. rewrite Ha, Hb in Hle. exact (Hle eq_refl).
Qed.
Theorem C06_monotone_partial :
  forall hi s i c q, Reach hi s -> hi < i -> safe_query q ->
    (forall u, c <> Reap u) -> idx q s <= idx q (apply i c s).
Proof.
  intros hi s i c q HR Hlt Hq. apply (write_contract hi s i c q (Reach_Bnd _ _ HR) Hlt Hq).
Qed.

(* ---- the loop returns only with an index above the (effective) minimum, on timeout, or on abandon ---- *)
Theorem C06_loop :
  forall min rounds,
    match blocking_query min rounds with
    | XIndex i => min <> 0 /\ exists m, min_source min rounds m /\ m < i
    | XTimeout _ | XAbandon _ => min <> 0
    | XNonBlocking _ => min = 0
    | XStuck => True
    end.
Proof.
  intros min rounds. unfold blocking_query. case_bool_decide as Hm.
  { destruct rounds as [|[[raw e] w] rounds]; [exact I|exact Hm]. }
  destruct (loop (LS min false false) rounds) as [i| | | |] eqn:E; try exact Hm; try exact I.
  2: { contradiction (loop_not_nonblocking _ _ _ E). }
  split; [exact Hm|].
  destruct (loop_contract_tight min rounds i Hm) as (n & raw & e & w & _ & _ & _ & m & Hlt & Hsrc).
  { unfold blocking_query. rewrite bool_decide_eq_false_2 by exact Hm. exact E. }
  exists m. split; [|exact Hlt]. destruct Hsrc as [->|(j & rj & ej & wj & _ & Hr & Hj & ->)]; [constructor|].
  eapply replaces_source; eassumption.
Qed.

(* ---- a query blocked on the old index is woken, re-runs and returns the new index ----
   ([1 < i]: the reply floors the index at 1, so a first write at raft index 1 would be reported as 1
   before and after) *)
Theorem C06_wakes :
  forall hi s i c q, Reach hi s -> hi < i -> 1 < i -> safe_query q ->
    res q (apply i c s) <> res q s ->
    fires (ws q s) (touched i c s) = true /\
    reported q s < reported q (apply i c s) /\
    forall w rest,
      loop (LS (reported q s) false false) ((idx q s, ENone, Fired) :: (idx q (apply i c s), ENone, w) :: rest)
      = XIndex (reported q (apply i c s)).
Proof.
  intros hi s i c q HR Hlt H1 Hq Hc.
  destruct (write_contract hi s i c q (Reach_Bnd _ _ HR) Hlt Hq) as (Hle & _ & _ & Hch).
  destruct (Hch Hc) as [Hi Hf]. unfold reported.
  split; [exact Hf|]. split; [lia|]. intros w rest. apply loop_two_rounds; lia.
Qed.

(* ---- regression: the history that used to lose a KV listing update (index 26 -> 23) ---- *)
Example C06_deltree_repaired :
  let s := run (v_log w_kvlist) st0 in
  res (QKVList "a/b") (apply 27 (KVDeleteTree "a/") s) <> res (QKVList "a/b") s /\
  idx (QKVList "a/b") s = 26 /\ idx (QKVList "a/b") (apply 27 (KVDeleteTree "a/") s) = 27.
Proof.
  destruct (obs_spec _ _ _ _ _ _ w_kvlist_obs) as (Hc & Ha & Hb & _). exact (conj Hc (conj Ha Hb)).
Qed.

(* ---- non-vacuity of the hypotheses ---- *)
Example C06_hypotheses_met :
  Reach 8 ex_state /\ 8 < 9 /\ safe_query (QCSN "web") /\
  res (QCSN "web") (apply 9 ex_cmd ex_state) <> res (QCSN "web") ex_state.
Proof. exact (conj ex_reach (conj eq_refl (conj (ok_svc _ _ _ (sq3 "web")) ex_changes))). Qed.
(* the queries of the two refuting witnesses are outside okq *)
Example C06_hypotheses_exclude_witnesses :
  ~ okq (v_q w_connect) /\ ~ okq (v_q w_csn_connect).
Proof. split; apply connect_not_okq; [left|right]; eexists; reflexivity. Qed.
(* a reachable state that is NOT coherent exists (the state of w_move_stale before its write), and the
   query of that witness is in okq: the theorems, which ask for Reach and okq only, apply there *)
Example C06_covers_incoherent :
  let s := run (v_log w_move_stale) st0 in Reach 7 s /\ ~ Coherent s /\ safe_query (QCSN "api").
Proof.
  split; [exact (Reach_log (v_log w_move_stale) eq_refl)|].
  split; [exact w_move_stale_incoherent|exact (ok_svc _ _ _ (sq3 "api"))].
Qed.
(* regression (77429de): moving a check with a stale stored service name now raises the index of the
   service's current name and wakes its watch (was: 7 -> 7, no wake) *)
Example C06_move_stale_repaired :
  let s := run (v_log w_move_stale) st0 in
  res (QCSN "api") (apply 9 (v_c w_move_stale) s) <> res (QCSN "api") s /\
  idx (QCSN "api") s = 7 /\ idx (QCSN "api") (apply 9 (v_c w_move_stale) s) = 9 /\
  fires (ws (QCSN "api") s) (touched 9 (v_c w_move_stale) s) = true.
Proof.
  destruct w_move_stale_obs as (Ho & _). destruct (obs_spec _ _ _ _ _ _ Ho) as (Hc & Ha & Hb & Hf).
  exact (conj Hc (conj Ha (conj Hb Hf))).
Qed.

(* ---- regression: the former witnesses of the repaired classes now satisfy the contract ---- *)
Example C06_repaired_classes :
  (let s := run (v_log w_rename) st0 in
   res (QCSN "web") (apply 5 (v_c w_rename) s) <> res (QCSN "web") s /\
   idx (QSvcNodes "web") s = 3 /\ idx (QSvcNodes "web") (apply 5 (v_c w_rename) s) = 5 /\
   idx (QCSN "web") (apply 5 (v_c w_rename) s) = 5 /\
   fires (ws (QCSN "web") s) (touched 5 (v_c w_rename) s) = true) /\
  (let s := run (v_log w_rename_back) st0 in
   idx (QSvcNodes "web") s = 6 /\ idx (QSvcNodes "web") (apply 8 (v_c w_rename_back) s) = 8) /\
  (let s := run (v_log w_check_moved) st0 in
   res (QCSN "api") (apply 7 (v_c w_check_moved) s) <> res (QCSN "api") s /\
   idx (QCSN "api") s = 5 /\ idx (QCSN "api") (apply 7 (v_c w_check_moved) s) = 7 /\
   fires (ws (QCSN "api") s) (touched 7 (v_c w_check_moved) s) = true).
Proof.
  destruct w_rename_obs as (H1 & H2).
  destruct (obs_spec _ _ _ _ _ _ H1) as (Hc1 & _ & Hb1 & Hf1), (obs_spec _ _ _ _ _ _ H2) as (_ & Ha2 & Hb2 & _).
  destruct (obs_spec _ _ _ _ _ _ w_rename_back_obs) as (_ & Ha3 & Hb3 & _).
  destruct (obs_spec _ _ _ _ _ _ w_check_moved_obs) as (Hc4 & Ha4 & Hb4 & Hf4).
  exact (conj (conj Hc1 (conj Ha2 (conj Hb2 (conj Hb1 Hf1)))) (conj (conj Ha3 Hb3) (conj Hc4 (conj Ha4 (conj Hb4 Hf4))))).
Qed.


(* ---- the same contract at the strength the proofs have ---- *)
(* the 21 of the 25 okq kinds whose index rule does not go through a service name (all table-maximum
   queries, the three KV sub-index queries, NodeServices): instances of the theorems above at plainq_okq *)
Theorem C06_never_missed_plain :
  forall hi s i c q, Reach hi s -> hi < i -> plainq q -> res q (apply i c s) <> res q s ->
    i <= idx q (apply i c s) /\ idx q s < idx q (apply i c s) /\ fires (ws q s) (touched i c s) = true.
Proof.
  intros hi s i c q HR Hlt Hq Hc.
  destruct (write_contract hi s i c q (Reach_Bnd _ _ HR) Hlt (plainq_okq q Hq)) as (Hle & _ & _ & Hch).
  destruct (Hch Hc) as [Hi Hf]. split; [exact Hi|]. split; [lia|exact Hf].
Qed.
Theorem C06_monotone_plain :
  forall hi s i c q, Reach hi s -> hi < i -> plainq q -> (forall u, c <> Reap u) -> idx q s <= idx q (apply i c s).
Proof. intros hi s i c q HR Hlt Hq. exact (C06_monotone_partial hi s i c q HR Hlt (plainq_okq q Hq)). Qed.

(* high-water form: a changed result reports at least the index of the write; no state reports more
   than the index of its last write; hence the new index exceeds the index reported by ANY state of
   the history so far (s0), also one from before a tombstone reap lowered the index *)
Theorem C06_highwater :
  forall hi s i c q, Reach hi s -> hi < i -> safe_query q ->
    res q (apply i c s) <> res q s -> i <= idx q (apply i c s).
Proof.
  intros hi s i c q HR Hlt Hq Hc. apply (write_contract hi s i c q (Reach_Bnd _ _ HR) Hlt Hq), Hc.
Qed.
Theorem C06_index_bounded : forall hi s q, Reach hi s -> safe_query q -> idx q s <= hi.
Proof. intros hi s q HR Hq. apply okq_idx_le; [apply Reach_Bnd, HR|exact Hq]. Qed.
Theorem C06_above_every_earlier :
  forall hi0 s0 hi s i c q, Reach hi0 s0 -> hi0 <= hi -> Reach hi s -> hi < i ->
    safe_query q -> res q (apply i c s) <> res q s -> idx q s0 < idx q (apply i c s).
Proof.
  intros hi0 s0 hi s i c q HR0 Hle HR Hlt Hq Hc.
  pose proof (C06_highwater hi s i c q HR Hlt Hq Hc). pose proof (C06_index_bounded hi0 s0 q HR0 Hq). lia.
Qed.
Theorem C06_above_every_earlier_plain :
  forall hi0 s0 hi s i c q, Reach hi0 s0 -> hi0 <= hi -> Reach hi s -> hi < i -> plainq q ->
    res q (apply i c s) <> res q s -> idx q s0 < idx q (apply i c s).
Proof.
  intros hi0 s0 hi s i c q HR0 Hle HR Hlt Hq. apply (C06_above_every_earlier hi0 s0 hi); try assumption. apply plainq_okq, Hq.
Qed.

(* the loop, tightly: XIndex i is the floored index of an EXECUTED round n (all earlier rounds were
   woken), compared with the requested minimum or with the floored index of a round j <= n that
   really replaced it (not-found after an earlier not-found, not-changed after any earlier round) *)
Theorem C06_loop_tight :
  forall min rounds i, min <> 0 -> blocking_query min rounds = XIndex i ->
    exists n raw e w, rounds !! n = Some (raw, e, w) /\ i = N.max 1 raw /\
      forallb fired (take n rounds) = true /\
      exists m, m < i /\ (m = min \/ exists j rj ej wj, (j <= n)%nat /\ replaces rounds j /\
                                                rounds !! j = Some (rj, ej, wj) /\ m = N.max 1 rj).
Proof. exact loop_contract_tight. Qed.
Example C06_loop_exits_reachable :
  blocking_query 10 [(10, ENone, Fired); (12, ENone, Timeout)] = XIndex 12 /\
  blocking_query 10 [(10, ENone, Timeout)] = XTimeout 10 /\
  blocking_query 10 [(10, ENone, Abandoned)] = XAbandon 10 /\
  blocking_query 0 [(0, ENone, Timeout)] = XNonBlocking 1 /\
  blocking_query 10 [(3, ENotFound, Fired); (5, ENotFound, Fired); (7, ENone, Timeout)] = XIndex 7.
Proof. repeat split; vm_compute; reflexivity. Qed.

(* the third conjunct of C06_wakes with the wake of the first round written as the model's fires;
   and a first round whose wake is [wake_of false] (= Timeout) exits by timeout with the floored old
   index: a fact about the loop, it says nothing about watches *)
Theorem C06_wakes_derived :
  forall hi s i c q, Reach hi s -> hi < i -> 1 < i -> safe_query q ->
    res q (apply i c s) <> res q s ->
    forall w rest,
      loop (LS (reported q s) false false)
           ((idx q s, ENone, wake_of (fires (ws q s) (touched i c s))) :: (idx q (apply i c s), ENone, w) :: rest)
      = XIndex (reported q (apply i c s)).
Proof.
  intros hi s i c q HR Hlt H1 Hq Hc w rest.
  destruct (C06_wakes hi s i c q HR Hlt H1 Hq Hc) as (Hf & _ & Hl). rewrite Hf. apply Hl.
Qed.
Theorem C06_silent_watch_times_out :
  forall q s rest,
    loop (LS (reported q s) false false) ((idx q s, ENone, wake_of false) :: rest) = XTimeout (reported q s).
Proof. intros q s rest. apply loop_timeout. reflexivity. Qed.

(* a service update (same id and name) with its checks on EXISTING rows changes the health view;
   safe_cmd (a hypothesis of no theorem here) holds of it *)
Example C06_safe_update_met :
  Reach 8 ex_state /\ Coherent ex_state /\ safe_cmd ex_update ex_state /\
  res (QCSN "web") (apply 9 ex_update ex_state) <> res (QCSN "web") ex_state.
Proof. exact (conj ex_reach (conj ex_coherent (conj ex_update_safe ex_update_changes))). Qed.

Print Assumptions C06_never_missed_refuted.
Print Assumptions C06_never_missed_refuted_classes.
Print Assumptions C06_never_missed_partial.
Print Assumptions C06_coherent_invariant.
Print Assumptions C06_nonzero.
Print Assumptions C06_monotone_refuted.
Print Assumptions C06_monotone_partial.
Print Assumptions C06_loop.
Print Assumptions C06_wakes.
Print Assumptions C06_deltree_repaired.
Print Assumptions C06_hypotheses_met.
Print Assumptions C06_hypotheses_exclude_witnesses.
Print Assumptions C06_repaired_classes.
Print Assumptions C06_covers_incoherent.
Print Assumptions C06_move_stale_repaired.
Print Assumptions C06_never_missed_plain.
Print Assumptions C06_monotone_plain.
Print Assumptions C06_highwater.
Print Assumptions C06_index_bounded.
Print Assumptions C06_above_every_earlier.
Print Assumptions C06_above_every_earlier_plain.
Print Assumptions C06_loop_tight.
Print Assumptions C06_loop_exits_reachable.
Print Assumptions C06_wakes_derived.
Print Assumptions C06_silent_watch_times_out.
Print Assumptions C06_safe_update_met.
