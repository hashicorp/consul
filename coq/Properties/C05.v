(* C05 — transactions are all-or-nothing and isolated (one command of the log, applied at one index). *)
From stdpp Require Import gmap strings.
From Coq Require Import NArith.
From Verif Require Import Store.Model Store.Inv Store.Theorems Store.EndInv.
Local Open Scope N_scope.

(* If any operation fails, nothing changes: no table, no index row, no lock delay; no results. *)
Theorem C05_all_or_nothing : forall idx ops s s' rs es,
  txn_rw idx ops s = (s', CTxn rs es) -> es ≠ [] -> s' = s /\ rs = [].
Proof. exact txn_all_or_nothing. Qed.

(* Otherwise the transaction is exactly the sequential composition of its operations at one index:
   operation i runs on the state produced by operations < i (read-your-writes), and the results
   are the concatenation of the operations' results. *)
Theorem C05_commit_is_sequential : forall idx ops s s' rs,
  txn_rw idx ops s = (s', CTxn rs []) -> seq_ops idx ops s = Ok (s', rs).
Proof.
  intros idx ops s s' rs. unfold txn_rw. pose proof (txn_dispatch_seq_ops idx ops 0%nat s) as Hx.
  destruct (seq_ops idx ops s) as [[s2 rs2]|e p].
  - rewrite Hx. intros Heq; injection Heq as <- <-. reflexivity.
  - destruct (txn_dispatch idx 0 ops s) as [[s1 rs1] [|e1 es1]]; [contradiction|discriminate].
Qed.

(* The KV verbs inside a transaction are the standalone commands; read verbs change nothing. *)
Theorem C05_txn_kv_is_command : forall idx v q s s' r,
  txn_kv idx v q s = Ok (s', r) ->
  match v with VSet | VDelete | VDeleteCAS | VDeleteTree | VCAS | VLock | VUnlock => (apply_kvs idx v q s).1 = s'
          | _ => s' = s end.
Proof.
  (* both functions branch on the same primitive's outcome, verb by verb *)
  intros idx v q s s' r. unfold txn_kv, apply_kvs. destruct v; cbn; repeat case_match; intros Heq; simplify_eq/=; reflexivity.
Qed.

(* Read-only transactions never modify the state. *)
Theorem C05_ro_pure : forall idx ops i s,
  forallb is_read ops = true -> (txn_dispatch idx i ops s).1.1 = s.
Proof.
  intros idx ops. induction ops as [|op ops IH]; intros i s Hall; cbn; [reflexivity|].
  cbn in Hall. apply andb_true_iff in Hall as [Hop Hall].
  pose proof (read_op_pure idx op s Hop) as Hx.
  destruct (txn_op idx op s) as [[s' r]|e sp]; subst;
    (specialize (IH (S i) s Hall); destruct (txn_dispatch idx (S i) ops s) as [[s2 rs2] es2]; exact IH).
Qed.

(* "At one index": after a transaction -- any length, any mix of KV, node, service, check and
   session verbs, with all the cascades they trigger; committed or not, an aborted one changes
   nothing -- every KV row and every tombstone either was there before, unchanged, or carries the
   transaction's index. *)
Theorem C05_one_index : forall idx ops s,
  (forall k e, kvs (txn_rw idx ops s).1 !! k = Some e -> kvs s !! k = Some e \/ kv_modify e = idx) /\
  (forall k i, tombs (txn_rw idx ops s).1 !! k = Some i -> tombs s !! k = Some i \/ i = idx).
Proof. intros idx ops s. exact (one_index idx (Txn ops) s). Qed.

Example C05_one_index_example :
  let s := (run ld_log st0).1 in
  let s' := (txn_rw 4 [TCheck CSet (CheckReq "n1" "c1" 2 "" false "" 0 0); TKV VSet (KVReq "b" [1] 0 "" 0 0)] s).1 in
  kvs s !! "a" = Some (KV [] 0 "s1" 1 3 3) /\ kvs s' !! "a" = Some (KV [] 0 "" 1 3 4) /\
  kvs s' !! "b" = Some (KV [1] 0 "" 0 4 4).
Proof. cbv zeta. repeat split; vm_compute; reflexivity. Qed.

(* the same for every command *)
Theorem C05_one_index_command : forall idx c s, Stamp s idx (apply idx c s).1.
Proof. exact one_index. Qed.

(* No operation of any transaction ever fails with the model's own "out of fuel" (a transaction that
   failed only because a cascade was cut short would satisfy all-or-nothing for the wrong reason). *)
Theorem C05_no_fuel : forall idx ops s j e,
  match (txn_rw idx ops s).2 with CTxn _ es => (j, e) ∈ es -> e ≠ EFuel | _ => True end.
Proof.
  intros idx ops s j e. pose proof (no_fuel_anywhere idx (Txn ops) s) as H. cbn [apply] in H.
  destruct (txn_rw idx ops s).2; try exact I. apply H.
Qed.

(* Every command (not only transactions) that reports an error leaves the state untouched. *)
Theorem C05_failed_command_changes_nothing : forall idx c s e,
  (apply idx c s).2 = CErr e -> (apply idx c s).1 = s.
Proof. exact failed_command_changes_nothing. Qed.

(* Non-vacuity: a concrete failing transaction over a non-trivial state (a locked key, a session
   bound to a check); the same transaction without the failing operation does have effects. *)
Theorem C05_example :
  let s := (run ld_log st0).1 in
  (txn_rw 4 ld_txn s).2 = CTxn [] [(1%nat, ENotFound)] /\ (txn_rw 4 ld_txn s).1 = s /\
  (exists e, kvs s !! "a" = Some e /\ kv_session e = "s1") /\
  lockdelay (txn_rw 4 [TCheck CSet (CheckReq "n1" "c1" 2 "" false "" 0 0)] s).1 = {["a"]}.
Proof. exact txn_failed_example. Qed.

Print Assumptions C05_all_or_nothing.
Print Assumptions C05_commit_is_sequential.
Print Assumptions C05_txn_kv_is_command.
Print Assumptions C05_ro_pure.
Print Assumptions C05_one_index.
Print Assumptions C05_one_index_command.
Print Assumptions C05_one_index_example.
Print Assumptions C05_no_fuel.
Print Assumptions C05_failed_command_changes_nothing.
Print Assumptions C05_example.
