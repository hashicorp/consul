(* C18 — resource store: version CAS, stable UIDs, ordered watches.
   The theorems, proved from the lemmas of Resource/{CasProofs,RaftProofs,WatchProofs}.v.
   Model: Resource/Model.v (inmem.Store/Backend + the part of agent/consul/stream the watches ride on).
   [run st ops] executes a schedule; [step st o] returns (state, output);
   [lk k st] is the stored row of id k; [glog st ops] the commits of a run (read off the outputs of the
   successful writes and deletes), [deliv n st ops] what watch n returned from Next. *)
From Verif Require Import Base.Prelude Resource.Model Resource.TableProofs Resource.CasProofs
     Resource.RaftProofs Resource.WatchDefs Resource.WatchLemmas Resource.WatchProofs Resource.Examples Resource.RaftWatch.
Local Open Scope N_scope.

(* ---- version CAS: of any writes presenting the same version for the same id at most one succeeds
   (two only for the empty version, with a delete of the id in between).
   For ALL schedules of backend operations (any interleaving with other writes, deletes, reads, lists,
   watch and publisher steps) from any state whose versions were handed out by the counter: if two
   writes present the same version for one id and both succeed, the version is the empty one
   ("create") and the id was deleted in between. *)
Theorem C18_cas_exclusive : forall st a r1 b r2 x y,
  vb st -> forallb backend_op (a ++ OWrite r1 :: b) = true ->
  r_id r1 = r_id r2 -> r_version r1 = r_version r2 ->
  let s1 := run st a in
  let s1' := fst (step s1 (OWrite r1)) in
  let s2 := run s1' b in
  snd (step s1 (OWrite r1)) = OutRes x ->
  snd (step s2 (OWrite r2)) = OutRes y ->
  r_version r1 = 0 /\
  exists b1 d b2, b = b1 ++ d :: b2 /\ effective_delete (run s1' b1) d (r_id r1).
Proof.
  intros st a r1 b r2 x y Hvb Hb Hid Hver s1 s1' s2 H1 H2.
  destruct (backend_run_then a (OWrite r1) b st Hvb Hb) as (Hv1 & Ha & Hb').
  eapply (accepted_twice _ s1 (OWrite r1) _ (with_version r1 (s_vsn s1 + 1)) _ b _ (OWrite r2)); [exact Hv1 | exact Ha | reflexivity | right; eauto | exact Hb' | | | right; eauto].
  - cbn [write_of]. rewrite Hver. reflexivity.
  - symmetry; exact Hid.
Qed.

(* ---- UIDs are stable. *)
Theorem C18_uid_write_keeps : forall st r x ex,
  lk (r_id r) st = Some ex -> snd (step st (OWrite r)) = OutRes x -> r_uid x = r_uid ex /\ r_uid r = r_uid ex.
Proof.
  intros st r x ex Hl H. cbn [step] in H.
  destruct (backend_write_cases st r) as [[Hacc E]|(_ & _ & [E|E])]; rewrite E in H; try discriminate.
  injection H as <-. unfold accept in Hacc. cbn in Hacc. rewrite Hl in Hacc. destruct Hacc as [Hu _]. cbn. auto.
Qed.

Theorem C18_uid_mismatch_rejected : forall st r ex,
  lk (r_id r) st = Some ex -> r_uid r <> r_uid ex ->
  snd (step st (OWrite r)) = OutErr EWrongUid /\ s_res (fst (step st (OWrite r))) = s_res st.
Proof.
  intros st r ex Hl Hn. cbn [step]. unfold backend_write.
  rewrite (store_write_wronguid (set_vsn st (s_vsn st + 1)) (with_version r (s_vsn st + 1)) (r_version r) ex);
    [split; reflexivity| exact Hl | cbn; congruence].
Qed.

(* over any restore-free schedule (Store-level writes included) during which the id stays stored *)
Theorem C18_uid_stable : forall k ops st r r',
  forallb no_restore ops = true ->
  (forall p q, ops = p ++ q -> lk k (run st p) <> None) ->
  lk k st = Some r -> lk k (run st ops) = Some r' -> r_uid r' = r_uid r.
Proof.
  intros k ops. induction ops as [|o ops IH]; intros st r r' Hnr Hlive Hl Hl'; cbn in *; [congruence|].
  apply andb_true_iff in Hnr as [Ho Hnr].
  destruct (lk k (fst (step st o))) as [m|] eqn:E.
  - rewrite (IH (fst (step st o)) m r' Hnr); [eapply step_uid; eassumption| |exact E|exact Hl'].
    intros p q Hpq. specialize (Hlive (o :: p) q). cbn in Hlive. apply Hlive. congruence.
  - exfalso. apply (Hlive [o] ops eq_refl). exact E.
Qed.

(* ---- a re-created resource is a new lifetime: once an id that carried version v_old has been absent,
   no write presenting v_old is accepted and no delete presenting v_old has any effect, whatever uid they carry;
   and a stale uid can neither write nor delete. *)
Theorem C18_new_lifetime : forall st a b c r_old,
  vb st -> forallb backend_op (a ++ b ++ c) = true ->
  let k := r_id r_old in
  let s_i := run st a in
  let s_j := run s_i b in
  let s_m := run s_j c in
  lk k s_i = Some r_old -> lk k s_j = None ->
  (forall r, r_id r = k -> r_version r = r_version r_old ->
     (snd (step s_m (OWrite r)) = OutErr ECAS \/ snd (step s_m (OWrite r)) = OutErr EWrongUid) /\
     s_res (fst (step s_m (OWrite r))) = s_res s_m) /\
  (forall uid, s_res (fst (step s_m (ODelete k uid (r_version r_old)))) = s_res s_m).
Proof.
  intros st a b c r_old Hvb Hb k s_i s_j s_m Hi Hj.
  rewrite forallb_app in Hb. apply andb_true_iff in Hb as [Hba Hbc].
  destruct (lifetime_over k (s_vsn s_i) s_i r_old b c _ (run_vb _ _ Hba Hvb) Hi (backend_advs _ _ Hbc) Hj) as [Hpos Hd].
  fold s_j s_m in Hd. split.
  - intros r Hk Hv. cbn [step]. destruct (backend_write_cases s_m r) as [[Hacc _]|(_ & -> & Ho)]; [|auto].
    rewrite Hv in Hacc. destruct (dead_accept _ _ _ _ Hd Hk Hacc). lia.
  - intros uid. rewrite (dead_delete _ _ _ uid Hd). reflexivity.
Qed.

Theorem C18_stale_uid_powerless : forall st k r_new uid,
  lk k st = Some r_new -> uid <> r_uid r_new ->
  (forall r, r_id r = k -> r_uid r = uid ->
     snd (step st (OWrite r)) = OutErr EWrongUid /\ s_res (fst (step st (OWrite r))) = s_res st) /\
  (forall v, step st (ODelete k uid v) = (st, OutOk)).
Proof.
  intros st k r_new uid Hl Hn. split.
  - intros r Hk Hu. apply (C18_uid_mismatch_rejected st r r_new); congruence.
  - intros v. cbn [step]. unfold store_delete. unfold lk in Hl. rewrite Hl.
    apply str_eqb_neq in Hn. rewrite Hn. reflexivity.
Qed.

(* ---- a version consumed by a successful write cannot be used by a later delete either (both paths). *)
Theorem C18_write_then_delete : forall st a r b uid x,
  vb st -> forallb backend_op (a ++ OWrite r :: b) = true -> r_version r <> 0 ->
  let s1 := run st a in
  let s2 := run (fst (step s1 (OWrite r))) b in
  snd (step s1 (OWrite r)) = OutRes x ->
  s_res (fst (step s2 (ODelete (r_id r) uid (r_version r)))) = s_res s2.
Proof.
  intros st a r b uid x Hvb Hb _ s1 s2 H1.
  destruct (backend_run_then a (OWrite r) b st Hvb Hb) as (Hv1 & Ha & Hb').
  apply (f_equal s_res).
  eapply (written_then_delete _ s1 (OWrite r) _ (with_version r (s_vsn s1 + 1))); [exact Hv1 | exact Ha | reflexivity | right; eauto | exact Hb'].
Qed.

(* ---- the same three clauses for the Raft-backed path: raft.Backend.Apply -> Store.WriteCAS(res, presented)
   with res.Version = the log index ([OWriteS], caller-chosen version) and snapshot restores in the schedule.
   The only assumption is the discipline Raft itself provides, stated on the schedule alone ([raft_ok B ops]):
   no Backend-counter writes, every written version exceeds every version in use so far (B, raised by each
   write and by each restore to the largest version it installs), restored rows carry a version >= 1.
   [vbb B st]: the rows of st have versions in 1..B (true of the empty store for any B, C18_vbb_init, and
   maintained across restores by raft_ok). *)
(* [a] may contain restores; between the two writes a restore may legitimately re-install version v (a
   rollback), which is why [b] is restore-free: exclusion is per epoch, the bound carries across epochs. *)
Theorem C18_raft_cas_exclusive : forall B st a r1 v b r2,
  vbb B st -> raft_ok B (a ++ OWriteS r1 v :: b ++ [OWriteS r2 v]) -> forallb no_restore b = true ->
  r_id r1 = r_id r2 ->
  let s1 := run st a in
  let s1' := fst (step s1 (OWriteS r1 v)) in
  let s2 := run s1' b in
  snd (step s1 (OWriteS r1 v)) = OutOk ->
  snd (step s2 (OWriteS r2 v)) = OutOk ->
  v = 0 /\ exists b1 d b2, b = b1 ++ d :: b2 /\ effective_delete (run s1' b1) d (r_id r1).
Proof.
  intros B st a r1 v b r2 Hv Hok Hnr Hid s1 s1' s2 H1 H2.
  destruct (raft_run_then a (OWriteS r1 v) b B st _ Hv Hok Hnr) as (Hv1 & Ha & Hb).
  eapply (accepted_twice _ s1 (OWriteS r1 v) _ _ _ b _ (OWriteS r2 v));
    [exact Hv1 | exact Ha | reflexivity | left; exact H1 | exact Hb | reflexivity | symmetry; exact Hid | left; exact H2].
Qed.

Theorem C18_raft_new_lifetime : forall B st a b c r_old,
  vbb B st -> raft_ok B (a ++ b ++ c) -> forallb no_restore (b ++ c) = true ->
  let k := r_id r_old in
  let s_i := run st a in
  let s_j := run s_i b in
  let s_m := run s_j c in
  lk k s_i = Some r_old -> lk k s_j = None ->
  (forall r, r_id r = k -> raft_bound B (a ++ b ++ c) < r_version r ->
     (snd (step s_m (OWriteS r (r_version r_old))) = OutErr ECAS \/ snd (step s_m (OWriteS r (r_version r_old))) = OutErr EWrongUid) /\
     fst (step s_m (OWriteS r (r_version r_old))) = s_m) /\
  (forall uid, s_res (fst (step s_m (ODelete k uid (r_version r_old)))) = s_res s_m).
Proof.
  intros B st a b c r_old Hv Hok Hnr k s_i s_j s_m Hi Hj.
  destruct (raft_run a B st _ Hv Hok) as (_ & Hvi & Hok1).
  destruct (lifetime_over k _ s_i r_old b c _ Hvi Hi (raft_advs _ _ s_i Hok1 Hnr) Hj) as [Hpos Hd].
  fold s_j s_m in Hd. split.
  - intros r Hk _. cbn [step]. destruct (store_write_cases s_m r (r_version r_old)) as [[Hacc _]|(_ & Hs & Ho)]; [|auto].
    destruct (dead_accept _ _ _ _ Hd Hk Hacc). lia.
  - intros uid. rewrite (dead_delete _ _ _ uid Hd). reflexivity.
Qed.

Theorem C18_raft_write_then_delete : forall B st a r v b uid,
  vbb B st -> raft_ok B (a ++ OWriteS r v :: b) -> forallb no_restore b = true -> v <> 0 ->
  let s1 := run st a in
  let s2 := run (fst (step s1 (OWriteS r v))) b in
  snd (step s1 (OWriteS r v)) = OutOk ->
  s_res (fst (step s2 (ODelete (r_id r) uid v))) = s_res s2.
Proof.
  intros B st a r v b uid Hv Hok Hnr _ s1 s2 H1. rewrite <- (app_nil_r b) in Hok.
  destruct (raft_run_then a (OWriteS r v) b B st _ Hv Hok Hnr) as (Hv1 & Ha & Hb).
  apply (f_equal s_res).
  eapply (written_then_delete _ s1 (OWriteS r v)); [exact Hv1 | exact Ha | reflexivity | left; exact H1 | exact Hb].
Qed.

(* the version bound survives every schedule that keeps the discipline, restores included *)
Theorem C18_raft_bound_kept : forall a B st c, vbb B st -> raft_ok B (a ++ c) ->
  B <= raft_bound B a /\ vbb (raft_bound B a) (run st a) /\ raft_ok (raft_bound B a) c.
Proof. exact raft_run. Qed.

(* for the inmem.Backend path: a restore of rows whose versions were handed out keeps [vb]; keys stay unique *)
Theorem C18_vb_after_restore : forall st l,
  (forall r, In r l -> 1 <= r_version r <= s_vsn st) -> vb (fst (step st (ORestore l))).
Proof.
  intros st l H k r Hl. unfold lk in Hl. cbn in Hl. apply lookup_in, in_restore_table in Hl. cbn. auto.
Qed.
Theorem C18_keys_unique_after_restore : forall st l, NoDup (keys (s_res (fst (step st (ORestore l))))).
Proof. intros st l. cbn. apply restore_table_nodup. Qed.

(* ---- reads: Store.Read in terms of the stored row; a reader naming the uid of another (deleted) lifetime is
   told not-found whatever GroupVersion it speaks. *)
Theorem C18_read_spec : forall st k gv uid,
  snd (step st (ORead k gv uid)) =
  match lk k st with
  | None => OutErr ENotFound
  | Some r => if negb (str_eqb uid []) && negb (str_eqb (r_uid r) uid) then OutErr ENotFound
              else if negb (str_eqb gv (r_gv r)) then OutGVM r else OutRes r
  end.
Proof. reflexivity. Qed.
Theorem C18_read_stale_uid_notfound : forall st k gv uid r,
  lk k st = Some r -> uid <> [] -> uid <> r_uid r -> snd (step st (ORead k gv uid)) = OutErr ENotFound.
Proof.
  intros st k gv uid r Hl H1 H2. rewrite C18_read_spec, Hl. apply str_eqb_neq in H1. rewrite H1.
  assert (str_eqb (r_uid r) uid = false) as -> by (apply str_eqb_neq; congruence). reflexivity.
Qed.

(* ---- watches, for ALL schedules of commits, publications, opens, nexts, closes, cache evictions and
   restores.  A schedule is a sequence of epochs separated by restores; every restore leaves a clean
   state (C18_restore_clean: Restoration.Commit makes the publisher drop whatever is still queued, the
   topic buffers and the cached snapshots, and closes the watches), and so is the initial state.
   For the watch opened by [OWatch q] in the restore-free stretch [pre ++ OWatch q :: mid] of an epoch
   that starts in the clean state st0, and for ANY continuation [post] (nothing, or the next restore
   followed by arbitrary operations, further restores included):
   the events the watch returns over the whole schedule are a prefix of [ideal q T La] = the full match
   set of the table T at a snapshot point Lp (a prefix of the epoch's commit log, not later than the
   open), end-of-snapshot, then exactly the matching commits of the epoch after that point, in commit
   order, none twice, none skipped - in particular for a watch opened while commits are queued but
   unpublished (finding 13) and for a watch opened right after a restore that found batches queued or
   old watches unreleased (the restore-residue finding, repaired by d82b299); and while the epoch lasts, when nothing
   is queued and Next would block, the watch has been given all of it. *)
Theorem C18_watch_complete_ordered : forall st0 pre q mid post,
  clean st0 -> forallb no_restore (pre ++ OWatch q :: mid) = true ->
  (post = [] \/ exists l post', post = ORestore l :: post') ->
  let ops1 := pre ++ OWatch q :: mid in
  let n := List.length (s_watches (run st0 pre)) in
  snd (step (run st0 pre) (OWatch q)) = OutWatch n /\
  exists Lp La,
    glog st0 ops1 = Lp ++ La /\ (List.length Lp <= List.length (glog st0 pre))%nat /\
    (exists rest, deliv n st0 (ops1 ++ post) ++ rest = ideal q (replay (s_res st0) Lp) La) /\
    (s_queue (run st0 ops1) = [] -> snd (step (run st0 ops1) (ONext n)) = OutNoEvent ->
     deliv n st0 ops1 = ideal q (replay (s_res st0) Lp) La).
Proof.
  intros st0 pre q mid post Hc Hnr Hpost ops1 n.
  destruct (watch_epoch_core st0 pre q mid Hc Hnr) as (H1 & Lp & La & H2 & H3 & (w & rest & Hn & Hq & H4) & H5).
  fold ops1 in H2, Hn, H4, H5. fold n in Hn, H4, H5. split; [exact H1|]. exists Lp, La. repeat (split; [assumption|]). split; [|exact H5].
  destruct Hpost as [->|(l & post' & ->)].
  - rewrite app_nil_r. exists (evs q (w_events w) ++ rest). exact H4.
  - (* the restore closes the watch *)
    rewrite deliv_app. cbn [deliv]. change (next_of n (run st0 ops1) (ORestore l)) with (@nil wev). cbn [app].
    assert (Hcl : closed_prefix n q (ideal q (replay (s_res st0) Lp) La) (fst (step (run st0 ops1) (ORestore l))) (deliv n st0 ops1)).
    { exists (force_close w). split; [cbn; rewrite nth_error_map, Hn; reflexivity|]. cbn.
      split; [exact Hq|]. split; [destruct (w_state w); discriminate|]. exists rest. exact H4. }
    apply (closed_run _ _ _ post') in Hcl. destruct Hcl as (w' & _ & _ & _ & rest' & Heq).
    exists (evs q (w_events w') ++ rest'). exact Heq.
Qed.

Theorem C18_restore_clean : forall st l, clean (fst (step st (ORestore l))).
Proof. exact restore_clean. Qed.

(* the same, spelled out for an arbitrary schedule from the initial state: [a] is anything, restores included *)
Theorem C18_watch_complete_ordered_from_init : forall a l pre q mid post,
  forallb no_restore (pre ++ OWatch q :: mid) = true ->
  (post = [] \/ exists l' post', post = ORestore l' :: post') ->
  let st0 := fst (step (run init a) (ORestore l)) in
  let ops1 := pre ++ OWatch q :: mid in
  let n := List.length (s_watches (run st0 pre)) in
  exists Lp La,
    glog st0 ops1 = Lp ++ La /\ (List.length Lp <= List.length (glog st0 pre))%nat /\
    (exists rest, deliv n st0 (ops1 ++ post) ++ rest = ideal q (replay (s_res st0) Lp) La) /\
    (s_queue (run st0 ops1) = [] -> snd (step (run st0 ops1) (ONext n)) = OutNoEvent ->
     deliv n st0 ops1 = ideal q (replay (s_res st0) Lp) La).
Proof.
  intros a l pre q mid post H1 H2.
  exact (proj2 (C18_watch_complete_ordered _ pre q mid post (restore_clean (run init a) l) H1 H2)).
Qed.

(* every event a watch returns was committed earlier in the run (or is a row of the starting state) *)
Theorem C18_delivered_committed : forall st0 ops n e,
  clean st0 -> forallb no_restore ops = true -> (List.length (s_watches st0) <= n)%nat ->
  In e (deliv n st0 ops) ->
  match e with
  | Upsert r => In r (s_res st0) \/ In (Upsert r) (map snd (glog st0 ops))
  | Delete r => In (Delete r) (map snd (glog st0 ops))
  | EndOfSnapshot => True
  end.
Proof. exact delivered_committed. Qed.

(* ---- the stored row after an event (every read, uid-qualified or not, is a function of it: C18_read_spec).
   The row the event carries WAS the stored row at a point a1 of the run before the Next; afterwards the id
   holds a version >= it, or is absent and then an effective delete lies AFTER that point; after a delete
   event of version v the id is absent or holds a version > v.  Both paths. *)
Theorem C18_row_after_event : forall st0 a n e b,
  clean st0 -> vb st0 -> NoDup (keys (s_res st0)) ->
  forallb backend_op (a ++ ONext n :: b) = true -> (List.length (s_watches st0) <= n)%nat ->
  let s1 := run st0 a in
  snd (step s1 (ONext n)) = OutEvent e ->
  let s2 := run (fst (step s1 (ONext n))) b in
  match e with
  | Upsert r =>
      exists a1 a2, a = a1 ++ a2 /\ lk (r_id r) (run st0 a1) = Some r /\
        match lk (r_id r) s2 with
        | Some r' => r_version r <= r_version r'
        | None => exists c1 d c2, a2 ++ ONext n :: b = c1 ++ d :: c2 /\ effective_delete (run (run st0 a1) c1) d (r_id r)
        end
  | Delete r => match lk (r_id r) s2 with Some r' => r_version r < r_version r' | None => True end
  | EndOfSnapshot => True
  end.
Proof.
  intros st0 a n e b Hclean Hvb Hnd Hb Hge.
  exact (row_after_event (s_vsn st0) st0 a n e b _ Hclean Hvb Hnd (backend_advs _ st0 Hb) Hge).
Qed.

Theorem C18_raft_row_after_event : forall B st0 a n e b,
  clean st0 -> vbb B st0 -> NoDup (keys (s_res st0)) ->
  raft_ok B (a ++ ONext n :: b) -> forallb no_restore (a ++ ONext n :: b) = true ->
  (List.length (s_watches st0) <= n)%nat ->
  let s1 := run st0 a in
  snd (step s1 (ONext n)) = OutEvent e ->
  let s2 := run (fst (step s1 (ONext n))) b in
  match e with
  | Upsert r =>
      exists a1 a2, a = a1 ++ a2 /\ lk (r_id r) (run st0 a1) = Some r /\
        match lk (r_id r) s2 with
        | Some r' => r_version r <= r_version r'
        | None => exists c1 d c2, a2 ++ ONext n :: b = c1 ++ d :: c2 /\ effective_delete (run (run st0 a1) c1) d (r_id r)
        end
  | Delete r => match lk (r_id r) s2 with Some r' => r_version r < r_version r' | None => True end
  | EndOfSnapshot => True
  end.
Proof.
  intros B st0 a n e b Hclean Hvb Hnd Hok Hnr Hge.
  exact (row_after_event B st0 a n e b _ Hclean Hvb Hnd (raft_advs _ B st0 Hok Hnr) Hge).
Qed.

(* ---- a read made after receiving an event is not older than the event: after an upsert of version v
   the read returns a version >= v, or not-found and the id was deleted by a step of the run; after a
   delete event of version v it returns not-found or a version > v (a new lifetime). *)
Theorem C18_read_after_event : forall st0 a n e b gv,
  clean st0 -> vb st0 -> NoDup (keys (s_res st0)) ->
  forallb backend_op (a ++ ONext n :: b) = true -> (List.length (s_watches st0) <= n)%nat ->
  let s1 := run st0 a in
  snd (step s1 (ONext n)) = OutEvent e ->
  let s2 := run (fst (step s1 (ONext n))) b in
  match e with
  | Upsert r =>
      (exists r', read_sees s2 (r_id r) gv r' /\ r_version r <= r_version r') \/
      (snd (step s2 (ORead (r_id r) gv [])) = OutErr ENotFound /\
       exists c1 d c2, a ++ ONext n :: b = c1 ++ d :: c2 /\ effective_delete (run st0 c1) d (r_id r))
  | Delete r =>
      (exists r', read_sees s2 (r_id r) gv r' /\ r_version r < r_version r') \/
      snd (step s2 (ORead (r_id r) gv [])) = OutErr ENotFound
  | EndOfSnapshot => True
  end.
Proof.
  intros st0 a n e b gv Hclean Hvb Hnd Hb Hge s1 Hout s2.
  pose proof (C18_row_after_event st0 a n e b Hclean Hvb Hnd Hb Hge Hout) as H. fold s1 s2 in H. cbn zeta in H.
  destruct e as [r|r|]; [| |exact I].
  - destruct H as (a1 & a2 & Ha & Hl & H). pose proof (read_row s2 (r_id r) gv) as Hr.
    destruct (lk (r_id r) s2) as [r'|].
    + left. exists r'. split; [exact Hr|exact H].
    + right. split; [exact Hr|]. destruct H as (c1 & d & c2 & Hc12 & Hd).
      exists (a1 ++ c1), d, c2. rewrite run_app. split; [|exact Hd]. rewrite Ha, <- !app_assoc, <- Hc12. reflexivity.
  - pose proof (read_row s2 (r_id r) gv) as Hr. destruct (lk (r_id r) s2) as [r'|]; [left; exists r'; split; [exact Hr|exact H]|right; exact Hr].
Qed.

(* ---- the hypotheses are met (clean: the initial state and the state after every restore), the two
   restore schedules of Resource/Examples.v show the repaired behaviour, and the watch theorem speaks
   about non-empty deliveries. *)
Example C18_clean_init : clean init.
Proof. unfold clean, init. cbn. repeat split; try constructor. lia. Qed.
Example C18_vb_init : vb init /\ NoDup (keys (s_res init)).
Proof. split; [intros k r H; discriminate|constructor]. Qed.
Example C18_restore_drops_queued_batch :
  deliv 0 (after_restore pre_a) (OWatch xq :: post_a) = [EndOfSnapshot] /\
  outs (after_restore pre_a) (OWatch xq :: post_a)
    = [OutWatch 0; OutEvent EndOfSnapshot; OutNoEvent; OutBool true; OutNoEvent].
Proof. vm_compute. split; reflexivity. Qed.
Example C18_restore_then_commit_delivered :
  deliv 1 (after_restore pre_b) (OWatch xq :: post_b) = [EndOfSnapshot; Upsert (xres [98] [117;50] 2 2)] /\
  glog (after_restore pre_b) (OWatch xq :: post_b) = [(3, Upsert (xres [98] [117;50] 2 2))] /\
  last (outs (after_restore pre_b) (OWatch xq :: post_b)) OutOk = OutErr EWatchClosed.
Proof. vm_compute. repeat split; reflexivity. Qed.
Example C18_vbb_init : forall B, vbb B init.
Proof. intros B k r H. discriminate. Qed.
Example C18_raft_schedule_with_restore :
  raft_ok 0 raft_demo /\ outs init raft_demo = [OutOk; OutOk; OutOk; OutOk] /\ raft_bound 0 raft_demo = 9.
Proof. cbn. repeat split; try lia. intros r [<-|[]]. cbn. lia. Qed.
Example C18_hypotheses_after_restore :
  let st := fst (step (run init [OWrite (zres [97] [117;49] 0 1); OWrite (zres [98] [117;50] 0 2)])
                      (ORestore [zres [97] [117;49] 1 1; zres [98] [117;50] 2 2])) in
  clean st /\ vb st /\ NoDup (keys (s_res st)) /\ s_res st <> [].
Proof.
  cbn zeta. split; [apply restore_clean|]. split; [|split; [apply C18_keys_unique_after_restore|vm_compute; discriminate]].
  apply C18_vb_after_restore. intros r [<-|[<-|[]]]; vm_compute; split; discriminate.
Qed.
Example C18_completeness_antecedent_met :
  exists Lp La, glog init demo = Lp ++ La /\ List.length Lp = 2%nat /\ List.length La = 1%nat /\
    s_queue (run init demo) = [] /\ snd (step (run init demo) (ONext 0)) = OutNoEvent /\
    deliv 0 init demo = ideal xq (replay (s_res init) Lp) La.
Proof.
  exists [(3, Upsert (xres [97] [117;49] 1 1)); (4, Upsert (xres [97] [117;49] 2 2))], [(5, Upsert (xres [97] [117;49] 3 3))].
  vm_compute. repeat split; reflexivity.
Qed.
Example C18_lifetime_hypotheses_met :
  let a := [OWrite (zres [97] [117;49] 0 1)] in
  let b := [ODelete (zk [97]) [117;49] 1] in
  let c := [OWrite (zres [97] [117;50] 0 2)] in
  forallb backend_op (a ++ b ++ c) = true /\
  lk (zk [97]) (run init a) = Some (zres [97] [117;49] 1 1) /\ lk (zk [97]) (run (run init a) b) = None /\
  lk (zk [97]) (run (run (run init a) b) c) = Some (zres [97] [117;50] 2 2) /\
  snd (step (run (run (run init a) b) c) (OWrite (zres [97] [117;50] 1 9))) = OutErr ECAS.
Proof. vm_compute. repeat split; reflexivity. Qed.
Example C18_uid_stable_hypotheses_met :
  let st := run init [OWrite (zres [97] [117;49] 0 1)] in
  let ops := [OWrite (zres [97] [117;49] 1 2); ORead (zk [97]) [118;49] []] in
  forallb no_restore ops = true /\ (forall p q, ops = p ++ q -> lk (zk [97]) (run st p) <> None) /\
  exists r r', lk (zk [97]) st = Some r /\ lk (zk [97]) (run st ops) = Some r' /\ r_version r <> r_version r'.
Proof.
  cbn zeta. split; [reflexivity|]. split.
  - intros p q H. destruct p as [|o1 [|o2 [|o3 p]]]; cbn in H.
    + vm_compute. discriminate.
    + injection H as <- _. vm_compute. discriminate.
    + injection H as <- <- _. vm_compute. discriminate.
    + destruct q; discriminate.
  - exists (zres [97] [117;49] 1 1), (zres [97] [117;49] 2 2). vm_compute. split; [reflexivity|]. split; [reflexivity|discriminate].
Qed.
Example C18_gap_watch_delivers :
  deliv 0 init demo = [Upsert (xres [97] [117;49] 2 2); EndOfSnapshot; Upsert (xres [97] [117;49] 3 3)].
Proof. vm_compute. reflexivity. Qed.

Print Assumptions C18_cas_exclusive.
Print Assumptions C18_uid_write_keeps.
Print Assumptions C18_uid_mismatch_rejected.
Print Assumptions C18_uid_stable.
Print Assumptions C18_new_lifetime.
Print Assumptions C18_stale_uid_powerless.
Print Assumptions C18_watch_complete_ordered.
Print Assumptions C18_watch_complete_ordered_from_init.
Print Assumptions C18_delivered_committed.
Print Assumptions C18_read_after_event.
Print Assumptions C18_clean_init.
Print Assumptions C18_vb_init.
Print Assumptions C18_restore_clean.
Print Assumptions C18_restore_drops_queued_batch.
Print Assumptions C18_restore_then_commit_delivered.
Print Assumptions C18_gap_watch_delivers.
Print Assumptions C18_write_then_delete.
Print Assumptions C18_raft_cas_exclusive.
Print Assumptions C18_raft_new_lifetime.
Print Assumptions C18_raft_write_then_delete.
Print Assumptions C18_raft_bound_kept.
Print Assumptions C18_vb_after_restore.
Print Assumptions C18_keys_unique_after_restore.
Print Assumptions C18_read_spec.
Print Assumptions C18_read_stale_uid_notfound.
Print Assumptions C18_row_after_event.
Print Assumptions C18_raft_row_after_event.
Print Assumptions C18_vbb_init.
Print Assumptions C18_raft_schedule_with_restore.
Print Assumptions C18_hypotheses_after_restore.
Print Assumptions C18_completeness_antecedent_met.
Print Assumptions C18_lifetime_hypotheses_met.
Print Assumptions C18_uid_stable_hypotheses_met.
