(* C09 — ACL enforcement: nothing unreadable returned, expired tokens never honoured.
   Each theorem follows in a few lines from the lemmas of
   Filter/{Loops,Proofs,Items,Switch,Deviations,ResolveProofs}.v.
   The authorizer [az] is an arbitrary record of functions: everything holds for ALL authorizers.
   Readability of each element kind ([readable_*]), the declarative result of every branch of the
   type switch ([spec_response]) and the flattened view ([items], [ids], [flag_of]) are in Filter/Spec.v. *)
From Verif Require Import Base.Prelude.
From Verif Require Import Base.Lists.
From Verif Require Import Filter.Model.
From Verif Require Import Filter.Loops.
From Verif Require Import Filter.Spec.
From Verif Require Import Filter.Proofs.
From Verif Require Import Filter.Items.
From Verif Require Import Filter.Switch.
From Verif Require Import Filter.Deviations.
From Verif Require Import Filter.ResolveModel.
From Verif Require Import Filter.ResolveProofs.
From Coq Require Import Permutation.

Section C09.
  Variable az : authz.

  (* ---------- the loops ---------- *)

  (* "for i := 0; i < len(s); i++ { if keep(s[i]) {continue}; removed = true; s = append(s[:i], s[i+1:]...); i-- }"
     is List.filter and reports exactly whether something was dropped — adjacent removals, first,
     last, all, none; for every fuel that covers the list. *)
  Theorem C09_loop_is_filter : forall (A : Type) (keep : A -> bool) (fuel : nat) (s : list A),
    List.length s <= fuel ->
    inplace_loop keep fuel 0 s false = (filter keep s, negb (forallb keep s)).
  Proof. intros A keep fuel s. apply (inplace_loop_app keep []). Qed.

  (* at every index of the walk: the prefix is final, the rest is still to be filtered *)
  Theorem C09_loop_invariant : forall (A : Type) (keep : A -> bool) (fuel i : nat) (s : list A) (r : bool),
    List.length s - i <= fuel ->
    inplace_loop keep fuel i s r = (firstn i s ++ filter keep (skipn i s), r || negb (forallb keep (skipn i s))).
  Proof.
    intros A keep fuel i s r Hf. destruct (Nat.le_gt_cases i (List.length s)) as [Hi|Hi].
    - pose proof (inplace_loop_app keep (firstn i s) (skipn i s) fuel r) as H.
      rewrite firstn_skipn, firstn_length_le, skipn_length in H by exact Hi. exact (H Hf).
    - (* past the end the loop stops at once *)
      rewrite skipn_all2, firstn_all2 by lia. cbn. rewrite app_nil_r, orb_false_r.
      destruct fuel; cbn [inplace_loop]; [reflexivity|].
      rewrite (proj2 (nth_error_None s i)) by lia. reflexivity.
  Qed.

  (* the "range + append to a fresh slice" loops *)
  Theorem C09_range_is_filter : forall (A : Type) (keep : A -> bool) (l : list A),
    range_filter keep l = (filter keep l, negb (forallb keep l)).
  Proof. exact (@range_filter_spec). Qed.

  (* FilterEntries (span compaction with Move) used by FilterDirEnt / FilterTxnResults *)
  Theorem C09_compact_is_filter : forall (A : Type) (filtered : A -> bool) (a : list A),
    filter_slice filtered a = filter (fun x => negb (filtered x)) a.
  Proof. exact (@compact_is_filter). Qed.

  (* ---------- the whole type switch ---------- *)

  (* Every branch of Filter.Filter computes the declarative result: the readable elements in
     their original order and multiplicity, nested lists filtered the same way, emptied
     datacenters / peers dropped, secrets hidden, the flag exactly as specified. *)
  Theorem C09_filter_exact : forall r, wf r -> filter_response az r = spec_response az r.
  Proof. exact (switch_exact az). Qed.

  (* every returned element (at every nesting level) is readable under the authorizer
     (by identifier; [C09_complete] below, the equation of the identifier lists, is the statement that
     carries the clause and gives this one too) *)
  Theorem C09_sound : forall r, wf r -> forall i, In i (ids (filter_response az r)) ->
    exists it, In it (items az r) /\ it_id it = i /\ it_readable it = true.
  Proof.
    intros r H i Hi. rewrite switch_exact, spec_complete in Hi by assumption.
    apply in_map_iff in Hi as (it & Hid & Hin). apply filter_In in Hin as [Hin Hr]. eauto.
  Qed.

  (* every readable element is returned: same order, same multiplicity, nothing else *)
  Theorem C09_complete : forall r, wf r ->
    ids (filter_response az r) = map it_id (filter it_readable (items az r)).
  Proof. intros r H. rewrite switch_exact by assumption. apply spec_complete. Qed.

  (* the flag afterwards, for every response type that has one: set exactly when this run removed
     an element whose removal is reported — whatever the flag was on entry (a blocking query
     re-runs its function on the same reply; since a96cac5 every branch assigns the flag) *)
  Theorem C09_flag : forall r, wf r ->
    match flag_of (filter_response az r) with
    | Some f' => f' = existsb bad_item (items az r)
    | None => flag_of r = None
    end.
  Proof. intros r H. rewrite switch_exact by assumption. apply spec_flag. Qed.

  Theorem C09_flag_iff : forall r f', wf r -> flag_of (filter_response az r) = Some f' ->
    (f' = true <-> exists it, In it (items az r) /\ it_readable it = false /\ it_flagged it = true).
  Proof.
    intros r f' Hwf Hf. pose proof (C09_flag r Hwf) as H. rewrite Hf in H.
    subst f'. rewrite existsb_exists. unfold bad_item. split.
    - intros (it & Hin & Hb). apply andb_true_iff in Hb as [Hb1 Hb2]. apply negb_true_iff in Hb1. eauto.
    - intros (it & Hin & Hr & Hfl). exists it. rewrite Hr, Hfl. auto.
  Qed.

  (* ---------- the filters' predicates against ONE independent rule of readability ----------
     rule: the node under the element's own peer context, and every service the element names
     ([may_node], [may_service]; an element naming no service needs no service permission) *)
  Theorem C09_rule_check : forall c, readable_check az c = ideal_check az c.
  Proof. reflexivity. Qed.
  Theorem C09_rule_service_node : forall n, readable_snode az n = ideal_snode az n.
  Proof. reflexivity. Qed.
  Theorem C09_rule_node_service : forall n s, readable_nsvc_on az n s = ideal_nsvc_on az n s.
  Proof. reflexivity. Qed.
  Theorem C09_rule_node_check : forall n c, readable_check_on az n c = ideal_check_on az n c.
  Proof. reflexivity. Qed.
  Theorem C09_rule_service_info : forall s, readable_svcinfo az s = ideal_svcinfo az s.
  Proof. reflexivity. Qed.
  (* deviation empty-service-name (filter stricter): holds for named services *)
  Theorem C09_rule_csn_partial : forall l,
    forallb (fun c => negb (str_empty (c_svc c))) l = true ->
    filter_csns az l = (filter (ideal_csn az) l, removed (ideal_csn az) l).
  Proof.
    intros l H. rewrite filter_csns_exact. apply filter_removed_ext_in. intros c Hc.
    apply csn_ideal_partial, negb_true_iff. exact (proj1 (forallb_forall _ l) H c Hc).
  Qed.
  Theorem C09_rule_service_name_partial : forall s,
    str_empty (sv_name s) = false -> readable_svcname az s = ideal_svcname az s.
  Proof. intros s H. unfold readable_svcname, ideal_svcname, may_service. rewrite H. reflexivity. Qed.
  (* gateway mappings of a service dump (all gateways): both names, as the rule says *)
  Theorem C09_rule_gateway_mapping : forall g,
    str_empty (gs_service g) = false -> readable_gwmapping az g = ideal_gwsvc az g.
  Proof.
    intros g Hs. unfold readable_gwmapping, ideal_gwsvc, may_service, svc_ok. rewrite Hs. cbn. apply andb_comm.
  Qed.
  (* deviation gateway-unchecked (IndexedGatewayServices only): holds when every gateway named is
     readable, which Catalog.GatewayServices establishes before it filters *)
  Theorem C09_rule_gateway_partial : forall l,
    forallb (fun g => may_service az EmptyString (gs_gateway g) && negb (str_empty (gs_service g))) l = true ->
    filter_gateway_services az l = (filter (ideal_gwsvc az) l, removed (ideal_gwsvc az) l).
  Proof.
    intros l H. rewrite filter_gateway_services_exact. apply filter_removed_ext_in. intros g Hg.
    apply (proj1 (forallb_forall _ l) H), andb_true_iff in Hg as [H1 H2].
    apply gwsvc_ideal_partial; [assumption|apply negb_true_iff; assumption].
  Qed.
  (* deviation service-list-node-context: NodeServiceList authorizes the node once, under the node's
     peer, and does not ask again under each service's own peer; holds when the instance carries
     its node's peer *)
  Theorem C09_rule_service_list_partial : forall (n : node) s,
    readable_node az n = true -> ns_peer s = nd_peer n ->
    readable_nsvc az s = ideal_nsvc_on az (nd_name n) s.
  Proof.
    intros n s Hn Hp. unfold readable_nsvc, ideal_nsvc_on, may_node, svc_ok, may_service. unfold readable_node in Hn.
    rewrite Hp, Hn. reflexivity.
  Qed.
  (* deviation txn-service-check: a service check in a transaction result needs only service:read
     (health endpoints need node:read as well); holds for node checks, and for service checks on
     a readable node *)
  Theorem C09_rule_txn_partial : forall r,
    match r with
    | TCheck _ n s p => str_empty s = true \/ may_node az p n = true
    | TSvc _ s _ => str_empty s = false
    | _ => True
    end -> readable_txn az r = ideal_txn az r.
  Proof.
    destruct r; cbn; try reflexivity.
    - intros H. unfold may_service. rewrite H. reflexivity.
    - unfold may_node, may_service. intros [H|H]; rewrite H; [rewrite andb_true_r|]; reflexivity.
  Qed.

  (* ---------- map-iterating branches: the runtime's iteration order does not matter ---------- *)

  Theorem C09_exported_any_order : forall ord m flag,
    NoDup (map fst ord) -> (forall kv, In kv ord <-> In kv m) ->
    exported_loop az ord m flag
    = (spec_groups (readable_svcname az) m, flag || group_removed (readable_svcname az) m).
  Proof. exact (exported_loop_exact az). Qed.

  Theorem C09_datacenters_any_order : forall ord m, Permutation ord m ->
    Permutation (fst (dc_loop az ord [] false)) (fst (filter_dc_nodes az m))
    /\ snd (dc_loop az ord [] false) = snd (filter_dc_nodes az m).
  Proof.
    intros ord m H. rewrite filter_dc_nodes_exact, dc_loop_spec. cbn [fst snd app orb]. split.
    - apply spec_groups_perm. assumption.
    - apply existsb_same_members, Permutation_same_members. assumption.
  Qed.

  Theorem C09_services_any_order : forall ord m,
    NoDup (map fst m) -> (forall kv, In kv ord <-> In kv m) ->
    filter_services_ord az ord m
    = (filter (fun kv => svc_ok az EmptyString (fst kv)) m,
       negb (forallb (fun kv => svc_ok az EmptyString (fst kv)) m)).
  Proof. exact (filter_services_ord_exact az). Qed.

  Theorem C09_node_services_any_order : forall ord n m,
    NoDup (map fst m) -> (forall kv, In kv ord <-> In kv m) ->
    filter_node_services_ord az ord (Some (n, m))
    = if readable_node az n
      then (Some (n, filter (fun kv => readable_nsvc_on az (nd_name n) (snd kv)) m),
            negb (forallb (fun kv => readable_nsvc_on az (nd_name n) (snd kv)) m))
      else (None, true).
  Proof. exact (filter_node_services_ord_exact az). Qed.

  (* ---------- nested node dumps ---------- *)
  Theorem C09_node_dump : forall l,
    filter_node_dump az l
    = (map (spec_nodeinfo az) (filter (readable_nodeinfo az) l), negb (forallb (nodeinfo_intact az) l)).
  Proof. exact (filter_node_dump_exact az). Qed.

  (* ---------- redaction ---------- *)
  Theorem C09_token_secrets_hidden : forall l t,
    acl_write az = false -> In (Some t) (filter_tokens az l) -> tk_secret t = redacted.
  Proof.
    intros l t Hw Hin. rewrite filter_tokens_exact in Hin. destruct (acl_read az); [|contradiction].
    apply in_map_iff in Hin as (t0 & Heq & _). injection Heq as <-. unfold spec_token. rewrite Hw. reflexivity.
  Qed.

  Theorem C09_query_tokens_hidden : forall l q,
    acl_write az = false -> In q (fst (filter_prepared_queries az l)) ->
    pq_token q = EmptyString \/ pq_token q = redacted.
  Proof.
    intros l q Hw Hin. rewrite filter_prepared_queries_exact in Hin. cbn [fst] in Hin.
    apply in_map_iff in Hin as (q0 & <- & _). unfold spec_query. rewrite Hw.
    destruct (str_empty (pq_token q0)) eqn:E; [left|right; reflexivity].
    destruct (pq_token q0); [reflexivity|discriminate].
  Qed.
End C09.

(* ---------- named deviations from the rule: witnesses ---------- *)

(* by contract: the IndexedGatewayServices branch (Catalog.GatewayServices) relies on its endpoint
   having authorized the one gateway it lists: handed a mapping of a gateway that may not be read,
   the filter returns it.  (The service-dump branch, which lists all gateways, checks the gateway
   itself since 3c2a402: [C09_rule_gateway_mapping].) *)
Theorem C09_gateway_unchecked_refuted :
  exists az g, readable_gwsvc az g = true /\ ideal_gwsvc az g = false
  /\ filter_response az (RIndexedGatewayServices [g] false) = RIndexedGatewayServices [g] false.
Proof. exists dev_az, (GS 1 "bad" "web"). repeat split. Qed.

Theorem C09_empty_service_name_refuted : exists az c, readable_csn az c = false /\ ideal_csn az c = true.
Proof. exists dev_az, (CSN 1 "n1" "" ""). split; reflexivity. Qed.

Theorem C09_service_list_node_context_refuted :
  exists az n s, readable_node az n = true /\ readable_nsvc az s = true /\ ideal_nsvc_on az (nd_name n) s = false.
Proof.
  exists (Authz (fun p _ => String.eqb p "") (fun _ _ => true) (fun _ => true) (fun _ => true) (fun _ => true) (fun _ => true) true true),
         (ND 1 "n1" ""), (NS 2 "web" "web" "peer1"). repeat split.
Qed.

Theorem C09_txn_service_check_refuted : exists az r, readable_txn az r = true /\ ideal_txn az r = false.
Proof. exists dev_az, (TCheck 1 "bad" "web" ""). split; reflexivity. Qed.

(* a NodeServiceList without a Node is returned as it is (filter.go returns early): services that
   may not be read pass.  Unreachable: the endpoint leaves Services empty when the node does not
   exist, the exact condition under which nothing passes (the partial theorem) *)
Theorem C09_nil_node_passthrough_refuted :
  exists az s, may_service az (ns_peer s) (ns_name s) = false
  /\ filter_response az (RIndexedNodeServiceList None [s] false) = RIndexedNodeServiceList None [s] false.
Proof. exists dev_az, (NS 1 "bad" "bad" ""). split; reflexivity. Qed.
Theorem C09_nil_node_passthrough_partial : forall az f,
  filter_response az (RIndexedNodeServiceList None [] f) = RIndexedNodeServiceList None [] false.
Proof. reflexivity. Qed.

(* by design: the entries of an intention MATCH REQUEST are kept or dropped together (one
   unreadable name drops readable ones too: the request is refused); without acl:write an unnamed,
   untemplated prepared query is never listed, whatever query rules the token has, and its removal
   is not flagged *)
Theorem C09_intention_match_all_or_nothing_refuted :
  exists az l i n, In (i, n) l /\ intention_read az n = true
  /\ filter_response az (RIntentionQueryMatch (Some l)) = RIntentionQueryMatch None.
Proof. exists dev_az, [(1%N, "web"%string); (2%N, "bad"%string)], 1%N, "web"%string. repeat split. left. reflexivity. Qed.
Theorem C09_intention_match_partial : forall az l,
  forallb (fun e => str_empty (snd e) || intention_read az (snd e)) l = true ->
  filter_response az (RIntentionQueryMatch (Some l)) = RIntentionQueryMatch (Some l).
Proof. intros az l H. rewrite switch_exact by exact I. cbn. rewrite H. reflexivity. Qed.
Theorem C09_unnamed_query_invisible : forall az q f,
  acl_write az = false -> query_named q = false ->
  filter_response az (RIndexedPreparedQueries [q] f) = RIndexedPreparedQueries [] false.
Proof.
  intros az q f Hw Hn. rewrite switch_exact by exact I. cbn. unfold readable_query. rewrite Hw, Hn. reflexivity.
Qed.

(* ---------- token expiry ---------- *)

(* ACLToken.IsExpired: expired iff it has a (non-zero) expiration time strictly before a non-zero reference time *)
Theorem C09_is_expired : forall t now,
  is_expired t now = true <-> now <> 0%N /\ exists e, id_exp t = Some e /\ e <> 0%N /\ (e < now)%N.
Proof. exact is_expired_spec. Qed.

(* Whatever ResolveToken grants passed the expiry test at the time of the attempt that granted
   it — for every cache state, backend, RPC answer, policy outcome, down policy, on every retry. *)
Theorem C09_granted_unexpired : forall acls cls env down cache t c',
  resolve_token acls cls env down cache = (OGranted t, c') ->
  exists k, k < max_retries /\ is_expired t (a_now (env k)) = false.
Proof.
  intros acls cls env down cache t c'. unfold resolve_token. destruct acls; cbn [negb]; [|discriminate].
  destruct cls; try discriminate.
  intros H. apply granted_offered in H as (k & _ & Hk & _ & _ & Hx). exists k. split; [lia|exact Hx].
Qed.

(* An identity that is expired when the attempt tests it — obtained from the backend, a fresh
   cache entry, a stale entry served asynchronously, an extended cache entry or the primary
   datacenter — ends the resolution with ACL-not-found: for every cache state. *)
Theorem C09_expired : forall env down fuel i cache last t c1,
  resolve_identity (a_bk (env i)) cache (a_fresh (env i)) (a_rpc (env i)) down = ((Some t, INone), c1) ->
  is_expired t (a_now (env i)) = true ->
  resolve_loop env down (S fuel) i cache last = (OErr ENotFound, c1).
Proof. exact expired_not_found. Qed.

(* If every copy of the token that any source offers is expired, the result is independent of
   the token: not found, an error, or the down-policy authorizer (never the token's own).
   NOTE [ODown]: with down policy "allow" and the primary datacenter unreachable, the expired
   token gets allow-all — as ANY secret would (the outcome does not depend on the token). *)
Theorem C09_all_expired : forall env down fuel cache last,
  (forall t, offered (a_bk (env 0)) cache (a_rpc (env 0)) t -> is_expired t (a_now (env 0)) = true) ->
  match fst (resolve_loop env down (S fuel) 0 cache last) with
  | OErr _ | ODown => True
  | _ => False
  end.
Proof. intros env down fuel. exact (all_expired_at env down fuel 0). Qed.

Theorem C09_expired_while_cached : forall env down fuel t last,
  a_bk (env 0) = BkNotDone -> a_fresh (env 0) = true -> is_expired t (a_now (env 0)) = true ->
  resolve_loop env down (S fuel) 0 (Some t) last = (OErr ENotFound, Some t).
Proof.
  intros env down fuel t last Hb Hf E. eapply expired_not_found; [|exact E].
  unfold resolve_identity. rewrite Hb, Hf. reflexivity.
Qed.

Theorem C09_expired_not_yet_reaped : forall env down fuel t cache last,
  a_bk (env 0) = BkDone (Some t) BkOk -> is_expired t (a_now (env 0)) = true ->
  resolve_loop env down (S fuel) 0 cache last = (OErr ENotFound, cache).
Proof.
  intros env down fuel t cache last Hb E. eapply expired_not_found; [|exact E].
  unfold resolve_identity. rewrite Hb. reflexivity.
Qed.

Theorem C09_expired_cache_extended : forall env fuel t last down,
  a_bk (env 0) = BkNotDone -> a_fresh (env 0) = false -> a_rpc (env 0) = RpcFail -> extends_cache down = true ->
  is_expired t (a_now (env 0)) = true ->
  resolve_loop env down (S fuel) 0 (Some t) last = (OErr ENotFound, Some t).
Proof.
  intros env fuel t last down Hb Hf Hr Hd E. eapply expired_not_found; [|exact E].
  unfold resolve_identity, fetch_and_cache. rewrite Hb, Hf, Hr, Hd. destruct down; try discriminate; reflexivity.
Qed.

(* ---------- the authorizer of the runs of a blocking query ---------- *)

(* endpoints whose query function resolves the token again in every run (filterACL): every run the
   token authorizes happens before its expiration, for every schedule of runs *)
Theorem C09_reresolved_runs_unexpired : forall (resolve_at : N -> outcome),
  (forall now t, resolve_at now = OGranted t -> is_expired t now = false) ->
  forall times k t now,
    nth_error (blocking_reresolve resolve_at times) k = Some (ByToken t) ->
    nth_error times k = Some now -> is_expired t now = false.
Proof.
  intros resolve_at Hres. induction times as [|n0 rest IH]; intros k t now Hk Hn; [destruct k; discriminate|].
  cbn [blocking_reresolve] in Hk.
  destruct (auth_of (resolve_at n0)) as [t0| |] eqn:R.
  - destruct k; cbn in *; [|eapply IH; eassumption].
    injection Hk as <-. injection Hn as <-. apply Hres, auth_of_token, R.
  - destruct k; cbn in *; [discriminate|eapply IH; eassumption].
  - destruct k as [|[|k]]; discriminate.
Qed.

(* the hypothesis above is what ResolveToken provides when its clock shows [now] *)
Theorem C09_resolve_at_unexpired : forall acls cls bk fresh rpc pol down cache now t c',
  resolve_token acls cls (env_at bk fresh rpc pol now) down cache = (OGranted t, c') -> is_expired t now = false.
Proof.
  intros acls cls bk fresh rpc pol down cache now t c' H.
  apply C09_granted_unexpired in H as (k & _ & Hk). exact Hk.
Qed.

(* OPEN FINDING expired-token-honoured-in-blocking-query: endpoints that resolve once and keep the
   authorizer (Catalog.ListServices, KVS.List, ...) run after the expiration with the token's authorizer *)
Theorem C09_held_authorizer_refuted :
  exists t now0 times k now,
    is_expired t now0 = false /\ nth_error times k = Some now /\ is_expired t now = true
    /\ nth_error (blocking_held (OGranted t) times) k = Some (ByToken t).
Proof. exists (Ident 1 (Some 100%N) false), 50%N, [50%N; 200%N], 1, 200%N. repeat split. Qed.

(* ... when no run happens after the expiration, no run is made for an expired token (the statement
   follows from that hypothesis alone; it does not use how [blocking_held] picks the authorizer) *)
Theorem C09_held_authorizer_partial : forall t times,
  (forall now, In now times -> is_expired t now = false) ->
  forall k now, nth_error (blocking_held (OGranted t) times) k = Some (ByToken t) ->
    nth_error times k = Some now -> is_expired t now = false.
Proof. intros t times H k now _ Hn. apply H. eapply nth_error_In. exact Hn. Qed.

(* rpc.go maskResultsFilteredByACLs: only ever clears; clears for blank / unresolvable / anonymous *)
Theorem C09_mask : forall blank ok anon flag,
  mask_flag blank ok anon flag = flag && negb blank && ok && negb anon.
Proof. destruct blank, ok, anon, flag; reflexivity. Qed.

(* ---------- non-vacuity ---------- *)
Definition ex_az : authz :=
  Authz (fun _ n => negb (String.eqb n "bad")) (fun _ n => negb (String.eqb n "bad"))
        (fun _ => true) (fun _ => true) (fun _ => true) (fun _ => true) true false.

(* a well-formed response with two peers, one of them losing a service: the hypotheses of the
   map theorems are met and the flag is set although the peer visited last is intact *)
Example C09_example_exported :
  let r := RIndexedExportedServiceList [("p1"%string, [SV 1 "bad"; SV 2 "web"]); ("p2"%string, [SV 3 "api"])] false in
  wf r /\ filter_response ex_az r
          = RIndexedExportedServiceList [("p1"%string, [SV 2 "web"]); ("p2"%string, [SV 3 "api"])] true.
Proof. split; [repeat constructor; cbn; intuition discriminate | reflexivity]. Qed.

(* the hypotheses of the any-order theorems are met by a visiting order different from the
   stored one (here: reversed), and the defect repaired by d107a26 would show exactly here *)
Example C09_example_any_order :
  let m := [("p1"%string, [SV 1 "bad"; SV 2 "web"]); ("p2"%string, [SV 3 "api"]); ("p3"%string, [SV 4 "bad"])] in
  let ord := rev m in
  NoDup (map fst ord) /\ (forall kv, In kv ord <-> In kv m)
  /\ exported_loop ex_az ord m false = ([("p1"%string, [SV 2 "web"]); ("p2"%string, [SV 3 "api"])], true)
  /\ exported_loop ex_az m m false = exported_loop ex_az ord m false.
Proof.
  cbv zeta. split; [|split; [|split; reflexivity]].
  - repeat constructor; cbn; intuition discriminate.
  - intros kv. rewrite <- in_rev. reflexivity.
Qed.

(* the other any-order theorems with a visiting order different from the stored one *)
Example C09_example_any_order_maps :
  let m := [("bad"%string, 1%N); ("web"%string, 2%N); ("api"%string, 3%N)] in
  let ns := [("i-1"%string, NS 1 "i-1" "bad" ""); ("i-2"%string, NS 2 "i-2" "web" "")] in
  let dc := [("dc1"%string, [CSN 1 "n1" "bad" ""]); ("dc2"%string, [CSN 2 "n1" "web" ""; CSN 3 "bad" "web" ""])] in
  (NoDup (map fst m) /\ (forall kv, In kv (rev m) <-> In kv m)
   /\ filter_services_ord ex_az (rev m) m = ([("web"%string, 2%N); ("api"%string, 3%N)], true))
  /\ (NoDup (map fst ns) /\ (forall kv, In kv (rev ns) <-> In kv ns)
      /\ filter_node_services_ord ex_az (rev ns) (Some (ND 9 "n1" "", ns)) = (Some (ND 9 "n1" "", [("i-2"%string, NS 2 "i-2" "web" "")]), true))
  /\ (Permutation (rev dc) dc /\ dc_loop ex_az (rev dc) [] false = ([("dc2"%string, [CSN 2 "n1" "web" ""])], true)).
Proof.
  cbv zeta. repeat split; try reflexivity; try (repeat constructor; cbn; intuition discriminate);
    try (intros H; apply in_rev in H; exact H); try (intros H; apply in_rev; rewrite rev_involutive; exact H).
Qed.

(* secrets and captured query tokens are hidden from a reader without acl:write *)
Example C09_example_redaction :
  acl_write ex_az = false
  /\ filter_response ex_az (RACLTokens [Some (TK 1 "s3cret"); None; Some (TK 2 "")])
     = RACLTokens [Some (TK 1 redacted); Some (TK 2 redacted)]
  /\ filter_response ex_az (RIndexedPreparedQueries [PQ 1 "q" false "s3cret"; PQ 2 "q2" false ""; PQ 3 "" false "x"] false)
     = RIndexedPreparedQueries [PQ 1 "q" false redacted; PQ 2 "q2" false ""] false.
Proof. repeat split. Qed.

(* adjacent removals, first and last element, nested lists *)
Example C09_example_node_dump :
  filter_response ex_az
    (RIndexedNodeDump [] [NI 1 "bad" "" [NS 2 "a" "a" ""] []; NI 3 "bad" "" [] [];
                          NI 4 "n1" "" [NS 5 "bad" "bad" ""; NS 6 "web" "web" ""; NS 7 "bad" "bad" ""] [HC 8 "n1" "" ""; HC 9 "n1" "bad" ""];
                          NI 10 "bad" "" [] []] false)
  = RIndexedNodeDump [] [NI 4 "n1" "" [NS 6 "web" "web" ""] [HC 8 "n1" "" ""]] true.
Proof. reflexivity. Qed.

(* the expiry hypotheses are satisfiable: a cached token that expired one tick ago *)
Example C09_example_expired :
  let t := Ident 7 (Some 99%N) false in
  let env := fun _ : nat => Attempt BkNotDone true RpcFail PolOk 100%N in
  is_expired t 100%N = true
  /\ resolve_token true SecPlain env DownExtend (Some t) = (OErr ENotFound, Some t)
  /\ resolve_token true SecPlain (fun _ => Attempt BkNotDone true RpcFail PolOk 99%N) DownExtend (Some t) = (OGranted t, Some t).
Proof. repeat split. Qed.

Print Assumptions C09_loop_is_filter.
Print Assumptions C09_loop_invariant.
Print Assumptions C09_range_is_filter.
Print Assumptions C09_compact_is_filter.
Print Assumptions C09_filter_exact.
Print Assumptions C09_sound.
Print Assumptions C09_complete.
Print Assumptions C09_flag.
Print Assumptions C09_flag_iff.
Print Assumptions C09_exported_any_order.
Print Assumptions C09_datacenters_any_order.
Print Assumptions C09_services_any_order.
Print Assumptions C09_node_services_any_order.
Print Assumptions C09_node_dump.
Print Assumptions C09_token_secrets_hidden.
Print Assumptions C09_query_tokens_hidden.
Print Assumptions C09_is_expired.
Print Assumptions C09_granted_unexpired.
Print Assumptions C09_expired.
Print Assumptions C09_all_expired.
Print Assumptions C09_expired_while_cached.
Print Assumptions C09_expired_not_yet_reaped.
Print Assumptions C09_expired_cache_extended.
Print Assumptions C09_example_exported.
Print Assumptions C09_example_any_order.
Print Assumptions C09_example_node_dump.
Print Assumptions C09_example_expired.
Print Assumptions C09_rule_gateway_mapping.
Print Assumptions C09_rule_check.
Print Assumptions C09_rule_service_node.
Print Assumptions C09_rule_node_service.
Print Assumptions C09_rule_node_check.
Print Assumptions C09_rule_service_info.
Print Assumptions C09_rule_csn_partial.
Print Assumptions C09_rule_service_name_partial.
Print Assumptions C09_rule_gateway_partial.
Print Assumptions C09_rule_service_list_partial.
Print Assumptions C09_rule_txn_partial.
Print Assumptions C09_gateway_unchecked_refuted.
Print Assumptions C09_empty_service_name_refuted.
Print Assumptions C09_service_list_node_context_refuted.
Print Assumptions C09_txn_service_check_refuted.
Print Assumptions C09_nil_node_passthrough_refuted.
Print Assumptions C09_nil_node_passthrough_partial.
Print Assumptions C09_intention_match_all_or_nothing_refuted.
Print Assumptions C09_intention_match_partial.
Print Assumptions C09_unnamed_query_invisible.
Print Assumptions C09_reresolved_runs_unexpired.
Print Assumptions C09_resolve_at_unexpired.
Print Assumptions C09_held_authorizer_refuted.
Print Assumptions C09_held_authorizer_partial.
Print Assumptions C09_mask.
Print Assumptions C09_example_any_order_maps.
Print Assumptions C09_example_redaction.
