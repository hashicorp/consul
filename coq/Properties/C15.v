(* C15 — discovery-chain compilation is closed, terminating and deterministic.
   Each theorem follows in a few lines from the lemmas of coq/Chain/*.v; the theorems about
   [compile_ord] (an arbitrary visiting order of the flatten passes) carry over to [compile] by
   Final.compile_eq.

   The model (coq/Chain/Model.v) follows agent/consul/discoverychain/compile.go function by
   function; [compile es cx svc mo] is compiler.compile for the entry list [es] (read only as a
   map keyed by kind and name), the request [cx] (datacenter, OverrideProtocol) and chain [svc];
   [mo] is the order in which the Go map c.nodes yields its keys when
   flattenAdjacentSplitterNodes collects the node ids it then sorts (Go leaves it unspecified). *)
From Verif Require Import Base.Prelude.
From Verif Require Import Chain.Model.
From Verif Require Import Chain.Lemmas.
From Verif Require Import Chain.Passes.
From Verif Require Import Chain.Resolve.
From Verif Require Import Chain.Assemble.
From Verif Require Import Chain.Proofs.
From Verif Require Import Chain.Det.
From Verif Require Import Chain.Store.
From Verif Require Import Chain.Complete.
From Verif Require Import Chain.Cycles.
From Verif Require Import Chain.Order.
From Verif Require Import Chain.Final.
From Verif Require Import Chain.Frame.
From Verif Require Import Chain.Validity.
From Verif Require Import Chain.TargetId.
From Verif Require Import Chain.Examples.
From Coq Require Import Permutation.
Local Open Scope string_scope.
Local Open Scope list_scope.

(* Every loop of the compiler is run by the model on a bound; the bound is never exhausted and no
   "impossible" lookup (a Go nil dereference, "compilation references non-retained node") ever
   fails: on EVERY input the result is a graph or one of the errors a user can cause.
   Measures: RESOLVE_AGAIN — the redirectHistory has no repetition and stays inside
   {start service, redirect services} x {"", start subset, default subsets, redirect subsets} x
   {start dc, request dc, redirect dcs}; getSplitterNode — the number of service-splitter names not
   yet in splitterNodes; detectCircularReferences — the current path has no repetition and lies in
   c.nodes; flattenAdjacentSplitterNodes — the largest rank (longest walk below) of a splitter that
   is a leg of a splitter drops with every pass (every node is reachable from the start node, so
   the rank computed by the cycle check covers all of c.nodes); removeUnusedNodes — the size of the
   work list plus 1 + out-degree of every node not yet visited. *)
Theorem C15_terminates : forall es cx svc mo,
  (exists g, compile es cx svc mo = Ok g) \/
  (exists e, compile es cx svc mo = Err e /\ e <> EOutOfFuel /\ e <> EInternal).
Proof. intros es cx svc mo. rewrite compile_eq. apply compile_total. Qed.

(* In a compiled chain the start node exists, every NextNode of a route or split exists, node kinds
   match their keys, every resolver node's target and failover targets are in the target map, and
   a rank decreases along every edge (no cycle, no infinite walk). *)
Theorem C15_closed : forall es cx svc mo g,
  compile es cx svc mo = Ok g ->
  lookup (g_start g) (g_nodes g) <> None /\
  (forall a nd b, lookup a (g_nodes g) = Some nd -> In b (children nd) -> lookup b (g_nodes g) <> None) /\
  (forall k nd, lookup k (g_nodes g) = Some nd ->
     match k, nd with
     | NRouter _, RouterN _ | NSplitter _, SplitterN _ | NResolver _, ResolverN _ _ => True
     | _, _ => False
     end) /\
  (forall t d fo, lookup (NResolver t) (g_nodes g) = Some (ResolverN d fo) ->
     In t (g_targets g) /\ incl fo (g_targets g)) /\
  (exists r : nid -> nat,
     forall a nd b, lookup a (g_nodes g) = Some nd -> In b (children nd) -> r b < r a).
Proof.
  intros es cx svc mo g H. rewrite compile_eq in H.
  destruct (compile_closed _ _ _ _ _ H) as (H1 & H2 & H3 & H4 & (r & H5) & _).
  split; [exact H1|]. split; [intros a nd b Hl Hb; apply (H2 a b); exists nd; auto|].
  split; [exact H3|]. split; [exact H4|]. exists r. intros a nd b Hl Hb. apply (H5 a b). exists nd; auto.
Qed.

(* Every path from the start node ends at a resolver with a target: every node reached from the
   start can be continued to a resolver node whose target is in the target map, and a node without
   outgoing edge IS such a resolver (service-splitter entries have at least one split: Validate). *)
Theorem C15_paths_end_at_resolvers : forall es cx svc mo g,
  (forall s l, get_splitter es s = Some l -> l <> []) ->
  compile es cx svc mo = Ok g ->
  forall a, reachN (g_nodes g) (g_start g) a ->
    (exists t, reachN (g_nodes g) a (NResolver t) /\ In t (g_targets g)) /\
    ((forall b, ~ edge (g_nodes g) a b) -> exists t, a = NResolver t /\ In t (g_targets g)).
Proof.
  intros es cx svc mo g Hne H a Ha. rewrite compile_eq in H.
  destruct (compile_closed _ _ _ _ _ H) as (H1 & H2 & H3 & H4 & (r & H5) & H6). specialize (H6 Hne).
  assert (Hp : lookup a (g_nodes g) <> None) by (eapply reach_present; eauto).
  split; [eapply reaches_resolver; eauto | intros Hno; eapply dead_end_is_resolver; eauto].
Qed.

(* [Req es cx svc q]: the entries make the compiler issue request q while compiling chain svc —
   a splitter node (QSplit), a target handed to getResolverNode by a route, a split or the chain
   itself (QTarget), or a failover target of a resolved target (QFail); see Chain/Cycles.v.
   When assembleChain succeeds every such request was served (requests_served); therefore: *)

(* a redirect cycle under ANY target reachable from the service through routes, splits and
   failover makes compile fail (it cannot be followed, and it cannot be skipped) *)
Theorem C15_cycles_reported : forall es cx svc mo t,
  Req es cx svc (QTarget t) \/ Req es cx svc (QFail t) ->
  cyclic es cx t ->
  exists e, compile es cx svc mo = Err e.
Proof. intros es cx svc mo t. rewrite compile_eq. apply redirect_cycle_reported. Qed.

(* a splitter reachable from the service that splits, through any number of splitters, back to
   itself makes compile return the circular-reference error (or the error that already stopped
   assembleChain elsewhere in the chain) *)
Theorem C15_cycles_reported_splitters : forall es cx svc mo a,
  Req es cx svc (QSplit a) -> SplitPath es cx a a ->
  (exists e, assemble es cx svc = Err e /\ compile es cx svc mo = Err e) \/
  compile es cx svc mo = Err ECircularReference.
Proof. intros es cx svc mo a. rewrite compile_eq. apply reference_cycle_reported. Qed.

(* "Failover cycles": failover is never followed, so it cannot form a cycle — a failover target is
   only resolved (its redirects and default subset; a redirect cycle there is reported by
   C15_cycles_reported with QFail) and listed; its own failover section is not looked at.  Two
   resolvers failing over to each other compile to ONE resolver node listing the other as target. *)
Theorem C15_failover_not_followed :
  exists g, compile mutual_failover test_ctx "a" [] = Ok g /\
            g_nodes g = [(NResolver (Tgt "a" "" "dc1"), ResolverN false [Tgt "b" "" "dc1"])] /\
            g_targets g = [Tgt "a" "" "dc1"; Tgt "b" "" "dc1"].
Proof. eexists. split; [vm_compute; reflexivity|]. split; reflexivity. Qed.

(* Redirects: wherever getResolverNode starts its RESOLVE_AGAIN loop (routes, splits, failover
   targets) on a target whose redirect / default-subset walk never ends, the loop returns the
   circular-redirect error (a protocol mismatch met earlier on the walk is reported first);
   memoised resolver nodes are final targets, so the memo cannot hide a cycle. *)
Theorem C15_cycles_reported_redirect_loop : forall es cx st t,
  Final_memo es cx st -> cyclic es cx t ->
  resolve_loop es cx (redirect_fuel es) st [] t = Err ECircularRedirect \/
  resolve_loop es cx (redirect_fuel es) st [] t = Err EProtocolMismatch.
Proof. exact resolve_loop_cycle. Qed.

(* ... in particular for the chain's own resolver when no router / splitter sits in front of it *)
Theorem C15_cycles_reported_redirect : forall es cx svc mo,
  (disable_adv cx = true \/ (get_router es svc = None /\ get_splitter es svc = None)) ->
  cyclic es cx (new_target cx svc "") ->
  compile es cx svc mo = Err ECircularRedirect \/ compile es cx svc mo = Err EProtocolMismatch.
Proof. intros es cx svc mo. rewrite compile_eq. apply compile_redirect_cycle. Qed.

(* A successful resolution is the END of the walk (so a reachable cycle can never be "followed"):
   the target a resolver call returns is the final target of the walk from the requested one. *)
Theorem C15_resolution_follows_walk : forall es cx svc ip R st t st' t',
  AInv es cx svc ip R st -> get_resolver_node es cx st t = Ok (st', t') -> Orbit es cx t t'.
Proof. intros es cx svc ip R st t st' t' HI. apply get_resolver_node_orbit. apply HI. Qed.

(* References among router / splitter nodes: a cycle reachable from the start node of the
   assembled table makes compile return the circular-reference error. *)
Theorem C15_cycles_reported_reference : forall es cx svc mo st start router a b,
  assemble es cx svc = Ok (st, start, router) ->
  reachN (to_nodes svc st router) start a -> edge (to_nodes svc st router) a b ->
  reachN (to_nodes svc st router) b a ->
  compile es cx svc mo = Err ECircularReference.
Proof. intros es cx svc mo st start router a b. rewrite compile_eq. apply compile_reference_cycle. Qed.

(* The result depends on the entry MAP only: listing the entries in another order changes nothing. *)
Theorem C15_deterministic : forall es es' cx svc mo,
  NoDup (map ekey es) -> Permutation es es' ->
  compile es cx svc mo = compile es' cx svc mo.
Proof.
  intros es es' cx svc mo Hnd Hp. symmetry. apply compile_ext. intros k. symmetry. apply lookup_entry_perm; assumption.
Qed.

(* ... nor on the iteration order of the Go map c.nodes: flattenAdjacentSplitterNodes sorts the node
   ids before visiting them (2e58eb8).  Before that fix the statement was false: the loop, run with
   two different visiting orders on three chained splitters, rounds to different weights
   (Chain/Examples.v loop_order_would_matter; the regression is generated on every run). *)
Theorem C15_deterministic_order : forall es cx svc mo1 mo2,
  compile es cx svc mo1 = compile es cx svc mo2.
Proof. exact compile_map_order. Qed.

(* EnsureConfigEntry / DeleteConfigEntry accept a write iff every chain the code re-validates —
   [affected]: the written name and every chain that reaches it through router / splitter / resolver
   entries (breadth-first walk over the link index); every chain with such an entry for
   proxy-defaults — compiles with the write applied (deleting an absent entry
   validates nothing); a rejected write leaves the stored entries unchanged. *)
Theorem C15_write_guard : forall store op store' acc,
  write store op = (store', acc) ->
  (acc = true <-> no_validation store op \/
                  forall s, In s (affected store (op_key op)) ->
                            exists g, compile (proposed store op) test_ctx s [] = Ok g) /\
  (acc = false -> store' = store) /\
  (acc = true -> store' = proposed store op \/ (no_validation store op /\ store' = store)).
Proof.
  intros store op store' acc H.
  destruct (write_cases store op) as [[Hnv Hw]|[Hnv [[Hok Hw]|[Hno Hw]]]]; rewrite Hw in H; injection H as <- <-.
  - split; [tauto|]. split; [discriminate | auto].
  - split; [tauto|]. split; [discriminate | auto].
  - split; [|split; [auto | discriminate]]. split; [discriminate | tauto].
Qed.

(* An accepted write breaks no chain: every chain that compiled over the stored entries still
   compiles afterwards.  (The chains that can reach the written name are re-validated — the walk
   over the link index is complete, f9df4b1; every other chain reads none of the changed entries.)
   Hypothesis: no stored failover section sets both Datacenters and Targets — Validate refuses
   such an entry, and ListRelatedServices (the link index) would not list its Service. *)
Theorem C15_write_preserves_validity : forall store op store' mo,
  (forall n r key f, get_resolver store n = Some r -> In (key, f) (rs_failover r) ->
                     fo_dcs f = [] \/ fo_targets f = []) ->
  write store op = (store', true) ->
  forall x, (exists g, compile store test_ctx x mo = Ok g) -> exists g, compile store' test_ctx x mo = Ok g.
Proof. exact write_preserves_validity. Qed.

(* History level: every store that arises from the empty store by EnsureConfigEntry /
   DeleteConfigEntry calls (accepted or not) with entries Validate lets through keeps every chain
   compilable in the guard's context, and keeps the hypothesis above. *)
Theorem C15_reachable_stores_valid : forall store,
  Reachable store ->
  failover_wf store /\ forall x mo, exists g, compile store test_ctx x mo = Ok g.
Proof. exact reachable_valid. Qed.

(* "... in all evaluation contexts and overrides": the guard test-compiles in dc1 without override
   only.  Full statement FALSE of the faithful model (finding C15-guard-context): a reachable store
   whose chain "a" compiles in the guard's context and fails under OverrideProtocol = tcp, because
   the override skips the splitter in front of a's resolver, which the guard never resolved. *)
Theorem C15_context_independence_refuted :
  Reachable ctx_store /\
  (exists g, compile ctx_store test_ctx "a" [] = Ok g) /\
  compile ctx_store (Ctx "dc1" "tcp") "a" [] = Err EBadSubset.
Proof.
  split; [|split; [eexists; vm_compute; reflexivity | vm_compute; reflexivity]].
  unfold ctx_store.
  eapply reach_write with (op := ctx_w3) (acc := snd (write (fst (write (fst (write [] ctx_w1)) ctx_w2)) ctx_w3));
    [| cbn; intros key f []| apply surjective_pairing].
  eapply reach_write with (op := ctx_w2) (acc := snd (write (fst (write [] ctx_w1)) ctx_w2));
    [| exact I | apply surjective_pairing].
  eapply reach_write with (op := ctx_w1) (acc := snd (write [] ctx_w1)); [constructor | exact I | apply surjective_pairing].
Qed.

(* ... and holds for every context in the guard's datacenter whose override keeps routers and
   splitters (none, or an http-like protocol): the same chain is compiled.  (Other datacenters:
   not proved; the store oracle compiles every stored chain in dc2 as well.) *)
Theorem C15_context_independence_partial : forall es cx svc mo g,
  c_dc cx = "dc1" -> disable_adv cx = false ->
  compile es test_ctx svc mo = Ok g ->
  exists g', compile es cx svc mo = Ok g' /\
             g_start g' = g_start g /\ g_nodes g' = g_nodes g /\ g_targets g' = g_targets g.
Proof.
  intros es cx svc mo g Hdc Hdis. apply compile_ctx; [symmetry; exact Hdc | symmetry; exact Hdis].
Qed.

(* Regression witness: the two-hop write that used to be accepted — router a -> splitter b -> c,
   then service-defaults c protocol=grpc — is refused and leaves the store unchanged. *)
Theorem C15_write_guard_two_hops :
  forallb (compiles indirect_store) ["a"; "b"; "c"] = true /\
  affected indirect_store (op_key indirect_op) = ["c"; "b"; "a"] /\
  compile (proposed indirect_store indirect_op) test_ctx "a" [] = Err EProtocolMismatch /\
  write indirect_store indirect_op = (indirect_store, false).
Proof. repeat split; vm_compute; reflexivity. Qed.

(* The model identifies a target with (service, subset, datacenter); the code with the string
   structs.ChainID.  "Distinct targets have distinct ids" is FALSE (finding C15-target-id-collision:
   newTarget hands back the earlier object, so a route to service "v1.a" lands on subset v1 of "a") *)
Theorem C15_target_id_injective_refuted :
  Tgt "v1.a" "" "dc1" <> Tgt "a" "v1" "dc1" /\ chain_id (Tgt "v1.a" "" "dc1") = chain_id (Tgt "a" "v1" "dc1").
Proof. split; [discriminate | reflexivity]. Qed.

(* ... and holds when service, subset and datacenter names contain no dot: exactly the inputs on
   which all theorems of this file speak about the code *)
Theorem C15_target_id_injective_partial : forall t1 t2,
  dot_free t1 -> dot_free t2 -> chain_id t1 = chain_id t2 -> t1 = t2.
Proof. exact chain_id_injective. Qed.

(* the hypotheses of the theorems above are met by non-trivial inputs (coq/Chain/Examples.v):
   a chain that compiles to a router, a splitter and three resolvers; a redirect cycle a -> b -> a;
   a redirect cycle behind a failover target; a splitter cycle; the initial compiler state; a
   dot-free target and a context that keeps routers and splitters; a store that accepts a write *)
Example C15_example_compiles :
  NoDup (map ekey ex_entries) /\
  (forall s l, get_splitter ex_entries s = Some l -> l <> []) /\
  exists g, compile ex_entries test_ctx "a" [] = Ok g /\ List.length (g_nodes g) = 5.
Proof.
  split; [|split].
  - cbn. repeat constructor; cbn; intuition discriminate.
  - intros s l. unfold get_splitter. cbn [ex_entries lookup_entry ekey key_eqb ekind_eqb fst snd andb].
    destruct ("c" =? s); [intros H; injection H as <-; discriminate | discriminate].
  - eexists. split; [vm_compute; reflexivity | reflexivity].
Qed.

Example C15_example_cycle :
  cyclic cyc_entries test_ctx (new_target test_ctx "a" "") /\
  compile cyc_entries test_ctx "a" [] = Err ECircularRedirect.
Proof.
  split; [|vm_compute; reflexivity].
  assert (H : forall n, walk cyc_entries test_ctx n (Tgt "a" "" "dc1") <> None /\
                        walk cyc_entries test_ctx n (Tgt "b" "" "dc1") <> None).
  { induction n as [|n [IHa IHb]]; [split; discriminate|]. split; cbn [walk]; [exact IHb | exact IHa]. }
  intros n. apply H.
Qed.

Example C15_example_initial_invariants : forall es cx svc,
  AInv es cx svc [] [] st0 /\ Final_memo es cx st0.
Proof. intros es cx svc. split; [apply AInv_st0 | intros t Ht; discriminate]. Qed.

Example C15_example_dot_free : dot_free (Tgt "web" "v1" "dc1") /\ disable_adv (Ctx "dc1" "http") = false.
Proof. repeat split. Qed.

Example C15_example_failover_cycle :
  Req fail_cycle test_ctx "a" (QFail (Tgt "b" "" "dc1")) /\
  cyclic fail_cycle test_ctx (Tgt "b" "" "dc1") /\
  compile fail_cycle test_ctx "a" [] = Err ECircularRedirect.
Proof.
  split; [|split; [|vm_compute; reflexivity]].
  - apply (req_failover fail_cycle test_ctx "a" (Tgt "a" "" "dc1") (Tgt "a" "" "dc1")).
    + exact (req_root_plain fail_cycle test_ctx "a" eq_refl).
    + apply orbit_final. vm_compute. reflexivity.
    + vm_compute. left. reflexivity.
  - assert (H : forall n, walk fail_cycle test_ctx n (Tgt "b" "" "dc1") <> None /\
                          walk fail_cycle test_ctx n (Tgt "c" "" "dc1") <> None).
    { induction n as [|n [IHb IHc]]; [split; discriminate|]. split; cbn [walk]; [exact IHc | exact IHb]. }
    intros n. apply H.
Qed.

Example C15_example_splitter_cycle :
  Req split_cycle test_ctx "a" (QSplit "a") /\ SplitPath split_cycle test_ctx "a" "a" /\
  compile split_cycle test_ctx "a" [] = Err ECircularReference.
Proof.
  split; [|split; [|vm_compute; reflexivity]].
  - exact (req_root_plain split_cycle test_ctx "a" eq_refl).
  - apply (sp_step _ _ "a" "b" "a"); [|apply sp_one].
    + exists [Split 10000 "b" ""]%N, (Split 10000 "b" "")%N.
      split; [reflexivity|]. split; [left; reflexivity|]. split; vm_compute; reflexivity.
    + exists [Split 10000 "a" ""]%N, (Split 10000 "a" "")%N.
      split; [reflexivity|]. split; [left; reflexivity|]. split; vm_compute; reflexivity.
Qed.

Example C15_example_validity :
  failover_wf ex_entries /\
  write ex_entries (WPut (EDefaults "b" "http" false)) =
    (proposed ex_entries (WPut (EDefaults "b" "http" false)), true).
Proof.
  split; [|vm_compute; reflexivity].
  intros n r key f Hg Hin. unfold get_resolver in Hg.
  cbn [ex_entries lookup_entry ekey key_eqb ekind_eqb fst snd andb] in Hg.
  destruct ("b" =? n).
  - injection Hg as <-. cbn [rs_failover] in Hin. destruct Hin as [H|[]]. injection H as _ <-. left. reflexivity.
  - destruct ("c" =? n); [|discriminate]. injection Hg as <-. destruct Hin.
Qed.

Print Assumptions C15_terminates.
Print Assumptions C15_closed.
Print Assumptions C15_paths_end_at_resolvers.
Print Assumptions C15_cycles_reported.
Print Assumptions C15_cycles_reported_splitters.
Print Assumptions C15_cycles_reported_redirect_loop.
Print Assumptions C15_cycles_reported_redirect.
Print Assumptions C15_resolution_follows_walk.
Print Assumptions C15_cycles_reported_reference.
Print Assumptions C15_deterministic.
Print Assumptions C15_deterministic_order.
Print Assumptions C15_write_guard.
Print Assumptions C15_write_preserves_validity.
Print Assumptions C15_write_guard_two_hops.
Print Assumptions C15_failover_not_followed.
Print Assumptions C15_reachable_stores_valid.
Print Assumptions C15_context_independence_refuted.
Print Assumptions C15_context_independence_partial.
Print Assumptions C15_target_id_injective_refuted.
Print Assumptions C15_target_id_injective_partial.
Print Assumptions C15_example_validity.
Print Assumptions C15_example_compiles.
Print Assumptions C15_example_cycle.
Print Assumptions C15_example_initial_invariants.
Print Assumptions C15_example_dot_free.
Print Assumptions C15_example_failover_cycle.
Print Assumptions C15_example_splitter_cycle.
