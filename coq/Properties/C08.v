(* C08 — ACL decisions follow rule semantics and depend only on the token's own policies.
   The theorems are proved here from the lemmas of ACL/Merge.v, ACL/Proofs.v (which rests on ACL/Load.v
   and ACL/Walk.v), ACL/Cache.v and ACL/IdentityProofs.v.

   Model: ACL/Model.v (MergePolicies, loadRules, getPolicy, the any/all/prefix walks, every
   Authorizer method, chained + static authorizers, ACLPolicies.Compile with its two caches).
   Reference: ACL/Spec.v (the documented rule over plain rule lists, no trees, no merge).

   All statements hold outright, for every spelling of the access strings ("deny", "Deny",
   "WRITE"): since commit e3d2ecc takesPrecedenceOver and the intention defaulting of loadRules
   lowercase before comparing, as AccessLevelFromString always did.  (Before that commit they were
   false for non-lowercase spellings; the witnesses are kept below as examples that now agree with
   the reference.)  The only hypothesis, [levelled], is what PolicyRules.Validate guarantees for
   every policy that parses (C08_valid_is_levelled). *)
From Verif Require Import Base.Prelude.
From Verif Require Import ACL.Model.
From Verif Require Import ACL.Spec.
From Verif Require Import ACL.Merge.
From Verif Require Import ACL.Proofs.
From Verif Require Import ACL.Cache.
From Verif Require Import ACL.Identity.
From Verif Require Import ACL.IdentityProofs.
From Coq Require Import Permutation.

(* ------------------------------------------------------------------ semantics *)

(* For every list of policies whose rules name a level the authorizer exists, and for every method,
   name and default policy its decision is the documented rule: exact match, else longest prefix;
   deny > write > list > read across policies; the default policy otherwise. *)
Theorem C08_semantics : forall ps,
  forallb levelled ps = true ->
  exists a, new_policy_authorizer ps = Some a
    /\ forall m, policy_decide a m = spec_decide ps m
    /\ forall s, chain_decide a s m = spec_chain ps s m.
Proof. exact semantics. Qed.

(* every policy that passes PolicyRules.Validate is covered *)
Theorem C08_valid_is_levelled : forall p, validate p = true -> levelled p = true.
Proof. exact validate_levelled. Qed.

Definition p_key (name : string) (pol : pstr) : policy :=
  Policy PEmpty PEmpty PEmpty PEmpty PEmpty [Rule KKey false name pol PEmpty].

(* the inputs that refuted the statement before e3d2ecc: deny spelled "Deny" now overrides read
   in either order, a scalar rule spelled "Write" is a rule, service "Write" defaults intentions
   to read *)
Example C08_mixed_case_example :
  (forall ps, In ps [[p_key "a" (POdd LDeny); p_key "a" (PCanon LRead)]; [p_key "a" (PCanon LRead); p_key "a" (POdd LDeny)]] ->
     forallb validate ps = true /\ forallb levelled ps = true
     /\ option_map (fun a => policy_decide a (MKeyRead "a")) (new_policy_authorizer ps) = Some Deny
     /\ spec_decide ps (MKeyRead "a") = Deny)
  /\ (let p := Policy (POdd LWrite) PEmpty PEmpty PEmpty PEmpty [Rule KService false "s" (POdd LWrite) PEmpty] in
      validate p = true
      /\ option_map (fun a => (policy_decide a MACLWrite, policy_decide a (MIntentionRead "s"))) (new_policy_authorizer [p])
         = Some (Allow, Allow)).
Proof.
  split.
  - intros ps [<-|[<-|[]]]; vm_compute; repeat split; reflexivity.
  - vm_compute. split; reflexivity.
Qed.

(* "deny overrides write overrides list overrides read": the winner occurs in the list and
   nothing in the list outranks it (rank: read 1 < list 2 < write 3 < deny 4) *)
Theorem C08_strongest : forall ls,
  match strongest ls with
  | None => ls = []
  | Some m => In m ls /\ forall l, In l ls -> rank l <= rank m
  end.
Proof. exact strongest_spec. Qed.

(* "longest matching prefix": among all prefixes of the name that carry a prefix rule, the
   chosen one has the longest name *)
Theorem C08_longest_prefix : forall (v : view) n,
  match longest_prefix v n with
  | Some l => exists p, String.prefix p n = true /\ v true p = Some l
                /\ forall q, String.prefix q n = true -> v true q <> None -> String.length q <= String.length p
  | None => forall q, String.prefix q n = true -> v true q = None
  end.
Proof. exact longest_prefix_spec. Qed.

(* KeyWritePrefix (good = write) and ServiceReadPrefix (good = read or write), over ALL rules below
   the prefix: denied iff the rule applying to the prefix itself or any rule (exact or prefix) whose
   name starts with the prefix is not good; allowed iff a prefix rule applies and all are good *)
Theorem C08_subtree : forall good (v : view) S p, covers S v ->
  (spec_subtree good v S p = Deny <->
     (exists l, longest_prefix v p = Some l /\ good l = false)
     \/ (exists pf n l, String.prefix p n = true /\ v pf n = Some l /\ good l = false))
  /\ (spec_subtree good v S p = Allow <->
     (exists l, longest_prefix v p = Some l /\ good l = true)
     /\ (forall pf n l, String.prefix p n = true -> v pf n = Some l -> good l = true)).
Proof. exact spec_subtree_meaning. Qed.

(* ServiceWriteAny / IntentionRead "*" / imported-resource reads: allowed iff SOME rule grants *)
Theorem C08_any : forall (v : view) S need, covers S v ->
  (spec_any v S need = Allow <-> exists pf n l, v pf n = Some l /\ grants l need = true)
  /\ (spec_any v S need = Default <-> (forall pf n l, v pf n = Some l -> grants l need = false) /\ v true EmptyString = None).
Proof.
  intros v S need C.
  destruct (quant_meaning Allow Deny (fun l => grants l need) v S C) as (A & _ & D); try discriminate.
  split; [exact A|exact D].
Qed.

(* NodeReadAll / ServiceReadAll / IntentionWrite "*": denied iff SOME rule does not grant *)
Theorem C08_all : forall (v : view) S need, covers S v ->
  (spec_all v S need = Deny <-> exists pf n l, v pf n = Some l /\ grants l need = false)
  /\ (spec_all v S need = Allow <-> (forall pf n l, v pf n = Some l -> grants l need = true) /\ v true EmptyString <> None).
Proof.
  intros v S need C.
  (* the same quantifier test, deciding Deny on the rules that do not grant; [negb] is read off *)
  destruct (quant_meaning Deny Allow (fun l => negb (grants l need)) v S C) as (D & A & _); try discriminate.
  split.
  - etransitivity; [exact D|].
    split; intros (pf & n & l & Hv & Hg); exists pf, n, l; (split; [exact Hv|]); apply negb_true_iff, Hg.
  - etransitivity; [exact A|].
    split; intros [Hn Hx]; (split; [|exact Hx]); intros pf n l Hv; apply negb_false_iff, (Hn pf n l Hv).
Qed.

(* the name lists the reference walks do cover every name with a rule, so the three theorems above
   apply to spec_decide *)
Theorem C08_covers : forall rs k, covers (names_of rs k) (eff rs k) /\ covers (names_of rs KService) (eff_int rs).
Proof. intros rs k. split; [apply covers_eff|apply covers_eff_int]. Qed.

(* Intentions.  "deny > write > list > read for the same name" is applied to the `intentions`
   strings the policies give EXPLICITLY; only when no policy gives one is the intention level
   derived from the service rule in force (read or write -> read, otherwise deny).  This is what the
   code does (the merge compares Policy and Intentions separately, the default is taken after the
   merge) and it is the reading built into the reference [eff_int]; it is a documented exemption,
   not a finding: the other reading of the documentation (every service rule first gets its own
   default, then the strongest wins) is NOT what consul implements, as the second part shows on
   {P1: service "a" policy=read intentions=write; P2: service "a" policy=deny}. *)
Definition eff_int_per_policy (rs : list rule) (pf : bool) (n : string) : option level :=
  strongest (flat_map (fun r => match doc_level (r_int r) with
                                | Some i => [i]
                                | None => match doc_level (r_pol r) with
                                          | Some LRead | Some LWrite => [LRead]
                                          | Some _ => [LDeny]
                                          | None => [] end
                                end) (matching rs KService pf n)).

Example C08_intentions_reading :
  let ps := [Policy PEmpty PEmpty PEmpty PEmpty PEmpty [Rule KService false "a" (PCanon LRead) (PCanon LWrite)];
             Policy PEmpty PEmpty PEmpty PEmpty PEmpty [Rule KService false "a" (PCanon LDeny) PEmpty]] in
  forallb validate ps = true
  /\ eff (all_rules ps) KService false "a" = Some LDeny           (* the service itself is denied *)
  /\ eff_int (all_rules ps) false "a" = Some LWrite               (* the explicit intentions survive *)
  /\ option_map (fun a => policy_decide a (MIntentionWrite "a")) (new_policy_authorizer ps) = Some Allow
  /\ eff_int_per_policy (all_rules ps) false "a" = Some LDeny.    (* the per-policy reading would deny *)
Proof. vm_compute. repeat split; reflexivity. Qed.

(* ------------------------------------------------------------------ order independence *)

Theorem C08_order_independent : forall ps ps' a a',
  forallb levelled ps = true -> Permutation ps ps' ->
  new_policy_authorizer ps = Some a -> new_policy_authorizer ps' = Some a' ->
  forall m, policy_decide a m = policy_decide a' m /\ forall s, chain_decide a s m = chain_decide a' s m.
Proof. intros ps ps' a a' Hc HP. apply policy_set_independent; [exact Hc|apply Permutation_sameset, HP]. Qed.

(* the pair that refuted it before e3d2ecc ("Deny" then "Write" vs "Write" then "Deny") *)
Example C08_order_mixed_case_example :
  let ps := [p_key "a" (POdd LDeny); p_key "a" (POdd LWrite)] in
  let ps' := [p_key "a" (POdd LWrite); p_key "a" (POdd LDeny)] in
  Permutation ps ps' /\ forallb levelled ps = true
  /\ option_map (fun a => policy_decide a (MKeyWrite "a")) (new_policy_authorizer ps) = Some Deny
  /\ option_map (fun a => policy_decide a (MKeyWrite "a")) (new_policy_authorizer ps') = Some Deny.
Proof. split; [apply perm_swap|]. vm_compute. repeat split; reflexivity. Qed.

(* Go hands the merged rules to loadRules in map-iteration order: any order gives the same decisions *)
Theorem C08_map_order_independent : forall ps p' a a',
  forallb levelled ps = true ->
  p_acl p' = p_acl (merge_policies ps) -> p_keyring p' = p_keyring (merge_policies ps) ->
  p_operator p' = p_operator (merge_policies ps) -> p_mesh p' = p_mesh (merge_policies ps) ->
  p_peering p' = p_peering (merge_policies ps) ->
  Permutation (p_rules p') (p_rules (merge_policies ps)) ->
  new_policy_authorizer ps = Some a -> load_rules p' = Some a' ->
  forall m, policy_decide a' m = policy_decide a m.
Proof.
  intros ps p' a a' Hc H1 H2 H3 H4 H5 HP Ha Ha' m.
  rewrite (policy_authorizer_spec ps p' a' Hc (conj H1 (conj H2 (conj H3 (conj H4 (conj H5 HP))))) Ha' m).
  symmetry. apply (authorizer_spec ps a Hc Ha).
Qed.

(* non-vacuity: a genuinely different order of the merged rules *)
Example C08_map_order_example :
  let ps := [p_key "a" (PCanon LRead); p_key "b" (PCanon LWrite); p_key "a" (PCanon LDeny)] in
  let m := merge_policies ps in
  let p' := Policy (p_acl m) (p_keyring m) (p_operator m) (p_mesh m) (p_peering m) (rev (p_rules m)) in
  forallb levelled ps = true /\ p_rules p' <> p_rules m /\ Permutation (p_rules p') (p_rules m)
  /\ (exists a', load_rules p' = Some a').
Proof.
  intros ps m p'.
  assert (P : Permutation (p_rules p') (p_rules m)) by apply Permutation_sym, Permutation_rev.
  split; [reflexivity|]. split; [vm_compute; discriminate|]. split; [exact P|].
  (* every levelled policy list loads, in whatever order the merged rules come; the six side
     conditions (levelled, five scalar rules unchanged) hold by evaluation *)
  exact (load_rules_some ps p' eq_refl (conj eq_refl (conj eq_refl (conj eq_refl (conj eq_refl (conj eq_refl P)))))).
Qed.

(* ------------------------------------------------------------------ purity *)

(* Whatever tokens were resolved before (any policies of the versioned store W, any order), whatever
   was evicted or purged in between: a token's decisions are those of freshly parsed policies in an
   empty cache.  No hypothesis on the policies at all (they need not even parse). *)
Theorem C08_pure : forall W c es s m,
  versioned W -> reach W c -> Forall W es ->
  resolve_decide c es s m = resolve_decide caches_empty es s m.
Proof. exact resolve_decide_pure. Qed.

Theorem C08_pure_authorizer : forall W c c' es,
  versioned W -> reach W c -> reach W c' -> Forall W es ->
  snd (compile c es) = snd (compile c' es).
Proof. exact compile_cache_independent. Qed.

(* end to end: through any reachable cache the caller sees the documented rule *)
Theorem C08_semantics_through_caches : forall W c es s m,
  versioned W -> reach W c -> Forall W es ->
  forallb (fun e => e_ok e && validate (e_pol e)) es = true ->
  resolve_decide c es s m = Some (spec_chain (map e_pol es) s m).
Proof.
  intros W c es s m V R HW Hok. unfold resolve_decide.
  rewrite (proj1 (compile_ok W V c es (reach_ok W V c R) HW)). unfold compile_pure. rewrite (parse_all_ok es [] Hok). cbn [rev app].
  destruct (semantics (map e_pol es)) as (a & -> & Sa); [|f_equal; apply Sa].
  apply forallb_forall. intros p Hp. apply in_map_iff in Hp as (e & <- & He). apply validate_levelled.
  apply (proj1 (forallb_forall _ _) Hok) in He. apply andb_true_iff in He as [_ He]. exact He.
Qed.

(* ------------------------------------------------------------------ tokens, roles, identities *)

(* ACLResolver.resolvePoliciesForIdentity in server mode (everything resolved locally; the
   resolver's own identity/role/policy caches and RPC paths are not part of the statements),
   ACL/Identity.v: the policies of a token are its own and its roles' policy links (deduplicated),
   the synthetic policies of its own and inherited service identities (same-name identities merged:
   unscoped if one of them is, else the united datacenter lists), node identities and templated
   policies (one per (template, variables), valid in the united datacenters of its occurrences),
   filtered by datacenter scope.
   They all come from the world ... *)
Theorem C08_token_policies_from_world : forall w t, Forall (in_world w) (policies_for_identity w t).
Proof. exact policies_for_identity_in_world. Qed.

(* ... so a token's decisions do not depend on which tokens (with whatever roles and identities)
   were resolved before it, nor on evictions: same hypotheses as C08_pure, stated on the world. *)
Theorem C08_token_pure : forall w c t s m,
  versioned (in_world w) -> reach (in_world w) c ->
  token_decide w c t s m = token_decide w caches_empty t s m.
Proof. intros w c t s m V R. apply (token_decide_pure_store (in_world w)); auto. Qed.

Theorem C08_token_resolution_keeps_reach : forall w c t,
  reach (in_world w) c -> reach (in_world w) (fst (token_compile w c t)).
Proof. intros w c t R. apply reach_compile; [exact R|apply policies_for_identity_in_world]. Qed.

(* histories over several worlds (a policy, role or token edited, added or deleted between two
   resolutions): caches reachable over a smaller store are reachable over a larger one, and the
   token's decisions in the current world w do not depend on them as long as the whole store W
   (all versions ever resolved) is versioned *)
Theorem C08_reach_monotone : forall (W W' : pentry -> Prop) c, (forall e, W e -> W' e) -> reach W c -> reach W' c.
Proof.
  intros W W' c Hsub R. induction R as [|c es _ IH HW|c h _ IH|c k _ IH|c _ IH].
  - apply reach_empty.
  - apply reach_compile; [exact IH|]. eapply Forall_impl; [exact Hsub|exact HW].
  - apply reach_evict_parsed, IH.
  - apply reach_evict_authz, IH.
  - apply (reach_purge _ c), IH.
Qed.

Theorem C08_token_pure_across_worlds : forall (W : pentry -> Prop) w c t s m,
  versioned W -> (forall e, in_world w e -> W e) -> reach W c ->
  token_decide w c t s m = token_decide w caches_empty t s m.
Proof. exact token_decide_pure_store. Qed.

(* The decision is the documented rule applied to the UNION of what the token holds and inherits,
   each item valid in this datacenter or not on its own.  Holds outright since the two Deduplicate
   repairs (0b8ae30 service identities, b8a4eb3 templated policies). *)
Theorem C08_identity_union : forall w t,
  sameset (map e_pol (policies_for_identity w t)) (union_policies w t)
  /\ forall m, spec_decide (map e_pol (policies_for_identity w t)) m = spec_decide (union_policies w t) m.
Proof. intros w t. split; [apply policies_are_union|intros m; apply spec_decide_sameset, policies_are_union]. Qed.

Theorem C08_token_semantics : forall w c t s m,
  versioned (in_world w) -> reach (in_world w) c ->
  forallb (fun e => e_ok e && validate (e_pol e)) (policies_for_identity w t) = true ->
  token_decide w c t s m = Some (spec_chain (union_policies w t) s m).
Proof.
  intros w c t s m V R Hok. unfold token_decide.
  rewrite (C08_semantics_through_caches (in_world w) c _ s m V R (policies_for_identity_in_world w t) Hok).
  unfold spec_chain. rewrite (proj2 (C08_identity_union w t) m). reflexivity.
Qed.

(* the order in which a token lists its policy links, ROLE links and identities does not matter
   (both orders must resolve to policies that parse) *)
Theorem C08_link_order_independent : forall w c c' t t' s m,
  versioned (in_world w) -> reach (in_world w) c -> reach (in_world w) c' ->
  token_equiv t t' ->
  forallb (fun e => e_ok e && validate (e_pol e)) (policies_for_identity w t) = true ->
  forallb (fun e => e_ok e && validate (e_pol e)) (policies_for_identity w t') = true ->
  token_decide w c t s m = token_decide w c' t' s m.
Proof.
  intros w c c' t t' s m V R R' E H H'.
  rewrite (C08_token_semantics w c t s m V R H), (C08_token_semantics w c' t' s m V R' H').
  unfold spec_chain. rewrite (spec_decide_sameset _ _ m (union_policies_equiv w t t' E)). reflexivity.
Qed.

Local Open Scope N_scope.
Definition p_svc_a : policy :=
  Policy PEmpty PEmpty PEmpty PEmpty PEmpty [Rule KService false "a" (PCanon LWrite) PEmpty].
Definition e_svc_a : pentry := PEntry 100 0 100 true p_svc_a.

(* regression examples, the witnesses that refuted the two statements before b8a4eb3: roles R1
   builtin/service(a)@[dc1], R2 builtin/service(a)@[dc2], resolved in dc2, in both link orders *)
Definition ex_tp_world : world :=
  World 2 [] [(1, WRole [] [] [] [TPol 0 0 [1]]); (2, WRole [] [] [] [TPol 0 0 [2]])] [] [] [((0, 0), e_svc_a)].

Example C08_templated_scope_regression :
  token_equiv (WToken [] [1; 2] [] [] []) (WToken [] [2; 1] [] [] [])
  /\ map e_pol (policies_for_identity ex_tp_world (WToken [] [1; 2] [] [] [])) = [p_svc_a]
  /\ union_policies ex_tp_world (WToken [] [1; 2] [] [] []) = [p_svc_a]
  /\ token_decide ex_tp_world caches_empty (WToken [] [1; 2] [] [] []) deny_all (MServiceWrite "a") = Some Allow
  /\ token_decide ex_tp_world caches_empty (WToken [] [2; 1] [] [] []) deny_all (MServiceWrite "a") = Some Allow
  /\ token_decide ex_tp_world caches_empty (WToken [] [1] [] [] []) deny_all (MServiceWrite "a") = Some Deny.
Proof.
  split; [repeat split; try apply Permutation_refl; apply perm_swap|]. vm_compute. repeat split; reflexivity.
Qed.

(* regression example, the witness that refuted the union statement before 0b8ae30: own service
   identity "a" valid everywhere + role identity "a"@[dc1,dc3], resolved in dc2 *)
Definition ex_narrow_world : world :=
  World 2 [] [(1, WRole [] [SIdent 0 [1; 3]] [] [])] [(0, e_svc_a)] [] [].
Example C08_unscoped_identity_regression :
  let t := WToken [] [1] [SIdent 0 []] [] [] in
  map e_pol (policies_for_identity ex_narrow_world t) = [p_svc_a]
  /\ token_decide ex_narrow_world caches_empty t deny_all (MServiceWrite "a") = Some Allow.
Proof. vm_compute. split; reflexivity. Qed.

(* non-vacuity of all hypotheses of C08_token_pure / C08_token_semantics /
   C08_link_order_independent together, on the scenario of the role-sharing mutation:
   R1 "a"@[dc1], R2 "a"@[dc2], one scoped templated policy; in dc2 token A = [R1;R2] may write "a",
   token B = [R1] may not, before and after A, through a non-empty reachable cache *)
Definition ex_roles_world : world :=
  World 2 [] [(1, WRole [] [SIdent 0 [1]] [] [TPol 2 0 [2]]); (2, WRole [] [SIdent 0 [2]] [] [TPol 2 0 []])]
        [(0, e_svc_a)] [] [((2, 0), PEntry 101 0 101 true (p_key "dns" (PCanon LRead)))].
Example C08_token_example :
  let A := WToken [] [1; 2] [] [] [] in
  let B := WToken [] [1] [] [] [] in
  let c := fst (token_compile ex_roles_world caches_empty A) in
  versioned (in_world ex_roles_world) /\ reach (in_world ex_roles_world) c /\ c_authz c <> []
  /\ forallb (fun e => e_ok e && validate (e_pol e)) (policies_for_identity ex_roles_world A) = true
  /\ token_equiv A (WToken [] [2; 1] [] [] [])
  /\ token_decide ex_roles_world caches_empty A deny_all (MServiceWrite "a") = Some Allow
  /\ token_decide ex_roles_world caches_empty B deny_all (MServiceWrite "a") = Some Deny
  /\ token_decide ex_roles_world c B deny_all (MServiceWrite "a") = Some Deny.
Proof.
  cbv zeta. split; [|split; [|split; [|split; [|split]]]].
  - intros x y Hx Hy.
    assert (E : forall e, in_world ex_roles_world e -> e = e_svc_a \/ e = PEntry 101 0 101 true (p_key "dns" (PCanon LRead))).
    { intros e H. destruct H as [(id & wp & Hin & _)|[(n & Hin)|[(n & Hin)|(k & Hin)]]]; cbn in Hin.
      - destruct Hin.
      - destruct Hin as [Hin|[]]. injection Hin as _ <-. auto.
      - destruct Hin.
      - destruct Hin as [Hin|[]]. injection Hin as _ <-. auto. }
    (* every pair of entries: the (id, index) keys differ, or hash and content coincide *)
    destruct (E _ Hx) as [ -> | -> ], (E _ Hy) as [ -> | -> ]; cbn; (split; [intros H1 H2|intros H1]); try discriminate; try (split; reflexivity); reflexivity.
  - apply C08_token_resolution_keeps_reach, reach_empty.
  - vm_compute. discriminate.
  - vm_compute. reflexivity.
  - repeat split; try apply Permutation_refl. apply perm_swap.
  - vm_compute. repeat split; reflexivity.
Qed.
Local Close Scope N_scope.

(* ------------------------------------------------------------------ non-vacuity of the semantics and purity theorems *)

(* a policy set with overlapping names, duplicates across policies, every level, mixed spellings *)
Definition ex_ps : list policy :=
  [Policy (PCanon LRead) PEmpty (PCanon LWrite) PEmpty PEmpty
     [Rule KKey true "" (PCanon LRead) PEmpty; Rule KKey false "ab" (PCanon LWrite) PEmpty;
      Rule KService true "a" (PCanon LWrite) (PCanon LDeny); Rule KNode false "n" (PCanon LRead) PEmpty];
   Policy (PCanon LWrite) PEmpty PEmpty (PCanon LDeny) PEmpty
     [Rule KKey true "a" (PCanon LList) PEmpty; Rule KKey false "ab" (PCanon LDeny) PEmpty;
      Rule KService true "a" (POdd LRead) PEmpty; Rule KService false "ab" (POdd LDeny) PEmpty]].

Example C08_levelled_example :
  forallb levelled ex_ps = true /\ forallb validate ex_ps = true
  /\ spec_chain ex_ps deny_all (MKeyWrite "ab") = Deny          (* deny beats write on the same name *)
  /\ spec_chain ex_ps deny_all (MKeyList "abc") = Allow         (* longest prefix "a" (list) beats "" (read) *)
  /\ spec_chain ex_ps deny_all (MKeyWrite "x") = Deny           (* "" read does not grant write *)
  /\ spec_chain ex_ps allow_all (MNodeWrite "zz") = Allow       (* no rule: default policy *)
  /\ spec_chain ex_ps deny_all (MIntentionRead "a1") = Deny     (* explicit intentions = deny *)
  /\ spec_chain ex_ps deny_all (MServiceRead "ab" false) = Deny (* exact beats prefix *)
  /\ spec_chain ex_ps deny_all MMeshRead = Deny /\ spec_chain ex_ps deny_all MPeeringWrite = Allow.
Proof. vm_compute. repeat split; reflexivity. Qed.

(* a versioned store with two versions of a policy and a non-empty reachable cache *)
Definition ex_e1 := PEntry 1 1 11 true (p_key "a" (PCanon LRead)).
Definition ex_e2 := PEntry 2 1 12 true (p_key "a" (PCanon LWrite)).
Definition ex_e1' := PEntry 1 2 13 true (p_key "a" (PCanon LDeny)).
Definition ex_W (e : pentry) : Prop := e = ex_e1 \/ e = ex_e2 \/ e = ex_e1'.

Example C08_pure_example :
  versioned ex_W
  /\ reach ex_W (fst (compile (fst (compile caches_empty [ex_e1; ex_e2])) [ex_e1']))
  /\ c_parsed (fst (compile (fst (compile caches_empty [ex_e1; ex_e2])) [ex_e1'])) <> []
  /\ Forall ex_W [ex_e1].
Proof.
  split; [|split; [|split]].
  - intros x y Hx Hy. unfold ex_W in Hx, Hy.
    destruct Hx as [Hx|[Hx|Hx]], Hy as [Hy|[Hy|Hy]]; subst x y; cbn;
      (split; [intros H1 H2|intros H1]); try discriminate; try (split; reflexivity); reflexivity.
  - apply reach_compile; [apply reach_compile; [apply reach_empty|]|];
      repeat (apply Forall_cons || apply Forall_nil); unfold ex_W; auto.
  - vm_compute. discriminate.
  - apply Forall_cons; [unfold ex_W; auto|apply Forall_nil].
Qed.

(* ... and a cache from which entries were evicted and which was purged in between *)
Example C08_evicted_cache_example :
  let c1 := fst (compile caches_empty [ex_e1; ex_e2]) in
  let c2 := Caches (aremove N.eqb 11%N (c_parsed c1)) (c_authz c1) in
  let c3 := Caches (c_parsed c2) (aremove akey_eqb [(1, 1); (2, 1)]%N (c_authz c2)) in
  reach ex_W c3 /\ c_parsed c3 <> [] /\ c_parsed c3 <> c_parsed c1 /\ c_authz c3 = []
  /\ reach ex_W (fst (compile caches_empty [ex_e2]))
  /\ resolve_decide c3 [ex_e1; ex_e2] deny_all (MKeyWrite "a") = resolve_decide caches_empty [ex_e1; ex_e2] deny_all (MKeyWrite "a").
Proof.
  cbv zeta.
  assert (R1 : reach ex_W (fst (compile caches_empty [ex_e1; ex_e2]))).
  { apply reach_compile; [apply reach_empty|]. repeat (apply Forall_cons || apply Forall_nil); unfold ex_W; auto. }
  split; [apply reach_evict_authz, reach_evict_parsed, R1|].
  split; [vm_compute; discriminate|]. split; [vm_compute; discriminate|]. split; [reflexivity|].
  split; [apply reach_compile; [apply (reach_purge _ _ R1)|]; repeat (apply Forall_cons || apply Forall_nil); unfold ex_W; auto|].
  vm_compute. reflexivity.
Qed.

(* the versioning hypothesis of C08_pure is needed: with two different policies under the same
   (ID, ModifyIndex) the authorizer cache hands the second token the first one's authorizer *)
Example C08_pure_needs_versioning :
  let e := PEntry 1 1 11 true (p_key "a" (PCanon LRead)) in
  let e' := PEntry 1 1 12 true (p_key "a" (PCanon LWrite)) in
  let c := fst (compile caches_empty [e]) in
  resolve_decide c [e'] deny_all (MKeyWrite "a") = Some Deny
  /\ resolve_decide caches_empty [e'] deny_all (MKeyWrite "a") = Some Allow.
Proof. vm_compute. split; reflexivity. Qed.

(* ... and so is its second half (the content hash determines the rules): with two different
   policies under one hash the parsed-policy cache serves the first one for both.  The real
   ACLPolicy.SetHash concatenates name, description and rules without delimiters, so such pairs
   exist without any hash collision (open finding content-hash-concatenation-ambiguity). *)
Example C08_pure_needs_hash_determines_rules :
  let e := PEntry 1 1 11 true (p_key "a" (PCanon LRead)) in
  let e' := PEntry 2 1 11 true (p_key "a" (PCanon LWrite)) in
  let c := fst (compile caches_empty [e]) in
  resolve_decide c [e'] deny_all (MKeyWrite "a") = Some Deny
  /\ resolve_decide caches_empty [e'] deny_all (MKeyWrite "a") = Some Allow.
Proof. vm_compute. split; reflexivity. Qed.

Print Assumptions C08_semantics.
Print Assumptions C08_valid_is_levelled.
Print Assumptions C08_mixed_case_example.
Print Assumptions C08_strongest.
Print Assumptions C08_longest_prefix.
Print Assumptions C08_subtree.
Print Assumptions C08_any.
Print Assumptions C08_all.
Print Assumptions C08_covers.
Print Assumptions C08_order_independent.
Print Assumptions C08_order_mixed_case_example.
Print Assumptions C08_map_order_independent.
Print Assumptions C08_pure.
Print Assumptions C08_pure_authorizer.
Print Assumptions C08_semantics_through_caches.
Print Assumptions C08_token_policies_from_world.
Print Assumptions C08_token_pure.
Print Assumptions C08_token_resolution_keeps_reach.
Print Assumptions C08_reach_monotone.
Print Assumptions C08_token_pure_across_worlds.
Print Assumptions C08_identity_union.
Print Assumptions C08_token_semantics.
Print Assumptions C08_link_order_independent.
Print Assumptions C08_templated_scope_regression.
Print Assumptions C08_unscoped_identity_regression.
Print Assumptions C08_token_example.
Print Assumptions C08_levelled_example.
Print Assumptions C08_intentions_reading.
Print Assumptions C08_map_order_example.
Print Assumptions C08_pure_example.
Print Assumptions C08_evicted_cache_example.
Print Assumptions C08_pure_needs_versioning.
Print Assumptions C08_pure_needs_hash_determines_rules.
