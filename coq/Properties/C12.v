(* C12 — the Connect CA issues only authorized, verifiable identities.
   Each clause follows in a few lines from the general theorems of CA/{Proofs,UrlProofs,Confusion}.v
   ([sign_request_issued], [agent_cert_uri_spec], [cas_yes_replaced], ...); the examples are evaluated
   on the values of CA/Witness.v.

   The model (CA/Model.v) follows the code as it is at /repo HEAD, including the five repairs
   88c1fa0 (datacenter test for agent identities), b4828e2 (the agent host rewrite compares
   identities, not URL strings), 6968ec2 (a root list whose active entry is overwritten by a
   later entry with the same ID is refused), bf079b3 (datacenter test on the auto-config path) and
   3ebfd83 (URIs with userinfo/query/fragment refused).  Clauses still FALSE of the code carry a [_refuted]
   witness and an open known finding: a name with an encoded "/" can be issued with a URI that no
   reader can parse back (never one that reads as a different identity: C12_no_confusion); DNS/IP
   SANs are copied unchecked (a service token gets the servers' DNS name); agent identities in a
   partition are issued verbatim.
   "Chains to the currently active root" is not a theorem: X.509 is outside the model; the direct
   oracle checks crypto/x509 verification against the store's active root on every issued leaf. *)
From Verif Require Import Base.Prelude.
From Verif Require Import CA.Model.
From Verif Require Import CA.UrlProofs.
From Verif Require Import CA.Proofs.
From Verif Require Import CA.Confusion.
From Verif Require Import CA.Witness.
From Coq Require Import Sorted.
Open Scope string_scope.
Open Scope N_scope.
Open Scope list_scope.

(* The property's issuing clause, for every authorizer, request and state.  A successful
   CAManager.AuthorizeAndSignCertificate implies: exactly one URI SAN and no e-mail SAN; the URI
   parses as an identity of a supported kind; the token grants write on exactly that service /
   node / mesh / ACL scope; the certificate is not a CA and takes the next serial number of the
   replicated counter; the identity's datacenter is this one, and the
   certificate carries exactly one URI, whose host is the cluster's trust domain, which is the
   requested URI or - agents only - the identity printed with the host coerced to the trust
   domain. *)
Theorem C12_issue_sound : forall e az c s crt s',
  sign_request e az c s = Ok (crt, s') ->
  exists u id,
    csr_uris c = [u] /\ csr_emails c = 0 /\ parse_cert_uri u = Ok id /\
    validate_supported id = true /\ granted az id /\ c_is_ca crt = false /\
    c_serial crt = next_serial s /\
    (id_dc id = e_dc e /\
     exists u', c_uris crt = [u'] /\ lower (u_host u') = trust_domain e /\
                (u' = u \/ (is_agent id = true /\ u' = uri_of (coerce e id)))).
Proof.
  intros e az c s crt s' H. apply sign_request_issued in H as (u & id & I & -> & _).
  exists u, id. destruct I. do 7 (split; [assumption || reflexivity|]). split; [assumption|].
  exists (agent_cert_uri e u id). split; [reflexivity|]. apply agent_cert_uri_spec; assumption.
Qed.

(* The same with the code's case split visible: services, mesh gateways and servers keep the
   requested URI and their host is the trust domain; agents keep it when the host already is the
   trust domain and get the re-printed identity otherwise; the state changes by the serial counter
   only. *)
Theorem C12_issue_sound_detailed : forall e az c s crt s',
  sign_request e az c s = Ok (crt, s') ->
  exists u id,
    csr_uris c = [u] /\ csr_emails c = 0 /\ parse_cert_uri u = Ok id /\
    validate_supported id = true /\ granted az id /\ id_dc id = e_dc e /\
    (is_agent id = false -> lower (id_host id) = trust_domain e /\ c_uris crt = [u]) /\
    (is_agent id = true -> c_uris crt = [agent_cert_uri e u id]) /\
    c_is_ca crt = false /\ c_serial crt = next_serial s /\ s' = incr_serial s.
Proof.
  intros e az c s crt s' H. apply sign_request_issued in H as (u & id & I & -> & ->).
  exists u, id. pose proof (iss_host I) as Hh. destruct I. do 6 (split; [assumption|]). cbn [c_uris c_is_ca c_serial].
  split; [intros Ha; rewrite (agent_cert_uri_other _ _ _ Ha)|]; auto.
Qed.

(* The environment is not a free constant in the code: SignCertificate derives the trust domain
   from the ClusterID of the STORED configuration on every request ([store_env]).  Signing does
   not change it, and no command other than the two configuration writes (and a restore, which
   drops a blank-provider configuration) does. *)
Theorem C12_trust_domain_from_store : forall dc az c s crt s' e,
  store_env dc s = Some e -> sign_request e az c s = Ok (crt, s') -> store_env dc s' = Some e.
Proof.
  intros dc az c s crt s' e He H. apply sign_request_issued in H as (u & id & _ & _ & ->). exact He.
Qed.

Theorem C12_trust_domain_stable : forall dc s idx o,
  match o with OpSetConfig _ | OpSetRootsAndConfig _ _ _ | OpSnapshotRestore => False | _ => True end ->
  store_env dc (fst (step s idx o)) = store_env dc s.
Proof.
  intros dc s idx o H. unfold store_env. destruct (step_frame s idx o) as [_ F].
  destruct o; try contradiction; rewrite F; reflexivity.
Qed.

(* ---- clauses of "the certificate carries exactly that identity" that are FALSE of the code ---- *)

(* The DNS names and IP addresses of the request are copied into the certificate unchecked (a fact
   about ConsulProvider.Sign, not a soundness clause) ... *)
Theorem C12_sans_copied : forall e az c s crt s',
  sign_request e az c s = Ok (crt, s') -> c_dns crt = csr_dns c /\ c_ips crt = csr_ips c.
Proof.
  intros e az c s crt s' H. apply sign_request_issued in H as (u & id & _ & -> & _). split; reflexivity.
Qed.

(* ... so a token with service:write on "web" and no acl:write obtains a leaf that also carries
   the DNS name designating the servers of the datacenter (open finding server-dns-san). *)
Theorem C12_server_dns_san_refuted :
  exists e az c s crt s' u svc,
    sign_request e az c s = Ok (crt, s') /\ csr_uris c = [u] /\
    parse_cert_uri u = Ok (IdService w_td "default" "default" "dc1" svc) /\
    az_acl_write az = false /\ In "server.dc1.consul" (c_dns crt).
Proof.
  exists w_env, w_az, w_csr_server_san, empty_store, (Cert [w_web] ["server.dc1.consul"] [] false 1),
         (incr_serial empty_store), w_web, "web".
  repeat split; try (vm_compute; reflexivity). left. reflexivity.
Qed.

(* "supported identity" is weak for agents: validateSupportedIdentityScopesInCertificate accepts
   an agent identity in ANY partition (upstream's own test demands it), and with the host already
   in the trust domain the URI is issued verbatim (open finding agent-partition). *)
Theorem C12_agent_partition_refuted :
  exists e az c s crt s' u host ap dc agent,
    sign_request e az c s = Ok (crt, s') /\ csr_uris c = [u] /\ c_uris crt = [u] /\
    parse_cert_uri u = Ok (IdAgent host ap dc agent) /\ ap <> "default".
Proof.
  exists w_env, w_az, (w_csr w_agent_ap), empty_store, (Cert [w_agent_ap] [] [] false 1),
         (incr_serial empty_store), w_agent_ap, w_td, "foo", "dc1", "n1".
  repeat split; try (vm_compute; reflexivity). discriminate.
Qed.

(* A URI with userinfo, a query or a fragment is not a SPIFFE ID: no certificate is issued for
   one, and the URI that goes into the certificate carries none (3ebfd83; [is_duser] marks exactly
   userinfo / query / fragment - the omit-host form of an agent URI is re-printed, see the
   regression example). *)
Theorem C12_no_decorated_uri : forall e az c s crt s',
  sign_request e az c s = Ok (crt, s') ->
  exists u u', csr_uris c = [u] /\ is_duser (u_deco u) = false /\
               c_uris crt = [u'] /\ is_duser (u_deco u') = false.
Proof.
  intros e az c s crt s' H. apply sign_request_issued in H as (u & id & I & -> & _).
  exists u, (agent_cert_uri e u id). split; [exact (iss_uris I)|]. split; [exact (iss_plain I)|]. split; [reflexivity|].
  destruct (agent_cert_uri_spec e u id (iss_parse I) (iss_supported I) (iss_host I)) as [_ [-> | [_ ->]]];
    [exact (iss_plain I) | destruct id; reflexivity].
Qed.

(* ---- the second entry point: AutoConfig.InitialConfiguration -> CAManager.SignCertificate ---- *)

(* Full strength: one undecorated URI, no e-mail, an agent identity OF THIS DATACENTER (bf079b3) for
   exactly the node the JWT authorized, a certificate URI in the trust domain (the requested one or
   the re-printed identity), not a CA, next serial. *)
Theorem C12_autoconfig_sound : forall e node c s crt s',
  autoconfig_sign e node c s = Ok (crt, s') ->
  exists u host ap,
    csr_uris c = [u] /\ csr_emails c = 0 /\ is_duser (u_deco u) = false /\
    parse_cert_uri u = Ok (IdAgent host ap (e_dc e) node) /\
    c_uris crt = [agent_cert_uri e u (IdAgent host ap (e_dc e) node)] /\
    (exists u', c_uris crt = [u'] /\ lower (u_host u') = trust_domain e /\
                (u' = u \/ u' = uri_of (IdAgent (trust_domain e) ap (e_dc e) node))) /\
    c_is_ca crt = false /\ c_serial crt = next_serial s /\ s' = incr_serial s.
Proof.
  intros e node c s crt s' H.
  apply autoconfig_sign_issued in H as (u & host & ap & Hu & Hem & Hd & Hp & -> & ->).
  exists u, host, ap. do 5 (split; [assumption || reflexivity|]). split; [|auto].
  exists (agent_cert_uri e u (IdAgent host ap (e_dc e) node)). split; [reflexivity|].
  destruct (agent_cert_uri_spec e u _ Hp eq_refl ltac:(discriminate)) as [Hl [E | [_ E]]]; auto.
Qed.

(* Printing an identity and parsing it gives the identity back (well-formed: non-empty segments
   without "/", the default namespace, lower-case partition; community edition). *)
Theorem C12_parse_print : forall id, wf_id id -> parse_cert_uri (uri_of id) = Ok id.
Proof. exact parse_print. Qed.

(* ... also through the certificate: URI() -> String() in the SAN -> url.Parse -> ParseCertURI. *)
Theorem C12_parse_print_cert : forall id, wf_id id -> parse_cert_uri (reparse (uri_of id)) = Ok id.
Proof.
  intros id H. pose proof (uri_path_not_star id) as Hs.
  assert (E : reparse (uri_of id) = uri_of id).
  { destruct id; cbn [uri_of] in *; unfold fresh_url in *; cbn [u_path] in Hs; apply reparse_fresh; exact Hs. }
  rewrite E. apply parse_print. exact H.
Qed.

(* net/url: decoding the default encoding of a path gives the path back. *)
Theorem C12_unescape_escape : forall s, unescape (escape_path s) = Some s.
Proof. exact unescape_escape. Qed.

(* No confusion.  For every issued certificate whose request URL is as url.Parse produces it
   ([url_wf]; escaped, case-varied, decorated spellings included): whatever identity a reader that
   parses the certificate's URI SAN the way consul does (url.Parse, then ParseCertURI: peers' proxies
   configured by consul, consul's own authorize endpoint) obtains is [cert_identity] - the identity the ACL check
   was made for (host coerced and partition defaulted when the CA re-printed an agent URI) - so it has
   the same ACL scope and name, and the token that was presented grants write on it. *)
Theorem C12_no_confusion : forall e az c s crt s',
  sign_request e az c s = Ok (crt, s') ->
  (forall u, In u (csr_uris c) -> url_wf u) ->
  exists u id u',
    csr_uris c = [u] /\ parse_cert_uri u = Ok id /\ granted az id /\ c_uris crt = [u'] /\
    forall id2, parse_cert_uri (reparse u') = Ok id2 ->
      id2 = cert_identity e u id /\ scope_of id2 = scope_of id /\ granted az id2.
Proof.
  intros e az c s crt s' H Hwf. apply sign_request_issued in H as (u & id & I & -> & _).
  exists u, id, (agent_cert_uri e u id).
  split; [exact (iss_uris I)|]. split; [exact (iss_parse I)|]. split; [exact (iss_granted I)|]. split; [reflexivity|].
  intros id2 H2. apply cert_uri_reading in H2 as ->;
    [|apply Hwf; rewrite (iss_uris I); left; reflexivity | exact (iss_parse I)].
  destruct (cert_identity_scope e u az id) as [Hsc Hgr]. auto using (iss_granted I).
Qed.

(* [url_wf] is decidable; the boolean is evaluated on every URL crypto/x509 hands to the CA in the
   correspondence run (Run/C12.v check_sign), which ties the hypothesis above to net/url. *)
Theorem C12_url_wfb_sound : forall u, url_wfb u = true -> url_wf u.
Proof.
  intros u H. unfold url_wfb, url_wf in *. apply orb_true_iff in H as [H|H].
  - left. apply String.eqb_eq. exact H.
  - right. apply andb_true_iff in H as [H1 H2].
    destruct (unescape (u_raw u)) as [p|]; [|discriminate]. apply String.eqb_eq in H1. subst p.
    split; [reflexivity|]. apply String.eqb_neq. apply negb_true_iff. exact H2.
Qed.

(* The two readings of one URL agree: through the RawPath with per-segment unescaping (what the
   CA does) and through the decoded Path alone (what a reader of a re-encoded URI does). *)
Theorem C12_readings_agree : forall sch h p r pl id id2,
  nonempty r = true -> unescape r = Some p ->
  parse_cert_uri (Url sch h p r pl) = Ok id ->
  parse_cert_uri (Url sch h p "" pl) = Ok id2 -> id2 = id.
Proof. exact reading_same. Qed.

(* "The certificate carries exactly that identity" in the strong sense (the reader DOES obtain
   it) is refuted: an authorized name with an encoded "/" and a byte net/url re-encodes is
   issued with a URI that no longer reads as an identity. *)
Theorem C12_cert_identity_readable_refuted :
  exists e az c s crt s' u id,
    sign_request e az c s = Ok (crt, s') /\ url_wf u /\ csr_uris c = [u] /\ c_uris crt = [u] /\
    parse_cert_uri u = Ok id /\ parse_cert_uri (reparse u) = Err PFormat.
Proof.
  exists w_env, w_az_any, (w_csr w_slash), empty_store, (Cert [w_slash] [] [] false 1),
         (incr_serial empty_store), w_slash, (IdService w_td "default" "default" "dc1" "web/x ").
  repeat split; try (vm_compute; reflexivity). right. split; [reflexivity | discriminate].
Qed.

(* Along every history of CA commands (root and configuration updates, provider-state writes and
   deletions, snapshot/restore, invalid commands) and signing requests, from any state, the serial
   numbers handed out are strictly increasing and above the last one handed out before. *)
Theorem C12_serial_fresh : forall e evs s s' l,
  run_events e s evs = (s', l) ->
  StronglySorted N.lt l /\ Forall (fun n => last_serial s < n) l.
Proof.
  intros e evs. induction evs as [|[idx o|az c] evs IH]; intros s s' l H; cbn [run_events] in H.
  - injection H as <- <-. split; constructor.
  - destruct (step s idx o) as [s1 r] eqn:St. apply step_serial in St.
    destruct (run_events e s1 evs) as [s2 l2] eqn:R. destruct (IH _ _ _ R) as [Hs Hf].
    destruct r; injection H as <- <-; try (rewrite St in Hf; split; assumption).
    destruct St as [-> Hl]. rewrite Hl in Hf. apply sorted_above; auto using next_serial_gt.
  - destruct (sign_request e az c s) as [[crt s1]|x] eqn:Sg; [|apply IH in H; exact H].
    apply sign_request_issued in Sg as (u & id & _ & -> & ->).
    destruct (run_events e _ evs) as [s2 l2] eqn:R. destruct (IH _ _ _ R) as [Hs Hf].
    injection H as <- <-. apply sorted_above; auto using next_serial_gt.
Qed.

(* Every reachable state - any sequence of CA commands at any indexes, root lists with repeated
   IDs included - has no root or exactly one active root. *)
Theorem C12_one_active : forall s, Reach s -> one_active s.
Proof. induction 1 as [|s idx o _ IH]; [left; reflexivity | apply step_one_active; assumption]. Qed.

(* The list that broke the clause before 6968ec2 ([{a, active}; {a, inactive}]: one Active flag in
   the list, but the row is overwritten) is refused and changes nothing; the list the leader emits when
   only the intermediates of a root change ([{a, inactive}; {a, active}]) is accepted. *)
Theorem C12_active_overwritten_refused :
  step empty_store 1 (OpSetRoots 0 [("a", true); ("a", false)]) = (empty_store, OErr EActiveOverwritten) /\
  step empty_store 1 (OpSetRoots 0 [("a", false); ("a", true)]) =
    (Store [Root "a" true 1 1] 1 None [] 0 None, OBool true).
Proof. vm_compute. split; reflexivity. Qed.

(* A set-roots command replaces the WHOLE set (nothing of the old set survives, every given ID is
   stored, index entry := this Raft index, nothing else changes) and answers true, or changes
   NOTHING and does not answer true; with a non-matching index it changes nothing and answers
   false (or one of the two errors about the list itself). *)
Theorem C12_root_swap_atomic : forall s idx cidx rs s' r,
  step s idx (OpSetRoots cidx rs) = (s', r) ->
  (r = OBool true /\ s_roots_idx s = cidx /\ count_active rs = 1%nat /\
   replaced_by (s_roots s) idx rs (s_roots s') /\ s_roots_idx s' = idx /\ same_but_roots s s')
  \/ (s' = s /\ r <> OBool true /\
      (s_roots_idx s <> cidx -> r = OBool false \/ r = OErr EOneActive \/ r = OErr EActiveOverwritten)).
Proof.
  intros s idx cidx rs s' r. cbn [step].
  destruct (root_check_and_set s idx cidx rs) as [x| |rs'] eqn:C; intros [= <- <-].
  - right. split; [reflexivity|]. split; [discriminate|]. intros Hne.
    destruct (cas_mismatch s idx cidx rs Hne) as [E|[E|E]]; rewrite E in C; [discriminate| |];
      injection C as <-; auto.
  - right. split; [reflexivity|]. split; [discriminate|]. auto.
  - left. destruct (cas_yes_replaced _ _ _ _ _ C) as (Hi & Hc & Hr).
    split; [reflexivity|]. split; [exact Hi|]. split; [exact Hc|]. split; [exact Hr|]. repeat split.
Qed.

(* Roots and configuration in one command: both are replaced or nothing changes. *)
Theorem C12_roots_and_config_atomic : forall s idx cidx rs ci s' r,
  step s idx (OpSetRootsAndConfig cidx rs ci) = (s', r) ->
  (r = OBool true /\ s_roots_idx s = cidx /\ config_index_ok s (gi_modify ci) = true /\
   replaced_by (s_roots s) idx rs (s_roots s') /\ s_roots_idx s' = idx /\
   s_config s' = Some (set_config s idx ci) /\
   s_pstates s' = s_pstates s /\ s_builtin_idx s' = s_builtin_idx s /\ s_serial s' = s_serial s)
  \/ (s' = s /\ r <> OBool true).
Proof.
  intros s idx cidx rs ci s' r. cbn [step].
  destruct (root_check_and_set s idx cidx rs) as [x| |rs'] eqn:C;
    [| |destruct (config_index_ok s (gi_modify ci))]; intros [= <- <-];
    try (right; split; [reflexivity | discriminate]).
  left. destruct (cas_yes_replaced _ _ _ _ _ C) as (Hi & _ & Hr).
  split; [reflexivity|]. split; [exact Hi|]. split; [reflexivity|]. split; [exact Hr|]. repeat split.
Qed.

(* A conditional configuration update applies exactly when the index matches; otherwise it changes
   nothing and reports the mismatch. *)
Theorem C12_config_cas_honest : forall s idx ci s' r,
  step s idx (OpSetConfig ci) = (s', r) -> gi_modify ci <> 0 ->
  (r = OBool true /\ config_index_ok s (gi_modify ci) = true /\ s_config s' = Some (set_config s idx ci) /\
   s_roots s' = s_roots s /\ s_roots_idx s' = s_roots_idx s)
  \/ (s' = s /\ r = OErr EConfigCAS /\ config_index_ok s (gi_modify ci) = false).
Proof.
  intros s idx ci s' r H Hne. cbn [step] in H. apply N.eqb_neq in Hne. rewrite Hne in H. cbn [negb] in H.
  destruct (config_index_ok s (gi_modify ci)); injection H as <- <-; [left | right]; repeat split.
Qed.

(* No other command (configuration, provider state, serial counter, snapshot/restore, invalid)
   touches the roots table or its index. *)
Theorem C12_other_commands_keep_roots : forall s idx o,
  match o with OpSetRoots _ _ | OpSetRootsAndConfig _ _ _ => False | _ => True end ->
  s_roots (fst (step s idx o)) = s_roots s /\ s_roots_idx (fst (step s idx o)) = s_roots_idx s.
Proof. intros s idx o H. destruct (step_frame s idx o) as [F _]. destruct o; try contradiction; exact F. Qed.

(* a request that is issued, with an escaped spelling that satisfies [url_wf] *)
Example C12_issue_example :
  url_wf w_web_esc /\
  sign_request w_env w_az (w_csr w_web_esc) empty_store =
    Ok (Cert [w_web_esc] [] [] false 1, incr_serial empty_store).
Proof. split; [right; split; [reflexivity | discriminate] | vm_compute; reflexivity]. Qed.

(* agent requests: the dummy host of auto-encrypt, a foreign host with an explicit default
   partition and one with a percent-escape are all coerced into the trust domain; an agent
   identity of another datacenter is refused *)
Example C12_agent_example :
  sign_request w_env w_az (w_csr w_agent_dummy) empty_store =
    Ok (Cert [w_agent_td] [] [] false 1, incr_serial empty_store) /\
  sign_request w_env w_az (w_csr w_agent_foreign) empty_store =
    Ok (Cert [w_agent_td] [] [] false 1, incr_serial empty_store) /\
  sign_request w_env w_az (w_csr w_agent_esc) empty_store =
    Ok (Cert [w_agent_td] [] [] false 1, incr_serial empty_store) /\
  sign_request w_env w_az (w_csr w_agent_dc2) empty_store = Err EDatacenter.
Proof. vm_compute. repeat split. Qed.

(* regressions for the two repaired clauses: the dc2 agent identity is refused on the auto-config
   path; decorated URIs are refused through both entry points *)
Example C12_autoconfig_datacenter_regression :
  parse_cert_uri w_agent_dc2 = Ok (IdAgent w_td "default" "dc2" "n1") /\
  autoconfig_sign w_env "n1" (w_csr w_agent_dc2) empty_store = Err EDatacenter.
Proof. vm_compute. split; reflexivity. Qed.

Example C12_decorated_uri_regression :
  sign_request w_env w_az (w_csr w_web_query) empty_store = Err EDecorated /\
  autoconfig_sign w_env "n1" (w_csr w_agent_query) empty_store = Err EDecorated /\
  sign_request w_env w_az (w_csr w_agent_omithost) empty_store =
    Ok (Cert [w_agent_td] [] [] false 1, incr_serial empty_store).
Proof. vm_compute. repeat split. Qed.

(* the auto-config path: issued for the authorized node, refused for another node or a non-agent *)
Example C12_autoconfig_example :
  autoconfig_sign w_env "n1" (w_csr w_agent_dummy) empty_store =
    Ok (Cert [w_agent_td] [] [] false 1, incr_serial empty_store) /\
  autoconfig_sign w_env "n2" (w_csr w_agent_dummy) empty_store = Err EWrongNode /\
  autoconfig_sign w_env "web" (w_csr w_web) empty_store = Err ENotAgent.
Proof. vm_compute. repeat split. Qed.

(* both arms of [C12_config_cas_honest] *)
Example C12_config_cas_example :
  let s := fst (step empty_store 3 (OpSetConfig (ConfigIn "consul" "c1" 0 7))) in
  snd (step s 5 (OpSetConfig (ConfigIn "consul" "c1" 3 8))) = OBool true /\
  step s 5 (OpSetConfig (ConfigIn "consul" "c1" 2 8)) = (s, OErr EConfigCAS).
Proof. vm_compute. split; reflexivity. Qed.

(* [store_env]: the environment follows the stored ClusterID *)
Example C12_store_env_example :
  let s := fst (step empty_store 3 (OpSetConfig (ConfigIn "consul" "11111111-2222-3333-4444-555555555555" 0 7))) in
  store_env "dc1" s = Some w_env /\
  store_env "dc1" (fst (step s 4 (OpSetConfig (ConfigIn "consul" "c2" 0 7)))) = Some (CaEnv "dc1" "c2").
Proof. vm_compute. split; reflexivity. Qed.

(* well-formed identities exist for [C12_parse_print] *)
Example C12_wf_id_example :
  wf_id (IdService w_td "default" "default" "dc1" "web") /\ wf_id (IdAgent w_td "default" "dc1" "n1") /\
  wf_id (IdGateway w_td "default" "dc1") /\ wf_id (IdServer w_td "dc1").
Proof. vm_compute. repeat split. Qed.

(* a reachable state with a rotated root set, a refused stale update, an issued serial *)
Example C12_reach_example :
  Reach (run_ops empty_store w_hist) /\
  run_ops empty_store w_hist =
    Store [Root "r1" false 4 6; Root "r2" true 6 6] 6 (Some (Config "consul" "c1" 3 4 8)) [] 0 (Some 1).
Proof. split; [apply reach_run_ops; constructor | vm_compute; reflexivity]. Qed.

Print Assumptions C12_issue_sound.
Print Assumptions C12_issue_sound_detailed.
Print Assumptions C12_trust_domain_from_store.
Print Assumptions C12_trust_domain_stable.
Print Assumptions C12_sans_copied.
Print Assumptions C12_server_dns_san_refuted.
Print Assumptions C12_agent_partition_refuted.
Print Assumptions C12_no_decorated_uri.
Print Assumptions C12_autoconfig_sound.
Print Assumptions C12_autoconfig_datacenter_regression.
Print Assumptions C12_decorated_uri_regression.
Print Assumptions C12_url_wfb_sound.
Print Assumptions C12_autoconfig_example.
Print Assumptions C12_config_cas_example.
Print Assumptions C12_store_env_example.
Print Assumptions C12_parse_print.
Print Assumptions C12_parse_print_cert.
Print Assumptions C12_unescape_escape.
Print Assumptions C12_no_confusion.
Print Assumptions C12_readings_agree.
Print Assumptions C12_cert_identity_readable_refuted.
Print Assumptions C12_serial_fresh.
Print Assumptions C12_one_active.
Print Assumptions C12_active_overwritten_refused.
Print Assumptions C12_root_swap_atomic.
Print Assumptions C12_roots_and_config_atomic.
Print Assumptions C12_config_cas_honest.
Print Assumptions C12_other_commands_keep_roots.
Print Assumptions C12_issue_example.
Print Assumptions C12_agent_example.
Print Assumptions C12_wf_id_example.
Print Assumptions C12_reach_example.
