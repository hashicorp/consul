(* C10 — conditional writes are honest: applied iff matched, reported iff applied.

   Vocabulary (CAS/Spec.v).  A conditional command type is a record W of five functions of the
   state s and the request c:
     cw_post W s c     the state after the FSM applied the command (all tables, all index rows)
     cw_ok W s c       the command's result is the success value
     cw_matched W s c  SPECIFICATION: the caller's expected index is the entity's current one
     cw_valid W s c    the unconditional write of the same payload would be accepted
     cw_write W s c    the state the unconditional write produces
   and   applied W s c := cw_post W s c <> s        effective W s c := cw_write W s c <> s
         honest_on P W := for all s c with P s c:
             (cw_ok W s c = true <-> cw_matched W s c = true /\ cw_valid W s c = true)
          /\ (cw_ok W s c = true  -> cw_post W s c = cw_write W s c)
          /\ (cw_ok W s c = false -> cw_post W s c = s)           honest := honest_on (fun _ _ => True).
   The W_... records are defined in CAS/Proofs.v (over CAS/Model.v) and CAS/StoreProofs.v (over
   Store/Model.v), next to the equation or specification of the store function each is about; each takes
   its post state and its result from the model of the FSM command.  The theorems are proved here from
   those lemmas: honesty through [honest_attempt] / [honest_cases], visibility through [stamped_effective]. *)
From stdpp Require Import gmap strings.
From Coq Require Import NArith.
From Verif Require Store.Model Store.Theorems.
From Verif Require Import CAS.Spec CAS.Model CAS.Proofs CAS.StoreProofs CAS.Examples.
Local Open Scope N_scope.

(* the schema: what honesty gives for every command type at once *)
Theorem C10_schema : forall (S C : Type) (EqS : EqDecision S) (P : S -> C -> Prop) (W : cond_write S C),
  honest_on P W -> forall s c, P s c ->
  (effective W s c -> (cw_matched W s c = true /\ cw_valid W s c = true <-> applied W s c)) /\
  (effective W s c -> (cw_ok W s c = true <-> applied W s c)) /\
  (applied W s c -> cw_matched W s c = true /\ cw_valid W s c = true) /\
  (~ applied W s c -> cw_post W s c = s) /\
  (cw_matched W s c = false -> cw_post W s c = s) /\
  (cw_post W s c = s \/ cw_post W s c = cw_write W s c).
Proof. exact @schema. Qed.

Theorem C10_kv_cas : honest W_kv_cas.
Proof. exact kv_cas_honest. Qed.

(* delete-cas with "matched" read as upstream's tests pin it (an absent key matches) ... *)
Theorem C10_kv_delete_cas : honest W_kv_delete_cas.
Proof. exact kv_delete_cas_honest. Qed.

(* ... and the delete variant of the schema spelled out:
   reported_ok <-> key absent afterwards /\ (was present -> matched) *)
Theorem C10_kv_delete_cas_variant : forall s c,
  cw_ok W_kv_delete_cas s c = true <->
  Store.Model.kvs (cw_post W_kv_delete_cas s c) !! Store.Model.q_key (kc_req c) = None /\
  (forall e, Store.Model.kvs s !! Store.Model.q_key (kc_req c) = Some e ->
             Store.Model.kv_modify e = Store.Model.q_index (kc_req c)).
Proof. exact kv_delete_cas_variant. Qed.

(* the eleven conditional transaction verbs (kv / node / service / check cas and delete-cas, kv guards) *)
Theorem C10_txn_verbs : honest_on (fun _ c => is_cond (tx_op c) = true) W_txn.
Proof. exact txn_cond_honest. Qed.

(* is_cond covers the cas / delete-cas verbs and the guard verbs check-index / check-not-exists /
   check-session (which write nothing but make the whole transaction conditional);
   mismatch_err op = EGuard for a guard verb, EStale otherwise *)
Theorem C10_txn_mismatch_is_stale : forall s c,
  is_cond (tx_op c) = true -> op_matched (tx_op c) s = false ->
  txn1 c s = (s, Store.Model.CTxn [] [(0%nat, mismatch_err (tx_op c))]).
Proof. exact txn_cond_mismatch_is_stale. Qed.

(* a mismatching conditional verb anywhere in a transaction: nothing of the transaction is applied *)
Theorem C10_txn_mismatch_aborts : forall idx ops1 op ops2 s s1 r1,
  Store.Theorems.seq_ops idx ops1 s = Store.Model.Ok (s1, r1) -> is_cond op = true -> op_matched op s1 = false ->
  txn_ok (Store.Model.txn_rw idx (ops1 ++ op :: ops2) s).2 = false /\
  (Store.Model.txn_rw idx (ops1 ++ op :: ops2) s).1 = s.
Proof. exact txn_cond_mismatch_aborts. Qed.

(* composite clause for transactions of ANY length: committed iff every operation succeeds in
   sequence, each on the state its predecessors produced; then the state is that sequential
   composition, otherwise it is untouched -- all parts or none *)
Theorem C10_txn_all_parts_or_none : forall idx ops s,
  match Store.Theorems.seq_ops idx ops s with
  | Store.Model.Ok (s', _) => txn_ok (Store.Model.txn_rw idx ops s).2 = true /\ (Store.Model.txn_rw idx ops s).1 = s'
  | Store.Model.Err _ _ => txn_ok (Store.Model.txn_rw idx ops s).2 = false /\ (Store.Model.txn_rw idx ops s).1 = s
  end.
Proof. exact txn_all_parts_or_none. Qed.

(* success direction: every conditional operation of a committed transaction matched in ITS state *)
Theorem C10_txn_committed_cond_op_matched : forall idx ops1 op ops2 s s1 r1,
  Store.Theorems.seq_ops idx ops1 s = Store.Model.Ok (s1, r1) -> is_cond op = true ->
  txn_ok (Store.Model.txn_rw idx (ops1 ++ op :: ops2) s).2 = true ->
  op_matched op s1 = true /\ r_ok (op_write idx op s1) = true.
Proof.
  intros idx ops1 op ops2 s s1 r1 H1 Hc Hok. pose proof (txn_all_parts_or_none idx (ops1 ++ op :: ops2) s) as H.
  rewrite seq_ops_app, H1 in H. cbn in H. pose proof (cond_op_spec idx op s1 Hc) as Hop.
  destruct (op_matched op s1); [destruct (op_write idx op s1) as [s2|e p]; [split; reflexivity|]|];
    rewrite Hop in H; destruct H as [H _]; congruence.
Qed.

(* config entries (for EVERY graph validator) *)
Theorem C10_config_entry_upsert : forall graph_ok, honest (W_cfg_upsert graph_ok).
Proof. exact cfg_upsert_honest. Qed.

Theorem C10_config_entry_delete : forall graph_ok, honest (W_cfg_delete graph_ok).
Proof.
  intros graph_ok. apply (honest_attempt _ _ (fun s c => delete_cfg_cas graph_ok (d_idx c) (d_cidx c) (d_key c) s)).
  - intros s c _. apply (bool_result_fsm _ s).
  - intros s c _. rewrite delete_cfg_cas_eq. apply (guarded_attempt _ _ s).
Qed.

(* the delete variant stated on the entity: success iff it was there with the expected index, was
   allowed to go, and is gone afterwards *)
Theorem C10_config_entry_delete_reports_removal : forall graph_ok s c,
  cw_ok (W_cfg_delete graph_ok) s c = true ->
  is_Some (cfg s !! d_key c) /\ cfg (cw_post (W_cfg_delete graph_ok) s c) !! d_key c = None.
Proof.
  intros graph_ok s c. destruct c as [idx k cidx]. unfold W_cfg_delete; cbn. unfold delete_cfg_cas, delete_cfg.
  destruct (cfg s !! k) as [x|] eqn:Ek; cbn; [|discriminate].
  destruct (bool_decide (ce_modify x = cidx)); cbn; [|discriminate].
  destruct (graph_ok _ _); cbn; [|discriminate].
  intros _. split; [eexists; reflexivity|apply lookup_delete].
Qed.

(* config entries, the RPC endpoints ConfigEntry.Apply / ConfigEntry.Delete (repaired by fbf8c12) *)
(* The unconditional write of this layer (cw_write / cw_valid of W_rpc_cfg_upsert) is ConfigEntry.Apply with a
   plain upsert, which is itself a no-op when the stored entry already equals the submitted one.
   Hypothesis stored_positive: the stored entry's ModifyIndex is not zero (it is a Raft index). *)
Theorem C10_config_entry_rpc_upsert : forall graph_ok, honest_on stored_positive (W_rpc_cfg_upsert graph_ok).
Proof. exact rpc_cfg_upsert_honest. Qed.

(* in particular an entry of equal content does not excuse a wrong index (the defect fbf8c12 repaired) *)
Theorem C10_config_entry_rpc_upsert_equal_content_mismatch : forall graph_ok s c x,
  cfg s !! u_key c = Some x -> u_cidx c <> ce_modify x ->
  apply graph_ok (u_idx c) (rcmd c) s = (s, RBool false).
Proof.
  intros graph_ok s c x. destruct c as [idx k content status cidx ws]; cbn. intros Hx Hne.
  rewrite rpc_skip_upsert_cas, ensure_cfg_cas_eq, Hx. unfold expect.
  rewrite (bool_decide_eq_false_2 _ Hne), andb_false_r. reflexivity.
Qed.

Theorem C10_config_entry_rpc_upsert_effective : forall graph_ok s c,
  rpc_skip_upsert false 0 (u_key c) (u_content c) (u_status c) s = false ->
  (forall x, cfg s !! u_key c = Some x -> ce_modify x < u_idx c) ->
  cw_valid (W_rpc_cfg_upsert graph_ok) s c = true -> effective (W_rpc_cfg_upsert graph_ok) s c.
Proof.
  intros graph_ok s c. cbn. intros Hs Hfresh. rewrite Hs. intros Hv.
  apply (stamped_effective _ (fun t => ce_modify <$> cfg t !! u_key c) (u_idx c)); [|apply fresh_stamp, Hfresh].
  cbn. rewrite Hs. destruct (ensure_cfg _ _ _ _ _ _ s) eqn:E; [|destruct (ensure_cfg_decides _ _ _ _ _ _ _ E)|discriminate].
  apply (ensure_cfg_stamp _ _ _ _ _ _ _ _ E).
Qed.

Theorem C10_config_entry_rpc_delete : forall graph_ok, honest (W_rpc_cfg_delete graph_ok).
Proof.
  intros graph_ok. apply (honest_attempt _ _ (fun s c => delete_cfg_cas graph_ok (rd_idx c) (rd_cidx c) (rd_key c) s)).
  - intros s c _. apply (bool_result_fsm _ s).
  - intros s c _. rewrite delete_cfg_cas_eq. apply (guarded_attempt _ _ s).
Qed.

(* an absent entry: nothing to delete, Deleted = false, as the store method says *)
Theorem C10_config_entry_rpc_delete_absent : forall graph_ok s c,
  cfg s !! rd_key c = None ->
  apply graph_ok (rd_idx c) (RpcCfgDelete true (rd_key c) (rd_cidx c)) s = (s, RBool false).
Proof.
  intros graph_ok s c. destruct c as [idx k cidx]; cbn. intros Hn. unfold delete_cfg_cas. rewrite Hn. reflexivity.
Qed.

(* regression + non-vacuity: the inputs answered "true" before the repair (equal content with a stale /
   zero index; delete-cas of an absent entry) are answered false, the matching index is answered true,
   and the witness state meets stored_positive *)
Example C10_example_rpc_regression :
  apply (fun _ _ => true) 9 (rcmd rpc_witness_cmd) rpc_witness_state = (rpc_witness_state, RBool false) /\
  apply (fun _ _ => true) 9 (RpcCfgApply true ("service-defaults", "web") 1 0 0) rpc_witness_state = (rpc_witness_state, RBool false) /\
  apply (fun _ _ => true) 9 (RpcCfgApply true ("service-defaults", "web") 1 0 5) rpc_witness_state = (rpc_witness_state, RBool true) /\
  apply (fun _ _ => true) 5 (RpcCfgDelete true ("service-defaults", "web") 3) st0 = (st0, RBool false) /\
  stored_positive rpc_witness_state rpc_witness_cmd.
Proof. exact rpc_regression. Qed.

(* CA configuration: a mismatch is an ERROR *)
Theorem C10_ca_config : honest W_ca_config.
Proof.
  apply honest_cases. intros s c _. cbn -[apply]. rewrite ca_config_apply.
  destruct (bool_decide (ca_cidx c = 0)); [|destruct (bool_decide _)]; cbn; auto.
Qed.

Theorem C10_ca_config_mismatch_is_error : forall s c,
  cw_matched W_ca_config s c = false ->
  (apply (fun _ _ => true) (ca_idx c) (cacmd c) s).2 = RErr ECAConfigIndex.
Proof.
  intros s c. cbn -[apply]. rewrite ca_config_apply.
  destruct (bool_decide (ca_cidx c = 0)); [|destruct (bool_decide _)]; [discriminate..|reflexivity].
Qed.

(* explicit deviation: at the FSM command an expected index of zero is "no check" (unconditional
   write, result nil), not "must be absent" as for the same entity inside the composite command *)
Theorem C10_ca_config_zero_overwrites : forall s cl pr idx,
  apply (fun _ _ => true) idx (CASetConfig cl pr 0) s = (ca_set_config_txn idx cl pr s, RNil).
Proof. reflexivity. Qed.

Theorem C10_ca_roots : honest W_ca_roots.
Proof.
  apply (honest_attempt _ _ (fun s c => ca_root_check_and_set (rr_idx c) (rr_cidx c) (rr_roots c) s)).
  - intros s c _. apply (bool_result_fsm _ s).
  - intros s c _. cbn. pose proof (ca_root_check_and_set_spec (rr_idx c) (rr_cidx c) (rr_roots c) s) as H.
    destruct (ca_root_check_and_set _ _ _ s).
    + destruct H as (Hm & -> & ->). rewrite (bool_decide_eq_true_2 _ Hm). auto.
    + left. apply bool_decide_eq_false_2, H.
    + right. exact H.
Qed.

(* a stale index is reported as false (reporting it as true was the defect ee07345 repaired) *)
Theorem C10_ca_roots_stale_is_false : forall s c,
  roots_valid (rr_roots c) = true -> cw_matched W_ca_roots s c = false ->
  apply (fun _ _ => true) (rr_idx c) (CASetRoots (rr_cidx c) (rr_roots c)) s = (s, RBool false).
Proof.
  intros s c. cbn. intros Hv Hm. apply bool_decide_eq_false_1 in Hm.
  pose proof (ca_root_check_and_set_spec (rr_idx c) (rr_cidx c) (rr_roots c) s) as H.
  destruct (ca_root_check_and_set _ _ _ s); [destruct H as [H _]; contradiction|reflexivity|congruence].
Qed.

(* composite: roots and configuration, all or none *)
Theorem C10_roots_and_config : honest W_roots_config.
Proof. exact roots_config_honest. Qed.

Theorem C10_roots_and_config_atomic : forall s c,
  max_index ix_roots s < rc_idx c -> (forall x, ca_config s = Some x -> cc_modify x < rc_idx c) ->
  let s' := cw_post W_roots_config s c in
  (roots_part s' ≠ roots_part s <-> ca_config s' ≠ ca_config s).
Proof. exact roots_config_atomic. Qed.

(* feature gates: two expected indexes *)
Theorem C10_feature_gate : honest W_feature_gate.
Proof.
  apply (honest_attempt _ _ (fun s c => feature_gate_update (fg_idx c) (fg_pol c) (fg_stat c) (fg_epi c) (fg_esi c) s)).
  - intros s c _. apply (bool_result_fsm _ s).
  - intros s [idx pol stat epi esi] _. cbn. unfold feature_gate_update, fg_valid, fg_write, cur_index. cbn.
    destruct stat as [sp|]; [|right; reflexivity]. destruct (fg_policy s) as [p|]; cbn.
    all: case_bool_decide as E1; cbn; [|auto]; case_bool_decide as E2; cbn; [|auto].
    all: destruct pol as [pp|]; cbn; auto.
    (* no policy supplied: the status names the stored policy's index, which is the expected one *)
    rewrite E1. auto.
Qed.

(* autopilot (expected index zero = no configuration stored; repaired by 3cef259) *)
Theorem C10_autopilot : honest W_autopilot.
Proof.
  apply (honest_attempt _ _ (fun s c => autopilot_cas (ar_idx c) (ar_cidx c) (ar_payload c) s)).
  - intros s c _. apply (bool_result_fsm _ s).
  - intros s c _. cbn. rewrite autopilot_cas_eq. destruct (bool_decide _); auto.
Qed.

(* ACL token set with the CAS option: REFUTED, success is reported without a match *)
(* what is refuted is [honest W_token].  Witness: token t1 stored at index 5, request expecting index 3 *)
Theorem C10_acl_token_refuted :
  cw_ok W_token tok_witness_state tok_witness_cmd = true /\
  cw_matched W_token tok_witness_state tok_witness_cmd = false /\
  cw_valid W_token tok_witness_state tok_witness_cmd = true /\
  cw_post W_token tok_witness_state tok_witness_cmd = tok_witness_state /\
  cw_write W_token tok_witness_state tok_witness_cmd ≠ tok_witness_state.
Proof.
  repeat split; try (vm_compute; reflexivity).
  intros H. apply (f_equal (fun t => t_descr <$> tokens t !! "t1")) in H. vm_compute in H. discriminate H.
Qed.

Theorem C10_acl_token_not_honest : ~ honest W_token.
Proof.
  intros [H _ _]. destruct C10_acl_token_refuted as (Hok & Hm & _).
  apply (H _ _ I) in Hok as [Hm' _]. congruence.
Qed.

(* everything except "reported -> matched" does hold *)
Theorem C10_acl_token_partial : forall s c,
  well_formed (tk_req c) ->
  (cw_matched W_token s c = true -> cw_valid W_token s c = true ->
   cw_ok W_token s c = true /\ cw_post W_token s c = cw_write W_token s c) /\
  (cw_matched W_token s c = true -> cw_valid W_token s c = false ->
   cw_ok W_token s c = false /\ cw_post W_token s c = s) /\
  (cw_matched W_token s c = false -> cw_post W_token s c = s).
Proof.
  intros s c Hwf. cbn -[token_set_txn]. unfold token_write.
  rewrite (token_set_cas_eq _ _ _ Hwf).
  pose proof (token_set_plain_decides (tk_idx c) (tk_req c) s) as Hd.
  destruct (expect _ _ _); [destruct (token_set_txn (tk_idx c) false (tk_req c) s)|]; cbn; repeat split; intros; congruence.
Qed.

Theorem C10_acl_token_mismatch_reports_success : forall s c,
  well_formed (tk_req c) -> cw_matched W_token s c = false ->
  apply (fun _ _ => true) (tk_idx c) (tkcmd c) s = (s, RNil).
Proof.
  intros s c Hwf Hm. cbn -[token_set_txn] in *.
  rewrite (token_set_cas_eq _ _ _ Hwf), Hm. reflexivity.
Qed.

(* a CAS batch is NOT all-or-none: the refused token is skipped, its neighbour written, result nil *)
Theorem C10_acl_token_batch_partial_application :
  let s := tok_witness_state in
  let r := apply (fun _ _ => true) 9 (TokenSet true [TokReq "t1" "s1" 2 3; TokReq "t2" "s2" 7 0]) s in
  r.2 = RNil /\ tokens r.1 !! "t1" = tokens s !! "t1" /\ (t_descr <$> tokens r.1 !! "t2") = Some 7.
Proof. exact token_batch_skips. Qed.

(* visibility: at an index above every stored one an accepted write always shows *)
Theorem C10_reachable_bounded : forall graph_ok log n s,
  bounded n s -> increasing n log -> bounded (last_index n log) (final graph_ok log s).
Proof. exact reachable_bounded. Qed.

Theorem C10_bounded_fresh : forall n idx s, bounded n s -> n < idx ->
  (forall k x, cfg s !! k = Some x -> ce_modify x < idx) /\
  (forall x, ca_config s = Some x -> cc_modify x < idx) /\
  max_index ix_roots s < idx /\
  (forall x, autopilot s = Some x -> ap_modify x < idx) /\
  (forall t, fg_status s = Some t -> fs_modify t < idx).
Proof.
  intros n idx s Hb Hlt. bounded_parts Hb. repeat split.
  - intros k x Hx. specialize (Hcfg k x Hx). cbn in Hcfg. lia.
  - intros x Hx. rewrite Hx in Hca. cbn in Hca. lia.
  - unfold max_index. destruct (index s !! ix_roots) as [v|] eqn:E; cbn; [|lia]. specialize (Hix _ _ E). cbn in Hix. lia.
  - intros x Hx. rewrite Hx in Hap. cbn in Hap. lia.
  - intros t Ht. rewrite Ht in Hfs. cbn in Hfs. lia.
Qed.

Theorem C10_config_entry_upsert_effective : forall graph_ok s c,
  (forall x, cfg s !! u_key c = Some x -> ce_modify x < u_idx c) ->
  cw_valid (W_cfg_upsert graph_ok) s c = true -> effective (W_cfg_upsert graph_ok) s c.
Proof. exact cfg_upsert_effective. Qed.

Theorem C10_config_entry_delete_effective : forall graph_ok s c,
  is_Some (cfg s !! d_key c) -> cw_valid (W_cfg_delete graph_ok) s c = true -> effective (W_cfg_delete graph_ok) s c.
Proof.
  intros graph_ok s c. destruct c as [idx k cidx]. unfold effective, W_cfg_delete, delete_cfg; cbn.
  intros [x Ex]. rewrite Ex. destruct (graph_ok _ _); [|discriminate]. intros _ Heq.
  apply (f_equal (fun t => cfg t !! k)) in Heq. cbn in Heq. rewrite lookup_delete in Heq. congruence.
Qed.

Theorem C10_ca_config_effective : forall s c,
  (forall x, ca_config s = Some x -> cc_modify x < ca_idx c) -> effective W_ca_config s c.
Proof.
  intros s c Hf. apply (stamped_effective _ (fun t => cc_modify <$> ca_config t) (ca_idx c)); [|apply fresh_stamp, Hf].
  cbn. unfold ca_set_config_txn. destruct (ca_config s); reflexivity.
Qed.

Theorem C10_ca_roots_effective : forall s c,
  max_index ix_roots s < rr_idx c -> cw_valid W_ca_roots s c = true -> effective W_ca_roots s c.
Proof.
  intros s c. cbn. intros Hf Hv. apply (stamped_effective _ (fun t => index t !! ix_roots) (rr_idx c)).
  - cbn. rewrite Hv. apply lookup_insert.
  - intros n Hn. unfold max_index in Hf. rewrite Hn in Hf. exact Hf.
Qed.

Theorem C10_autopilot_effective : forall s c,
  (forall x, autopilot s = Some x -> ap_modify x < ar_idx c) -> effective W_autopilot s c.
Proof.
  intros s c Hf. apply (stamped_effective _ (fun t => ap_modify <$> autopilot t) (ar_idx c)); [|apply fresh_stamp, Hf].
  reflexivity.
Qed.

Theorem C10_feature_gate_effective : forall s c,
  (forall t, fg_status s = Some t -> fs_modify t < fg_idx c) ->
  cw_valid W_feature_gate s c = true -> effective W_feature_gate s c.
Proof.
  intros s c Hf. cbn. intros Hv.
  apply (stamped_effective _ (fun t => fs_modify <$> fg_status t) (fg_idx c)); [|apply fresh_stamp, Hf].
  cbn. revert Hv. unfold fg_valid, fg_write. destruct (fg_stat c); [|discriminate].
  destruct (fg_pol c); [reflexivity|]. destruct (fg_policy s); [reflexivity|discriminate].
Qed.

Theorem C10_kv_delete_cas_effective : forall s c,
  is_Some (Store.Model.kvs s !! Store.Model.q_key (kc_req c)) -> effective W_kv_delete_cas s c.
Proof. exact kv_delete_cas_effective. Qed.

Theorem C10_kv_cas_effective : forall s c,
  (forall x, Store.Model.kvs s !! Store.Model.q_key (kc_req c) = Some x ->
             Store.Model.kv_same x (Store.Model.KV (Store.Model.q_value (kc_req c)) (Store.Model.q_flags (kc_req c))
                                                   (Store.Model.kv_session x) (Store.Model.q_lock (kc_req c))
                                                   (Store.Model.kv_create x) 0) = false) ->
  effective W_kv_cas s c.
Proof. exact kv_cas_effective. Qed.

(* non-vacuity of the hypotheses (states and requests defined in CAS/Examples.v) *)
Example C10_example_bounded : increasing 0 ex_log10 /\ bounded 9 ex_state10 /\ is_Some (autopilot ex_state10).
Proof. exact example_bounded. Qed.

Example C10_example_cfg :
  let W := W_cfg_upsert (fun _ _ => true) in
  let good := UReq 12 ("service-defaults", "web") 3 0 2 false in
  let stale := UReq 12 ("service-defaults", "web") 3 0 1 false in
  effective W ex_state10 good /\ cw_ok W ex_state10 good = true /\ applied W ex_state10 good /\
  cw_ok W ex_state10 stale = false /\ cw_post W ex_state10 stale = ex_state10.
Proof. exact example_cfg. Qed.

Example C10_example_composite :
  let c := RCReq 12 4 [("r2", true)] "c1" 2 1 in
  cw_ok W_roots_config ex_state10 c = false /\ cw_post W_roots_config ex_state10 c = ex_state10 /\
  cw_ok W_roots_config ex_state10 (RCReq 12 4 [("r2", true)] "c1" 2 3) = true.
Proof. exact example_composite. Qed.

Example C10_example_hypotheses :
  well_formed (tk_req tok_witness_cmd) /\ is_Some (tokens tok_witness_state !! "t1") /\
  is_cond (tx_op (TXC 7 (Store.Model.TNode Store.Model.CCAS "n1" "id1" 9 2))) = true /\
  cw_ok W_txn ex_state (TXC 7 (Store.Model.TNode Store.Model.CCAS "n1" "id1" 9 2)) = true /\
  effective W_txn ex_state (TXC 7 (Store.Model.TNode Store.Model.CCAS "n1" "id1" 9 2)).
Proof. exact example_hypotheses. Qed.

Example C10_example_txn_cond_not_first :
  let ops1 := [Store.Model.TKV Store.Model.VSet (Store.Model.KVReq "a" [7] 0 "" 0 0)] in
  let op := Store.Model.TKV Store.Model.VCAS (Store.Model.KVReq "a" [8] 0 "" 3 0) in
  let tl := [Store.Model.TKV Store.Model.VSet (Store.Model.KVReq "t" [9] 0 "" 0 0)] in
  (exists s1 r1, Store.Theorems.seq_ops 7 ops1 ex_state = Store.Model.Ok (s1, r1) /\ op_matched op s1 = false /\
                 op_matched op ex_state = true) /\
  txn_ok (Store.Model.txn_rw 7 (ops1 ++ op :: tl) ex_state).2 = false /\
  (Store.Model.txn_rw 7 (ops1 ++ op :: tl) ex_state).1 = ex_state.
Proof. exact ex_txn_cond_not_first. Qed.

Example C10_example_txn_guard_after_cas :
  let ops := [Store.Model.TKV Store.Model.VCAS (Store.Model.KVReq "a" [8] 0 "" 3 0);
              Store.Model.TKV Store.Model.VCheckIndex (Store.Model.KVReq "t" [] 0 "" 5 0)] in
  (Store.Model.txn_rw 7 ops ex_state).2 = Store.Model.CTxn [] [(1%nat, Store.Model.EGuard)] /\
  (Store.Model.txn_rw 7 ops ex_state).1 = ex_state.
Proof. exact ex_txn_guard_after_cas. Qed.

Print Assumptions C10_schema.
Print Assumptions C10_kv_cas.
Print Assumptions C10_kv_delete_cas.
Print Assumptions C10_kv_delete_cas_variant.
Print Assumptions C10_txn_verbs.
Print Assumptions C10_txn_mismatch_is_stale.
Print Assumptions C10_txn_mismatch_aborts.
Print Assumptions C10_config_entry_upsert.
Print Assumptions C10_config_entry_delete.
Print Assumptions C10_config_entry_delete_reports_removal.
Print Assumptions C10_ca_config.
Print Assumptions C10_ca_config_mismatch_is_error.
Print Assumptions C10_ca_roots.
Print Assumptions C10_roots_and_config.
Print Assumptions C10_roots_and_config_atomic.
Print Assumptions C10_feature_gate.
Print Assumptions C10_autopilot.
Print Assumptions C10_acl_token_refuted.
Print Assumptions C10_acl_token_not_honest.
Print Assumptions C10_acl_token_partial.
Print Assumptions C10_acl_token_mismatch_reports_success.
Print Assumptions C10_reachable_bounded.
Print Assumptions C10_bounded_fresh.
Print Assumptions C10_config_entry_upsert_effective.
Print Assumptions C10_config_entry_delete_effective.
Print Assumptions C10_ca_config_effective.
Print Assumptions C10_ca_roots_effective.
Print Assumptions C10_autopilot_effective.
Print Assumptions C10_feature_gate_effective.
Print Assumptions C10_kv_delete_cas_effective.
Print Assumptions C10_kv_cas_effective.
Print Assumptions C10_example_bounded.
Print Assumptions C10_example_cfg.
Print Assumptions C10_example_composite.
Print Assumptions C10_example_hypotheses.
Print Assumptions C10_txn_all_parts_or_none.
Print Assumptions C10_txn_committed_cond_op_matched.
Print Assumptions C10_ca_config_zero_overwrites.
Print Assumptions C10_ca_roots_stale_is_false.
Print Assumptions C10_acl_token_batch_partial_application.
Print Assumptions C10_example_txn_cond_not_first.
Print Assumptions C10_example_txn_guard_after_cas.
Print Assumptions C10_config_entry_rpc_upsert.
Print Assumptions C10_config_entry_rpc_upsert_equal_content_mismatch.
Print Assumptions C10_config_entry_rpc_upsert_effective.
Print Assumptions C10_config_entry_rpc_delete.
Print Assumptions C10_config_entry_rpc_delete_absent.
Print Assumptions C10_example_rpc_regression.
