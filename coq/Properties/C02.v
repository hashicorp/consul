(* Property C02 — snapshot and restore reproduce the state exactly, at any point of any history.

   Model: coq/Store/Model.v (the core store: KV + tombstones, sessions + check links, prepared
   query bindings, nodes / services / checks, the four index rows, and the local lock-delay map)
   and coq/Snapshot/Model.v (persistCE's record order; the restorers, incl. the
   preserveIndexes=true paths of ensureNodeTxn / ensureServiceTxn / ensureCheckTxn, the
   max-merged index rows of the KV / tombstone / session / query restorers and the overwriting
   IndexRestore).  [li] is SnapshotHeader.LastIndex and [qm] the ModifyIndex of each prepared
   query; neither is part of the model's state, so every theorem holds for ALL their values.

   Hypotheses, and why they are there:
   - [wf_log h st0]: Raft indexes are positive and SessionCreate never carries a live session id
     (the leader's Session.Apply draws UUIDs until one is unused).  See C02_session_id_reuse_refuted.
   - [Fresh s]: every service check carries its service's CURRENT name.  It fails after a service
     is re-registered under another name (ensureCheckTxn copies ServiceName/ServiceTags only when
     the CHECK is written), and then the round trip is FALSE of the faithful model and of the real
     code: the restore re-copies the name.  C02_roundtrip_refuted is the witness (replayed on the
     implementation by checks/C02.py: known finding check-service-fields-refreshed-by-restore);
     C02_roundtrip says what a restore gives in general: [refresh (repl s)].

   The lock-delay map ([lockdelay]) is local to a server; it is not in the snapshot, a restored
   store starts with an empty one ([repl] erases it), and C01 (FSM/NonInterference.v) shows that
   it never flows into replicated state or results. *)
From stdpp Require Import gmap strings.
From Coq Require Import NArith.
From Verif Require Import Store.Model Snapshot.Model Snapshot.Lemmas Snapshot.Defs Snapshot.Proofs Snapshot.Inv Snapshot.Cut Snapshot.Chain Snapshot.Witness.
Local Open Scope N_scope.

(* the reachable-state invariant: node ids unique, create indexes positive, no orphan services or
   checks, session-check links exactly as the session rows say, every non-empty table has its
   index row *)
Theorem C02_invariant : forall h, wf_log h st0 -> Inv (run h st0).1.
Proof. intros h Hwf. apply run_Inv; [exact Hwf|exact Inv_st0]. Qed.

Theorem C02_invariant_step : forall idx c s, wf_cmd idx c s -> Inv s -> Inv (apply idx c s).1.
Proof. exact apply_Inv. Qed.

(* what a restore of a reachable state's snapshot gives, for ANY reachable state *)
Theorem C02_roundtrip : forall li qm s, Inv s -> restore li (snapshot qm s) = Ok (refresh (repl s)).
Proof. intros li qm s HI. exact (roundtrip_general li s HI qm). Qed.

(* the exact round trip, for states that satisfy [Fresh] *)
Theorem C02_roundtrip_partial : forall li qm s, Inv s -> Fresh s -> restore li (snapshot qm s) = Ok (repl s).
Proof. exact roundtrip. Qed.

Theorem C02_roundtrip_reachable : forall li qm h,
  wf_log h st0 -> Fresh (run h st0).1 -> restore li (snapshot qm (run h st0).1) = Ok (repl (run h st0).1).
Proof. intros li qm h Hwf Hf. apply roundtrip; [apply C02_invariant; exact Hwf|exact Hf]. Qed.

(* the full statement (no [Fresh]) is false *)
Theorem C02_roundtrip_refuted :
  exists h, wf_log h st0 /\ let s := (run h st0).1 in exists li qm, restore li (snapshot qm s) <> Ok (repl s).
Proof.
  exists stale_log. split; [exact stale_wf|]. cbn zeta. exists 2, (fun _ => 0). fold stale_state.
  destruct stale_restore as [Hr Hne]. rewrite Hr. intros E. exact (Hne (Ok_inj _ _ E)).
Qed.

(* a live session id reused by SessionCreate (never emitted by the leader) breaks it too *)
Theorem C02_session_id_reuse_refuted :
  let s := (run reuse_log st0).1 in
  Fresh s /\ ~ wf_log reuse_log st0 /\ restore 3 (snapshot (fun _ => 0) s) <> Ok (repl s).
Proof.
  destruct reuse_facts as (Hf & Hw & Hl). cbv zeta. split; [apply freshb_ok, Hf|]. split.
  - intros Hwf. apply wf_logb_spec in Hwf. rewrite Hwf in Hw. discriminate Hw.
  - intros Heq. apply Hl. f_equal. exact Heq.
Qed.

(* every cut of every history: the restored store gives the same results for the rest of the
   history and ends in the same replicated state as the donor *)
Theorem C02_cut : forall li qm h k,
  wf_log h st0 ->
  let s := (run (firstn k h) st0).1 in
  Fresh s ->
  exists r, restore li (snapshot qm s) = Ok r /\ r = repl s /\
            (run (skipn k h) r).2 = (run (skipn k h) s).2 /\
            repl (run (skipn k h) r).1 = repl (run (skipn k h) s).1 /\
            (run h st0).2 = (run (firstn k h) st0).2 ++ (run (skipn k h) r).2 /\
            repl (run h st0).1 = repl (run (skipn k h) r).1.
Proof. exact cut. Qed.

(* the modelled reads (KVSGet, KVSList of the whole tree, SessionGet/List, the node / node-services
   / node-checks reads, PreparedQueryGet): same result, same reported index *)
Theorem C02_queries : forall li qm s r q,
  Inv s -> Fresh s -> restore li (snapshot qm s) = Ok r -> run_query q r = run_query q s.
Proof.
  intros li qm s r q HI Hf Hr. rewrite (roundtrip li qm s HI Hf) in Hr. apply Ok_inj in Hr as <-. apply run_query_repl.
Qed.

(* non-vacuity: a history with two nodes (one with an id), services, service / node / session
   checks, a session bound to a check and holding a lock, a tombstone, a session-bound prepared
   query and a committed transaction is well formed, its state is Fresh, its snapshot has 17
   records, and it restores exactly *)
Example C02_example :
  wf_log rich_log st0 /\ Inv rich_state /\ Fresh rich_state /\
  List.length (snapshot (fun _ => 0) rich_state) = 17%nat /\
  size (tombs rich_state) = 1%nat /\ kv_session <$> kvs rich_state !! "a/b" = Some "aaaa" /\
  restore 12 (snapshot (fun _ => 0) rich_state) = Ok (repl rich_state).
Proof.
  split; [exact rich_wf|]. split; [apply C02_invariant; exact rich_wf|]. split; [exact rich_fresh|].
  destruct rich_facts as (_ & _ & _ & Ht & _ & _ & _ & _ & _ & _ & _ & Hk & Hl).
  split; [exact Hl|]. split; [exact Ht|]. split; [exact Hk|].
  apply roundtrip; [apply C02_invariant; exact rich_wf|exact rich_fresh].
Qed.

(* For ANY reachable state (no [Fresh]): the restore succeeds and reproduces keys, tombstones,
   sessions, session-check links, query bindings, nodes, services and the index rows EXACTLY;
   no check is lost or added, and a check differs from the donor's at most in the service name it
   copies ([refresh_check]).  This is "nothing lost, nothing resurrected" in full, and it bounds
   what the open finding check-service-fields-refreshed-by-restore can alter. *)
Theorem C02_roundtrip_frame : forall li qm s,
  Inv s ->
  exists r, restore li (snapshot qm s) = Ok r /\
    kvs r = kvs s /\ tombs r = tombs s /\ sessions r = sessions s /\ schecks r = schecks s /\
    queries r = queries s /\ nodes r = nodes s /\ services r = services s /\ index r = index s /\
    lockdelay r = ∅ /\
    forall nd cid, checks r !! (nd, cid) = refresh_check s nd <$> checks s !! (nd, cid).
Proof.
  intros li qm s HI. exists (refresh (repl s)). split; [exact (roundtrip_general li s HI qm)|].
  destruct (refresh_fields (repl s)) as (Ek & Et & Es & Esc & Eq & En & Esv & Ei & El).
  destruct (repl_fields s) as (Rk & Rt & Rs & Rsc & Rq & Rn & Rsv & Rc & Ri & Rl).
  rewrite Ek, Et, Es, Esc, Eq, En, Esv, Ei, El, Rk, Rt, Rs, Rsc, Rq, Rn, Rsv, Ri, Rl.
  repeat (split; [reflexivity|]).
  intros nd cid. rewrite refresh_lookup, Rc. reflexivity.
Qed.

(* the derived table of the core model: session-check links are not in the snapshot, the session
   restorer rebuilds them, and what it builds is exactly what the restored session rows say *)
Theorem C02_derived_session_checks : forall li qm s r,
  Inv s -> restore li (snapshot qm s) = Ok r -> SCheckExact r.
Proof.
  intros li qm s r HI Hr. rewrite (roundtrip_general li s HI qm) in Hr. apply Ok_inj in Hr as <-.
  exact (proj1 (proj2 (proj2 (proj2 (proj2 (Inv_refresh _ (Inv_repl _ HI))))))).
Qed.

(* every modelled read but the node's check list: same result and index, Fresh or not *)
Theorem C02_queries_general : forall li qm s r q,
  Inv s -> restore li (snapshot qm s) = Ok r -> (forall nd, q <> QNodeChecks nd) ->
  run_query q r = run_query q s.
Proof.
  intros li qm s r q HI Hr Hq. rewrite (roundtrip_general li s HI qm) in Hr. apply Ok_inj in Hr as <-.
  destruct s as [kv tb se sc qu no sv ch ix ld].
  destruct q; try reflexivity. exfalso. exact (Hq nd eq_refl).
Qed.

(* second generation: whatever a restore produced satisfies the invariant, is Fresh, and its own
   snapshot restores to exactly itself -- for all header / query indexes of both snapshots and
   with NO freshness hypothesis on the donor *)
Theorem C02_second_generation : forall li qm li2 qm2 s r,
  Inv s -> restore li (snapshot qm s) = Ok r ->
  Inv r /\ Fresh r /\ restore li2 (snapshot qm2 r) = Ok r.
Proof. exact second_generation. Qed.

(* the chained cycle: run j more commands on the restored server, snapshot IT, restore: the rest
   of the history gives the same results and the same replicated state on both generations *)
Theorem C02_chained : forall li qm li2 qm2 s r (rest : list (N * cmd)) (j : nat),
  Inv s -> restore li (snapshot qm s) = Ok r -> wf_log (firstn j rest) r ->
  let m := (run (firstn j rest) r).1 in
  Fresh m ->
  exists r2, restore li2 (snapshot qm2 m) = Ok r2 /\ r2 = repl m /\
    (run (skipn j rest) r2).2 = (run (skipn j rest) m).2 /\
    repl (run (skipn j rest) r2).1 = repl (run (skipn j rest) m).1.
Proof. exact chained. Qed.

(* non-vacuity of the second generation on a donor that is NOT Fresh: the restore of the stale
   state differs from the donor, and the restored state's own snapshot restores to itself *)
Example C02_second_generation_example :
  ~ Fresh stale_state /\
  exists r, restore 2 (snapshot (fun _ => 0) stale_state) = Ok r /\ r <> repl stale_state /\
            Inv r /\ Fresh r /\ restore 7 (snapshot (fun _ => 5) r) = Ok r.
Proof.
  assert (HI : Inv stale_state) by (apply C02_invariant; exact stale_wf).
  destruct stale_restore as [Hr Hne]. split.
  - intros Hf. apply Hne. pose proof (C02_roundtrip_partial 2 (fun _ => 0) stale_state HI Hf) as E.
    rewrite Hr in E. exact (Ok_inj _ _ E).
  - exists (refresh (repl stale_state)). split; [exact Hr|]. split; [exact Hne|].
    exact (C02_second_generation 2 (fun _ => 0) 7 (fun _ => 5) stale_state _ HI Hr).
Qed.

(* each hypothesis of the theorems above is satisfiable (by states the run also feeds to the
   implementation: corpus scripts 1000 / 1001 of harness/snaprestore/model.go) *)
Example C02_hypotheses_satisfiable :
  wf_log rich_log st0 /\ Inv rich_state /\ Fresh rich_state /\
  wf_log stale_log st0 /\ Inv stale_state /\
  (forall nd, QKVGet "a/b" <> QNodeChecks nd).
Proof.
  split; [exact rich_wf|]. split; [apply C02_invariant; exact rich_wf|]. split; [exact rich_fresh|].
  split; [exact stale_wf|]. split; [apply C02_invariant; exact stale_wf|]. intros nd H. discriminate.
Qed.

Print Assumptions C02_invariant.
Print Assumptions C02_invariant_step.
Print Assumptions C02_roundtrip.
Print Assumptions C02_roundtrip_partial.
Print Assumptions C02_roundtrip_reachable.
Print Assumptions C02_roundtrip_refuted.
Print Assumptions C02_session_id_reuse_refuted.
Print Assumptions C02_cut.
Print Assumptions C02_queries.
Print Assumptions C02_example.
Print Assumptions C02_roundtrip_frame.
Print Assumptions C02_derived_session_checks.
Print Assumptions C02_queries_general.
Print Assumptions C02_second_generation.
Print Assumptions C02_chained.
Print Assumptions C02_second_generation_example.
Print Assumptions C02_hypotheses_satisfiable.
