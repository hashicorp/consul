(* C04 — locks: one holder, only live sessions, released whenever the session ends. *)
From stdpp Require Import gmap strings.
From Coq Require Import NArith.
From Verif Require Import Store.Model Store.Inv Store.Theorems Store.SessInv Store.EndInv Store.Holder.
Local Open Scope N_scope.

(* In every reachable state (any history of any commands, transactions included): every lock holder
   is a live session (a key has one holder field, so at most one), every check link and every
   session-bound prepared query names a live session. *)
Theorem C04_lock_invariant : forall log, LockInv (run log st0).1.
Proof. intros log. apply run_LockInv, LockInv_st0. Qed.

(* The invariant is inductive over single commands, including failing ones. *)
Theorem C04_invariant_step : forall idx c s, LockInv s -> LockInv (apply idx c s).1.
Proof. exact apply_LockInv. Qed.

(* In a state that satisfies the invariant, a session id that is not in the sessions table holds no
   key, has no check link and no prepared query.  With C04_invariant_step this covers every session
   that has just gone, for whatever reason and within whatever command, in the state that command
   leaves. *)
Theorem C04_gone_session_holds_nothing : forall s sid,
  LockInv s -> sessions s !! sid = None -> sid ≠ "" ->
  (forall k e, kvs s !! k = Some e -> kv_session e ≠ sid) /\
  (forall n c, (n, c, sid) ∉ schecks s) /\
  (forall q, queries s !! q ≠ Some sid).
Proof.
  intros s sid (H0 & Hkv & Hc & Hq) Hgone Hne. repeat split.
  - intros k e He Heq. destruct (Hkv k e He) as [Hx|[x Hx]]; congruence.
  - intros n c Hin. destruct (Hc n c sid Hin) as [x Hx]. congruence.
  - intros q Hx. destruct (Hq q sid Hx) as [Hy|[x Hy]]; congruence.
Qed.

(* ... and the removal step [drop_session sid ss] deletes (with a tombstone) or releases each key held
   by [sid], by the behaviour recorded in the session row [ss] it is given. *)
Theorem C04_session_end_keys : forall idx sid ss s k e0,
  kvs s !! k = Some e0 -> kv_session e0 = sid ->
  if s_delete ss
  then kvs (drop_session idx sid ss s) !! k = None /\ tombs (drop_session idx sid ss s) !! k = Some idx
  else kvs (drop_session idx sid ss s) !! k
       = Some (KV (kv_value e0) (kv_flags e0) "" (kv_lock e0) (kv_create e0) idx).
Proof.
  intros idx sid ss s k e0 He0 Hs0. rewrite drop_session_lookup, drop_session_tombs, He0.
  destruct (decide (kv_session e0 = sid)); [|contradiction].
  destruct (s_delete ss); [split|]; reflexivity.
Qed.

(* Acquisition succeeds iff the session is live and the key is free or already held by it. *)
Theorem C04_acquire : forall idx k e s,
  match kvs_lock idx k e s with
  | Err er _ => (er = ENoSession /\ kv_session e = "") \/
                (er = EInvalidSession /\ kv_session e ≠ "" /\ sessions s !! kv_session e = None)
  | Ok (ok, (s', _)) =>
    kv_session e ≠ "" /\ is_Some (sessions s !! kv_session e) /\
    (ok = true <-> match kvs s !! k with
                   | None => True
                   | Some x => kv_session x = "" \/ kv_session x = kv_session e
                   end) /\
    (ok = true -> exists e', kvs s' !! k = Some e' /\ kv_session e' = kv_session e) /\
    (ok = false -> s' = s)
  end.
Proof. exact lock_acquire. Qed.

(* Only the holder can release. *)
Theorem C04_release_only_holder : forall idx k e s,
  match kvs_unlock idx k e s with
  | Err er _ => er = ENoSession /\ kv_session e = ""
  | Ok (ok, (s', _)) =>
    (ok = true <-> exists x, kvs s !! k = Some x /\ kv_session x = kv_session e) /\
    (ok = false -> s' = s)
  end.
Proof. exact lock_release. Qed.

(* The session -> session-check -> session invalidation cascade terminates: with the fuel the
   model gives it, it never runs out (for every predicate that is preserved by one session removal
   and does not read the catalog rows, the index table or the lock delays: [lock_only]). *)
Theorem C04_cascade_terminates : forall P idx sid,
  lock_only P -> drop_ok P -> forall s, P s -> post P id (delete_session_top idx sid s).
Proof.
  intros P idx sid HL HD s Hs. apply post_rpost.
  apply (lock_only_cat_step P idx HL (fun s => HD s idx) s); [exact Hs|constructor].
Qed.

(* The triggers: in every reachable state a live session's node is registered, and every check it
   is bound to exists on that node, is linked to it and is not critical (a check of type "session"
   excepted, which session creation accepts in critical state).  So the step that deregisters the
   node, deletes a bound check or makes it critical -- a registration, a deregistration, a
   transaction verb, a node rename, a cascade of another session's end -- has ended the session,
   and by C04_gone_session_holds_nothing its keys, links and queries are released with it. *)
Theorem C04_sessions_valid : forall log sid ss,
  sessions (run log st0).1 !! sid = Some ss ->
  is_Some (nodes (run log st0).1 !! s_node ss) /\
  forall cid, cid ∈ s_checks ss ->
    (s_node ss, cid, sid) ∈ schecks (run log st0).1 /\
    exists c, checks (run log st0).1 !! (s_node ss, cid) = Some c /\
              (c_status c = critical -> c_session_type c = true).
Proof. exact sessions_valid. Qed.

Theorem C04_session_validity_step : forall idx c s, SessValid s -> SessValid (apply idx c s).1.
Proof. exact apply_SessValid. Qed.

Theorem C04_trigger_ends_session : forall log sid ss,
  let s := (run log st0).1 in
  (nodes s !! s_node ss = None \/
   exists cid, cid ∈ s_checks ss /\
     match checks s !! (s_node ss, cid) with
     | None => True
     | Some c => c_status c = critical /\ c_session_type c = false
     end) ->
  sessions s !! sid ≠ Some ss.
Proof.
  cbv zeta. intros log sid ss Htrig Hs. destruct (C04_sessions_valid log sid ss Hs) as [Hn Hc].
  destruct Htrig as [Hnone|(cid & Hin & Hck)].
  - rewrite Hnone in Hn. destruct Hn; discriminate.
  - destruct (Hc cid Hin) as (_ & c & Hcc & Hok). rewrite Hcc in Hck. destruct Hck as [Hcrit Hty].
    rewrite (Hok Hcrit) in Hty. discriminate.
Qed.

(* The end-of-session clause at the level of whole commands: whatever command (other than a
   transaction) makes a live session disappear -- destroy, deregistration of its node, of a service
   or of a check, a registration that fails a bound check or renames its node -- every key the
   session held is, in the state the command leaves, deleted with a tombstone at the command's
   index (behaviour "delete"), or released with value, flags, lock counter and create index kept and
   the modify index set to the command's index (behaviour "release"). *)
Theorem C04_end_of_session_command : forall idx c s,
  LockInv s -> (forall ops, c ≠ Txn ops) ->
  forall sid ss, sessions s !! sid = Some ss -> sessions (apply idx c s).1 !! sid = None ->
  forall k e0, kvs s !! k = Some e0 -> kv_session e0 = sid ->
    if s_delete ss then kvs (apply idx c s).1 !! k = None /\ tombs (apply idx c s).1 !! k = Some idx
    else kvs (apply idx c s).1 !! k = Some (released_row e0 idx).
Proof. exact end_of_session_command. Qed.

(* Inside a transaction a later operation may write the released key again, so the clause is stated
   per operation, on the state that operation ran on (a committed transaction is the sequential
   composition of its operations: C05_commit_is_sequential). *)
Theorem C04_end_of_session_txn_op : forall idx op s s' r,
  LockInv s -> txn_op idx op s = Ok (s', r) ->
  forall sid ss, sessions s !! sid = Some ss -> sessions s' !! sid = None ->
  forall k e0, kvs s !! k = Some e0 -> kv_session e0 = sid ->
    if s_delete ss then kvs s' !! k = None /\ tombs s' !! k = Some idx
    else kvs s' !! k = Some (released_row e0 idx).
Proof. exact end_of_session_txn_op. Qed.

Theorem C04_end_of_session_in_txn : forall idx ops s, LockInv s -> StepsEnd idx ops s.
Proof.
  intros idx ops. induction ops as [|op ops IH]; intros s Hs; cbn; [exact I|].
  pose proof (txn_op_LockInv idx op s Hs) as Hinv.
  destruct (txn_op idx op s) as [[s1 r]|e p] eqn:Hop; [|exact I].
  split; [eapply end_of_session_txn_op; eassumption|apply IH; exact Hinv].
Qed.

(* Who holds a key that exists before and after the command changes only by a successful
   acquisition of a free key by a live session, by a
   release by the holder, or because the holder's session ended -- for every standalone KV command
   (set, cas, delete, delete-cas, delete-tree, lock, unlock) and every other command; transactions are
   compositions of these steps (C05_commit_is_sequential, C03_txn_frame). *)
Theorem C04_kv_command_holder : forall idx v q s k h h',
  holder s k = Some h -> holder (apply_kvs idx v q s).1 k = Some h' -> h' ≠ h ->
  (v = VLock /\ k = q_key q /\ h = "" /\ h' = q_session q /\ q_session q ≠ "" /\
   is_Some (sessions s !! q_session q)) \/
  (v = VUnlock /\ k = q_key q /\ h = q_session q /\ h' = "" /\ q_session q ≠ "").
Proof. exact kv_command_holder. Qed.

Theorem C04_other_command_holder : forall idx c s k h h',
  LockInv s ->
  match c with KVS _ _ | Txn _ | Reap _ => True | _ =>
    holder s k = Some h -> holder (apply idx c s).1 k = Some h' -> h' ≠ h ->
    h' = "" /\ is_Some (sessions s !! h) /\ sessions (apply idx c s).1 !! h = None
  end.
Proof.
  intros idx c s k h h' Hs. pose proof (kv_frame_command idx c s Hs) as Hf.
  destruct c; try exact I; intros Hh Hh' Hne; unfold holder in *;
    (destruct (Hf k) as [[Ek _]|(e0 & ss0 & He0 & Hs0 & Hg & Hr)];
     [rewrite Ek in Hh'; congruence|];
     rewrite He0 in Hh; cbn in Hh; injection Hh as <-;
     destruct (s_delete ss0);
     [destruct Hr as [Hr _]; rewrite Hr in Hh'; discriminate|];
     rewrite Hr in Hh'; cbn in Hh'; injection Hh' as <-;
     split; [reflexivity|split; [rewrite Hs0; eauto|exact Hg]]).
Qed.

(* No command of any history ever reports the model's own "out of fuel": the invalidation cascades
   always run to completion, so no invariant above holds merely because a cascade was cut short. *)
Theorem C04_no_fuel : forall log s, Forall no_fuel (run log s).2.
Proof.
  induction log as [|[idx c] log IH]; intros s; cbn; [constructor|].
  pose proof (no_fuel_anywhere idx c s) as Hc. destruct (apply idx c s) as [s' r].
  specialize (IH s'). destruct (run log s') as [s'' rs]. cbn in *. constructor; assumption.
Qed.

Example C04_end_example :
  let s := (run ld_log st0).1 in
  let s' := (apply 4 (Deregister "n1" "" "c1") s).1 in
  sessions s !! "s1" = Some (Sess "n1" "" false ["c1"] true 2) /\ sessions s' !! "s1" = None /\
  kvs s !! "a" = Some (KV [] 0 "s1" 1 3 3) /\ kvs s' !! "a" = Some (released_row (KV [] 0 "s1" 1 3 3) 4).
Proof. cbv zeta. repeat split; vm_compute; reflexivity. Qed.

(* Non-vacuity of the triggers: the session of [ld_log] is bound to check c1; a registration
   that leaves c1's status out (the store defaults it to critical) ends it and releases its key. *)
Example C04_trigger_example :
  let s := (run (ld_log ++ [(4, Register "n1" "" 1 false None [CheckReq "n1" "c1" 3 "" false "" 0 0])]) st0).1 in
  sessions s !! "s1" = None /\ (exists e, kvs s !! "a" = Some e /\ kv_session e = "") /\
  sessions (run ld_log st0).1 !! "s1" = Some (Sess "n1" "" false ["c1"] true 2).
Proof.
  cbv zeta. split; [vm_compute; reflexivity|]. split; [eexists; split; vm_compute; reflexivity|].
  vm_compute; reflexivity.
Qed.

(* Non-vacuity: a state with a locked key, a check link and a bound query satisfies the invariant
   non-trivially. *)
Example C04_example :
  let s := (run (ld_log ++ [(4, QuerySet "q1" "s1")]) st0).1 in
  LockInv s /\ (exists e, kvs s !! "a" = Some e /\ kv_session e = "s1") /\
  ("n1", "c1", "s1") ∈ schecks s /\ queries s !! "q1" = Some "s1".
Proof.
  cbv zeta. split; [apply C04_lock_invariant|].
  split; [eexists; split; vm_compute; reflexivity|].
  split; [eapply bool_decide_eq_true_1; vm_compute; reflexivity|vm_compute; reflexivity].
Qed.

Print Assumptions C04_lock_invariant.
Print Assumptions C04_invariant_step.
Print Assumptions C04_gone_session_holds_nothing.
Print Assumptions C04_session_end_keys.
Print Assumptions C04_acquire.
Print Assumptions C04_release_only_holder.
Print Assumptions C04_cascade_terminates.
Print Assumptions C04_sessions_valid.
Print Assumptions C04_session_validity_step.
Print Assumptions C04_trigger_ends_session.
Print Assumptions C04_trigger_example.
Print Assumptions C04_end_of_session_command.
Print Assumptions C04_end_of_session_txn_op.
Print Assumptions C04_end_of_session_in_txn.
Print Assumptions C04_no_fuel.
Print Assumptions C04_kv_command_holder.
Print Assumptions C04_other_command_holder.
Print Assumptions C04_end_example.
Print Assumptions C04_example.
