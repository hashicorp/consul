(* C07 — catalog integrity: no orphans, complete cascades, derived views agree.  Theorems and the
   examples that witness their hypotheses; the short ones are proved here from the lemmas of Catalog/.

   Two models are involved (DESIGN.md section 5):
   * the core store model [Verif.Store.Model] (nodes, typical services, checks, sessions, KV,
     transactions; tied to the code by checks C03-C05): orphan freedom and the cascades are proved
     there, so that the session cascades a removal triggers are covered;
   * the catalog extension model [Verif.Catalog.Model] (service kinds, kind-service-names, usage,
     virtual IPs, gateway-services, mesh-topology; tied to the code by this property's check):
     the statements about derived views. *)
From stdpp Require Import gmap strings.
From Coq Require Import NArith.
From Verif Require Store.Model.
From Verif Require Import Catalog.StoreOrphans.
From Verif Require Import Catalog.Model Catalog.Spec Catalog.Frames Catalog.VIP Catalog.Reach Catalog.Refuted Catalog.Usage Catalog.KindNames Catalog.Examples Catalog.Orphans Catalog.Topology Catalog.ConfUsage Catalog.ManualVIP.
Local Open Scope N_scope.

Module S := Verif.Store.Model.

(* ================= no orphans (store model: all commands, sessions and transactions included) ===== *)
Theorem C07_no_orphans : forall s : S.st, SReach s ->
  (forall nd sid v, S.services s !! (nd, sid) = Some v -> is_Some (S.nodes s !! nd)) /\
  (forall nd cid c, S.checks s !! (nd, cid) = Some c ->
     is_Some (S.nodes s !! nd) /\
     (S.c_service c ≠ "" -> is_Some (S.services s !! (nd, S.c_service c)))).
Proof. exact SReach_NoOrphans. Qed.

(* ================= cascades ================= *)
(* a node deregistration that succeeds leaves no service, no check and no node row of that node *)
Theorem C07_cascade_node : forall idx nd (s s' : S.st), SReach s ->
  S.apply idx (S.Deregister nd "" "") s = (s', S.CNil) ->
  S.nodes s' !! nd = None /\
  (forall sid, S.services s' !! (nd, sid) = None) /\
  (forall cid, S.checks s' !! (nd, cid) = None).
Proof. intros idx nd s s' Hr. apply StoreOrphans.deregister_node_cascade. apply SReach_NoOrphans. exact Hr. Qed.

(* a service deregistration that succeeds leaves neither the instance nor a check that names it *)
Theorem C07_cascade_service : forall idx nd svc cid0 (s s' : S.st), svc ≠ "" -> SReach s ->
  S.apply idx (S.Deregister nd svc cid0) s = (s', S.CNil) ->
  S.services s' !! (nd, svc) = None /\
  (forall cid c, S.checks s' !! (nd, cid) = Some c -> S.c_service c ≠ svc).
Proof. intros idx nd svc cid0 s s' Hsvc Hr. apply StoreOrphans.deregister_service_cascade; [exact Hsvc|]. apply SReach_NoOrphans. exact Hr. Qed.

(* a failed command changes nothing (Store.Theorems.failed_command_changes_nothing, property C05), so
   the two statements above cover every deregistration.  Non-vacuity: a reachable store with a
   service, checks and a session; a rename by node ID and a deregistration that both succeed. *)
Example C07_cascade_example :
  let s := (S.run orphan_log S.st0).1 in
  SReach s /\
  is_Some (S.services s !! ("n1", "s1")) /\ is_Some (S.checks s !! ("n1", "c1")) /\ is_Some (S.sessions s !! "sess") /\
  let s' := (S.apply 5 (S.Register "n3" "id1" 1 false None []) s).1 in
  S.nodes s' !! "n1" = None /\ is_Some (S.nodes s' !! "n3") /\ S.services s' !! ("n1", "s1") = None /\
  S.checks s' !! ("n1", "c1") = None /\ S.sessions s' !! "sess" = None /\ is_Some (S.services s' !! ("n2", "s1")) /\
  (S.apply 6 (S.Deregister "n2" "" "") s').2 = S.CNil.
Proof. exact orphan_example. Qed.

(* non-vacuity of C07_cascade_service: a service deregistration that succeeds in a reachable store *)
Example C07_cascade_service_example :
  let s := (S.run orphan_log S.st0).1 in
  (S.apply 5 (S.Deregister "n1" "s1" "") s).2 = S.CNil /\
  let s' := (S.apply 5 (S.Deregister "n1" "s1" "") s).1 in
  S.services s' !! ("n1", "s1") = None /\ S.checks s' !! ("n1", "c1") = None /\
  is_Some (S.checks s' !! ("n1", "c2")) /\ is_Some (S.nodes s' !! "n1").
Proof. exact service_dereg_example. Qed.

(* ---- the same three statements over the catalog extension model: all service kinds, sidecar
   proxies, gateways, config entries, catalog transactions, and coordinates (no sessions) ---- *)
Theorem C07_no_orphans_catalog : forall s, CReach s ->
  (forall nd sid v, services s !! (nd, sid) = Some v -> is_Some (nodes s !! nd)) /\
  (forall nd cid c, checks s !! (nd, cid) = Some c ->
     is_Some (nodes s !! nd) /\ (c_service c ≠ "" -> is_Some (services s !! (nd, c_service c)))) /\
  (forall nd, nd ∈ coords s -> is_Some (nodes s !! nd)).
Proof. exact CReach_NoOrph. Qed.

(* a node deregistration (it cannot fail in this model) leaves no service, check, coordinate or node row *)
Theorem C07_cascade_node_catalog : forall idx nd s, CReach s ->
  let s' := (apply idx (Deregister nd "" "") s).1 in
  nodes s' !! nd = None /\ nd ∉ coords s' /\
  (forall sid, services s' !! (nd, sid) = None) /\ (forall cid, checks s' !! (nd, cid) = None).
Proof. intros idx nd s Hr. apply Orphans.deregister_node_cascade. apply CReach_NoOrph. exact Hr. Qed.

Theorem C07_cascade_service_catalog : forall idx nd sid cid0 s, sid ≠ "" -> CReach s ->
  let s' := (apply idx (Deregister nd sid cid0) s).1 in
  services s' !! (nd, sid) = None /\ (forall cid c, checks s' !! (nd, cid) = Some c -> c_service c ≠ sid).
Proof. intros idx nd sid cid0 s Hs Hr. apply Orphans.deregister_service_cascade; [exact Hs|]. apply CReach_NoOrph. exact Hr. Qed.

(* ================= virtual IPs (catalog model) ================= *)
(* no two services are ever assigned the same virtual IP *)
Theorem C07_vip_unique : forall s, CReach s ->
  forall n1 n2 ip m1 m2, vips s !! n1 = Some (ip, m1) -> vips s !! n2 = Some (ip, m2) -> n1 = n2.
Proof. intros s H. apply (CReach_INV s H). Qed.

(* the allocator behind it: an assigned address is positive, never beyond the counter and never in the
   free list (so neither the counter nor the free list can hand it out a second time) *)
Theorem C07_vip_allocator : forall s, CReach s ->
  forall n ip m, vips s !! n = Some (ip, m) -> 0 < ip <= counter s /\ ip ∉ free s.
Proof. intros s H. apply (CReach_INV s H). Qed.

(* manual virtual IPs: no address is in the manual lists of two services (a request takes each of its
   addresses away from the service that held it).  NOT covered: a manual address that equals the
   AUTOMATIC address of another service -- the code accepts it (open finding vip-unique /
   manual-ip-in-auto-range), and the model keeps manual addresses as opaque strings. *)
Theorem C07_vip_manual_unique : forall s, CReach s ->
  forall n1 n2 a1 m1 a2 m2 (x : string),
    vips s !! n1 = Some (a1, m1) -> vips s !! n2 = Some (a2, m2) -> x ∈ m1 -> x ∈ m2 -> n1 = n2.
Proof. induction 1 as [|idx c s _ IH]; [exact MU_st0|exact (apply_MU idx c s IH)]. Qed.

Example C07_vip_manual_example :
  let s := (run manual_log st0).1 in
  CReach s /\ vips s !! "web" = Some (1, ["1.1.1.1"]) /\ vips s !! "db" = Some (2, ["2.2.2.2"; "3.3.3.3"]).
Proof. exact manual_example. Qed.

(* in every reachable state, an instance that advertises a virtual IP is in the connect index and
   advertises the current assignment of the service it is indexed under (its own name if
   connect-native, its destination if a sidecar proxy).  True of every instance since /repo 8e1bd1c
   (freeServiceVirtualIP looks at the connect index); before, it was refuted for sidecar proxies. *)
Theorem C07_vip_advertised : forall s, CReach s ->
  forall k v ip, services s !! k = Some v -> sv_vip v = Some ip ->
    exists n m, connect_name v = Some n /\ vips s !! n = Some (ip, m).
Proof. intros s H. apply (CReach_INV s H). Qed.

(* the history that used to refute it (a service-defaults entry written and deleted under a live
   sidecar proxy, then another connect service): web keeps address 1, db gets 2 *)
Example C07_vip_advertised_example : exists s, CReach s /\
  (exists v, services s !! ("n1", "s1") = Some v /\ sv_vip v = Some 1 /\ connect_name v = Some "web") /\
  vips s !! "web" = Some (1, []) /\
  (exists v, services s !! ("n1", "s2") = Some v /\ sv_vip v = Some 2 /\ connect_name v = Some "db") /\
  vips s !! "db" = Some (2, []).
Proof. eapply (CReach_witness vip_log); vm_compute; reflexivity. Qed.

(* ================= derived views (catalog model) ================= *)
(* FULL STATEMENT (false): in every reachable state every derived view equals its recomputation from
   the base rows and config entries:
     forall s, CReach s ->
       ksn s = recompute_ksn s /\ (forall id, stored_usage s id = recompute_usage s id) /\
       stored_gws s = recompute_gws s /\ topo s = recompute_topo s.
   The usage conjunct holds (C07_derived_usage).  The other three are refuted below by reachable states
   (the same histories fail on the real store: harness/catalog corpus); what does hold is stated next
   to each refutation. *)

(* ---- usage counts ---- *)
(* the node, instance, service-name, connect-kind, connect-native and billable counters equal the counts
   recomputed from the rows in every reachable state.  Full statement since /repo 10e7cca; before, the
   billable count was refuted by an instance renamed to "consul". *)
Theorem C07_derived_usage : forall s, CReach s ->
  forall id, id ∈ svc_usage_ids -> stored_usage s id = recompute_usage s id.
Proof. intros s H id _. apply (usage_ok s H). Qed.

(* the four config-entry counters (config-entries-<kind>) equal the number of entries of that kind;
   behind it: an entry is always stored under the key (its own kind, its name), so an update in
   place never changes a kind *)
Theorem C07_derived_usage_confs : forall s, CReach s ->
  forall kind, kind ∈ conf_kinds -> stored_usage s (conf_usage kind) = recompute_usage s (conf_usage kind).
Proof. intros s H kind _. apply (usage_ok s H). Qed.

(* together: every counter of the usage table the model has (all thirteen ids) *)
Theorem C07_derived_usage_all : forall s, CReach s ->
  forall id, id ∈ usage_ids -> stored_usage s id = recompute_usage s id.
Proof. intros s H id _. apply (usage_ok s H). Qed.

Example C07_derived_usage_confs_example :
  let s := (run conf_usage_log st0).1 in
  CReach s /\ stored_usage s (conf_usage "terminating-gateway") = 1 /\ stored_usage s (conf_usage "ingress-gateway") = 0 /\
  stored_usage s (conf_usage "service-defaults") = 2 /\ stored_usage s (conf_usage "service-resolver") = 1 /\
  stored_usage (run (take 2 conf_usage_log) st0).1 (conf_usage "ingress-gateway") = 1.
Proof. exact conf_usage_example. Qed.

(* one commit step, for arbitrary states: if the counters were right before, they are right after *)
Theorem C07_derived_usage_step : forall before after,
  (forall id, id ∈ svc_usage_ids -> stored_usage before id = recompute_usage before id) ->
  forall id, id ∈ svc_usage_ids -> stored_usage (commit_usage before after) id = recompute_usage (commit_usage before after) id.
Proof.
  intros before after Hok id Hid. apply commit_usage_at; [|apply Hok, Hid].
  intros k x y _ _. rewrite !svc_ids_no_conf by exact Hid. reflexivity.
Qed.

(* non-vacuity: a reachable state in which six of the counters (nodes, services, service-names,
   terminating-gateway, connect-native, billable) are non-zero; and, below, the history of /repo 10e7cca
   (a proxy renamed to "consul" next to a billable service) *)
Example C07_derived_usage_example :
  let s := (run usage_example_log st0).1 in
  CReach s /\ stored_usage s "nodes" = 2 /\ stored_usage s "services" = 3 /\ stored_usage s "service-names" = 3 /\
  stored_usage s (connect_usage KTermGW) = 1 /\ stored_usage s native_usage = 1 /\ stored_usage s billable_usage = 1.
Proof. exact usage_example. Qed.

Example C07_derived_usage_consul_example :
  let s := (run usage_log st0).1 in
  stored_usage s billable_usage = 1 /\ recompute_usage s billable_usage = 1.
Proof. intros s; pattern s; eapply decide_at; vm_compute; reflexivity. Qed.

(* ---- kind-service-names ---- *)
(* FULL STATEMENT (still false): forall s, CReach s -> ksn s = recompute_ksn s.  A reachable state with
   a row no registration or config entry justifies: an instance re-registered under another name (or
   kind) -- a re-registration never passes through deleteServiceTxn, so the old (kind, name) pair
   stays.
   (Two other classes are repaired: a name shared by instances of two kinds, /repo 0bb54ea,
   C07_derived_kindnames_shared_example; a service-defaults entry that loses its Destination by an
   update, /repo 0d0f3e6, C07_derived_kindnames_destination_example.) *)
Theorem C07_derived_kindnames_refuted :
  exists s, CReach s /\ ("", "db") ∈ ksn s /\ ("", "db") ∉ recompute_ksn s /\ ksn s ≠ recompute_ksn s.
Proof. eapply (CReach_witness ksn_log2); vm_compute; reflexivity. Qed.

(* the history that used to leave the (destination, name) row behind; and the same under a
   terminating wildcard, where the destination's wildcard association used to stay *)
Example C07_derived_kindnames_destination_example :
  ("destination", "ext") ∈ ksn (run (take 1 ksn_log3) st0).1 /\
  let s := (run ksn_log3 st0).1 in ksn s = ∅ /\ recompute_ksn s = ∅.
Proof.
  cbv zeta; pattern (run (take 1 ksn_log3) st0).1, (run ksn_log3 st0).1; eapply decide_at2; vm_compute; reflexivity.
Qed.

Example C07_derived_gateway_destination_example :
  is_Some (gws (run (take 2 gws_dest_log) st0).1 !! ("tgw", "ext", 0)) /\
  let s := (run gws_dest_log st0).1 in gws s !! ("tgw", "ext", 0) = None /\ stored_gws s = recompute_gws s.
Proof.
  cbv zeta; pattern (run (take 2 gws_dest_log) st0).1, (run gws_dest_log st0).1; eapply decide_at2; vm_compute; reflexivity.
Qed.

(* kind-service-names equals its recomputation in every state reached under a naming discipline D:
   every instance key (node, service id) is always registered with the same name, kind, native flag
   and destination (d_def), and the service-defaults entry of a name always or never carries a
   destination (d_dest).  The d_def half excludes the refuted class (an instance re-registered under
   another name or kind); the d_dest half excludes nothing that is refuted since /repo 0d0f3e6
   (C07_derived_kindnames_destination_example).  A name MAY be shared
   by instances of several kinds.  [cmd_ok D c] is the syntactic condition on a command; CReachD D
   closes st0 under the commands that satisfy it. *)
Theorem C07_derived_kindnames_partial : forall (D : discipline) s, CReachD D s -> ksn s = recompute_ksn s.
Proof.
  intros D s H. destruct (CReachD_J D s H) as [_ HK]. apply leibniz_equiv. intros p.
  rewrite elem_of_recompute_ksn. apply HK.
Qed.

(* non-vacuity: a discipline and a history under it (a service, its sidecar proxy, a connect-native
   service registered by a transaction, a destination, a wildcard gateway, a proxy registered under
   the name of the service; then deregistrations) *)
Example C07_derived_kindnames_example :
  CReachD example_discipline (run (take 8%nat kn_example_log) st0).1 /\
  ksn (run (take 8%nat kn_example_log) st0).1 =
    {[ ("", "web"); ("connect-proxy", "web-proxy"); ("connect-enabled", "web"); ("", "db"); ("connect-enabled", "db");
       ("destination", "ext") ]} /\
  CReachD example_discipline (run kn_example_log st0).1 /\
  ksn (run kn_example_log st0).1 = {[ ("connect-proxy", "web-proxy"); ("connect-enabled", "web") ]}.
Proof. exact kn_example. Qed.

(* the history that used to leave a row behind (a proxy named like a service; the proxy's node goes) *)
Example C07_derived_kindnames_shared_example :
  let s := (run ksn_log st0).1 in
  ("connect-proxy", "web") ∉ ksn s /\ ("", "web") ∈ ksn s /\ ksn s = recompute_ksn s.
Proof. intros s; pattern s; eapply decide_at; vm_compute; reflexivity. Qed.

(* ---- mesh-topology ---- *)
(* What holds (the content of /repo acb191c), for arbitrary states: registering an instance adds it to
   the references of every pair it lists and removes nobody else's reference from those pairs; pairs
   of other destinations are untouched. *)
Theorem C07_topology_refs_kept : forall nd sid dest ups existing s u, u ∈ ups ->
  let s' := update_mesh_topology nd sid dest ups existing s in
  is_Some (topo s' !! (u, dest)) /\ (nd, sid) ∈ refs_of s' (u, dest) /\ refs_of s (u, dest) ⊆ refs_of s' (u, dest).
Proof.
  intros nd sid dest ups existing s u Hu. cbn zeta. unfold refs_of at 1 3.
  rewrite update_mesh_topology_lookup, decide_True by (split; [reflexivity|exact Hu]). cbn.
  split; [eauto|]. split; [apply elem_of_union_l, elem_of_singleton; reflexivity|apply union_subseteq_r].
Qed.

Theorem C07_topology_other_destination : forall nd sid dest ups existing s p,
  p.2 ≠ dest -> topo (update_mesh_topology nd sid dest ups existing s) !! p = topo s !! p.
Proof. intros nd sid dest ups existing s p Hp. rewrite update_mesh_topology_lookup, !decide_False by tauto. reflexivity. Qed.

(* the history that used to lose a reference (two proxy instances declare the same upstream, the
   second is deregistered) now agrees with the recomputation after every step *)
Example C07_derived_topology_example :
  topo (run (take 2 topo_log) st0).1 !! ("db", "web") = Some {[ ("n1", "s1"); ("n2", "s1") ]} /\
  topo (run (take 2 topo_log) st0).1 = recompute_topo (run (take 2 topo_log) st0).1 /\
  topo (run topo_log st0).1 !! ("db", "web") = Some {[ ("n1", "s1") ]} /\
  topo (run topo_log st0).1 = recompute_topo (run topo_log st0).1.
Proof. pattern (run (take 2 topo_log) st0).1, (run topo_log st0).1; eapply decide_at2; vm_compute; reflexivity. Qed.

(* FULL STATEMENT (still false): forall s, CReach s -> topo s = recompute_topo s.  Four reachable
   states in which the table differs from the recomputation:
   (1) an instance that stops listing an upstream deletes the pair although another instance still
       declares it;
   (2) an instance re-registered as a non-proxy keeps the pairs it declared as a proxy;
   (3) an ingress gateway lists a service on one listener and "*" on another: when the service's last
       connect instance goes, the wildcard-derived association is removed and takes the (service,
       gateway) pair with it although the listed association remains.
   (4) a connect-native service registered with upstreams leaves its pairs (upstream, "") behind when
       it is deregistered: no instance is left at all, the pair and its reference are. *)
Theorem C07_derived_topology_refuted :
  (exists s, CReach s /\ topo s !! ("db", "web") = None /\ recompute_topo s !! ("db", "web") = Some {[ ("n1", "s1") ]}) /\
  (exists s, CReach s /\ topo s !! ("db", "web") = Some {[ ("n1", "s1") ]} /\ recompute_topo s !! ("db", "web") = None) /\
  (exists s, CReach s /\ topo s !! ("web", "igw") = None /\ is_Some (gws s !! ("igw", "web", 8080)) /\
             recompute_topo s !! ("web", "igw") = Some ∅) /\
  (exists s, CReach s /\ services s = ∅ /\ topo s !! ("db", "") = Some {[ ("n1", "s1") ]} /\
             recompute_topo s !! ("db", "") = None).
Proof.
  split; [|split; [|split]].
  - eapply (CReach_witness topo_drop_log); vm_compute; reflexivity.
  - eapply (CReach_witness topo_redef_log); vm_compute; reflexivity.
  - eapply (CReach_witness topo_gw_log); vm_compute; reflexivity.
  - eapply (CReach_witness topo_native_log); vm_compute; reflexivity.
Qed.

(* ---- gateway-services ---- *)
(* repaired (/repo a882280, 948377c): a service listed next to the wildcard of the same entry keeps its
   listed row through registration and deregistration, and every row of a service learns a new
   service kind *)
Example C07_derived_gateway_example :
  stored_gws (run (take 2 gws_log) st0).1 = recompute_gws (run (take 2 gws_log) st0).1 /\
  stored_gws (run (take 2 gws_log) st0).1 !! ("tgw", "web", 0) = Some (KTermGW, false) /\
  stored_gws (run gws_log st0).1 = recompute_gws (run gws_log st0).1 /\
  stored_gws (run gws_log st0).1 !! ("tgw", "web", 0) = Some (KTermGW, false).
Proof. pattern (run (take 2 gws_log) st0).1, (run gws_log st0).1; eapply decide_at2; vm_compute; reflexivity. Qed.

Example C07_derived_gateway_rows_example :
  let s := (run gws_rows_log st0).1 in
  gws s !! ("tgw", "ext", 0) = Some (GS KTermGW false GDestination) /\
  gws s !! ("tgw2", "ext", 0) = Some (GS KTermGW false GDestination).
Proof. intros s; pattern s; eapply decide_at; vm_compute; reflexivity. Qed.

(* FULL STATEMENT (still false): forall s, CReach s -> stored_gws s = recompute_gws s.  What is still
   wrong is order dependence around wildcards, and the missing cleanup on re-registration:
   (1) the SAME two commands in both orders — a sidecar proxy of "db" (no instance named db) and an
       ingress entry with "*" — give different tables: the association (igw, db) exists only if the
       proxy registers after the entry is written;
   (2) likewise a service-defaults destination gets an association with a wildcard INGRESS gateway
       only if it is written before the entry;
   (3) an instance re-registered under another name leaves the wildcard-derived association of its
       old name behind. *)
Theorem C07_derived_gateway_refuted :
  (let a := (run [(3, igw_conf); (4, igw_proxy)] st0).1 in
   let b := (run [(3, igw_proxy); (4, igw_conf)] st0).1 in
   CReach a /\ CReach b /\
   stored_gws a !! ("igw", "db", 8080) = Some (KIngressGW, true) /\ stored_gws b !! ("igw", "db", 8080) = None /\
   recompute_gws a = recompute_gws b /\ stored_gws b ≠ recompute_gws b) /\
  (let a := (run [(3, ConfSet "ext" (CDefaults true)); (4, igw_conf)] st0).1 in
   let b := (run [(3, igw_conf); (4, ConfSet "ext" (CDefaults true))] st0).1 in
   CReach a /\ CReach b /\
   stored_gws a !! ("igw", "ext", 8080) = Some (KIngressGW, true) /\ stored_gws b !! ("igw", "ext", 8080) = None /\
   recompute_gws a = recompute_gws b /\ stored_gws a ≠ recompute_gws a) /\
  (exists s, CReach s /\ stored_gws s !! ("tgw", "api", 0) = Some (KTermGW, true) /\ recompute_gws s !! ("tgw", "api", 0) = None).
Proof.
  split; [|split].
  - intros a b. split; [apply CReach_run|]. split; [apply CReach_run|]. pattern a, b; eapply decide_at2; vm_compute; reflexivity.
  - intros a b. split; [apply CReach_run|]. split; [apply CReach_run|]. pattern a, b; eapply decide_at2; vm_compute; reflexivity.
  - eapply (CReach_witness gws_redef_log); vm_compute; reflexivity.
Qed.

(* non-vacuity for the virtual IP theorems: two services with addresses 1 and 2, a connect-native
   instance advertising its service's address (C07_vip_advertised_example has a sidecar proxy) *)
Example C07_vip_example :
  let s := (run (take 4%nat usage_example_log) st0).1 in
  CReach s /\ vips s !! "web" = Some (1, []) /\ vips s !! "db" = Some (2, []) /\
  exists v, services s !! ("n2", "s1") = Some v /\ sv_vip v = Some 2 /\ sv_native v = true /\ sv_kind v ≠ KProxy /\ sv_name v = "db".
Proof. exact vip_example. Qed.

Print Assumptions C07_no_orphans.
Print Assumptions C07_vip_example.
Print Assumptions C07_cascade_node.
Print Assumptions C07_cascade_service.
Print Assumptions C07_cascade_example.
Print Assumptions C07_cascade_service_example.
Print Assumptions C07_no_orphans_catalog.
Print Assumptions C07_cascade_node_catalog.
Print Assumptions C07_cascade_service_catalog.
Print Assumptions C07_vip_unique.
Print Assumptions C07_vip_allocator.
Print Assumptions C07_vip_manual_unique.
Print Assumptions C07_vip_manual_example.
Print Assumptions C07_vip_advertised.
Print Assumptions C07_vip_advertised_example.
Print Assumptions C07_derived_usage.
Print Assumptions C07_derived_usage_consul_example.
Print Assumptions C07_derived_usage_step.
Print Assumptions C07_derived_usage_confs.
Print Assumptions C07_derived_usage_all.
Print Assumptions C07_derived_usage_confs_example.
Print Assumptions C07_derived_usage_example.
Print Assumptions C07_derived_kindnames_refuted.
Print Assumptions C07_derived_kindnames_destination_example.
Print Assumptions C07_derived_gateway_destination_example.
Print Assumptions C07_derived_kindnames_partial.
Print Assumptions C07_derived_kindnames_example.
Print Assumptions C07_derived_kindnames_shared_example.
Print Assumptions C07_topology_refs_kept.
Print Assumptions C07_topology_other_destination.
Print Assumptions C07_derived_topology_example.
Print Assumptions C07_derived_topology_refuted.
Print Assumptions C07_derived_gateway_example.
Print Assumptions C07_derived_gateway_rows_example.
Print Assumptions C07_derived_gateway_refuted.
