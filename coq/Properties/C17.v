(* C17 — Peering: imports mirror exactly what was exported and touch nothing else.
   The theorems, proved from the lemmas of coq/Peering/*.v.

   The model (Peering/Model.v) is handleUpsert / handleUpdateService /
   handleUpsertExportedServiceList over the peer-keyed catalog tables, with the catalog verbs the
   Backend calls end in (ensureRegistrationTxn, deleteServiceTxn, ...), and
   exportedServicesForPeerTxn.  Every `range` over a Go map is an arbitrary permutation
   ([shuffles_ok sh]); all theorems hold for every such iteration order. *)
From Verif Require Import Base.Prelude Peering.Model Peering.Lemmas Peering.Verbs Peering.Frame Peering.Prune
     Peering.Export Peering.Phase1 Peering.Phase2 Peering.Snapshot Peering.MirrorTop
     Peering.Keep Peering.Refute Peering.Proofs Run.C17 Peering.Order.
Require Import Coq.Sorting.Permutation.
Local Open Scope string_scope.

(* An event of peer p leaves the node, service and check rows of every other peer and of the
   local cluster (q = "", which includes the mesh-topology table) exactly as they were — same
   rows, same order — whatever the prior state, whatever the snapshot (coherent or not, naming
   upstreams or not), whether or not the handler fails. *)
Theorem C17_frame : forall sh c e q,
  shuffles_ok sh -> ev_peer e <> q -> same_rows q c (h_cat (handle sh c e)).
Proof.
  intros sh c e q Hsh Hq.
  exact (handle_closed _ _ sh c e (same_rows_closed q c _ Hq) Hsh eq_refl (same_rows_refl q c)).
Qed.

(* ... and so does any history of events of peers other than q *)
Theorem C17_frame_history : forall q c es c',
  run c es c' -> Forall (fun e => ev_peer e <> q) es -> same_rows q c c'.
Proof.
  intros q c es c' Hr Hf. apply (run_closed (same_rows q c) c es c' Hr); [|apply same_rows_refl].
  intros e He. apply same_rows_closed. rewrite Forall_forall in Hf. apply Hf, He.
Qed.

(* every Backend call (CatalogRegister / CatalogDeregister) carries the peer name ... *)
Theorem C17_ops_carry_peer : forall sh c e,
  shuffles_ok sh -> Forall (fun o => op_peer o = ev_peer e) (h_ops (handle sh c e)).
Proof.
  intros sh c e Hsh. apply (handle_inv sh e (fun s => Forall (fun o => op_peer o = ev_peer e) (h_ops s))); auto.
  - intros r s Hr Hs. unfold do_reg. destruct (h_err s); [exact Hs|].
    destruct (register (h_cat s) r); cbn; constructor; auto.
  - intros d s Hd Hs. unfold do_dereg. destruct (h_err s); [exact Hs|]. cbn; constructor; auto.
  - constructor.
Qed.

(* ... and the list of calls determines the resulting store (an error leaves the store alone) *)
Theorem C17_calls_determine_store : forall sh c e,
  shuffles_ok sh -> apply_ops (rev (h_ops (handle sh c e))) c = h_cat (handle sh c e).
Proof.
  intros sh c e Hsh. apply (handle_inv sh e (fun s => apply_ops (rev (h_ops s)) c = h_cat s)); auto.
  - intros r s _ Hs. unfold do_reg. destruct (h_err s); [exact Hs|].
    destruct (register (h_cat s) r) as [c'|err] eqn:E; cbn [h_ops h_cat rev];
      rewrite apply_ops_snoc, Hs; cbn [apply_op]; rewrite E; reflexivity.
  - intros d s _ Hs. unfold do_dereg. destruct (h_err s); [exact Hs|].
    cbn [h_ops h_cat rev]. rewrite apply_ops_snoc, Hs. reflexivity.
Qed.

(* The mesh-topology table has no peer in its key and belongs to the local cluster: it is part
   of [same_rows ""].  Spelled out: no event of a peer changes it (updateMeshTopology returns
   at once for an imported instance, cleanupMeshTopology likewise). *)
Theorem C17_frame_topology : forall sh c e,
  shuffles_ok sh -> ev_peer e <> "" -> topo (h_cat (handle sh c e)) = topo c.
Proof. intros sh c e Hsh Hq. apply (C17_frame sh c e "" Hsh Hq). reflexivity. Qed.

(* After an exported-service list has been processed without error every service row of the
   peer belongs to an exported name or to its synthetic sidecar, and no service row was added. *)
Theorem C17_prune : forall sh, shuffles_ok sh -> forall p names c,
  h_err (handle_exported_list sh c p names) = None ->
  incl (svcs (h_cat (handle_exported_list sh c p names))) (svcs c) /\
  (forall x, In x (svcs (h_cat (handle_exported_list sh c p names))) -> s_peer x = p ->
             In (s_name x) (exported_set names)).
Proof.
  intros sh sh_ok p names c He. rewrite handle_exported_list_fold in *.
  destruct (list_loop sh sh_ok p names _ (HSt c [] None) He) as [A B].
  split; [exact A|]. intros x Hx Hp.
  destruct (in_dec string_dec (s_name x) (exported_set names)) as [Hin|Hnot]; [exact Hin|].
  exfalso. eapply (B (s_name x) x); auto.
  apply (sh_names_in sh sh_ok), in_service_list. exists x. split; [apply A; exact Hx | auto].
Qed.

(* ... and it removes nothing else: an instance of the peer whose service name is still exported
   (or is the sidecar of an exported name) is kept, with the node row under it and its own
   checks (unique keys: a state invariant, see below; non-empty stored identifiers: assumed) *)
Theorem C17_prune_keeps : forall sh p names, shuffles_ok sh -> forall c z,
  h_err (handle_exported_list sh c p names) = None ->
  wf c -> ids_nonempty c p ->
  In z (svcs c) -> s_peer z = p -> In (s_name z) (exported_set names) ->
  In z (svcs (h_cat (handle_exported_list sh c p names))) /\
  (forall b, In b (nodes c) -> n_peer b = p -> n_name b = s_node z ->
             In b (nodes (h_cat (handle_exported_list sh c p names)))) /\
  (forall k, In k (chks c) -> c_peer k = p -> c_node k = s_node z -> c_sid k = s_id z ->
             In k (chks (h_cat (handle_exported_list sh c p names)))).
Proof.
  intros sh p names sh_ok c z He W I Hz Zp Zn. rewrite handle_exported_list_fold in *.
  apply (list_keeps sh p names sh_ok z _ (HSt c [] None)); auto.
Qed.

(* After an update that returned no error, a node on which the service had an instance and
   which the snapshot no longer contains is gone, unless a service of the peer is still
   registered on it (for any snapshot, coherent or not). *)
Theorem C17_orphan_nodes_removed : forall sh p sn c0 export,
  shuffles_ok sh ->
  h_err (handle_update_service sh c0 p sn (Some export)) = None ->
  forall z, In z (svcs c0) -> s_peer z = p -> s_name z = sn ->
            find_ns (new_health_snapshot p export) (s_node z) = None ->
            get_node (h_cat (handle_update_service sh c0 p sn (Some export))) p (s_node z) = None \/
            node_has_services (h_cat (handle_update_service sh c0 p sn (Some export))) p (s_node z) = true.
Proof. exact orphan_nodes_removed. Qed.

(* Unique primary keys (the hypothesis [wf] of the theorems below) survive every event and
   every history, whatever the events contain and whether or not a handler fails. *)
Theorem C17_unique_keys_invariant : forall sh c e, shuffles_ok sh -> wf c -> wf (h_cat (handle sh c e)).
Proof. intros sh c e Hsh. exact (handle_closed _ wf sh c e (wf_closed _) Hsh eq_refl). Qed.

Theorem C17_unique_keys_history : forall c es c', run c es c' -> wf c -> wf c'.
Proof. intros c es c' Hr. apply (run_closed wf c es c' Hr). intros e _. apply wf_closed. Qed.

(* The full statement: for every prior state and every coherent snapshot the rows of
   (peer, service) afterwards are the snapshot's.  It is FALSE of the code, in three ways: *)
Theorem C17_mirror_refuted_node_id_moves : ~ mirror_statement.
Proof.
  intros H0. destruct w1_facts as (W & C & E & _ & S).
  assert (Hne : ids_nonempty_b w1_before pa = true) by (vm_compute; reflexivity).
  pose proof (mirror_statement_at rev_nodes w1_before w1_export H0 rev_nodes_ok W Hne C E) as H.
  destruct (mi_in _ _ _ _ H (inst_set_peer pa (Inst (Node "" "a" idZ 5) (mk_svc "a" "web1" "web" 9) []))) as (_ & Hs & _);
    [left; reflexivity|].
  fold w1_after in Hs. rewrite S in Hs. cbn in Hs. destruct Hs as [Hs|[]]. discriminate.
Qed.

Theorem C17_mirror_refuted_check_changes_owner : ~ mirror_statement.
Proof.
  intros H0. destruct w2_facts as (W & C & E & _ & S).
  assert (Hne : ids_nonempty_b w2_before pa = true) by (vm_compute; reflexivity).
  pose proof (mirror_statement_at id_shuffles w2_before w2_export H0 id_shuffles_ok W Hne C E) as H.
  destruct (mi_in _ _ _ _ H (inst_set_peer pa (Inst (Node "" "a" "" 5) (mk_svc "a" "web1" "web" 9) [Chk "" "a" "c" "web1" "web" 7 1 3])))
    as (_ & _ & Hk); [left; reflexivity|].
  destruct (Hk (chk_set_peer pa (Chk "" "a" "c" "web1" "web" 7 1 3))) as (r & Hr & _); [left; reflexivity|].
  fold w2_after in Hr. rewrite S in Hr. destruct Hr.
Qed.

Theorem C17_mirror_refuted_stale_node_check : ~ mirror_statement.
Proof.
  intros H0. destruct w3_facts as (W & C & E & _ & S).
  assert (Hne : ids_nonempty_b w3_before pa = true) by (vm_compute; reflexivity).
  pose proof (mirror_statement_at id_shuffles w3_before w3_export H0 id_shuffles_ok W Hne C E) as H.
  destruct (mi_chks _ _ _ _ H (inst_set_peer pa (Inst (Node "" "a" "" 5) (mk_svc "a" "web2" "web" 9) []))
                    (Chk pa "a" "maint" "" "" 7 3 3)) as (k & [] & _); auto.
  - left. reflexivity.
  - fold w3_after. rewrite S. left. reflexivity.
Qed.

(* It holds for every prior state and snapshot under three hypotheses, each of which excludes
   one of these classes (ids_keep_names, check_ids_keep_owner, slots_owned: Peering/MirrorTop.v). *)
Theorem C17_mirror_partial : forall sh p sn c0 export,
  shuffles_ok sh -> wf c0 ->
  snap_coh p sn (map (inst_set_peer p) export) ->
  ids_keep_names c0 p (map (inst_set_peer p) export) ->
  check_ids_keep_owner c0 p (map (inst_set_peer p) export) ->
  slots_owned c0 p sn (map (inst_set_peer p) export) ->
  ids_nonempty c0 p ->
  h_err (handle_update_service sh c0 p sn (Some export)) = None ->
  mirrors (h_cat (handle_update_service sh c0 p sn (Some export))) p sn (map (inst_set_peer p) export).
Proof.
  intros sh p sn c0 export Hsh W C H1 H2 H3 H4.
  exact (mirror_top sh p sn c0 export [] Hsh W C H1 H2 H3 H4 (Forall_nil _)).
Qed.

(* ... and then Store.CheckServiceNodes(service, peer) succeeds and its view and the received
   snapshot cover each other: every returned instance is a received one with the same node and
   service records and checks related both ways (same key, service id, status, content); every
   received instance is returned *)
Theorem C17_mirror_view : forall c p sn snap,
  mirrors c p sn snap -> snap_coh p sn snap ->
  exists view, check_service_nodes c p sn = Ok view /\
    (forall j, In j view -> exists i, In i snap /\ i_node j = i_node i /\ i_svc j = i_svc i /\
                                      (forall r, In r (i_chks j) -> exists k, In k (i_chks i) /\ img_chk k r) /\
                                      (forall k, In k (i_chks i) -> exists r, In r (i_chks j) /\ img_chk k r)) /\
    (forall i, In i snap -> exists j, In j view /\ i_svc j = i_svc i).
Proof. exact mirrors_view. Qed.

(* Other services of the same peer.  FALSE as it stands: a received node that carries the ID of
   a stored node under another name makes the store delete that node with all its instances *)
Theorem C17_same_peer_frame_refuted : ~ same_peer_statement.
Proof.
  intros H. destruct w5_facts as (W & C & E & S).
  specialize (H id_shuffles w5_before pa "web" w5_export id_shuffles_ok (wf_b_spec _ W)).
  assert (Hne : ids_nonempty w5_before pa).
  { apply ids_nonempty_b_spec. vm_compute. reflexivity. }
  specialize (H Hne (coherent_b_spec _ _ _ C) E (mk_svc "a" "api1" "api" 9)).
  fold w5_after in H. rewrite S in H. cbn in H.
  destruct H as [H|[]]; [auto|reflexivity|discriminate| |discriminate].
  intros i [<-|[]]. cbn. discriminate.
Qed.

(* Without such an ID move: an instance of another service is kept (unless the snapshot sends
   an instance under the same node and service id), with its node row when that node is not
   in the snapshot and with its service-level checks (unless the snapshot sends a check under
   the same node and check id).  Shared by design: the node row of every snapshot node and the
   node-level checks of nodes hosting an instance of the service. *)
Theorem C17_same_peer_frame : forall sh p sn c0 export,
  shuffles_ok sh -> wf c0 ->
  snap_coh p sn (map (inst_set_peer p) export) ->
  ids_keep_names c0 p (map (inst_set_peer p) export) ->
  ids_nonempty c0 p ->
  h_err (handle_update_service sh c0 p sn (Some export)) = None ->
  forall z, In z (svcs c0) -> s_peer z = p -> s_name z <> sn ->
            (forall i, In i (map (inst_set_peer p) export) -> svc_key (i_svc i) <> svc_key z) ->
    In z (svcs (h_cat (handle_update_service sh c0 p sn (Some export)))) /\
    (forall b, In b (nodes c0) -> n_peer b = p -> n_name b = s_node z ->
               (forall i, In i (map (inst_set_peer p) export) -> n_name (i_node i) <> n_name b) ->
               In b (nodes (h_cat (handle_update_service sh c0 p sn (Some export))))) /\
    (forall k, In k (chks c0) -> c_peer k = p -> c_node k = s_node z -> c_sid k = s_id z ->
               (forall i k', In i (map (inst_set_peer p) export) -> In k' (i_chks i) -> chk_key k' <> chk_key k) ->
               In k (chks (h_cat (handle_update_service sh c0 p sn (Some export))))).
Proof. intros sh p sn c0 export. exact (same_peer_top sh p sn c0 export []). Qed.

(* A node of the peer that is not in the snapshot and hosts no instance of the service keeps
   every row: node, instances, node-level and service-level checks. *)
Theorem C17_same_peer_uninvolved_nodes : forall sh p sn c0 export,
  shuffles_ok sh -> wf c0 ->
  snap_coh p sn (map (inst_set_peer p) export) ->
  ids_keep_names c0 p (map (inst_set_peer p) export) ->
  ids_nonempty c0 p ->
  h_err (handle_update_service sh c0 p sn (Some export)) = None ->
  forall n, (forall i, In i (map (inst_set_peer p) export) -> n_name (i_node i) <> n) ->
            (forall y, In y (svcs c0) -> s_peer y = p -> s_node y = n -> s_name y <> sn) ->
    (forall b, In b (nodes c0) -> n_peer b = p -> n_name b = n ->
               In b (nodes (h_cat (handle_update_service sh c0 p sn (Some export))))) /\
    (forall y, In y (svcs c0) -> s_peer y = p -> s_node y = n ->
               In y (svcs (h_cat (handle_update_service sh c0 p sn (Some export))))) /\
    (forall k, In k (chks c0) -> c_peer k = p -> c_node k = n ->
               In k (chks (h_cat (handle_update_service sh c0 p sn (Some export))))).
Proof. intros sh p sn c0 export. exact (uninvolved_top sh p sn c0 export []). Qed.

(* A service is offered to a peer only if an exported-services entry names that peer as a
   consumer of it or of the wildcard; "consul" is never offered. *)
Theorem C17_export_only_if_named : forall peer entry typical s,
  In s (exported_services peer entry typical) ->
  s <> consul_name /\ exists e, In e entry /\ In peer (snd e) /\ (fst e = s \/ fst e = wildcard).
Proof. exact exported_services_named. Qed.

(* the same for the discovery chains exported as connect services *)
Theorem C17_export_chains_only_if_named : forall peer entry typical connect chains tgw chain_ok s,
  In s (exported_chains peer entry typical connect chains tgw chain_ok) ->
  s <> consul_name /\ exists e, In e entry /\ In peer (snd e) /\ (fst e = s \/ fst e = wildcard).
Proof.
  intros peer entry typical connect chains tgw chain_ok s H. unfold exported_chains in H. apply filter_In in H as [H _].
  apply in_add_all in H as [H|H].
  - apply filter_In in H as [H _]. apply exported_services_named in H. exact H.
  - change (In s (fold_left (step_wild peer chains) entry [])) in H.
    apply fold_wild_named in H as [[]|H]. exact H.
Qed.

(* exact characterisation of the exported service list *)
Theorem C17_export_exact : forall peer entry typical s,
  In s (exported_services peer entry typical) <->
  exists e, In e entry /\ fst e <> consul_name /\ In peer (snd e) /\
            ((fst e <> wildcard /\ s = fst e) \/ (fst e = wildcard /\ In s typical /\ s <> consul_name)).
Proof. exact exported_services_spec. Qed.

(* the iteration orders the correspondence check reads off the implementation's call log are
   iteration orders in the sense of the theorems above *)
Theorem C17_observed_orders_are_orders : forall h, shuffles_ok (hint_shuffles h).
Proof.
  intros h. unfold hint_shuffles, shuffles_ok. cbn [sh_nodes sh_svcs sh_chks sh_dnc sh_unused sh_names].
  split; [intros l; apply reorder_perm, seqb_eq|].
  split; [intros l; apply reorder_perm, pair_eqb_spec|].
  split; [intros l; apply reorder_perm, chk_eqb_eq|].
  split; [intros l; apply Permutation_refl|].
  split; [intros l; apply Permutation_refl|].
  intros l; apply reorder_perm, seqb_eq.
Qed.

(* the hypotheses of C17_mirror_partial / C17_same_peer_frame hold for a prior state with
   rows of the peer, of another peer and of the local cluster under colliding names ... *)
Example C17_hypotheses_satisfiable :
  wf ex_before /\ snap_coh pa "web" ex_snap /\ ids_keep_names ex_before pa ex_snap /\
  check_ids_keep_owner ex_before pa ex_snap /\ slots_owned ex_before pa "web" ex_snap /\
  ids_nonempty ex_before pa /\
  h_err (handle_update_service id_shuffles ex_before pa "web" (Some ex_export)) = None.
Proof.
  split; [apply wf_b_spec; vm_compute; reflexivity|].
  split; [apply coherent_b_spec; vm_compute; reflexivity|].
  split; [|split; [|split; [|split]]].
  - intros i b [<-|[]] _ _ _ Hne. cbn in Hne. contradiction.
  - intros k0 i k Hk0 Hp [<-|[]] [<-|[]] _ Hid. cbn in Hk0, Hid.
    destruct Hk0 as [<-|[<-|[]]]; cbn in Hid; discriminate.
  - intros k0 i Hk0 Hp [<-|[]] Hn Hs Hno.
    exists (inst_set_peer pa (Inst (Node "" "a" "" 6) (mk_svc "a" "web1" "web" 10) [Chk "" "a" "new" "web1" "web" 7 1 4])),
           (mk_svc "a" "web1" "web" 9).
    cbn. repeat split; auto.
  - apply ids_nonempty_b_spec. vm_compute. reflexivity.
  - vm_compute. reflexivity.
Qed.

(* ... with a retained node ID and a retained check id (the hypotheses are not met by absence) *)
Example C17_hypotheses_satisfiable_with_ids :
  wf ex2_before /\ snap_coh pa "web" ex2_snap /\ ids_keep_names ex2_before pa ex2_snap /\
  check_ids_keep_owner ex2_before pa ex2_snap /\ slots_owned ex2_before pa "web" ex2_snap /\
  ids_nonempty ex2_before pa /\
  h_err (handle_update_service id_shuffles ex2_before pa "web" (Some ex2_export)) = None /\
  (exists b i, In b (nodes ex2_before) /\ In i ex2_snap /\ n_id b = n_id (i_node i) /\ n_id b <> "") /\
  (exists k0 i k, In k0 (chks ex2_before) /\ In i ex2_snap /\ In k (i_chks i) /\ c_node k0 = n_name (i_node i) /\ c_id k0 = c_id k).
Proof. exact ex2_hypotheses. Qed.

(* ... the premises of the same-peer theorems: another service in a slot the snapshot does not
   send, and a node that has nothing to do with the service *)
Example C17_same_peer_premises_satisfiable :
  (In (mk_svc "a" "api1" "api" 9) (svcs ex2_before) /\ s_name (mk_svc "a" "api1" "api" 9) <> "web" /\
   forall i, In i ex2_snap -> svc_key (i_svc i) <> svc_key (mk_svc "a" "api1" "api" 9)) /\
  ((forall i, In i ex2_snap -> n_name (i_node i) <> "u") /\
   (forall y, In y (svcs ex2_before) -> s_peer y = pa -> s_node y = "u" -> s_name y <> "web") /\
   In (Node pa "u" "" 1) (nodes ex2_before)).
Proof.
  split; [split; [cbn; auto|split; [discriminate|]]|split; [|split]].
  - intros i [<-|[]]. cbn. discriminate.
  - intros i [<-|[]]. cbn. discriminate.
  - intros y Hy _ Hn. cbn in Hy. destruct Hy as [<-|[<-|[<-|[]]]]; cbn in Hn |- *; discriminate.
  - cbn. auto.
Qed.

(* ... the hypotheses of the list theorems on a concrete store (what the event prunes and keeps is
   computed in Peering/Proofs.v ex3_result) *)
Example C17_list_hypotheses_satisfiable :
  wf ex3_before /\ ids_nonempty ex3_before pa /\
  h_err (handle_exported_list id_shuffles ex3_before pa ["web"]) = None /\
  In "web-sidecar-proxy" (exported_set ["web"]).
Proof.
  split; [apply wf_b_spec; vm_compute; reflexivity|]. split; [apply ids_nonempty_b_spec; vm_compute; reflexivity|]. split; [vm_compute; reflexivity|]. cbn. auto.
Qed.

(* ... the identity order is an iteration order, and the exporting side exports something *)
Example C17_shuffles_satisfiable : shuffles_ok id_shuffles /\ shuffles_ok rev_nodes.
Proof. exact (conj id_shuffles_ok rev_nodes_ok). Qed.

Example C17_export_nonempty :
  exported_services "x" [("web", ["x"]); ("*", ["y"]); ("consul", ["x"; "y"])] ["web"; "api"; "consul"] = ["web"]
  /\ exported_services "y" [("web", ["x"]); ("*", ["y"]); ("consul", ["x"; "y"])] ["web"; "api"; "consul"] = ["web"; "api"].
Proof. vm_compute. split; reflexivity. Qed.

Print Assumptions C17_frame.
Print Assumptions C17_frame_history.
Print Assumptions C17_ops_carry_peer.
Print Assumptions C17_calls_determine_store.
Print Assumptions C17_frame_topology.
Print Assumptions C17_prune.
Print Assumptions C17_prune_keeps.
Print Assumptions C17_orphan_nodes_removed.
Print Assumptions C17_unique_keys_invariant.
Print Assumptions C17_unique_keys_history.
Print Assumptions C17_mirror_refuted_node_id_moves.
Print Assumptions C17_mirror_refuted_check_changes_owner.
Print Assumptions C17_mirror_refuted_stale_node_check.
Print Assumptions C17_mirror_partial.
Print Assumptions C17_mirror_view.
Print Assumptions C17_same_peer_frame_refuted.
Print Assumptions C17_same_peer_frame.
Print Assumptions C17_same_peer_uninvolved_nodes.
Print Assumptions C17_export_only_if_named.
Print Assumptions C17_export_chains_only_if_named.
Print Assumptions C17_export_exact.
Print Assumptions C17_observed_orders_are_orders.
Print Assumptions C17_hypotheses_satisfiable.
Print Assumptions C17_hypotheses_satisfiable_with_ids.
Print Assumptions C17_same_peer_premises_satisfiable.
Print Assumptions C17_list_hypotheses_satisfiable.
Print Assumptions C17_shuffles_satisfiable.
Print Assumptions C17_export_nonempty.
