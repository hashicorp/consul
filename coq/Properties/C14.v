(* C14 — the proxy authorization policy enforces exactly the intention decision.
   Theorems only; the proofs put together lemmas of RBAC/{Order,Patterns,Perms,Proofs,Instance}.v.

   Vocabulary (RBAC/Model.v, RBAC/Proofs.v):
     translate cfg ixns dflt http      the model of makeRBACRules: the intentions matching one destination -> Envoy RBAC
     eval_rbac re rbac conn req        Envoy's verdict (ALLOW: some policy matches; DENY: none matches)
     intention_allows re cfg ixns dflt http conn req
                                       the reference: the matching intention of highest precedence decides
                                       (L7: its first matching permission; none: the default policy); no intention: default
     re                                the regex engine (safe_regex) for user-supplied patterns and method alternations
     well_formed                       validated input: valid HTTP methods, non-empty names, wildcards only trailing,
                                       peers have pairwise distinct trust domains
     hosts_authentic                   the trust domains of the presented URIs were authenticated by TLS
     partitions_literal                no partition a source stands for contains a regex metacharacter (namespace and
                                       service names are arbitrary: makeSpiffePattern quotes them since /repo d976793)
     inverted_headers_present          the request carries every header that an inverted value matcher (Exact/Prefix/
                                       Suffix/Contains/Regex with Invert) of some permission asks about
     translate_before_214d73a          the translator before removeShadowedSourceIntentions (regression witness only) *)
From Verif Require Import Base.Prelude.
From Verif Require Import RBAC.Model.
From Verif Require Import RBAC.Order.
From Verif Require Import RBAC.Patterns.
From Verif Require Import RBAC.Perms.
From Verif Require Import RBAC.Proofs.
From Verif Require Import RBAC.Instance.

(* The property at full strength: for every valid intention list, default policy, listener
   kind, connection and request.  It is still FALSE of the faithful model, for every regex engine
   (C14_equiv_false), in ONE way: C14_inverted_header_refuted.  Two other ways it used to fail are
   repaired in /repo and kept as regression examples: names spliced unescaped (d976793,
   C14_regex_regression) and a higher-precedence superset source not subtracted (214d73a,
   C14_superset_regression). *)
Definition C14_equiv (re : string -> string -> bool) : Prop :=
  forall cfg ixns dflt http conn req,
    well_formed cfg ixns -> partitions_literal cfg ixns -> hosts_authentic cfg ixns conn ->
    eval_rbac re (translate cfg ixns dflt http) conn req
    = intention_allows re cfg ixns dflt http conn req.

(* (open finding: inverted header matcher, header absent) `web -> db` with permissions
   [deny {x-internal Exact "yes" Invert}; allow {PathPrefix "/"}], default deny, HTTP: every hypothesis
   holds except inverted_headers_present; a request WITHOUT x-internal is denied by the intention's
   meaning ("x-internal is not yes") and allowed by the RBAC (Envoy ignores a value matcher on an
   absent header even when inverted).  The same request carrying `x-internal: no` is denied by both. *)
Theorem C14_inverted_header_refuted : forall re,
  well_formed w_cfg w_inv_ixns /\ partitions_literal w_cfg w_inv_ixns
  /\ hosts_authentic w_cfg w_inv_ixns (w_conn "web")
  /\ ~ inverted_headers_present w_inv_ixns w_req /\ inverted_headers_present w_inv_ixns w_req_with
  /\ eval_rbac re (translate w_cfg w_inv_ixns false true) (w_conn "web") w_req = true
  /\ intention_allows re w_cfg w_inv_ixns false true (w_conn "web") w_req = false
  /\ eval_rbac re (translate w_cfg w_inv_ixns false true) (w_conn "web") w_req_with = false
  /\ intention_allows re w_cfg w_inv_ixns false true (w_conn "web") w_req_with = false.
Proof.
  intros re. destruct (local_hyps w_inv_ixns w_inv_local) as (H1 & H2 & H3). destruct w_inv_headers as (H5 & H6).
  exact (conj H1 (conj H2 (conj (H3 "web"%string) (conj H5 (conj H6 (inverted_header_witness re)))))).
Qed.

Theorem C14_equiv_false : forall re, ~ C14_equiv re.
Proof.
  intros re H. destruct (local_hyps w_inv_ixns w_inv_local) as (H1 & H2 & H3).
  destruct (inverted_header_witness re) as (H7 & H8 & _).
  rewrite (H w_cfg w_inv_ixns false true (w_conn "web") w_req H1 H2 (H3 "web"%string)) in H7. congruence.
Qed.

Section C14.
  Variable re : string -> string -> bool.
  (* assumed of the regex engine: an alternation of valid method names matches exactly its members *)
  Hypothesis re_methods : re_alternation re.

  (* The generated RBAC decides every connection and request as the precedence rules do, for
     arbitrary namespace and service names and ANY mix of sources, destinations and precedences
     (no hypothesis on the precedence order since 214d73a).  inverted_headers_present is exact per
     request and backed by the open finding above; partitions_literal / hosts_authentic are backed
     by the open finding "trust domain and partition spliced unquoted". *)
  Theorem C14_equiv_partial : forall cfg ixns dflt http conn req,
    well_formed cfg ixns -> partitions_literal cfg ixns -> hosts_authentic cfg ixns conn ->
    inverted_headers_present ixns req ->
    eval_rbac re (translate cfg ixns dflt http) conn req
    = intention_allows re cfg ixns dflt http conn req.
  Proof.
    intros cfg ixns dflt http conn req Hwf Hlit Hhost Hinv.
    apply (equiv_gen re re_methods cfg ixns dflt http conn req Hwf Hlit Hhost Hinv true). discriminate.
  Qed.

  (* convertPermission: the Envoy permission matches exactly the requests the intention permission
     matches, provided the request carries the headers inverted value matchers ask about
     (false without that: C14_inverted_header_refuted) *)
  Theorem C14_permission_exact : forall req p,
    methods_ok p -> inv_ok p req -> eval_perm re req (convert_permission p) = ixn_perm_matches re p req.
  Proof. exact (convert_permission_sem re re_methods). Qed.
End C14.

(* (finding 9, repaired in /repo 214d73a) `* -> web` deny (precedence 8) above `api -> *` allow
   (precedence 6): the translator before the repair allowed `api` under default deny (and, with the
   actions swapped, denied it under default allow); the translator of /repo HEAD agrees with precedence. *)
Example C14_superset_regression : forall re,
  well_formed w_cfg w_superset /\ partitions_literal w_cfg w_superset /\ hosts_authentic w_cfg w_superset (w_conn "api")
  /\ eval_rbac re (translate_before_214d73a w_cfg w_superset false false) (w_conn "api") w_req = true
  /\ intention_allows re w_cfg w_superset false false (w_conn "api") w_req = false
  /\ eval_rbac re (translate w_cfg w_superset false false) (w_conn "api") w_req = false
  /\ eval_rbac re (translate_before_214d73a w_cfg w_superset' true false) (w_conn "api") w_req = false
  /\ intention_allows re w_cfg w_superset' true false (w_conn "api") w_req = true
  /\ eval_rbac re (translate w_cfg w_superset' true false) (w_conn "api") w_req = true.
Proof.
  intros re. destruct (local_hyps w_superset w_superset_local) as (H1 & H2 & H3).
  exact (conj H1 (conj H2 (conj (H3 "api"%string) (superset_values re)))).
Qed.

(* (finding 8, repaired in /repo d976793) `web.v1 -> db` allow, default deny: `webxv1` is denied by
   both sides and `web.v1` allowed by both. *)
Example C14_regex_regression : forall re,
  well_formed w_cfg w_regex /\ partitions_literal w_cfg w_regex
  /\ hosts_authentic w_cfg w_regex (w_conn "webxv1") /\ inverted_headers_present w_regex w_req
  /\ eval_rbac re (translate w_cfg w_regex false false) (w_conn "webxv1") w_req = false
  /\ intention_allows re w_cfg w_regex false false (w_conn "webxv1") w_req = false
  /\ eval_rbac re (translate w_cfg w_regex false false) (w_conn "web.v1") w_req = true
  /\ intention_allows re w_cfg w_regex false false (w_conn "web.v1") w_req = true.
Proof.
  intros re. destruct (local_hyps w_regex w_regex_local) as (H1 & H2 & H3).
  exact (conj H1 (conj H2 (conj (H3 "webxv1"%string) (conj (w_regex_inv w_req) (regex_regression re))))).
Qed.

(* the reference is "first match in consul's precedence order" *)
Theorem C14_reference_is_first_sorted_match : forall P ixns,
  find P (sort_ixns ixns) = best P ixns None.
Proof. exact find_sorted_is_best. Qed.

(* makeSpiffePattern: the pattern matches exactly the URIs of the identities the source covers, whatever
   characters namespace and service name contain *)
Theorem C14_pattern_exact : forall s u,
  wf_src s -> lit_src s -> raw_match (s_td s) (u_host u) = (s_td s =? u_host u)%string ->
  pat_match (spiffe_pat s) u = covers_uri s u.
Proof. exact spiffe_pat_covers. Qed.

(* regexp.QuoteMeta as used there: the quoted text, read as a regex, matches exactly the original text *)
Theorem C14_quote_meta_exact : forall s w, raw_match (quote_meta s) w = (s =? w)%string.
Proof. exact raw_match_quote_meta. Qed.

(* ixnSourceMatches is sound (what removeSourcePrecedence, simplifyNotSourceSlice and
   removeShadowedSourceIntentions rely on) *)
Theorem C14_source_match_sound : forall cfg conn xf a b,
  consistent a b -> ixn_source_matches a b = true ->
  src_matches cfg xf a conn = true -> src_matches cfg xf b conn = true.
Proof. exact src_matches_subset. Qed.

(* Non-vacuity *)
Theorem C14_regex_hypothesis_satisfiable : re_alternation re_inst.
Proof. exact re_inst_alternation. Qed.

Example C14_hypotheses_satisfiable :
  well_formed ex_cfg ex_ixns /\ partitions_literal ex_cfg ex_ixns
  /\ hosts_authentic ex_cfg ex_ixns ex_conn /\ forall req, inverted_headers_present ex_ixns req.
Proof.
  destruct example_hyps as (H1 & H2 & H3). exact (conj H1 (conj H2 (conj H3 ex_ixns_inv))).
Qed.

Example C14_instance : forall req,
  eval_rbac re_inst (translate ex_cfg ex_ixns false true) ex_conn req
  = intention_allows re_inst ex_cfg ex_ixns false true ex_conn req.
Proof.
  intros req. destruct example_hyps as (H1 & H2 & H3).
  exact (C14_equiv_partial re_inst re_inst_alternation ex_cfg ex_ixns false true ex_conn req H1 H2 H3 (ex_ixns_inv req)).
Qed.

(* a list OUTSIDE the old source_monotone hypothesis (the superset witness), every default and request *)
Example C14_instance_mixed_precedence : forall dflt req,
  eval_rbac re_inst (translate w_cfg w_superset dflt false) (w_conn "api") req
  = intention_allows re_inst w_cfg w_superset dflt false (w_conn "api") req.
Proof.
  intros dflt req. destruct (local_hyps w_superset w_superset_local) as (H1 & H2 & H3).
  exact (C14_equiv_partial re_inst re_inst_alternation w_cfg w_superset dflt false (w_conn "api") req
               H1 H2 (H3 "api"%string) (w_superset_inv req)).
Qed.

Example C14_source_match_pair :
  let a := RSvc "default" "default" "web" "" "" "test.consul" in
  let b := RSvc "default" "default" "*" "" "" "test.consul" in
  consistent a b /\ ixn_source_matches a b = true /\ src_matches w_cfg false a (w_conn "web") = true.
Proof. cbn. repeat split; reflexivity. Qed.

Print Assumptions C14_inverted_header_refuted.
Print Assumptions C14_equiv_false.
Print Assumptions C14_equiv_partial.
Print Assumptions C14_permission_exact.
Print Assumptions C14_superset_regression.
Print Assumptions C14_regex_regression.
Print Assumptions C14_reference_is_first_sorted_match.
Print Assumptions C14_pattern_exact.
Print Assumptions C14_quote_meta_exact.
Print Assumptions C14_source_match_sound.
Print Assumptions C14_regex_hypothesis_satisfiable.
Print Assumptions C14_hypotheses_satisfiable.
Print Assumptions C14_instance.
Print Assumptions C14_instance_mixed_precedence.
Print Assumptions C14_source_match_pair.
