(* C11 — streaming subscribers materialize exactly the server's state.
   The theorems under [env_ok] are proved from those of Stream/Proofs.v (stated there for any state that
   satisfies the invariant [ginv]; [ginv_of_env] says every state reached under [env_ok] does); the two
   forced-resubscribe theorems and the batch idempotence need no invariant; the Examples evaluate the
   schedules of Stream/Proofs.v.

   The machine ([Stream.Model]) mirrors /repo after the C11 repairs (2bf672d, 949dae4, 9502e45,
   f559b0f amended by 716731d): a store, the queue of committed-but-unpublished batches tagged with the publisher's
   generation (publishCh), per topic/subject buffers with object identity, the snapshot cache, and
   clients = materializer + subscription (with its snapshotIndex).  [run cache ls] executes a schedule
   of Commit / Publish(one batch) / Subscribe / Next / Unsub / Restore / Evict labels from the initial
   state; the theorems under [env_ok] quantify over ALL schedules — however commits, publication, subscription start
   (fresh, resumed, cached snapshot), consumption, restores and cache evictions interleave.

   The only hypothesis left is [env_ok] (Model.step_ok at every step): Raft indexes grow strictly; the
   index a query reports is not smaller than the index of any commit that touched its subject and not
   larger than the last raft index; a restored store has one row per key.  Its query-index clause is
   broken by the real state store in one class (known finding query-index-behind-content, belongs with
   C06); it is shown necessary below. *)
From Verif Require Import Base.Prelude Stream.Model Stream.Amap Stream.Lookup Stream.Proofs.
Local Open Scope N_scope.

(* ---- after each delivery the view is the store's content for the subject at the delivered index.
   Stated for every reachable state (hence after each delivery): a client that has applied something
   (index <> 0) from the current store incarnation holds exactly the rows the direct query had at its index. *)
Definition C11_view_is_some_committed_state_statement (hyp : bool -> list label -> Prop) : Prop :=
  forall cache ls k x,
    hyp cache ls ->
    client_of (run cache ls) k = Some x -> c_idx x <> 0 -> c_epoch x = st_epoch (run cache ls) ->
    forall key, aget key (c_view x) = content_at (run cache ls) (c_ts x) (c_idx x) key.

Theorem C11_view_is_some_committed_state_partial : C11_view_is_some_committed_state_statement env_ok.
Proof. intros cache ls k x He. apply view_exact, ginv_of_env, He. Qed.

(* without the query-index clause it is false: the query reports index 10 for a result that contains
   commit 11; the snapshot {A, B} is applied at "index 10", where the store had only A *)
Theorem C11_view_is_some_committed_state_refuted :
  ~ C11_view_is_some_committed_state_statement (fun cache ls => all_from raft_ok (init cache) ls = true).
Proof.
  intros H. destruct index_behind_witness as (x & He & Hx & Hi & Hep & Hv & Hc).
  specialize (H true index_behind_sched 0 x He Hx). rewrite Hi in H. specialize (H ltac:(discriminate) Hep kB).
  rewrite Hi in Hc. congruence.
Qed.

(* the direct query's current result is the content at the last raft index.  NOTE: in the model the store
   IS the fold of the committed events, so this restates the model's definition of a commit; that the real
   store agrees with the fold of the real events is checked per commit by the correspondence run
   (Run.C11.check_q) and by the oracle (events-do-not-match-state-change), not proved *)
Theorem C11_query_is_log : forall cache ls T key,
  env_ok cache ls ->
  content_now (run cache ls) T key = content_at (run cache ls) T (st_hi (run cache ls)) key.
Proof. intros cache ls T key He. apply query_is_log, ginv_of_env, He. Qed.

(* ---- eventual: nothing left to deliver -> the view is the current query result *)
Theorem C11_eventual : forall cache ls k x,
  env_ok cache ls ->
  client_of (run cache ls) k = Some x -> is_open x = true -> streaming x = true ->
  pending (run cache ls) x = [] ->
  forall key, aget key (c_view x) = content_now (run cache ls) (c_ts x) key.
Proof. intros cache ls k x He. apply eventual, ginv_of_env, He. Qed.

(* ---- no skip: what Next will still hand to a streaming client is, in order and once each, the commits
   that touched its subject after its index — preceded, at most, by the one batch at the client's own
   index: the batch at the snapshot's index, which Next delivers once more after the snapshot (716731d).
   Everything up to the client's index is in the view (C11_view_is_some_committed_state_partial), and
   that theorem holds in every state, so the repeated batch leaves the view exact. *)
Theorem C11_no_skip : forall cache ls k x,
  env_ok cache ls ->
  client_of (run cache ls) k = Some x -> is_open x = true -> streaming x = true ->
  exists dup, dup_batch (run cache ls) x dup /\
              pending (run cache ls) x = dup ++ proj (c_ts x) (log_after (c_idx x) (st_log (run cache ls))).
Proof. intros cache ls k x He. apply no_skip, ginv_of_env, He. Qed.

(* applying the events of a batch (Register/Upsert and Deregister/Delete of rows) a second time changes
   no row: why the repeated batch is harmless *)
Theorem C11_batch_idempotent : forall evs m key,
  aget key (apply evs (apply evs m)) = aget key (apply evs m).
Proof. intros evs m. exact (apply_replay [] evs m). Qed.

(* ---- [pending] is what Next hands out: with everything published, Next blocks iff nothing is pending,
   and otherwise returns the head of [pending] and leaves the rest pending (the state after the step is
   again a run, so this iterates: the successive Next calls return exactly [pending], in order, then
   block).  Ties C11_no_skip / C11_eventual to the step function. *)
Theorem C11_next_returns_pending : forall cache ls k x,
  env_ok cache ls -> client_of (run cache ls) k = Some x -> is_open x = true -> streaming x = true ->
  live_queue (run cache ls) = [] ->
  match pending (run cache ls) x with
  | [] => step (run cache ls) (LNext k) = (run cache ls, OBlock)
  | it :: rest =>
      snd (step (run cache ls) (LNext k)) = ODeliver it /\
      exists x', client_of (run cache (ls ++ [LNext k])) k = Some x' /\ is_open x' = true /\
                 streaming x' = true /\ pending (run cache (ls ++ [LNext k])) x' = rest /\
                 live_queue (run cache (ls ++ [LNext k])) = []
  end.
Proof. intros cache ls k x He. rewrite run_snoc. apply next_is_pending_head, ginv_of_env, He. Qed.

(* ---- delivered indexes never decrease (NewSnapshotToFollow resets the view and is not an update);
   they are not strictly increasing: the batch at the snapshot's index repeats that index once *)
Theorem C11_monotone : forall cache ls k x st' it x',
  env_ok cache ls ->
  client_of (run cache ls) k = Some x ->
  step (run cache ls) (LNext k) = (st', ODeliver it) -> it <> INstf ->
  client_of st' k = Some x' ->
  c_idx x <= c_idx x'.
Proof. exact monotone. Qed.

(* ---- forced resubscription: after Restore (every subscription) and after the publication of a batch of
   the current generation whose closeSubscription event names the subscription's token, Next returns the
   close error — and keeps returning it, whatever else happens, until that client unsubscribes or
   subscribes again.  These hold in EVERY state of the machine (no assumption on the schedule). *)
Theorem C11_forced_resubscribe_restore : forall st rows hi c x sb ls,
  client_of st c = Some x -> c_sub x = Some sb -> none_touch c ls = true ->
  exists s, snd (step (run_from (fst (step st (LRestore rows hi))) ls) (LNext c)) = OClosed s /\ s <> Open.
Proof.
  intros st rows hi c x sb ls Hx Hs Hn. apply closed_until_resubscribe; [|exact Hn].
  eapply restore_closes; eauto.
Qed.

Theorem C11_forced_resubscribe_acl : forall st b q c x sb ls,
  st_queue st = (st_epoch st, b) :: q -> client_of st c = Some x -> c_sub x = Some sb ->
  In (c_tok x) (b_close b) -> none_touch c ls = true ->
  exists s, snd (step (run_from (fst (step st LPublish)) ls) (LNext c)) = OClosed s /\ s <> Open.
Proof.
  intros st b q c x sb ls Hq Hx Hs Hin Hn. apply closed_until_resubscribe; [|exact Hn].
  eapply acl_publish_closes; eauto.
Qed.

(* ---- "rather than left with a stale view": an open streaming client always has the view of the
   CURRENT store incarnation (this discharges the epoch hypothesis of
   C11_view_is_some_committed_state_partial for such clients) ... *)
Theorem C11_open_stream_is_current : forall cache ls k x,
  env_ok cache ls -> client_of (run cache ls) k = Some x -> is_open x = true -> streaming x = true ->
  c_epoch x = st_epoch (run cache ls) /\ c_idx x <> 0.
Proof. intros cache ls k x He. apply open_stream_epoch, ginv_of_env, He. Qed.

(* ... and a client whose view stems from a replaced incarnation never resumes: when it subscribes again
   the first thing it is handed is NewSnapshotToFollow (reset).  (A subscription carries no index of
   the client's choosing: the model always sends the materializer's own; [q] is the index the
   server's query reports.  Of the hypothesis [env_ok] only the part about [ls] is used.) *)
Theorem C11_stale_client_is_reset : forall cache ls k T tok rpc q x x',
  env_ok cache (ls ++ [LSubscribe k T tok rpc q]) ->
  client_of (run cache ls) k = Some x -> c_idx x <> 0 -> c_epoch x <> st_epoch (run cache ls) ->
  client_of (run cache (ls ++ [LSubscribe k T tok rpc q])) k = Some x' ->
  match c_sub x' with
  | Some sb => exists rest, s_pre sb = INstf :: rest
  | None => True
  end.
Proof.
  intros cache ls k T tok rpc q x x' He. rewrite run_snoc. apply stale_resubscribe, ginv_of_env, (valid_from_app _ _ _ He).
Qed.

(* the hypotheses of the two forced-resubscribe theorems are met by reachable states: a queued batch of
   the current generation naming the client's token (before its publication Next blocks, after it Next
   returns the ACL close); a restore closes, and after resubscribing the client holds the rows of the new
   incarnation with client epoch = store epoch = 1 *)
Example C11_forced_resubscribe_acl_satisfiable :
  exists b q x sb,
    env_ok true acl_sched /\
    st_queue (run true acl_sched) = (st_epoch (run true acl_sched), b) :: q /\
    client_of (run true acl_sched) 0 = Some x /\ c_sub x = Some sb /\ In (c_tok x) (b_close b) /\
    snd (step (run true acl_sched) (LNext 0)) = OBlock /\
    snd (step (fst (step (run true acl_sched) LPublish)) (LNext 0)) = OClosed AclClosed.
Proof.
  eexists _, _, _, _. do 4 (split; [vm_compute; reflexivity|]).
  split; [vm_compute; left; reflexivity|]. split; vm_compute; reflexivity.
Qed.

Example C11_forced_resubscribe_restore_satisfiable :
  exists x sb x',
    client_of (run true clean_sched) 0 = Some x /\ c_sub x = Some sb /\
    snd (step (fst (step (run true clean_sched) (LRestore [(kA, 7)] 12))) (LNext 0)) = OClosed ForceClosed /\
    client_of (run true (clean_sched ++ [LRestore [(kA, 7)] 12; LNext 0; LSubscribe 0 T_web 0 true 12;
                                         LNext 0; LNext 0])) 0 = Some x' /\
    c_view x' = [(kA, 7)] /\ c_epoch x' = 1 /\
    st_epoch (run true (clean_sched ++ [LRestore [(kA, 7)] 12; LNext 0; LSubscribe 0 T_web 0 true 12;
                                        LNext 0; LNext 0])) = 1.
Proof. eexists _, _, _. do 6 (split; [vm_compute; reflexivity|]). vm_compute; reflexivity. Qed.

(* ---- the schedules of the repaired findings, on the repaired machine: the client ends with exactly the
   current rows, nothing pending, Next blocks *)

(* subscribe in the commit/publish gap (/repo f559b0f, 716731d): snapshot@11 = {A:2, B:3}; the queued batch 10 is
   skipped by Next, batch 11 is delivered once more at index 11: the index never goes back to 10 *)
Example C11_gap_schedule_repaired : settled true gap_sched [(kA, 2); (kB, 3)] 11.
Proof. exact gap_witness. Qed.

(* the re-delivery itself: before it the client is at index 11 with {A:2, B:3}; Next hands it the batch of
   index 11; afterwards (previous example) index and view are the same *)
Example C11_gap_schedule_duplicate :
  exists x it st',
    client_of (run true (removelast gap_sched)) 0 = Some x /\ c_idx x = 11 /\ c_view x = [(kA, 2); (kB, 3)] /\
    step (run true (removelast gap_sched)) (LNext 0) = (st', ODeliver it) /\ item_idx it = 11.
Proof. eexists _, _, _. do 4 (split; [vm_compute; reflexivity|]). vm_compute; reflexivity. Qed.

(* the floor index: a subscription on an empty subject gets snapshot index 1; a write at index 1 (outside
   env_ok: Raft never gives user data index 1, upstream tests do) is delivered, not skipped *)
Example C11_floor_index_delivered :
  exists x, client_of (run true floor_sched) 0 = Some x /\ c_view x = [(kA, 1)] /\ c_idx x = 1 /\
            snd (step (run true floor_sched) (LNext 0)) = OBlock.
Proof. eexists. do 3 (split; [vm_compute; reflexivity|]). vm_compute; reflexivity. Qed.

(* a second subscriber holds its subscription across the restore: the topic buffer is dropped with it *)
Example C11_restore_topic_buffer_repaired : settled true restore_buffer_sched [(kA, 1)] 10.
Proof. eexists. do 8 (split; [vm_compute; reflexivity|]). vm_compute; reflexivity. Qed.

(* a batch of the replaced store still queued at the restore is dropped when its turn comes *)
Example C11_restore_publish_queue_repaired : settled true restore_queue_sched [(kA, 1)] 10.
Proof. eexists. do 8 (split; [vm_compute; reflexivity|]). vm_compute; reflexivity. Qed.

(* ---- non-vacuity: a schedule meeting the hypothesis, with a snapshot, two events (one a
   deregistration together with an ACL close for another token) *)
Example C11_hypotheses_satisfiable : settled true clean_sched [(kB, 2)] 12.
Proof. eexists. do 8 (split; [vm_compute; reflexivity|]). vm_compute; reflexivity. Qed.

Print Assumptions C11_view_is_some_committed_state_partial.
Print Assumptions C11_view_is_some_committed_state_refuted.
Print Assumptions C11_query_is_log.
Print Assumptions C11_eventual.
Print Assumptions C11_no_skip.
Print Assumptions C11_batch_idempotent.
Print Assumptions C11_monotone.
Print Assumptions C11_next_returns_pending.
Print Assumptions C11_open_stream_is_current.
Print Assumptions C11_stale_client_is_reset.
Print Assumptions C11_forced_resubscribe_acl_satisfiable.
Print Assumptions C11_forced_resubscribe_restore_satisfiable.
Print Assumptions C11_forced_resubscribe_restore.
Print Assumptions C11_forced_resubscribe_acl.
Print Assumptions C11_gap_schedule_repaired.
Print Assumptions C11_gap_schedule_duplicate.
Print Assumptions C11_floor_index_delivered.
Print Assumptions C11_restore_topic_buffer_repaired.
Print Assumptions C11_restore_publish_queue_repaired.
Print Assumptions C11_hypotheses_satisfiable.
