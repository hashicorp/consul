(* C16 — anti-entropy makes the catalog converge to the agent's local state.
   The property theorems, proved from the lemmas of coq/AE.

   Reading guide.  [g] is the agent's configuration (tokens, node info).  [st : lstate] is
   local.State's bookkeeping (per entry: definition, token, InSync, Deleted), [c : cat] the node's
   rows in the catalog.  [fs : list outcome] is the RPC fault oracle: one outcome consumed per RPC
   (OOk / OFail / ODenied / ONotFound; an exhausted list answers OOk).  [os]/[oc] are the orders
   in which Go's map iteration visits the services / checks.  All theorems quantify over ALL
   [fs], [os], [oc] (and all states satisfying the stated hypotheses); [wf_local] and [wf_cat]
   hold of every state an agent-style history reaches (C16_hypotheses_reachable).

   holds_svc c id d  : the catalog's service row [id] is exactly [d]
   holds_chk c id d  : the catalog's check row [id] equals [d] up to ServiceName/ServiceTags (which the
                       catalog copies from its own service row), an empty Status (defaulted to critical)
                       and the four fields HealthCheck.IsSame never compares (Type, Interval, Timeout,
                       ExposedPort: C16_ignored_fields_refuted shows they do NOT converge)
   holds_ce c id e d : [holds_chk], except that the Output is ignored while the deferred-output timer of
                       the entry [e] is pending (CheckUpdateInterval > 0; C16_deferred_output_refuted)
   refused_svc/chk   : the log contains an ACL refusal of the entry's registration *)
From Verif Require Import Base.Prelude AE.Model AE.Basics AE.Steps AE.Inv AE.Proofs AE.Conv AE.Hist AE.More AE.Witness.
From stdpp Require Import gmap.

(* ---------------------------------------------------------------- convergence *)

(* All RPCs succeed ([fs = []]), nothing changes concurrently (sync_full runs alone): the catalog's
   services and checks for the node become exactly the local registrations, modulo server-owned
   fields ([converged]: see AE/Conv.v; cv_svc_kept says what "modulo" means, [svc_own]).
   [bind_ok]: a locally removed check that the catalog still holds is bound there to the same
   service.  Without it the statement is false (next theorem). *)
Theorem C16_converges : forall g os oc st c st' c' fs' log err,
  wf_local st -> wf_cat c -> bind_ok st c ->
  covers (l_svcs st) os -> covers (c_svcs c) os -> covers (l_chks st) oc -> covers (c_chks c) oc ->
  sync_full g os oc st c [] = (st', c', fs', log, err) ->
  err = false /\ converged g st c st' c'.
Proof. exact converges. Qed.

(* C16_converges without [bind_ok] is refuted: a check that the catalog holds under another
   service survives the deregistration of "its" service, and the local mark is pruned. *)
Theorem C16_converges_rebound_refuted :
  exists g os oc st c st' c' fs' log err,
    wf_local st /\ wf_cat c /\
    covers (l_svcs st) os /\ covers (c_svcs c) os /\ covers (l_chks st) oc /\ covers (c_chks c) oc /\
    sync_full g os oc st c [] = (st', c', fs', log, err) /\ ~ converged g st c st' c'.
Proof.
  pose proof rebound_eval as E. cbv zeta in E. destruct E as (Cv & _ & N' & Lc).
  set (r := sync_full g0 all_s all_c (fst (state_of h_rebound [])) (snd (state_of h_rebound [])) []) in *.
  exists g0, all_s, all_c, (fst (state_of h_rebound [])), (snd (state_of h_rebound [])),
         (st_of r), (cat_of r), (fs_of r), (log_of r), (err_of r).
  destruct (reached_wf g0 h_rebound [] eq_refl) as [W Wc]. destruct (coveredb_ok _ Cv) as (C1 & C2 & C3 & C4).
  do 6 (split; [assumption|]). split; [apply acc_eta|]. intros Cvd.
  assert (X : c_chks (cat_of r) !! 1%N = None) by (apply (cv_cat_nochk _ _ _ _ _ Cvd); [exact N'|discriminate]).
  congruence.
Qed.

(* ... but two fault-free full syncs always converge. *)
Theorem C16_converges_second : forall g os oc os2 oc2 st c st1 c1 fs1 log1 err1 st2 c2 fs2 log2 err2,
  wf_local st -> wf_cat c ->
  covers (l_svcs st) os -> covers (c_svcs c) os -> covers (l_chks st) oc -> covers (c_chks c) oc ->
  sync_full g os oc st c [] = (st1, c1, fs1, log1, err1) ->
  covers (l_svcs st1) os2 -> covers (c_svcs c1) os2 -> covers (l_chks st1) oc2 -> covers (c_chks c1) oc2 ->
  sync_full g os2 oc2 st1 c1 [] = (st2, c2, fs2, log2, err2) ->
  err1 = false /\ err2 = false /\ converged g st1 c1 st2 c2.
Proof.
  intros g os oc os2 oc2 st c st1 c1 fs1 log1 err1 st2 c2 fs2 log2 err2.
  intros W Wc C1 C2 C3 C4 E1 D1 D2 D3 D4 E2.
  destruct (sync_full_ok W Wc C1 C2 C3 C4 E1) as (-> & W1 & Wc1 & _ & Lc & _).
  assert (B1 : bind_ok st1 c1).
  { intros id e d r L D _ _. destruct (Lc id e L) as [D' _]. congruence. }
  destruct (converges _ _ _ _ _ _ _ _ _ _ W1 Wc1 B1 D1 D2 D3 D4 E2) as [-> H]. auto.
Qed.

(* End to end: ANY agent-style history under ANY faults, then two fault-free full syncs: converged. *)
Theorem C16_history_then_two_syncs : forall g ss fs st c fs0 os oc os2 oc2 st1 c1 fs1 log1 err1 st2 c2 fs2 log2 err2,
  agent_hist g ss lstate0 cat0 fs -> run_hist g ss lstate0 cat0 fs = (st, c, fs0) ->
  covers (l_svcs st) os -> covers (c_svcs c) os -> covers (l_chks st) oc -> covers (c_chks c) oc ->
  sync_full g os oc st c [] = (st1, c1, fs1, log1, err1) ->
  covers (l_svcs st1) os2 -> covers (c_svcs c1) os2 -> covers (l_chks st1) oc2 -> covers (c_chks c1) oc2 ->
  sync_full g os2 oc2 st1 c1 [] = (st2, c2, fs2, log2, err2) ->
  err1 = false /\ err2 = false /\ converged g st1 c1 st2 c2.
Proof.
  intros * A R. destruct (wf_reachable A R) as [W Wc]. intros. eapply C16_converges_second; eauto.
Qed.

(* ---------------------------------------------------------------- no false in-sync mark *)

(* Partial sync (SyncChanges), every fault list, every order: an entry that is live and marked
   in sync afterwards is held by the catalog, or its registration was refused by ACLs during this
   sync, or it is the very same entry as before (the sync did not mark it). *)
Theorem C16_no_false_insync : forall g os oc st c fs st' c' fs' log err,
  wf_local st -> sync_changes g os oc st c fs = (st', c', fs', log, err) ->
  (forall id e d, l_svcs st' !! id = Some e -> se_sync e = true -> se_del e = false -> se_def e = Some d ->
     holds_svc c' id d \/ refused_svc log id \/ l_svcs st !! id = Some e) /\
  (forall id e d, l_chks st' !! id = Some e -> ce_sync e = true -> ce_del e = false -> ce_def e = Some d ->
     holds_ce c' id e d \/ refused_chk log id \/ l_chks st !! id = Some e).
Proof.
  intros g os oc st c fs st' c' fs' log err.
  intros W E. split; [exact (proj1 (svc_any_changes E))|].
  destruct (sync_changes_INV W E) as (_ & Ic & _).
  intros id e d L S D F. destruct (ic_held (Ic id) e d L S D F) as [?|[?|[? _]]]; auto.
Qed.

(* Full sync (SyncFull), every fault list, every order: either the reads failed and nothing
   changed, or EVERY live entry marked in sync is held by the catalog or was refused by ACLs. *)
Theorem C16_no_false_insync_full : forall g os oc st c fs st' c' fs' log err,
  wf_local st -> c_svcs c !! 0%N = None ->
  sync_full g os oc st c fs = (st', c', fs', log, err) ->
  (st' = st /\ c' = c /\ err = true) \/
  ((forall id e d, l_svcs st' !! id = Some e -> se_sync e = true -> se_del e = false -> se_def e = Some d ->
      holds_svc c' id d \/ refused_svc log id) /\
   (forall id e d, l_chks st' !! id = Some e -> ce_sync e = true -> ce_del e = false -> ce_def e = Some d ->
      holds_ce c' id e d \/ refused_chk log id)).
Proof. exact @no_false_insync_full. Qed.

(* From a state where every in-sync entry is held, a partial sync under any faults leaves every
   live in-sync entry held or refused (no "it was like that before" disjunct). *)
Theorem C16_honest_partial_sync : forall g os oc st c fs st' c' fs' log err,
  wf_local st -> honest st c -> sync_changes g os oc st c fs = (st', c', fs', log, err) ->
  (forall id e d, l_svcs st' !! id = Some e -> se_sync e = true -> se_del e = false -> se_def e = Some d ->
     holds_svc c' id d \/ refused_svc log id) /\
  (forall id e d, l_chks st' !! id = Some e -> ce_sync e = true -> ce_del e = false -> ce_def e = Some d ->
     holds_ce c' id e d \/ refused_chk log id).
Proof.
  intros * W [Hs Hc] E. destruct (sync_changes_INV W E) as (Is & Ic & _). split.
  - intros id e d L S D F. destruct (is_held (Is id) e d L S D F) as [?|[?|[L0 N]]]; auto.
    exfalso. apply N. eauto.
  - intros id e d L S D F. destruct (ic_held (Ic id) e d L S D F) as [?|[?|[L0 N]]]; auto.
    exfalso. apply N. eauto.
Qed.

(* For SERVICES both claims (no false in-sync mark, deletions remembered) hold of ANY local state
   and any catalog (no hypothesis; on states with a live entry without definition, which no history
   reaches, the model skips the entry where Go would dereference nil) — every fault list, every order. *)
Theorem C16_services_any_state : forall g os oc st c fs st' c' fs' log err,
  sync_changes g os oc st c fs = (st', c', fs', log, err) ->
  (forall id e d, l_svcs st' !! id = Some e -> se_sync e = true -> se_del e = false -> se_def e = Some d ->
     holds_svc c' id d \/ refused_svc log id \/ l_svcs st !! id = Some e) /\
  (forall id e, l_svcs st !! id = Some e -> se_del e = true ->
     (exists e', l_svcs st' !! id = Some e' /\ se_del e' = true) \/ c_svcs c' !! id = None).
Proof. exact @svc_any_changes. Qed.

Theorem C16_services_any_state_full : forall g os oc st c fs st' c' fs' log err,
  sync_full g os oc st c fs = (st', c', fs', log, err) ->
  (st' = st /\ c' = c /\ err = true) \/
  ((forall id e d, l_svcs st' !! id = Some e -> se_sync e = true -> se_del e = false -> se_def e = Some d ->
      holds_svc c' id d \/ refused_svc log id) /\
   (forall id e, l_svcs st !! id = Some e -> se_del e = true ->
      (exists e', l_svcs st' !! id = Some e' /\ se_del e' = true) \/ c_svcs c' !! id = None)).
Proof.
  intros g os oc st c fs st' c' fs' log err.
  intros E. apply sync_full_cases in E as [(-> & -> & ->)|(fs1 & la & lb & E & ->)]; [auto|]. right.
  split; [eapply insync_after_diff_svc; exact E|].
  intros id e L D. destruct (uss_svcs_old g st c id e L) as (e1 & L1 & Dl & _).
  apply (proj2 (svc_any_changes E) id e1 L1). congruence.
Qed.

(* The local mutators: the six State primitives that change an entry (add/remove service, add/remove
   check, UpdateCheck, the deferred-output timer); the agent-level operations are compositions of these,
   and no theorem here carries [honest] through a whole history.  None of them marks in sync
   an entry the catalog does not hold.  [honest st c]: every live entry marked in sync is held.
   (Before 9a2a9bf this was false of add_service / add_check: re-adding an identical definition
   over a never-pushed entry marked it in sync; the model mirrors the repaired code.) *)
Theorem C16_local_add_service : forall id d tok loc st st' r c,
  add_service id d tok loc st = (st', r) -> honest st c -> honest st' c.
Proof.
  intros id d tok loc st st' r c.
  intros A [Hs Hc]. split.
  - intros k e' dk L' S D F.
    destruct (add_service_flag A L' S) as [L|(-> & F' & _ & old & Lo & Fo & So & Do)]; [eauto|].
    assert (dk = d) by congruence. subst dk. eauto.
  - rewrite (add_service_chks A). exact Hc.
Qed.

Theorem C16_local_add_check : forall id d tok loc st st' r c,
  add_check id d tok loc st = (st', r) -> honest st c -> honest st' c.
Proof.
  intros id d tok loc st st' r c.
  intros A [Hs Hc]. split.
  - rewrite (add_check_svcs A). exact Hs.
  - intros k e' dk L' S D F.
    destruct (add_check_flag A L' S) as [L|(-> & F' & _ & Df & old & od & Lo & Fo & Sm & So & Do & Dfo)]; [eauto|].
    assert (dk = d) by congruence. subst dk. unfold holds_ce. rewrite Df.
    destruct (Hc id old od Lo So Do Fo) as (rr & Lr & Er). unfold holds_ce in *. rewrite Dfo in Er.
    exists rr. split; [exact Lr|]. rewrite Er. apply chk_isame_core. exact Sm.
Qed.

Theorem C16_local_remove_service : forall id st st' r c,
  remove_service id st = (st', r) -> honest st c -> honest st' c.
Proof.
  intros id st st' r c.
  unfold remove_service. intros A H.
  destruct (l_svcs st !! id) as [e|]; [destruct (se_del e)|]; injection A as <- _; try exact H.
  apply honest_insert_svc; [exact H|discriminate].
Qed.

Theorem C16_local_remove_check : forall id st st' r c,
  remove_check id st = (st', r) -> honest st c -> honest st' c.
Proof.
  intros id st st' r c.
  unfold remove_check. intros A H.
  destruct (l_chks st !! id) as [e|]; [destruct (ce_del e)|]; injection A as <- _; try exact H.
  apply honest_insert_chk; [exact H|discriminate].
Qed.

Theorem C16_local_update_check : forall interval id status out st c,
  honest st c -> honest (update_check interval id status out st) c.
Proof.
  intros interval id status out st c.
  unfold update_check. intros H.
  destruct (l_chks st !! id) as [e|] eqn:L; [|exact H].
  destruct (ce_del e) eqn:D; [exact H|]. destruct (ce_def e) as [d|] eqn:F; [|exact H].
  destruct (N.eqb (ck_status d) status && N.eqb (ck_out d) out); [exact H|].
  destruct (interval && N.eqb (ck_status d) status) eqn:B; (apply honest_insert_chk; [exact H|]); [|discriminate].
  (* deferred: only the Output changes, the flag stays, a timer is pending *)
  cbn. intros S _ d' [= <-]. apply andb_true_iff in B as [_ B]. apply N.eqb_eq in B.
  destruct (holds_chk_upto_mono _ true _ _ _ (fun _ => eq_refl) (proj2 H id e d L S D F)) as (r & Lr & Er).
  exists r. split; [exact Lr|]. cbn. rewrite Er. unfold chk_core_upto. cbn. rewrite B. reflexivity.
Qed.

Theorem C16_local_timer_fires : forall id st c, honest st c -> honest (timer_fires id st) c.
Proof.
  intros id st c.
  unfold timer_fires. intros H.
  destruct (l_chks st !! id) as [e|]; [|exact H]. destruct (ce_defer e); [|exact H].
  apply honest_insert_chk; [exact H|]. cbn. intros S D. rewrite D in S. discriminate.
Qed.

(* Regression examples (current behaviour) for the two defects repaired in 9a2a9bf: on the state
   where "web" was registered and its push failed, registering it again leaves it out of sync; a
   local add over the placeholder of a foreign catalog entry (definition nil) is an ordinary
   registration (it used to be a nil dereference). *)
Example C16_readd_stays_unsynced :
  let st := fst (state_of h_readd [OFail]) in
  let c := snd (state_of h_readd [OFail]) in
  honest st c /\
  (exists e, l_svcs (fst (add_service 1 web 0 false st)) !! 1%N = Some e /\ se_sync e = false /\ se_del e = false) /\
  c_svcs c !! 1%N = None.
Proof.
  pose proof readd_eval as E. cbv zeta in E |- *. destruct E as (H & L & C).
  split; [apply honestb_ok; exact H|]. split; [|exact C]. eexists. split; [exact L|]. split; reflexivity.
Qed.

Theorem C16_add_over_placeholder : forall id d tok loc st e,
  l_svcs st !! id = Some e -> se_def e = None ->
  add_service id d tok loc st =
  (LS (l_node st) (<[id := SE (Some d) tok false false loc]> (l_svcs st)) (l_chks st), ROk).
Proof.
  intros id d tok loc st e.
  intros L F. unfold add_service, same_svc. rewrite L, F. rewrite !andb_false_r. reflexivity.
Qed.

Example C16_placeholder_add_ok :
  let st := fst (state_of h_placeholder []) in
  (exists e, l_svcs st !! 1%N = Some e /\ se_def e = None /\ se_del e = true) /\
  snd (add_service 1 web 0 false st) = ROk /\
  (exists e, l_svcs (fst (add_service 1 web 0 false st)) !! 1%N = Some e /\ se_sync e = false /\ se_del e = false).
Proof.
  pose proof placeholder_eval as E. cbv zeta in E |- *. destruct E as (L & R & L').
  split; [eexists; split; [exact L|split; reflexivity]|]. split; [exact R|].
  eexists. split; [exact L'|]. split; reflexivity.
Qed.

(* ---------------------------------------------------------------- retry *)

(* After the diff (updateSyncState), a live entry that the catalog does not hold is out of sync,
   whatever its flag said before — in particular "in sync" after an ACL refusal. *)
Theorem C16_retry_marked : forall g st c,
  (forall id e d, l_svcs (uss_apply g st c) !! id = Some e -> se_del e = false -> se_def e = Some d ->
     ~ holds_svc c id d -> se_sync e = false) /\
  (forall id e d, l_chks (uss_apply g st c) !! id = Some e -> ce_del e = false -> ce_def e = Some d ->
     ~ holds_ce c id e d -> ce_sync e = false).
Proof.
  intros g st c.
  split; intros id e d L D F N.
  - destruct (se_sync e) eqn:S; [|reflexivity]. exfalso. apply N. eapply uss_held_svc; eauto.
  - destruct (ce_sync e) eqn:S; [|reflexivity]. exfalso. apply N. eapply uss_held_chk; eauto.
Qed.

(* ... and the full sync pushes it again (a Register RPC for it appears in the log), unless the
   reads or the node-info registration failed — every fault list, every order. *)
Theorem C16_retry : forall g os oc st c fs st' c' fs' log err,
  sync_full g os oc st c fs = (st', c', fs', log, err) ->
  (st' = st /\ c' = c /\ err = true) \/ node_failed log \/
  ((forall id e d, l_svcs (uss_apply g st c) !! id = Some e -> se_del e = false -> se_def e = Some d ->
      ~ holds_svc c id d -> In id os -> pushed_svc log id) /\
   (forall id e d, l_chks (uss_apply g st c) !! id = Some e -> ce_del e = false -> ce_def e = Some d ->
      ~ holds_ce c id e d -> In id oc -> pushed_chk log id)).
Proof.
  intros g os oc st c fs st' c' fs' log err.
  intros E. apply sync_full_cases in E as [(-> & -> & ->)|(fs1 & la & lb & E & ->)]; [auto|].
  destruct (C16_retry_marked g st c) as [Ms Mc]. right.
  destruct (visited_rpc E) as [NF|[Hs Hc]]; [left; apply logged_app; auto|right].
  split; intros id e d L D F N Hin; apply logged_app; right.
  - apply (Hs id e L Hin); eauto.
  - apply (Hc id e L Hin); eauto.
Qed.

(* A partial sync pushes every visited live entry that is out of sync. *)
Theorem C16_retry_partial_sync : forall g os oc st c fs st' c' fs' log err,
  sync_changes g os oc st c fs = (st', c', fs', log, err) ->
  (forall id e d, l_svcs st !! id = Some e -> se_del e = false -> se_sync e = false -> se_def e = Some d ->
     In id os -> pushed_svc log id \/ node_failed log) /\
  (forall id e d, l_chks st !! id = Some e -> ce_del e = false -> ce_sync e = false -> ce_def e = Some d ->
     In id oc -> pushed_chk log id \/ node_failed log).
Proof.
  intros g os oc st c fs st' c' fs' log err E.
  destruct (visited_rpc E) as [NF|[Hs Hc]]; [split; auto|].
  split; intros id e d L D S F Hin; left; [apply (Hs id e L Hin)|apply (Hc id e L Hin)]; eauto.
Qed.

(* Deregistrations are retried: every visited entry that is marked deleted gets a Deregister RPC in
   a partial sync (a check may instead be dropped together with its service), whatever its InSync
   flag says (deleteService/deleteCheck set it on an ACL refusal) — every fault list, every order. *)
Theorem C16_retry_delete : forall g os oc st c fs st' c' fs' log err,
  sync_changes g os oc st c fs = (st', c', fs', log, err) ->
  (forall id e, l_svcs st !! id = Some e -> se_del e = true -> In id os -> del_svc_rpc log id \/ node_failed log) /\
  (forall id e, l_chks st !! id = Some e -> ce_del e = true -> In id oc ->
     del_chk_rpc log id \/ l_chks st' !! id = None \/ node_failed log).
Proof.
  intros * E. destruct (visited_rpc E) as [NF|[Hs Hc]]; [split; auto|].
  split; intros id e L D Hin.
  - left. exact (proj1 (Hs id e L Hin) D).
  - destruct (proj1 (Hc id e L Hin) D) as [?|?]; auto.
Qed.

(* ---------------------------------------------------------------- deletions are remembered *)

(* Every fault list, every order, partial sync: an entry marked deleted stays marked deleted
   until the catalog no longer holds it.  For services unconditionally; for checks when the catalog
   binds the check to the same service ([bind_ok]) and has no check without its service. *)
Theorem C16_deletes_remembered : forall g os oc st c fs st' c' fs' log err,
  wf_local st -> sync_changes g os oc st c fs = (st', c', fs', log, err) ->
  (forall id e, l_svcs st !! id = Some e -> se_del e = true ->
     (exists e', l_svcs st' !! id = Some e' /\ se_del e' = true) \/ c_svcs c' !! id = None) /\
  (wf_cat c -> bind_ok st c ->
   forall id e, l_chks st !! id = Some e -> ce_del e = true ->
     (exists e', l_chks st' !! id = Some e' /\ ce_del e' = true) \/ c_chks c' !! id = None).
Proof.
  intros g os oc st c fs st' c' fs' log err.
  intros W E. split; [exact (proj2 (svc_any_changes E))|].
  intros Wc B id e L D.
  destruct (sync_changes_INV W E) as (_ & Ic & _).
  destruct (sync_changes_INVK W Wc B E) as (_ & _ & Ik).
  destruct (l_chks st' !! id) as [e'|] eqn:L'.
  - left. exists e'. split; [reflexivity|].
    destruct (ic_back (Ic id) e' L') as (e0 & L0 & S0). apply cle_def in S0 as (_ & Sl). congruence.
  - right. exact (ik_gone (Ik id) e L L').
Qed.

Theorem C16_deletes_remembered_full : forall g os oc st c fs st' c' fs' log err,
  wf_local st -> wf_cat c ->
  sync_full g os oc st c fs = (st', c', fs', log, err) ->
  (forall id e, l_svcs st !! id = Some e -> se_del e = true ->
     (exists e', l_svcs st' !! id = Some e' /\ se_del e' = true) \/ c_svcs c' !! id = None) /\
  (bind_ok st c ->
   forall id e, l_chks st !! id = Some e -> ce_del e = true ->
     (exists e', l_chks st' !! id = Some e' /\ ce_del e' = true) \/ c_chks c' !! id = None).
Proof.
  intros g os oc st c fs st' c' fs' log err.
  intros W Wc E. apply sync_full_cases in E as [(-> & -> & ->)|(fs1 & la & lb & E & ->)].
  - split; [|intros _]; intros id e L D; left; eauto.
  - pose proof (uss_wf_local g st c W (proj2 Wc)) as W1.
    destruct (C16_deletes_remembered _ _ _ _ _ _ _ _ _ _ _ W1 E) as [Hs Hc]. split.
    + intros id e L D. destruct (uss_svcs_old g st c id e L) as (e1 & L1 & Dl & _).
      apply (Hs id e1 L1). congruence.
    + intros B id e L D. destruct (uss_chks_old g st c id e L) as (e1 & L1 & Dl & _).
      apply (Hc Wc (uss_bind_ok g st c B) id e1 L1). congruence.
Qed.

(* Without [bind_ok] the statement for checks is refuted (deleteService prunes by the LOCAL
   binding "service deregister also deletes associated checks"; the catalog cascades by ITS binding). *)
Theorem C16_deletes_remembered_rebound_refuted :
  exists g os oc st c id e,
    wf_local st /\ wf_cat c /\ l_chks st !! id = Some e /\ ce_del e = true /\
    let '(st', c', _, _, _) := sync_full g os oc st c [] in
    l_chks st' !! id = None /\ is_Some (c_chks c' !! id).
Proof.
  pose proof rebound_eval as E. cbv zeta in E. destruct E as (_ & L & N' & Lc).
  exists g0, all_s, all_c, (fst (state_of h_rebound [])), (snd (state_of h_rebound [])), 1%N, (CE (Some chk_web) 0 false true false false).
  destruct (reached_wf g0 h_rebound [] eq_refl) as [W Wc].
  split; [exact W|]. split; [exact Wc|]. split; [exact L|]. split; [reflexivity|].
  revert N' Lc. destruct (sync_full g0 all_s all_c _ _ []) as [[[[st' c'] ?] ?] ?]. cbn. intros N' Lc.
  rewrite Lc. eauto.
Qed.

(* ---------------------------------------------------------------- a sync that returns nil *)

(* SyncFull returned nil (err = false) under ANY fault list — in particular with ACL refusals, which
   do not make it fail: every entry left is marked in sync; a live one is held by the catalog or its
   registration was refused in this sync; one still marked deleted had its deregistration refused. *)
Theorem C16_successful_sync : forall g os oc st c fs st' c' fs' log,
  wf_local st -> c_svcs c !! 0%N = None ->
  covers (l_svcs st) os -> covers (c_svcs c) os -> covers (l_chks st) oc -> covers (c_chks c) oc ->
  sync_full g os oc st c fs = (st', c', fs', log, false) ->
  (forall id e, l_svcs st' !! id = Some e ->
     se_sync e = true /\
     (se_del e = true -> refused_del_svc log id) /\
     (se_del e = false -> forall d, se_def e = Some d -> holds_svc c' id d \/ refused_svc log id)) /\
  (forall id e, l_chks st' !! id = Some e ->
     ce_sync e = true /\
     (ce_del e = true -> refused_del_chk log id) /\
     (ce_del e = false -> forall d, ce_def e = Some d -> holds_ce c' id e d \/ refused_chk log id)).
Proof.
  intros * W C0 Cs Ccs Cc Ccc E.
  destruct (sync_full_settled W C0 Cs Ccs Cc Ccc E) as [Ss Sc].
  destruct (no_false_insync_full W C0 E) as [(_ & _ & X)|[NFs NFc]]; [discriminate|].
  split; intros id e L.
  - destruct (Ss id e L) as [Sy Hd]. split; [exact Sy|]. split; [exact Hd|]. intros D d F. exact (NFs id e d L Sy D F).
  - destruct (Sc id e L) as [Sy Hd]. split; [exact Sy|]. split; [exact Hd|]. intros D d F. exact (NFc id e d L Sy D F).
Qed.

(* ---------------------------------------------------------------- the two exceptions to "equal" *)

(* "The catalog equals the local registrations" read literally (exact Output, exact
   Type/Interval/Timeout/ExposedPort) is refuted twice; [converged] holds in both witnesses. *)

(* (1) CheckUpdateInterval > 0, the agent's default: an Output-only update is deferred (local
   definition changes, InSync stays, a timer starts); the diff of a full sync then blanks the Output
   on both sides: after a fault-free full sync the check is in sync and the catalog's Output is stale. *)
Theorem C16_deferred_output_refuted :
  exists g os oc st c st' c' fs' log err,
    wf_local st /\ wf_cat c /\ bind_ok st c /\
    covers (l_svcs st) os /\ covers (c_svcs c) os /\ covers (l_chks st) oc /\ covers (c_chks c) oc /\
    sync_full g os oc st c [] = (st', c', fs', log, err) /\ err = false /\
    exists id e d, l_chks st' !! id = Some e /\ ce_def e = Some d /\ ce_sync e = true /\ ce_del e = false /\
                   ce_defer e = true /\ ~ holds_chk c' id d.
Proof.
  pose proof defer_eval as E. cbv zeta in E. destruct E as (Cv & B & Er & L & Lc).
  set (r := sync_full g0d all_s all_c (fst (state_of_g g0d h_defer [])) (snd (state_of_g g0d h_defer [])) []) in *.
  exists g0d, all_s, all_c, (fst (state_of_g g0d h_defer [])), (snd (state_of_g g0d h_defer [])),
         (st_of r), (cat_of r), (fs_of r), (log_of r), (err_of r).
  apply (reached_hyps g0d h_defer []); [reflexivity|exact Cv|exact B|].
  split; [apply acc_eta|]. split; [exact Er|].
  eexists 1%N, _, chk_web_out2. split; [exact L|]. do 4 (split; [reflexivity|]).
  intros (x & Lx & Ex). rewrite Lc in Lx. injection Lx as <-. cbv in Ex. discriminate Ex.
Qed.

(* The exception is exactly that: with no timer pending [holds_ce] is [holds_chk], syncs never start
   a timer, and once the timer has fired a partial sync pushes the Output. *)
Theorem C16_no_timer_exact : forall c id e d, ce_defer e = false -> holds_ce c id e d -> holds_chk c id d.
Proof. unfold holds_ce, holds_chk. intros * ->. auto. Qed.

Theorem C16_no_timer_preserved : forall g os oc st c fs st' c' fs' log err,
  no_defer st -> sync_full g os oc st c fs = (st', c', fs', log, err) -> no_defer st'.
Proof.
  intros * ND E. apply sync_full_cases in E as [(-> & _)|(fs1 & la & lb & E & _)]; [exact ND|].
  eapply no_defer_sync_changes; [|exact E].
  intros id e L. destruct (ce_defer e) eqn:Df; [|reflexivity].
  destruct (uss_chks_defer L Df) as (e0 & L0 & D0). rewrite <- (ND id e0 L0). symmetry. exact D0.
Qed.

Example C16_deferred_output_after_timer :
  let st := fst (state_of_g g0d (h_defer ++ [STimer 1; SSyncChanges all_s all_c]) []) in
  let c := snd (state_of_g g0d (h_defer ++ [STimer 1; SSyncChanges all_s all_c]) []) in
  exists e, l_chks st !! 1%N = Some e /\ ce_sync e = true /\ ce_defer e = false /\ holds_chk c 1 chk_web_out2.
Proof.
  pose proof defer_timer_eval as E. cbv zeta in E |- *. destruct E as (L & Lc).
  eexists. split; [exact L|]. split; [reflexivity|]. split; [reflexivity|].
  exists chk_web_out2. split; [exact Lc|reflexivity].
Qed.

(* (2) HealthCheck.IsSame does not compare Type, Interval, Timeout, ExposedPort: a check re-registered
   with only these changed stays in sync and is never pushed (and drift in them is never repaired). *)
Theorem C16_ignored_fields_refuted :
  exists g os oc st c st' c' fs' log err,
    wf_local st /\ wf_cat c /\ bind_ok st c /\
    covers (l_svcs st) os /\ covers (c_svcs c) os /\ covers (l_chks st) oc /\ covers (c_chks c) oc /\
    sync_full g os oc st c [] = (st', c', fs', log, err) /\ err = false /\
    exists id e d r, l_chks st' !! id = Some e /\ ce_def e = Some d /\ ce_sync e = true /\ ce_del e = false /\
                     ce_defer e = false /\ c_chks c' !! id = Some r /\ ck_aux r <> ck_aux d.
Proof.
  pose proof aux_eval as E. cbv zeta in E. destruct E as (Cv & B & Er & L & Lc).
  set (r := sync_full g0 all_s all_c (fst (state_of_g g0 h_aux [])) (snd (state_of_g g0 h_aux [])) []) in *.
  exists g0, all_s, all_c, (fst (state_of_g g0 h_aux [])), (snd (state_of_g g0 h_aux [])),
         (st_of r), (cat_of r), (fs_of r), (log_of r), (err_of r).
  apply (reached_hyps g0 h_aux []); [reflexivity|exact Cv|exact B|].
  split; [apply acc_eta|]. split; [exact Er|].
  eexists 1%N, _, chk_web_aux1, chk_web. split; [exact L|]. do 4 (split; [reflexivity|]).
  split; [exact Lc|]. cbn. discriminate.
Qed.

(* ---------------------------------------------------------------- the hypotheses are not vacuous *)

(* Every state an agent-style history reaches (local changes as the agent performs them, catalog
   drift through the state store, syncs under ANY fault list) satisfies wf_local and wf_cat. *)
Theorem C16_hypotheses_reachable : forall g ss fs st c fs',
  agent_hist g ss lstate0 cat0 fs -> run_hist g ss lstate0 cat0 fs = (st, c, fs') -> wf_local st /\ wf_cat c.
Proof. exact @wf_reachable. Qed.

(* All hypotheses of C16_converges hold of a reachable state with a deleted entry, drift and
   server-owned fields in play. *)
Example C16_converges_hypotheses_met :
  exists os oc st c,
    wf_local st /\ wf_cat c /\ bind_ok st c /\
    covers (l_svcs st) os /\ covers (c_svcs c) os /\ covers (l_chks st) oc /\ covers (c_chks c) oc /\
    (exists e, l_svcs st !! 1%N = Some e /\ se_del e = true) /\ is_Some (c_svcs c !! 1%N) /\ is_Some (c_chks c !! 1%N).
Proof.
  pose proof rich_eval as E. cbv zeta in E. destruct E as (Cv & B & D & S1 & S2).
  exists all_s, all_c, (fst (state_of h_rich [])), (snd (state_of h_rich [])).
  apply (reached_hyps g0 h_rich []); [reflexivity|exact Cv|exact B|].
  apply fmap_Some in D as (e & L & D). symmetry in D. split; [exists e; auto|]. split; apply is_some_true; assumption.
Qed.

(* wf_local / wf_cat also hold of a state reached under faults, in which an entry is marked in
   sync by an ACL refusal without being held (so the refusal disjunct is not vacuous either). *)
Example C16_faulty_state_wf :
  let st := fst (state_of h_rich [OOk; OOk; OOk; OOk; OOk; ODenied; OFail]) in
  let c := snd (state_of h_rich [OOk; OOk; OOk; OOk; OOk; ODenied; OFail]) in
  wf_local st /\ wf_cat c /\ ~ honest st c.
Proof.
  pose proof rich_faulty_eval as E. cbv zeta in E |- *. destruct E as (L & C).
  destruct (reached_wf g0 h_rich [OOk; OOk; OOk; OOk; OOk; ODenied; OFail] eq_refl) as [W Wc].
  split; [exact W|]. split; [exact Wc|].
  intros [Hs _]. specialize (Hs 3%N _ db L eq_refl eq_refl eq_refl). unfold holds_svc in Hs. congruence.
Qed.

Print Assumptions C16_converges.
Print Assumptions C16_converges_rebound_refuted.
Print Assumptions C16_converges_second.
Print Assumptions C16_no_false_insync.
Print Assumptions C16_no_false_insync_full.
Print Assumptions C16_services_any_state.
Print Assumptions C16_services_any_state_full.
Print Assumptions C16_local_add_service.
Print Assumptions C16_local_add_check.
Print Assumptions C16_local_remove_service.
Print Assumptions C16_local_remove_check.
Print Assumptions C16_local_update_check.
Print Assumptions C16_readd_stays_unsynced.
Print Assumptions C16_add_over_placeholder.
Print Assumptions C16_placeholder_add_ok.
Print Assumptions C16_retry_marked.
Print Assumptions C16_retry.
Print Assumptions C16_retry_partial_sync.
Print Assumptions C16_deletes_remembered.
Print Assumptions C16_deletes_remembered_full.
Print Assumptions C16_deletes_remembered_rebound_refuted.
Print Assumptions C16_local_timer_fires.
Print Assumptions C16_retry_delete.
Print Assumptions C16_successful_sync.
Print Assumptions C16_honest_partial_sync.
Print Assumptions C16_history_then_two_syncs.
Print Assumptions C16_deferred_output_refuted.
Print Assumptions C16_no_timer_exact.
Print Assumptions C16_no_timer_preserved.
Print Assumptions C16_deferred_output_after_timer.
Print Assumptions C16_ignored_fields_refuted.
Print Assumptions C16_hypotheses_reachable.
Print Assumptions C16_converges_hypotheses_met.
Print Assumptions C16_faulty_state_wf.
