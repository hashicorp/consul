(* C01 — replicas that apply the same committed log hold the same state.

   [run], [apply], [repl], [lockdelay]: the core store model (coq/Store/Model.v), tied to the code by
   checks C03-C05 and by the replay of Run/C01.v.  [repl s] is everything that is replicated;
   [lockdelay s] is the server-local, wall-clock dependent part (state/delay_ce.go).
   [assign_manual], [write_usage_deltas], [prune_old_upstreams], [merge_tagged], [validate_meta],
   [missing_providers]: the handlers that range over Go maps (coq/FSM/Model.v), the iteration order
   being an arbitrary permutation chosen by an environment [Env]. *)
From stdpp Require Import gmap strings.
From RecordUpdate Require Import RecordSet.
From Coq Require Import NArith.
From Verif Require Import Store.Model FSM.Model FSM.Sorting FSM.NonInterference FSM.IndexOrigin FSM.Proofs FSM.Machine FSM.MachineProofs.
Import RecordSetNotations.
Local Open Scope N_scope.

(* The property over ONE machine whose steps take the replica's environment. *)
(* [mrun es log s] (coq/FSM/Machine.v): entry i of the log is applied under environment es[i], which
   fixes the order in which every Go map the handler ranges over is visited and the server's wall clock.
   The machine runs the core store commands, the manual-virtual-IP table, the usage rows written at
   commit, the mesh-topology rows of a proxy registration, the tagged addresses of terminating-gateway
   instances, service metadata validation and the JWT-provider check of service-intentions.  [mrepl]
   erases what is server-local (the lock-delay key set and the expiry times computed from the clock).
   [MInv]: no address is a manual virtual IP of two services (holds initially, kept by every step).

   Two replicas -- ANY two environment lists -- that start from states agreeing on the replicated part
   end every log with the same replicated part and return the same result for every entry. *)
Theorem C01_machine_replicas_agree : forall log es1 es2 s1 s2,
  MInv s1 -> mrepl s1 = mrepl s2 ->
  mrepl (mrun es1 log s1).1 = mrepl (mrun es2 log s2).1 /\ (mrun es1 log s1).2 = (mrun es2 log s2).2.
Proof. intros log es1 es2 s1 s2. apply mrun_sim. Qed.

Theorem C01_machine_invariant_kept : forall e idx c s, MInv s -> MInv (mapply e idx c s).1.
Proof. exact mapply_MInv. Qed.
Example C01_machine_invariant_initially : MInv mst0.
Proof. exact Uniq_empty. Qed.

(* A log with every kind of step, run by three replicas (identity order, reversed order, and a mix of
   rotated / reversed / identity orders; clocks 100, 7777, 31): same results -- among them the manual-VIP
   list ["db"; "web"], the named metadata pair and the two missing-provider lines -- while the expiry
   of the lock delay on key "a" is 115 on one replica and 7792 on another. *)
Example C01_machine_example :
  (mrun ex_es_a ex_mlog mst0).2 =
  [RCore CNil; RCore (CStr "s1"); RCore (CBool true); RVip None; RVip None; RVip None;
   RVip (Some (VRes true [])); RVip (Some (VRes true []));
   RVip (Some (VRes true ["db"; "web"])); RDone; RDone; RDone; RDone; RDone;
   RMetaError ("also bad?", "y"); RDone; RJwtError ["auth0"; "keycloak"]; RCore CNil] /\
  (mrun ex_es_b ex_mlog mst0).2 = (mrun ex_es_a ex_mlog mst0).2 /\
  (mrun ex_es_c ex_mlog mst0).2 = (mrun ex_es_a ex_mlog mst0).2.
Proof. exact machine_example_results. Qed.
Example C01_machine_example_local_differs :
  m_expiry (mrun ex_es_a ex_mlog mst0).1 !! "a" = Some 115 /\
  m_expiry (mrun ex_es_b ex_mlog mst0).1 !! "a" = Some 7792.
Proof. exact machine_example_local_differs. Qed.

(* The core store alone. *)
(* Two replicas whose replicated data agree, whatever their local lock-delay sets are (these depend
   on each replica's clock and on which forced lock releases it has seen), end any log with the same
   replicated data and return the same result for every command. *)
Theorem C01_replicas_agree : forall log s1 s2,
  repl s1 = repl s2 ->
  repl (run log s1).1 = repl (run log s2).1 /\ (run log s1).2 = (run log s2).2.
Proof. exact replicas_agree. Qed.

(* Non-interference of the local part, command by command: nothing reads the lock-delay set. *)
Theorem C01_local_never_read : forall idx c s l,
  repl (apply idx c (s <| lockdelay := l |>)).1 = repl (apply idx c s).1 /\
  (apply idx c (s <| lockdelay := l |>)).2 = (apply idx c s).2.
Proof. exact local_never_read. Qed.

(* The hypothesis is met by different states, the log does write the local part, and the local parts
   stay different while everything else agrees. *)
Example C01_replicas_agree_example :
  repl st0 = repl ex_s2 /\ st0 ≠ ex_s2 /\
  lockdelay (run ex_log st0).1 = {["a"]} /\ lockdelay (run ex_log ex_s2).1 = {["a"; "zz"]} /\
  (run ex_log st0).2 = [CNil; CStr "s1"; CBool true; CNil; CErr EInvalidSession] /\
  kvs (run ex_log st0).1 !! "a" = Some (KV [] 0 "" 1 3 5).
Proof. exact replicas_agree_example. Qed.

(* Every Raft index found in a row, a tombstone or the index table after a command is the index of
   that log entry or was in the store before: no local counter, nothing from outside the log. *)
Theorem C01_index_from_log_only : forall idx c s n,
  has_idx (apply idx c s).1 n -> n = idx \/ has_idx s n.
Proof. exact index_from_log_only. Qed.

Theorem C01_index_from_log_only_run : forall log s n,
  has_idx (run log s).1 n -> n ∈ (fst <$> log) \/ has_idx s n.
Proof. exact run_index_from_log_only. Qed.

(* The handlers that range over Go maps. *)

(* AssignManualServiceVIPs: whatever orders the two replicas iterate in, they store the same rows and
   return the same result, the `UnassignedFrom` list included (sorted since fix 9d6116b; before it the
   raw list came in map order) ... *)
Theorem C01_manual_vips_order_invariant : forall e1 e2 e1' e2' idx svc ips s,
  Uniq (vips s) ->
  assign_manual e1 e2 idx svc ips s = assign_manual e1' e2' idx svc ips s.
Proof. exact assign_manual_order. Qed.

(* ... [Uniq] (an address is a manual IP of at most one service) holds initially and is kept by every
   command on the table, so the same is true along whole logs, each command meeting arbitrary and
   different environments on the two replicas. *)
Theorem C01_manual_vips_unique_kept : forall e1 e2 idx c s,
  Uniq (vips s) -> Uniq (vips (vapply e1 e2 idx c s).1).
Proof. exact vapply_Uniq. Qed.
Example C01_manual_vips_unique_initially : Uniq (vips vst0).
Proof. exact Uniq_empty. Qed.

Theorem C01_manual_vips_runs_agree : forall log1 log2,
  Forall2 same_cmd log1 log2 -> forall s, Uniq (vips s) -> vrun log1 s = vrun log2 s.
Proof.
  induction 1 as [|[[[e1 e2] idx] c] [[[e1' e2'] idx'] c'] l1 l2 [Hi Hc] Hl IH]; intros s Hu; cbn; [reflexivity|].
  cbn in Hi, Hc. subst idx' c'.
  pose proof (vapply_Uniq e1 e2 idx c s Hu) as Hu'.
  rewrite <- (vapply_order e1 e2 e1' e2' idx c s Hu). destruct (vapply e1 e2 idx c s) as [s1 r1].
  rewrite (IH s1 Hu'). reflexivity.
Qed.

(* the history that used to split the replicas: two services lose an address each *)
Example C01_raw_result_order_example :
  (assign_manual env_id env_id 9 "cache" ["240.0.0.1"; "240.0.0.2"] ex_vstate).2 = VRes true ["db"; "web"] /\
  (assign_manual env_rev env_rev 9 "cache" ["240.0.0.1"; "240.0.0.2"] ex_vstate).2 = VRes true ["db"; "web"].
Proof. exact assign_manual_example. Qed.

(* writeUsageDeltas (one usage row per key of the delta map) *)
Theorem C01_usage_deltas_order_invariant : forall idx d1 d2 u,
  Permutation d1 d2 -> NoDup (fst <$> d1) -> write_usage_deltas idx d1 u = write_usage_deltas idx d2 u.
Proof. intros idx d1 d2 u Hp Hnd. apply write_usage_deltas_order; [exact Hp|apply NoDup_fst_keyed, Hnd]. Qed.
Example C01_usage_deltas_example :
  write_usage_deltas 7 [("nodes", 1%Z); ("services", (-3)%Z)] (<["services" := (2, 4)]> ∅) =
  <["services" := (0, 7)]> (<["nodes" := (1, 7)]> ∅).
Proof. exact usage_deltas_example. Qed.

(* updateMeshTopology: pruning the upstreams a proxy no longer declares *)
Theorem C01_topology_prune_order_invariant : forall idx ds ins old1 old2 t,
  Permutation old1 old2 -> prune_old_upstreams idx ds ins old1 t = prune_old_upstreams idx ds ins old2 t.
Proof. exact prune_old_upstreams_order. Qed.

(* ensureServiceTxn: copying the terminating-gateway virtual addresses into the tagged addresses *)
Theorem C01_tagged_addresses_order_invariant : forall a1 a2 m,
  Permutation a1 a2 -> NoDup (fst <$> a1) -> merge_tagged a1 m = merge_tagged a2 m.
Proof. intros a1 a2 m Hp Hnd. apply merge_tagged_order; [exact Hp|apply NoDup_fst_keyed, Hnd]. Qed.
(* the same handlers as the machine calls them: the environment picks the order of the map's entries *)
Theorem C01_usage_step_env_invariant : forall e1 e2 idx deltas u,
  write_usage_deltas idx (ordered_items e1 deltas) u = write_usage_deltas idx (ordered_items e2 deltas) u.
Proof. exact usage_step_order. Qed.
Theorem C01_mesh_topology_env_invariant : forall e1 e2 idx ds news old t,
  update_mesh_topology e1 idx ds news old t = update_mesh_topology e2 idx ds news old t.
Proof. exact topology_step_order. Qed.
Theorem C01_gateway_register_tagged_env_invariant : forall e1 e2 addrs m, ensure_tagged e1 addrs m = ensure_tagged e2 addrs m.
Proof. exact ensure_tagged_order. Qed.
(* updateTerminatingGatewayVirtualIPs: two map ranges feeding one fresh map *)
Theorem C01_tgw_tagged_order_invariant : forall e1 e2 e1' e2' addrs existing,
  update_tgw_tagged e1 e2 addrs existing = update_tgw_tagged e1' e2' addrs existing.
Proof. exact update_tgw_tagged_order. Qed.

(* instances with two different orders *)
Example C01_manual_vips_unique_example : Uniq (vips ex_vstate).
Proof.
  repeat apply Uniq_insert; [exact Uniq_empty|..];
    repeat apply map_Forall_insert_2; try apply map_Forall_empty; cbn; set_solver.
Qed.
Example C01_usage_two_orders :
  write_usage_deltas 7 [("nodes", 1%Z); ("services", (-3)%Z)] (<["services" := (2, 4)]> ∅) =
  write_usage_deltas 7 [("services", (-3)%Z); ("nodes", 1%Z)] (<["services" := (2, 4)]> ∅).
Proof. exact usage_two_orders. Qed.
Example C01_topology_two_orders :
  t_rows (update_mesh_topology env_id 9 "web" ["api"] {["db"; "api"; "cache"]} ex_topo) =
  t_rows (update_mesh_topology env_rev 9 "web" ["api"] {["db"; "api"; "cache"]} ex_topo) /\
  t_rows (update_mesh_topology env_id 9 "web" ["api"] {["db"; "api"; "cache"]} ex_topo) = <[tkey "api" "web" := ("api", "web")]> ∅ /\
  t_index (update_mesh_topology env_rev 9 "web" ["api"] {["db"; "api"; "cache"]} ex_topo) = 9.
Proof. exact topology_two_orders. Qed.
Example C01_tagged_two_orders :
  let addrs : gmap string (string * N) := <["consul-virtual:db" := ("240.0.0.7", 0)]> (<["consul-virtual:web" := ("240.0.0.6", 0)]> ∅) in
  let existing : gmap string (string * N) := <["lan" := ("10.0.0.9", 8443)]> (<["consul-virtual:old" := ("240.0.0.1", 0)]> ∅) in
  update_tgw_tagged env_id env_rev addrs existing = update_tgw_tagged env_rev env_id addrs existing /\
  update_tgw_tagged env_id env_id addrs existing =
    <["lan" := ("10.0.0.9", 8443)]> (<["consul-virtual:db" := ("240.0.0.7", 0)]> (<["consul-virtual:web" := ("240.0.0.6", 0)]> ∅)).
Proof. exact tagged_two_orders. Qed.

(* Error results built from the keys of a map: the keys are sorted before they are visited (fixes
   7ea9e44, 281c379), so the pair named by validateMetadata and the lines reported for missing JWT
   providers are the same on every replica (before the fixes both texts followed the map order). *)
Theorem C01_error_text_order_invariant : forall e1 e2 bad meta,
  validate_meta e1 bad meta = validate_meta e2 bad meta.
Proof. exact validate_meta_order. Qed.
Example C01_error_text_order_example :
  validate_meta env_rev (fun _ => true) (<["bad key!" := "x"]> (<["also bad?" := "y"]> ∅)) = Some ("also bad?", "y") /\
  validate_meta env_id (fun _ => true) (<["bad key!" := "x"]> (<["also bad?" := "y"]> ∅)) = Some ("also bad?", "y").
Proof. exact validate_meta_example. Qed.
Theorem C01_error_lines_order_invariant : forall known r1 r2,
  Permutation r1 r2 -> missing_providers known r1 = missing_providers known r2.
Proof. exact missing_providers_order. Qed.
Example C01_error_lines_order_example :
  missing_providers ∅ ["okta"; "auth0"] = ["auth0"; "okta"] /\ missing_providers ∅ ["auth0"; "okta"] = ["auth0"; "okta"].
Proof. exact missing_providers_example. Qed.

Print Assumptions C01_machine_replicas_agree.
Print Assumptions C01_machine_invariant_kept.
Print Assumptions C01_machine_example.
Print Assumptions C01_replicas_agree.
Print Assumptions C01_usage_step_env_invariant.
Print Assumptions C01_mesh_topology_env_invariant.
Print Assumptions C01_gateway_register_tagged_env_invariant.
Print Assumptions C01_tgw_tagged_order_invariant.
Print Assumptions C01_local_never_read.
Print Assumptions C01_replicas_agree_example.
Print Assumptions C01_index_from_log_only.
Print Assumptions C01_index_from_log_only_run.
Print Assumptions C01_manual_vips_order_invariant.
Print Assumptions C01_manual_vips_unique_kept.
Print Assumptions C01_manual_vips_runs_agree.
Print Assumptions C01_usage_deltas_order_invariant.
Print Assumptions C01_topology_prune_order_invariant.
Print Assumptions C01_tagged_addresses_order_invariant.
Print Assumptions C01_error_text_order_invariant.
Print Assumptions C01_error_lines_order_invariant.
Print Assumptions C01_raw_result_order_example.
