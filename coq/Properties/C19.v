(* C19 — one replication round makes a secondary datacenter equal to the primary.
   Each theorem follows in a line or two from the lemmas of Repl/*.v; the hypotheses on the example
   tables are decided by the boolean checkers of Repl/Check.v.

   Vocabulary (Repl/Model.v, Repl/WalkProofs.v, Repl/RoundProofs.v):
     diff last local remote      sort both lists, merge-walk (diffACLType / diffConfigEntries /
                                 FederationStateReplicator.DiffRemoteAndLocalState)
     apply_round stamp d st      deletions, then upserts, of the writes really issued
     view st                     what FetchLocal lists (no tokens of local scope)
     repl l                      the objects replication is responsible for: usable id, a kind the
                                 apply step writes, not local-scoped
     untouchable x               everything else
     content l                   the (id, content) pairs of l
     consistent last L R         whatever the primary has not modified after [last] is already in
                                 the secondary with the primary's content
     hash_sound L R              equal hashes => equal content
     hash_complete last L R      equal content is recognised (hash test, or not newer than [last]) *)
From Verif Require Import Base.Prelude.
From Verif Require Import Base.Lists.
From Verif Require Import Repl.Model.
From Verif Require Import Repl.Proofs.
From Coq Require Import Sorting.Permutation.

Section C19.
  Context {K H : Type}.
  Variable keqb : K -> K -> bool.        (* id equality *)
  Variable kltb : K -> K -> bool.        (* id order used by the sort and the walk *)
  Variable is_empty : K -> bool.         (* ids the walk skips *)
  Variable same_hash : H -> H -> bool.   (* the content-hash test *)
  Variable applies : K -> bool.          (* ids the apply step writes *)
  (* the id order is a decidable strict total order (proved for the three instances below) *)
  Hypothesis keqb_spec : forall a b, keqb a b = true <-> a = b.
  Hypothesis kltb_irrefl : forall a, kltb a a = false.
  Hypothesis kltb_trans : forall a b c, kltb a b = true -> kltb b c = true -> kltb a c = true.
  Hypothesis kltb_total : forall a b, keqb a b = false -> kltb a b = false -> kltb b a = true.

  Notation live := (live is_empty).
  Notation diff := (diff keqb kltb is_empty same_hash).
  Notation apply_round := (apply_round keqb applies).
  Notation repl := (repl is_empty applies).

  (* The sorted merge walk (with the sort the code performs) equals the set-based specification, for
     lists of any length given in any order: deletions = live local objects whose id no live remote
     object has; upserts = live remote objects that are new, or newer than [last] with another hash;
     both in id order; objects with an empty id are only counted. *)
  Theorem C19_walk_is_set_difference : forall last local remote,
    NoDup (ids (filter live local)) -> NoDup (ids (filter live remote)) ->
    diff last local remote =
      DiffRes (spec_del keqb (filter live (isort kltb local)) (filter live remote))
              (spec_ups keqb same_hash last (filter live local) (filter live (isort kltb remote)))
              (nempty is_empty local) (nempty is_empty remote).
  Proof. exact (walk_is_set_difference keqb_spec kltb_irrefl kltb_trans kltb_total). Qed.

  (* With no hypothesis at all (duplicates, any order): the diff names only live objects of its inputs,
     and counts exactly the objects with an empty id. *)
  Theorem C19_diff_names_inputs_only : forall last local remote,
    (forall x, In x (d_del (diff last local remote)) -> In x local /\ live x = true) /\
    (forall y, In y (d_ups (diff last local remote)) -> In y remote /\ live y = true) /\
    d_lskip (diff last local remote) = nempty is_empty local /\
    d_rskip (diff last local remote) = nempty is_empty remote.
  Proof.
    intros last local remote.
    destruct (diff_sub keqb kltb is_empty same_hash last local remote) as [Hd Hu].
    destruct (diff_skips keqb kltb is_empty same_hash last local remote) as [Hl Hr].
    exact (conj Hd (conj Hu (conj Hl Hr))).
  Qed.

  (* One round: applying the deletions and then the upserts of the computed diff makes the
     replicated set of the secondary equal to the primary's. *)
  Theorem C19_round : forall stamp last remote st,
    NoDup (ids (filter live st)) -> NoDup (ids (filter live remote)) -> all_global remote ->
    consistent last (repl st) remote -> hash_sound same_hash (repl st) remote ->
    Permutation (content (repl (apply_round stamp (diff last (view st) remote) st)))
                (content (repl remote)).
  Proof. exact (round_permutation keqb_spec kltb_irrefl kltb_trans kltb_total). Qed.

  (* ... and the table keeps unique ids, one of the next round's hypotheses *)
  Theorem C19_round_keeps_unique_ids : forall stamp (d : @diffres K H) (st : list (@item K H)),
    NoDup (ids (filter live st)) -> NoDup (ids (filter live (apply_round stamp d st))).
  Proof. exact (nodup_apply_round keqb_spec). Qed.

  (* Objects outside replication (local-scoped tokens, empty ids, kinds the apply step does not
     write) are left exactly as they were: same objects, same order. *)
  Theorem C19_local_untouched : forall stamp last remote st,
    NoDup (ids (filter live st)) -> all_global remote ->
    (forall x, In x st -> it_local x = true -> live x = true -> ~ In (it_id x) (ids (filter live remote))) ->
    filter (untouchable is_empty applies) (apply_round stamp (diff last (view st) remote) st) =
    filter (untouchable is_empty applies) st.
  Proof. exact (local_untouched keqb_spec). Qed.

  (* A secondary that is already equal produces no writes. *)
  Theorem C19_idempotent : forall last remote st,
    NoDup (ids (filter live st)) -> NoDup (ids (filter live remote)) -> all_global remote ->
    (forall kb, In kb (content (repl st)) <-> In kb (content (repl remote))) ->
    hash_complete same_hash last (repl st) remote ->
    issued applies (d_del (diff last (view st) remote)) = [] /\
    issued applies (d_ups (diff last (view st) remote)) = [].
  Proof. exact (idempotent keqb kltb is_empty same_hash applies keqb_spec kltb_irrefl kltb_trans kltb_total). Qed.

  (* replicateACLType fetches the objects to upsert by id: that is the same round *)
  Theorem C19_fetch_by_id_is_same_round : forall stamp ri last remote st,
    NoDup (ids (filter live st)) -> NoDup (ids (filter live remote)) ->
    acl_round keqb kltb is_empty same_hash applies stamp ri last remote st =
    round keqb kltb is_empty same_hash applies stamp ri last remote st.
  Proof. exact (acl_round_is_round keqb_spec kltb_irrefl kltb_trans kltb_total). Qed.
  (* ---- across rounds.  [evolves_above ri R R']: R' is a later snapshot of the primary than R (taken at
     index ri): whatever R' has not modified after ri is in R unchanged. ---- *)

  (* What a round leaves is what the next round may assume: the premise "last is consistent with what the
     secondary has applied" is PRODUCED by a round for the index it returns. *)
  Theorem C19_round_reestablishes_consistent : forall stamp ri last remote st R',
    NoDup (ids (filter live st)) -> NoDup (ids (filter live remote)) -> all_global remote ->
    consistent last (repl st) remote -> hash_sound same_hash (repl st) remote ->
    evolves_above ri remote R' ->
    consistent ri (repl (apply_round stamp (diff last (view st) remote) st)) R'.
  Proof. exact (round_reestablishes_consistent keqb_spec kltb_irrefl kltb_trans kltb_total). Qed.

  (* Two rounds, the second with last := the returned index: converges to the later snapshot, with no
     assumption about that index. *)
  Theorem C19_two_rounds : forall stamp stamp' ri last remote st R',
    NoDup (ids (filter live st)) -> NoDup (ids (filter live remote)) -> all_global remote ->
    consistent last (repl st) remote -> hash_sound same_hash (repl st) remote ->
    evolves_above ri remote R' -> NoDup (ids (filter live R')) -> all_global R' ->
    hash_sound same_hash (repl (apply_round stamp (diff last (view st) remote) st)) R' ->
    Permutation (content (repl (apply_round stamp' (diff ri (view (apply_round stamp (diff last (view st) remote) st)) R')
                                  (apply_round stamp (diff last (view st) remote) st))))
                (content (repl R')).
  Proof. exact (two_rounds keqb_spec kltb_irrefl kltb_trans kltb_total). Qed.

  (* The round after a round, on the unchanged primary, issues no write at all -- whatever the hash test
     (zero hashes, no hash test): the returned index is at or above every modify index of the snapshot. *)
  Theorem C19_second_round_silent : forall stamp ri last remote st,
    NoDup (ids (filter live st)) -> NoDup (ids (filter live remote)) -> all_global remote ->
    consistent last (repl st) remote -> hash_sound same_hash (repl st) remote ->
    (forall y, In y remote -> (it_mod y <= ri)%N) ->
    issued applies (d_del (diff ri (view (apply_round stamp (diff last (view st) remote) st)) remote)) = [] /\
    issued applies (d_ups (diff ri (view (apply_round stamp (diff last (view st) remote) st)) remote)) = [].
  Proof. exact (second_round_silent keqb_spec kltb_irrefl kltb_trans kltb_total). Qed.

  (* ---- "once applied": the writes must be accepted by the state store.  [acl_round_store] is the round
     with the unique-name rule of policies and roles ([name_of content]); its boolean is "no write refused". ---- *)
  Variable name_of : N -> option N.

  (* every issued write accepted: the round is the idealised one (so C19_round applies to it) *)
  Theorem C19_store_round_accepted : forall stamp ri last remote st st',
    acl_round_store keqb kltb is_empty same_hash applies name_of stamp ri last remote st = (st', true) ->
    st' = acl_round keqb kltb is_empty same_hash applies stamp ri last remote st.
  Proof.
    intros stamp ri last remote st st'. unfold acl_round_store, acl_round.
    destruct (upsert_batch _ _ stamp _ _) as [st2|] eqn:E; [|discriminate].
    intros Heq. injection Heq as <-. exact (upsert_batch_some keqb name_of _ _ _ _ E).
  Qed.

  (* a refused batch: only the deletions happened *)
  Theorem C19_store_round_refused : forall stamp ri last remote st st',
    acl_round_store keqb kltb is_empty same_hash applies name_of stamp ri last remote st = (st', false) ->
    st' = delete_all keqb (issued applies (d_del (diff (effective_last ri last) (view st) remote))) st.
  Proof.
    intros stamp ri last remote st st'. unfold acl_round_store.
    destruct (upsert_batch _ _ stamp _ _); [discriminate|].
    intros Heq. injection Heq as <-. reflexivity.
  Qed.

  (* a condition readable off the two tables under which every write is accepted *)
  Theorem C19_accepted_when_names_free : forall stamp (us st : list (@item K H)),
    name_free name_of us st -> names_distinct name_of us ->
    upsert_batch keqb name_of stamp us st = Some (upsert_all keqb stamp us st).
  Proof. exact (accepted_when_names_free keqb_spec name_of). Qed.

  (* ---- two snapshots of the primary: harmless when the batch read agrees with the list on the upserts ---- *)
  Theorem C19_two_snapshots_partial : forall stamp ri last remote batch st,
    fetch_updated keqb (ids (d_ups (diff (effective_last ri last) (view st) remote))) (isort kltb batch) =
    fetch_updated keqb (ids (d_ups (diff (effective_last ri last) (view st) remote))) (isort kltb remote) ->
    acl_round_two keqb kltb is_empty same_hash applies stamp ri last remote batch st =
    acl_round keqb kltb is_empty same_hash applies stamp ri last remote st.
  Proof. exact (two_snapshots_agree keqb kltb is_empty same_hash applies). Qed.
End C19.

(* ---- the three instances: the order laws hold, so the theorems apply to the functions as run ---- *)

(* Go strings (ids, datacenter names) and (kind, name) pairs are strict total orders *)
Theorem C19_string_order_laws :
  (forall a b, bytes_eqb a b = true <-> a = b) /\ (forall a, bytes_ltb a a = false) /\
  (forall a b c, bytes_ltb a b = true -> bytes_ltb b c = true -> bytes_ltb a c = true) /\
  (forall a b, bytes_eqb a b = false -> bytes_ltb a b = false -> bytes_ltb b a = true).
Proof. exact (conj bytes_eqb_eq (conj bytes_ltb_irrefl (conj (fun a => bytes_ltb_trans a) bytes_ltb_total))). Qed.

Theorem C19_kind_name_order_laws :
  (forall a b, cfg_eqb a b = true <-> a = b) /\ (forall a, cfg_ltb a a = false) /\
  (forall a b c, cfg_ltb a b = true -> cfg_ltb b c = true -> cfg_ltb a c = true) /\
  (forall a b, cfg_eqb a b = false -> cfg_ltb a b = false -> cfg_ltb b a = true).
Proof. exact (conj cfg_eqb_spec (conj cfg_ltb_irrefl (conj cfg_ltb_trans cfg_ltb_total))). Qed.

(* ACL tokens / policies / roles, the whole round of replicateACLType
   (index reset when the primary's index went backwards, diff, fetch by id, deletions, upserts) *)
Theorem C19_round_acl : forall stamp ri last (remote st : list acl_item),
  NoDup (ids (filter acl_live st)) -> NoDup (ids (filter acl_live remote)) -> all_global remote ->
  consistent (effective_last ri last) (acl_repl st) remote -> acl_hash_sound (acl_repl st) remote ->
  Permutation (content (acl_repl (acl_round_m stamp ri last remote st))) (content (acl_repl remote)).
Proof.
  intros stamp ri last remote st Hst Hrem. rewrite (acl_round_m_eq _ _ _ _ _ Hst Hrem).
  exact (round_permutation bytes_eqb_eq bytes_ltb_irrefl bytes_ltb_trans bytes_ltb_total stamp _ remote st Hst Hrem).
Qed.

Theorem C19_full_sync_acl : forall stamp ri last (remote st : list acl_item),
  (ri < last)%N -> (forall y, In y remote -> (0 < it_mod y)%N) ->
  NoDup (ids (filter acl_live st)) -> NoDup (ids (filter acl_live remote)) -> all_global remote ->
  acl_hash_sound (acl_repl st) remote ->
  Permutation (content (acl_repl (acl_round_m stamp ri last remote st))) (content (acl_repl remote)).
Proof.
  intros stamp ri last remote st Hlt Hpos Hst Hrem. rewrite (acl_round_m_eq _ _ _ _ _ Hst Hrem).
  exact (full_sync bytes_eqb_eq bytes_ltb_irrefl bytes_ltb_trans bytes_ltb_total stamp ri last remote st
           Hlt Hpos Hst Hrem).
Qed.

Theorem C19_local_untouched_acl : forall stamp ri last (remote st : list acl_item),
  NoDup (ids (filter acl_live st)) -> NoDup (ids (filter acl_live remote)) -> all_global remote ->
  (forall x, In x st -> it_local x = true -> acl_live x = true -> ~ In (it_id x) (ids (filter acl_live remote))) ->
  filter acl_untouchable (acl_round_m stamp ri last remote st) = filter acl_untouchable st.
Proof.
  intros stamp ri last remote st Hst Hrem. rewrite (acl_round_m_eq _ _ _ _ _ Hst Hrem).
  exact (local_untouched bytes_eqb_eq stamp _ remote st Hst).
Qed.

Theorem C19_idempotent_acl : forall last (remote st : list acl_item),
  NoDup (ids (filter acl_live st)) -> NoDup (ids (filter acl_live remote)) -> all_global remote ->
  hash_functional (acl_repl st) remote ->
  Permutation (content (acl_repl st)) (content (acl_repl remote)) ->
  acl_issued (d_del (acl_diff last (view st) remote)) = [] /\
  acl_issued (d_ups (acl_diff last (view st) remote)) = [].
Proof.
  intros last remote st Hst Hrem Hg Hf Hp.
  exact (idempotent _ _ _ _ _ bytes_eqb_eq bytes_ltb_irrefl bytes_ltb_trans bytes_ltb_total
           last remote st Hst Hrem Hg (Permutation_same_members _ _ Hp) (acl_hash_complete last _ _ Hf)).
Qed.

(* config entries, the whole round of replicateConfig *)
Theorem C19_round_config : forall stamp ri last (remote st : list cfg_item),
  NoDup (ids st) -> NoDup (ids remote) -> all_global remote ->
  consistent (effective_last ri last) (cfg_repl st) remote -> cfg_hash_sound (cfg_repl st) remote ->
  Permutation (content (cfg_repl (cfg_round_m stamp ri last remote st))) (content (cfg_repl remote)).
Proof.
  intros stamp ri last remote st Hst Hrem.
  exact (round_permutation cfg_eqb_spec cfg_ltb_irrefl cfg_ltb_trans cfg_ltb_total stamp _ remote st
           (NoDup_ids_filter _ _ Hst) (NoDup_ids_filter _ _ Hrem)).
Qed.

Theorem C19_full_sync_config : forall stamp ri last (remote st : list cfg_item),
  (ri < last)%N -> (forall y, In y remote -> (0 < it_mod y)%N) ->
  NoDup (ids st) -> NoDup (ids remote) -> all_global remote -> cfg_hash_sound (cfg_repl st) remote ->
  Permutation (content (cfg_repl (cfg_round_m stamp ri last remote st))) (content (cfg_repl remote)).
Proof.
  intros stamp ri last remote st Hlt Hpos Hst Hrem.
  exact (full_sync cfg_eqb_spec cfg_ltb_irrefl cfg_ltb_trans cfg_ltb_total stamp ri last remote st Hlt Hpos
           (NoDup_ids_filter _ _ Hst) (NoDup_ids_filter _ _ Hrem)).
Qed.

Theorem C19_local_untouched_config : forall stamp ri last (remote st : list cfg_item),
  NoDup (ids st) -> all_global remote ->
  (forall x, In x st -> it_local x = true -> ~ In (it_id x) (ids remote)) ->
  filter cfg_untouchable (cfg_round_m stamp ri last remote st) = filter cfg_untouchable st.
Proof.
  intros stamp ri last remote st Hst Hg Hd.
  apply (local_untouched cfg_eqb_spec stamp _ remote st (NoDup_ids_filter _ _ Hst) Hg).
  intros x Hx Hl _ Hin. exact (Hd x Hx Hl (ids_filter_incl _ _ _ Hin)).
Qed.

(* "already equal => no writes" is FALSE for config entries as stated: configentry.SameHash never
   holds for a zero hash (an entry stored before hashes existed) ... *)
Theorem C19_idempotent_config_refuted :
  exists last (remote st : list cfg_item),
    NoDup (ids st) /\ NoDup (ids remote) /\ all_global remote /\ hash_functional (cfg_repl st) remote /\
    Permutation (content (cfg_repl st)) (content (cfg_repl remote)) /\
    cfg_issued (d_ups (cfg_diff last (view st) remote)) <> [].
Proof.
  exists 0%N, [Item k_svc_a 5 0%N 1 false], [Item k_svc_a 3 0%N 1 false].
  repeat apply conj.
  - apply (nodupb_sound cfg_eqb_spec); reflexivity.
  - apply (nodupb_sound cfg_eqb_spec); reflexivity.
  - apply all_global_b_sound; reflexivity.
  - intros x y [<-|[]] [<-|[]] _ _. reflexivity.
  - apply Permutation_refl.
  - vm_compute. discriminate.
Qed.

(* ... and holds when every pair carries usable hashes or is not newer than [last] *)
Theorem C19_idempotent_config_partial : forall last (remote st : list cfg_item),
  NoDup (ids st) -> NoDup (ids remote) -> all_global remote ->
  hash_functional (cfg_repl st) remote ->
  (forall x y, In x (cfg_repl st) -> In y remote -> it_id x = it_id y ->
     (it_hash x <> 0%N /\ it_hash y <> 0%N) \/ (it_mod y <= last)%N) ->
  Permutation (content (cfg_repl st)) (content (cfg_repl remote)) ->
  cfg_issued (d_del (cfg_diff last (view st) remote)) = [] /\
  cfg_issued (d_ups (cfg_diff last (view st) remote)) = [].
Proof.
  intros last remote st Hst Hrem Hg Hf Hz Hp.
  exact (idempotent _ _ _ _ _ cfg_eqb_spec cfg_ltb_irrefl cfg_ltb_trans cfg_ltb_total
           last remote st (NoDup_ids_filter _ _ Hst) (NoDup_ids_filter _ _ Hrem)
           Hg (Permutation_same_members _ _ Hp) (cfg_hash_complete last _ _ Hf Hz)).
Qed.

(* federation states (third instance of the walk; outside the wording of the property) *)
Theorem C19_round_fed : forall stamp ri last (remote st : list fed_item),
  NoDup (ids st) -> NoDup (ids remote) -> all_global remote ->
  consistent (effective_last ri last) (fed_repl st) remote ->
  Permutation (content (fed_repl (fed_round_m stamp ri last remote st))) (content (fed_repl remote)).
Proof.
  intros stamp ri last remote st Hst Hrem Hg Hc.
  exact (round_permutation bytes_eqb_eq bytes_ltb_irrefl bytes_ltb_trans bytes_ltb_total stamp _ remote st
           (NoDup_ids_filter _ _ Hst) (NoDup_ids_filter _ _ Hrem) Hg Hc (fed_hash_sound _ _)).
Qed.

Theorem C19_idempotent_fed_refuted :
  exists last (remote st : list fed_item),
    NoDup (ids st) /\ NoDup (ids remote) /\ all_global remote /\
    Permutation (content (fed_repl st)) (content (fed_repl remote)) /\
    fed_issued (d_ups (fed_diff last (view st) remote)) <> [].
Proof.
  exists 0%N, [Item [100;99;50]%N 5 tt 1 false], [Item [100;99;50]%N 3 tt 1 false].
  repeat apply conj.
  - apply (nodupb_sound bytes_eqb_eq); reflexivity.
  - apply (nodupb_sound bytes_eqb_eq); reflexivity.
  - apply all_global_b_sound; reflexivity.
  - apply Permutation_refl.
  - vm_compute. discriminate.
Qed.

Theorem C19_idempotent_fed_partial : forall last (remote st : list fed_item),
  NoDup (ids st) -> NoDup (ids remote) -> all_global remote ->
  (forall y, In y remote -> (it_mod y <= last)%N) ->
  Permutation (content (fed_repl st)) (content (fed_repl remote)) ->
  fed_issued (d_del (fed_diff last (view st) remote)) = [] /\
  fed_issued (d_ups (fed_diff last (view st) remote)) = [].
Proof.
  intros last remote st Hst Hrem Hg Hm Hp.
  exact (idempotent _ _ _ _ _ bytes_eqb_eq bytes_ltb_irrefl bytes_ltb_trans bytes_ltb_total
           last remote st (NoDup_ids_filter _ _ Hst) (NoDup_ids_filter _ _ Hrem)
           Hg (Permutation_same_members _ _ Hp) (hash_complete_old _ last _ _ Hm)).
Qed.

(* ---- across rounds, the functions as run ---- *)
Theorem C19_two_rounds_acl : forall stamp stamp' ri ri' last (remote R' st : list acl_item),
  NoDup (ids (filter acl_live st)) -> NoDup (ids (filter acl_live remote)) -> all_global remote ->
  consistent (effective_last ri last) (acl_repl st) remote -> acl_hash_sound (acl_repl st) remote ->
  (ri <= ri')%N -> evolves_above ri remote R' ->
  NoDup (ids (filter acl_live R')) -> all_global R' ->
  acl_hash_sound (acl_repl (acl_round_m stamp ri last remote st)) R' ->
  Permutation (content (acl_repl (acl_round_m stamp' ri' ri R' (acl_round_m stamp ri last remote st))))
              (content (acl_repl R')).
Proof.
  intros stamp stamp' ri ri' last remote R' st Hst Hrem Hg Hc Hs Hle Hev Hr'.
  rewrite (acl_round_m_eq _ _ _ _ _ Hst Hrem).
  rewrite (acl_round_m_eq stamp' ri' ri R'); [|apply (nodup_apply_round bytes_eqb_eq); exact Hst|exact Hr'].
  exact (two_rounds_run bytes_eqb_eq bytes_ltb_irrefl bytes_ltb_trans bytes_ltb_total stamp stamp' ri ri' last
           remote st R' Hst Hrem Hg Hc Hs Hle Hev Hr').
Qed.

Theorem C19_two_rounds_config : forall stamp stamp' ri ri' last (remote R' st : list cfg_item),
  NoDup (ids st) -> NoDup (ids remote) -> all_global remote ->
  consistent (effective_last ri last) (cfg_repl st) remote -> cfg_hash_sound (cfg_repl st) remote ->
  (ri <= ri')%N -> evolves_above ri remote R' -> NoDup (ids R') -> all_global R' ->
  cfg_hash_sound (cfg_repl (cfg_round_m stamp ri last remote st)) R' ->
  Permutation (content (cfg_repl (cfg_round_m stamp' ri' ri R' (cfg_round_m stamp ri last remote st))))
              (content (cfg_repl R')).
Proof.
  intros stamp stamp' ri ri' last remote R' st Hst Hrem Hg Hc Hs Hle Hev Hr'.
  exact (two_rounds_run cfg_eqb_spec cfg_ltb_irrefl cfg_ltb_trans cfg_ltb_total stamp stamp' ri ri' last remote
           st R' (NoDup_ids_filter _ _ Hst) (NoDup_ids_filter _ _ Hrem)
           Hg Hc Hs Hle Hev (NoDup_ids_filter _ _ Hr')).
Qed.

Theorem C19_second_round_silent_acl : forall stamp ri last (remote st : list acl_item),
  NoDup (ids (filter acl_live st)) -> NoDup (ids (filter acl_live remote)) -> all_global remote ->
  consistent (effective_last ri last) (acl_repl st) remote -> acl_hash_sound (acl_repl st) remote ->
  (forall y, In y remote -> (it_mod y <= ri)%N) ->
  acl_issued (d_del (acl_diff ri (view (acl_round_m stamp ri last remote st)) remote)) = [] /\
  acl_issued (d_ups (acl_diff ri (view (acl_round_m stamp ri last remote st)) remote)) = [].
Proof.
  intros stamp ri last remote st Hst Hrem. rewrite (acl_round_m_eq _ _ _ _ _ Hst Hrem).
  exact (second_round_silent bytes_eqb_eq bytes_ltb_irrefl bytes_ltb_trans bytes_ltb_total stamp ri _ remote st
           Hst Hrem).
Qed.

(* in particular the zero-hash rewrite of C19_idempotent_config_refuted does not recur in steady state *)
Theorem C19_second_round_silent_config : forall stamp ri last (remote st : list cfg_item),
  NoDup (ids st) -> NoDup (ids remote) -> all_global remote ->
  consistent (effective_last ri last) (cfg_repl st) remote -> cfg_hash_sound (cfg_repl st) remote ->
  (forall y, In y remote -> (it_mod y <= ri)%N) ->
  cfg_issued (d_del (cfg_diff ri (view (cfg_round_m stamp ri last remote st)) remote)) = [] /\
  cfg_issued (d_ups (cfg_diff ri (view (cfg_round_m stamp ri last remote st)) remote)) = [].
Proof.
  intros stamp ri last remote st Hst Hrem.
  exact (second_round_silent cfg_eqb_spec cfg_ltb_irrefl cfg_ltb_trans cfg_ltb_total stamp ri _ remote st
           (NoDup_ids_filter _ _ Hst) (NoDup_ids_filter _ _ Hrem)).
Qed.

Theorem C19_second_round_silent_fed : forall stamp ri last (remote st : list fed_item),
  NoDup (ids st) -> NoDup (ids remote) -> all_global remote ->
  consistent (effective_last ri last) (fed_repl st) remote ->
  (forall y, In y remote -> (it_mod y <= ri)%N) ->
  fed_issued (d_del (fed_diff ri (view (fed_round_m stamp ri last remote st)) remote)) = [] /\
  fed_issued (d_ups (fed_diff ri (view (fed_round_m stamp ri last remote st)) remote)) = [].
Proof.
  intros stamp ri last remote st Hst Hrem Hg Hc.
  exact (second_round_silent bytes_eqb_eq bytes_ltb_irrefl bytes_ltb_trans bytes_ltb_total stamp ri _ remote st
           (NoDup_ids_filter _ _ Hst) (NoDup_ids_filter _ _ Hrem) Hg Hc (fed_hash_sound _ _)).
Qed.

(* ---- "once applied" is FALSE of the code for policies and roles: every hypothesis of C19_round_acl holds,
   the idealised round converges, but the state store refuses the batch (two names swapped at the primary),
   the table is left as it was, and every retry fails the same way (known finding C19-name-swap-stuck) ... *)
Theorem C19_round_store_refuted :
  NoDup (ids (filter acl_live swap_st)) /\ NoDup (ids (filter acl_live swap_remote)) /\ all_global swap_remote /\
  consistent (effective_last 10 5) (acl_repl swap_st) swap_remote /\ acl_hash_sound (acl_repl swap_st) swap_remote /\
  acl_round_store_m 0 10 5 swap_remote swap_st = (swap_st, false) /\
  acl_round_store_m 0 10 0 swap_remote swap_st = (swap_st, false) /\
  content (acl_repl (acl_round_m 0 10 5 swap_remote swap_st)) = content (acl_repl swap_remote) /\
  content (acl_repl swap_st) <> content (acl_repl swap_remote).
Proof.
  repeat apply conj.
  - apply (nodupb_sound bytes_eqb_eq); reflexivity.
  - apply (nodupb_sound bytes_eqb_eq); reflexivity.
  - apply all_global_b_sound; reflexivity.
  - apply (consistent_b_sound bytes_eqb_eq); reflexivity.
  - apply (hash_sound_b_sound bytes_eqb_eq); reflexivity.
  - vm_compute. reflexivity.
  - vm_compute. reflexivity.
  - vm_compute. reflexivity.
  - vm_compute. discriminate.
Qed.

(* ... and holds whenever no write is refused *)
Theorem C19_round_store_partial : forall stamp ri last (remote st st' : list acl_item),
  acl_round_store_m stamp ri last remote st = (st', true) ->
  NoDup (ids (filter acl_live st)) -> NoDup (ids (filter acl_live remote)) -> all_global remote ->
  consistent (effective_last ri last) (acl_repl st) remote -> acl_hash_sound (acl_repl st) remote ->
  Permutation (content (acl_repl st')) (content (acl_repl remote)).
Proof.
  intros stamp ri last remote st st' Hok.
  rewrite (C19_store_round_accepted bytes_eqb bytes_ltb bytes_is_empty bytes_eqb acl_applies acl_name_of _ _ _ _ _ _ Hok).
  apply C19_round_acl.
Qed.

(* ---- one snapshot per round is needed, and tokens do not check it: the batch read answered from an older
   snapshot than the list makes the secondary keep the old content for good (known finding
   C19-token-stale-batch) ---- *)
Theorem C19_two_snapshots_refuted :
  NoDup (ids (filter acl_live stale_st)) /\ NoDup (ids (filter acl_live stale_list)) /\ all_global stale_list /\
  consistent (effective_last 12 6) (acl_repl stale_st) stale_list /\ acl_hash_sound (acl_repl stale_st) stale_list /\
  (forall y, In y stale_list -> (it_mod y <= 12)%N) /\
  let st1 := acl_round_two_m 0 12 6 stale_list stale_batch stale_st in
  let st2 := acl_round_m 0 12 12 stale_list st1 in
  content (acl_repl st2) = [([1]%N, 1%N)] /\ content (acl_repl stale_list) = [([1]%N, 2%N)].
Proof.
  repeat apply conj.
  - apply (nodupb_sound bytes_eqb_eq); reflexivity.
  - apply (nodupb_sound bytes_eqb_eq); reflexivity.
  - apply all_global_b_sound; reflexivity.
  - apply (consistent_b_sound bytes_eqb_eq); reflexivity.
  - apply (hash_sound_b_sound bytes_eqb_eq); reflexivity.
  - intros y [<-|[]]. cbn. lia.
  - vm_compute. reflexivity.
  - vm_compute. reflexivity.
Qed.

(* more non-vacuity: concrete states that meet the hypotheses of C19_idempotent_acl, those of
   C19_round_config (with the hash premise of C19_idempotent_config_partial on the result),
   of C19_full_sync_acl and of C19_round_fed *)
Example C19_example_idempotent_acl :
  NoDup (ids (filter acl_live eq_st)) /\ NoDup (ids (filter acl_live eq_remote)) /\ all_global eq_remote /\
  hash_functional (acl_repl eq_st) eq_remote /\
  Permutation (content (acl_repl eq_st)) (content (acl_repl eq_remote)) /\
  acl_diff 0 (view eq_st) eq_remote = DiffRes [] [] 0 0.
Proof.
  repeat apply conj.
  - apply (nodupb_sound bytes_eqb_eq); reflexivity.
  - apply (nodupb_sound bytes_eqb_eq); reflexivity.
  - apply all_global_b_sound; reflexivity.
  - (* objects with the same id carry the same hash *)
    intros x y Hx Hy Hid _. apply bytes_eqb_eq.
    exact (same_id_b_sound bytes_eqb_eq (fun x y => bytes_eqb (it_hash x) (it_hash y))
             (acl_repl eq_st) eq_remote eq_refl x y Hx Hy Hid).
  - vm_compute. apply perm_swap.
  - vm_compute. reflexivity.
Qed.

Example C19_example_config :
  NoDup (ids cex_st) /\ NoDup (ids cex_remote) /\ all_global cex_remote /\
  consistent (effective_last 9 5) (cfg_repl cex_st) cex_remote /\ cfg_hash_sound (cfg_repl cex_st) cex_remote /\
  content (cfg_repl (cfg_round_m 0 9 5 cex_remote cex_st)) = [(([115;118;99]%N, [98]%N), 2%N); (k_svc_a, 3%N)] /\
  filter cfg_untouchable (cfg_round_m 0 9 5 cex_remote cex_st) = [Item k_exp_z 2 6%N 9 false] /\
  (forall x y, In x (cfg_repl (cfg_round_m 0 9 5 cex_remote cex_st)) -> In y cex_remote -> it_id x = it_id y ->
     (it_hash x <> 0%N /\ it_hash y <> 0%N) \/ (it_mod y <= 9)%N) /\
  cfg_issued (d_ups (cfg_diff 9 (view (cfg_round_m 0 9 5 cex_remote cex_st)) cex_remote)) = [].
Proof.
  repeat apply conj.
  - apply (nodupb_sound cfg_eqb_spec); reflexivity.
  - apply (nodupb_sound cfg_eqb_spec); reflexivity.
  - apply all_global_b_sound; reflexivity.
  - apply (consistent_b_sound cfg_eqb_spec); reflexivity.
  - apply (hash_sound_b_sound cfg_eqb_spec); reflexivity.
  - vm_compute. reflexivity.
  - vm_compute. reflexivity.
  - (* every entry of the primary is at or below index 9 *)
    intros x y Hx Hy Hid. right. apply N.leb_le.
    exact (same_id_b_sound cfg_eqb_spec (fun _ y => (it_mod y <=? 9)%N)
             (cfg_repl (cfg_round_m 0 9 5 cex_remote cex_st)) cex_remote eq_refl x y Hx Hy Hid).
  - vm_compute. reflexivity.
Qed.

Example C19_example_full_sync :
  (8 < 50)%N /\ (forall y, In y ex_remote -> (0 < it_mod y)%N) /\ acl_hash_sound (acl_repl ex_st) ex_remote /\
  content (acl_repl (acl_round_m 9 8 50 ex_remote ex_st)) = [([97]%N, 10%N); ([98]%N, 21%N); ([99]%N, 30%N)].
Proof.
  repeat apply conj.
  - lia.
  - intros y Hy. cbn in Hy. destruct Hy as [<-|[<-|[<-|[]]]]; cbn; lia.
  - exact ex_hash_sound.
  - vm_compute. reflexivity.
Qed.

Example C19_example_fed :
  NoDup (ids fex_st) /\ NoDup (ids fex_remote) /\ all_global fex_remote /\
  consistent (effective_last 8 4) (fed_repl fex_st) fex_remote /\
  content (fed_repl (fed_round_m 0 8 4 fex_remote fex_st)) = [([100;99;49]%N, 3%N); ([100;99;50]%N, 2%N)].
Proof.
  repeat apply conj.
  - apply (nodupb_sound bytes_eqb_eq); reflexivity.
  - apply (nodupb_sound bytes_eqb_eq); reflexivity.
  - apply all_global_b_sound; reflexivity.
  - apply (consistent_b_sound bytes_eqb_eq); reflexivity.
  - vm_compute. reflexivity.
Qed.

(* Non-vacuity: a concrete secondary (an up-to-date object, an outdated one, one the primary deleted, a
   local-scoped token, an unmigrated empty-id object) and primary (one more new object) meet the
   hypotheses of C19_round_acl; the round yields exactly the primary's set and leaves the untouchable
   objects as they were. *)
Example C19_hypotheses_satisfiable :
  NoDup (ids (filter acl_live ex_st)) /\ NoDup (ids (filter acl_live ex_remote)) /\ all_global ex_remote /\
  consistent (effective_last 8 5) (acl_repl ex_st) ex_remote /\ acl_hash_sound (acl_repl ex_st) ex_remote /\
  content (acl_repl (acl_round_m 9 8 5 ex_remote ex_st)) = [([97]%N, 10%N); ([98]%N, 21%N); ([99]%N, 30%N)] /\
  filter acl_untouchable (acl_round_m 9 8 5 ex_remote ex_st) = filter acl_untouchable ex_st.
Proof.
  repeat apply conj.
  - apply (nodupb_sound bytes_eqb_eq); reflexivity.
  - apply (nodupb_sound bytes_eqb_eq); reflexivity.
  - apply all_global_b_sound; reflexivity.
  - apply (consistent_b_sound bytes_eqb_eq); reflexivity.
  - exact ex_hash_sound.
  - vm_compute. reflexivity.
  - vm_compute. reflexivity.
Qed.

(* The unique-id hypothesis is needed (ids are the primary key of the tables, so it always holds):
   with the same id twice in the secondary's list the round deletes an object the primary still has
   (after the step on equal ids both indices advance; the second copy falls to the loop over the
   local tail and is issued as a deletion, and remove_id deletes every row with that id). *)
Example C19_unique_ids_needed :
  content (acl_repl (acl_round_m 9 5 5 dup_remote dup_st)) = [] /\
  content (acl_repl dup_remote) = [([97]%N, 1%N)].
Proof. split; vm_compute; reflexivity. Qed.

Print Assumptions C19_walk_is_set_difference.
Print Assumptions C19_diff_names_inputs_only.
Print Assumptions C19_round.
Print Assumptions C19_round_keeps_unique_ids.
Print Assumptions C19_local_untouched.
Print Assumptions C19_idempotent.
Print Assumptions C19_fetch_by_id_is_same_round.
Print Assumptions C19_string_order_laws.
Print Assumptions C19_kind_name_order_laws.
Print Assumptions C19_round_acl.
Print Assumptions C19_full_sync_acl.
Print Assumptions C19_local_untouched_acl.
Print Assumptions C19_idempotent_acl.
Print Assumptions C19_round_config.
Print Assumptions C19_full_sync_config.
Print Assumptions C19_local_untouched_config.
Print Assumptions C19_idempotent_config_refuted.
Print Assumptions C19_idempotent_config_partial.
Print Assumptions C19_round_fed.
Print Assumptions C19_idempotent_fed_refuted.
Print Assumptions C19_idempotent_fed_partial.
Print Assumptions C19_hypotheses_satisfiable.
Print Assumptions C19_unique_ids_needed.
Print Assumptions C19_round_reestablishes_consistent.
Print Assumptions C19_two_rounds.
Print Assumptions C19_second_round_silent.
Print Assumptions C19_store_round_accepted.
Print Assumptions C19_store_round_refused.
Print Assumptions C19_accepted_when_names_free.
Print Assumptions C19_two_snapshots_partial.
Print Assumptions C19_two_rounds_acl.
Print Assumptions C19_two_rounds_config.
Print Assumptions C19_second_round_silent_acl.
Print Assumptions C19_second_round_silent_config.
Print Assumptions C19_second_round_silent_fed.
Print Assumptions C19_round_store_refuted.
Print Assumptions C19_round_store_partial.
Print Assumptions C19_two_snapshots_refuted.
Print Assumptions C19_example_idempotent_acl.
Print Assumptions C19_example_config.
Print Assumptions C19_example_full_sync.
Print Assumptions C19_example_fed.
