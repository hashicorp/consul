(* C17 — exporting side: a service name is offered to a peer exactly when an exported-services
   entry names that peer as a consumer of it (or of the wildcard, for names that exist); a discovery
   chain only if such an entry does. *)
From Verif Require Import Base.Prelude Peering.Model Peering.Lemmas.
Local Open Scope string_scope.

Lemma in_add_all x ys : forall l, In x (add_all ys l) <-> In x ys \/ In x l.
Proof.
  unfold add_all. induction ys as [|y ys IH]; intros l; cbn [fold_left].
  - cbn. intuition.
  - rewrite IH, in_add_str. cbn. intuition.
Qed.

Definition names_peer (peer s : string) (e : string * list string) : Prop :=
  In peer (snd e) /\ (fst e = s \/ fst e = wildcard).

Definition step_services (peer : string) (typical : list string) acc (e : string * list string) :=
  let '(name, consumers) := e in
  if seqb name consul_name then acc
  else if negb (existsb (seqb peer) consumers) then acc
  else if negb (seqb name wildcard) then add_str name acc
  else add_all (filter (fun s => negb (seqb s consul_name)) typical) acc.

Lemma step_services_spec peer typical acc e s :
  In s (step_services peer typical acc e) <->
  In s acc \/ (fst e <> consul_name /\ In peer (snd e) /\
               ((fst e <> wildcard /\ s = fst e) \/ (fst e = wildcard /\ In s typical /\ s <> consul_name))).
Proof.
  destruct e as [name consumers]. cbn [step_services fst snd].
  seqb_cases name consul_name.
  { subst. intuition. }
  destruct (existsb (seqb peer) consumers) eqn:Ep; cbn [negb].
  2:{ apply existsb_seqb_notin in Ep. intuition. }
  apply existsb_seqb_in in Ep.
  seqb_cases name wildcard; cbn [negb].
  - rewrite in_add_all, filter_In, negb_true_iff, seqb_neq. subst. intuition.
  - rewrite in_add_str. intuition.
Qed.

Lemma fold_services_spec peer typical entry : forall acc s,
  In s (fold_left (step_services peer typical) entry acc) <->
  In s acc \/ exists e, In e entry /\ fst e <> consul_name /\ In peer (snd e) /\
               ((fst e <> wildcard /\ s = fst e) \/ (fst e = wildcard /\ In s typical /\ s <> consul_name)).
Proof.
  induction entry as [|e entry IH]; intros acc s; cbn [fold_left].
  - split; [auto|]. intros [H|(e & [] & _)]. exact H.
  - rewrite IH, step_services_spec. split.
    + intros [[H|H]|(e' & He' & H)]; [auto| |].
      * right. exists e. cbn. auto.
      * right. exists e'. cbn. auto.
    + intros [H|(e' & [<-|He'] & H)]; [auto|auto|]. right. exists e'. auto.
Qed.

Lemma exported_services_spec peer entry typical s :
  In s (exported_services peer entry typical) <->
  exists e, In e entry /\ fst e <> consul_name /\ In peer (snd e) /\
            ((fst e <> wildcard /\ s = fst e) \/ (fst e = wildcard /\ In s typical /\ s <> consul_name)).
Proof.
  change (exported_services peer entry typical) with (fold_left (step_services peer typical) entry []).
  rewrite fold_services_spec. cbn. intuition.
Qed.

Lemma exported_services_named peer entry typical s :
  In s (exported_services peer entry typical) ->
  s <> consul_name /\ exists e, In e entry /\ names_peer peer s e.
Proof.
  intros H. apply exported_services_spec in H as (e & He & Hc & Hp & [[Hw ->]|(Hw & Ht & Hs)]).
  - split; [exact Hc|]. exists e. unfold names_peer. auto.
  - split; [exact Hs|]. exists e. unfold names_peer. auto.
Qed.

Definition step_wild (peer : string) (chains : list string) acc (e : string * list string) :=
  let '(name, consumers) := e in
  if seqb name consul_name then acc
  else if negb (existsb (seqb peer) consumers) then acc
  else if negb (seqb name wildcard) then acc
  else add_all (filter (fun s => negb (seqb s consul_name)) chains) acc.

Lemma fold_wild_named peer chains entry : forall acc s,
  In s (fold_left (step_wild peer chains) entry acc) ->
  In s acc \/ (s <> consul_name /\ exists e, In e entry /\ names_peer peer s e).
Proof.
  induction entry as [|e entry IH]; intros acc s; cbn [fold_left]; [auto|].
  intros H. apply IH in H as [H|(Hs & e' & He' & Hn)].
  - destruct e as [name consumers]. cbn [step_wild] in H.
    seqb_cases name consul_name; [auto|].
    destruct (existsb (seqb peer) consumers) eqn:Ep; cbn [negb] in H; [|auto].
    apply existsb_seqb_in in Ep.
    seqb_cases name wildcard; cbn [negb] in H; [|auto].
    apply in_add_all in H as [H|H]; [|auto].
    apply filter_In in H as [_ H]. apply negb_true_iff, seqb_neq in H.
    right. split; [exact H|]. exists (name, consumers). unfold names_peer. cbn. auto.
  - right. split; [exact Hs|]. exists e'. cbn. auto.
Qed.

