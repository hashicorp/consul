(* C17 — the theorems about one update, stated on the received list of instances. *)
From Verif Require Import Base.Prelude Peering.Model Peering.Lemmas Peering.Verbs Peering.Prune
     Peering.Phase1 Peering.Phase2 Peering.Mirror Peering.Snapshot.
Require Import Coq.Sorting.Permutation.
Local Open Scope string_scope.

(* the rows of (peer p, service sn) in c are exactly the received instances [snap]:
   node rows and service rows are the received ones; every received check is stored with the
   same node, id, service id, status and content (ServiceName / ServiceTags are the store's
   own copies of the service row); nothing else is stored for the service or attached to its
   instances.  With unique keys (wf) this determines Store.CheckServiceNodes(sn, p). *)
Record mirrors (c : cat) (p sn : string) (snap : list inst) : Prop := {
  mi_wf : wf c;
  mi_in : forall i, In i snap ->
                    In (i_node i) (nodes c) /\ In (i_svc i) (svcs c) /\
                    forall k, In k (i_chks i) -> exists r, In r (chks c) /\ img_chk k r;
  mi_svcs : forall z, In z (svcs c) -> s_peer z = p -> s_name z = sn -> exists i, In i snap /\ i_svc i = z;
  mi_chks : forall i r, In i snap -> In r (chks c) -> c_peer r = p -> c_node r = n_name (i_node i) ->
                        (c_sid r = "" \/ c_sid r = s_id (i_svc i)) ->
                        exists k, In k (i_chks i) /\ img_chk k r }.

(* no stored node of the peer holds the ID of a received node under another name *)
Definition ids_keep_names (c0 : cat) (p : string) (snap : list inst) : Prop :=
  forall i b, In i snap -> In b (nodes c0) -> n_peer b = p ->
              n_id b = n_id (i_node i) -> n_id (i_node i) <> "" -> n_name b = n_name (i_node i).

(* a check id that is both stored and received on a node has the same owner in both *)
Definition check_ids_keep_owner (c0 : cat) (p : string) (snap : list inst) : Prop :=
  forall k0 i k, In k0 (chks c0) -> c_peer k0 = p -> In i snap -> In k (i_chks i) ->
                 c_node k0 = n_name (i_node i) -> c_id k0 = c_id k -> c_sid k = c_sid k0.

(* a stored check that sits in the slot of a received instance (its node's checks, or the
   checks of its service id) and that the snapshot does not list is attached to a stored
   instance of this service that the snapshot retains *)
Definition slots_owned (c0 : cat) (p sn : string) (snap : list inst) : Prop :=
  forall k0 i, In k0 (chks c0) -> c_peer k0 = p -> In i snap -> c_node k0 = n_name (i_node i) ->
               (c_sid k0 = "" \/ c_sid k0 = s_id (i_svc i)) ->
               (forall k, In k (i_chks i) -> c_id k <> c_id k0) ->
               exists j z, In j snap /\ n_name (i_node j) = n_name (i_node i) /\
                           In z (svcs c0) /\ s_peer z = p /\ s_node z = n_name (i_node i) /\
                           s_id z = s_id (i_svc j) /\ s_name z = sn /\ (c_sid k0 <> "" -> j = i).

(* stored service and check ids of the peer are not empty (the handler panics on a snapshot with an
   empty id; assumed of the store, not proved over histories) *)
Definition ids_nonempty (c0 : cat) (p : string) : Prop :=
  (forall z, In z (svcs c0) -> s_peer z = p -> s_id z <> "") /\
  (forall k, In k (chks c0) -> c_peer k = p -> c_id k <> "").

Section Top.
  Variables (sh : shuffles) (p sn : string) (c0 : cat) (export : list inst).
  (* the calls logged before this update (the exported-service-list handler runs several in a row) *)
  Variable ops0 : list op.
  Let snap := map (inst_set_peer p) export.
  Let hs := new_health_snapshot p export.
  Let run := handle_update_from sh (HSt c0 ops0 None) p sn (Some export).
  Hypothesis sh_ok : shuffles_ok sh.
  Hypothesis wf0 : wf c0.
  Hypothesis C : snap_coh p sn snap.
  Hypothesis H1 : ids_keep_names c0 p snap.
  Hypothesis H2 : check_ids_keep_owner c0 p snap.
  Hypothesis H3 : slots_owned c0 p sn snap.
  Hypothesis H4 : ids_nonempty c0 p.

  Let R : rep snap hs := nhs_rep p sn export C.

  (* a slot of the handler's snapshot is a received instance *)
  Let slot (x : nsnap) (y : ssnap) : inst := Inst (ns_node x) (ss_svc y) (ss_chks y).

  Lemma in_snap x y : In x hs -> In y (ns_svcs x) -> In (slot x y) snap.
  Proof. apply (rp_slot _ _ R). Qed.

  Lemma some_svc x : In x hs -> exists y, In y (ns_svcs x).
  Proof.
    intros Hx. pose proof (rp_ne _ _ R x Hx) as Hne. destruct (ns_svcs x) as [|y ys]; [contradiction|].
    exists y. left. reflexivity.
  Qed.

  Lemma top_hs_wf : hs_wf p hs.
  Proof.
    split.
    - apply (rp_names _ _ R).
    - intros x Hx. destruct (some_svc x Hx) as (y & Hy). apply (sc_peer _ _ _ C _ (in_snap x y Hx Hy)).
    - apply (rp_sids _ _ R).
    - intros x y Hx Hy. destruct (sc_peer _ _ _ C _ (in_snap x y Hx Hy)) as (_ & A & B & _). auto.
    - intros x y Hx Hy. apply (sc_cids _ _ _ C _ (in_snap x y Hx Hy)).
    - intros x y k Hx Hy. apply (sc_peer _ _ _ C _ (in_snap x y Hx Hy)).
  Qed.

  Lemma top_coh : hs_chk_coh hs.
  Proof.
    split.
    - intros x y k Hx Hy Hk. apply (sc_chk _ _ _ C _ k (in_snap x y Hx Hy) Hk).
    - intros x y k Hx Hy Hk. apply (sc_chk _ _ _ C _ k (in_snap x y Hx Hy) Hk).
    - intros x y y' k k' Hx Hy Hy'. apply (sc_same _ _ _ C _ _ k k' (in_snap x y Hx Hy) (in_snap x y' Hx Hy')). reflexivity.
  Qed.

  Lemma top_Hid0 : ids_keep c0 p hs.
  Proof.
    intros x b Hx. destruct (some_svc x Hx) as (y & Hy). apply (H1 _ b (in_snap x y Hx Hy)).
  Qed.

  Lemma top_Hid1 : ids_one_name hs.
  Proof.
    intros x x' Hx Hx'. destruct (some_svc x Hx) as (y & Hy). destruct (some_svc x' Hx') as (y' & Hy').
    apply (sc_ids _ _ _ C _ _ (in_snap x y Hx Hy) (in_snap x' y' Hx' Hy')).
  Qed.

  Lemma top_Hsid : chks_own hs.
  Proof. intros x y k Hx Hy Hk. apply (sc_chk _ _ _ C _ k (in_snap x y Hx Hy) Hk). Qed.

  Lemma top_Huni : node_chks_shared hs.
  Proof.
    intros x y y' k Hx Hy Hy'. apply (sc_uni _ _ _ C _ _ k (in_snap x y Hx Hy) (in_snap x y' Hx Hy')). reflexivity.
  Qed.

  Lemma top_Hsidne : sids_nonempty hs.
  Proof. intros x y Hx Hy. apply (sc_name _ _ _ C _ (in_snap x y Hx Hy)). Qed.

  Lemma top_Hstable : owners_stable c0 p hs.
  Proof. intros k0 x y k Hk0 Hp Hx Hy. apply (H2 k0 _ k Hk0 Hp (in_snap x y Hx Hy)). Qed.

  Lemma top_Howned : slots_retained c0 p sn hs.
  Proof.
    intros k0 x y Hk0 Hp Hx Hy Hn Hs Hh.
    destruct (H3 k0 _ Hk0 Hp (in_snap x y Hx Hy) Hn Hs) as (j & z & Hj & Ejn & Hz & Zp & Zn & Zi & Zs & Zj).
    { intros k Hk E. assert (has_chk y (c_id k0) = true) by (apply has_chk_true; exists k; auto). congruence. }
    destruct (rp_all _ _ R j Hj) as (x2 & y2 & Hx2 & Hy2 & F1 & F2 & _).
    assert (x2 = x) as -> by (apply (same_entry p hs top_hs_wf); auto; rewrite F1; exact Ejn).
    exists y2, z. rewrite F2. repeat split; auto.
    intros Hne. apply (same_svc p hs top_hs_wf x y y2 Hx Hy Hy2). rewrite F2, (Zj Hne). reflexivity.
  Qed.

  Lemma top_run :
    h_err run = None ->
    exists stored, check_service_nodes c0 p sn = Ok stored /\
      run = phase2 sh p hs stored (fold_left (fun s x => node_block sh stored x s) (sh_nodes sh hs) (HSt c0 ops0 None)).
  Proof.
    intros He. destruct (handle_update_from_ok _ _ _ _ _ He) as (_ & stored & Hcsn & E). exists stored. split; assumption.
  Qed.

  Theorem mirror_top :
    Forall is_reg ops0 -> h_err run = None -> mirrors (h_cat run) p sn snap.
  Proof.
    intros Hops0 He. destruct (top_run He) as (stored & Hcsn & E). rewrite E in *. clear E.
    (* the hypotheses of the theorem on the handler's own snapshot *)
    pose proof top_Hid0 as Hid0. pose proof top_Hid1 as Hid1. pose proof top_hs_wf as Hhs. pose proof top_coh as Hcoh.
    pose proof top_Hsid as Hsid. pose proof top_Huni as Huni. pose proof top_Hsidne as Hsidne.
    pose proof top_Hstable as Hstable. pose proof top_Howned as Howned. destruct H4 as [Hids_s Hids_k].
    split.
    - apply (wf' sh p sn c0 hs stored ops0); auto.
    - intros i Hi. destruct (rp_all _ _ R i Hi) as (x & y & Hx & Hy & E1 & E2 & E3).
      split; [rewrite <- E1; apply (snap_node_kept sh p sn c0 hs stored ops0); auto|].
      split; [rewrite <- E2; apply (snap_svc_kept sh p sn c0 hs stored ops0) with (x := x); auto|].
      intros k Hk. rewrite <- E3 in Hk. apply (snap_chk_kept sh p sn c0 hs stored ops0) with (x := x) (y := y); auto.
    - intros z Hz Hp Hn.
      edestruct (svc_from_snap sh p sn c0 hs stored ops0) with (z := z) as (x & y & Hx & Hy & E); eauto.
      exists (slot x y). split; [apply in_snap; assumption | symmetry; exact E].
    - intros i r Hi Hr Hp Hn Hs. destruct (rp_all _ _ R i Hi) as (x & y & Hx & Hy & E1 & E2 & E3).
      rewrite <- E1 in Hn. rewrite <- E2 in Hs.
      edestruct (chk_from_snap sh p sn c0 hs stored ops0) with (r := r) (x := x) (y := y) as (k & Hk & Hi'); eauto.
      exists k. rewrite <- E3. auto.
  Qed.

  Theorem same_peer_top :
    h_err run = None ->
    forall z, In z (svcs c0) -> s_peer z = p -> s_name z <> sn ->
              (forall i, In i snap -> svc_key (i_svc i) <> svc_key z) ->
      In z (svcs (h_cat run)) /\
      (forall b, In b (nodes c0) -> n_peer b = p -> n_name b = s_node z ->
                 (forall i, In i snap -> n_name (i_node i) <> n_name b) -> In b (nodes (h_cat run))) /\
      (forall k, In k (chks c0) -> c_peer k = p -> c_node k = s_node z -> c_sid k = s_id z ->
                 (forall i k', In i snap -> In k' (i_chks i) -> chk_key k' <> chk_key k) -> In k (chks (h_cat run))).
  Proof.
    intros He z Hz Zp Zn Zslot. destruct (top_run He) as (stored & Hcsn & E). rewrite E in *. clear E.
    pose proof top_hs_wf as Hhs. pose proof top_coh as Hcoh.
    destruct H4 as [Hids_s Hids_k].
    assert (Zslot' : forall x y, In x hs -> In y (ns_svcs x) -> svc_key (ss_svc y) <> svc_key z).
    { intros x y Hx Hy. apply (Zslot _ (in_snap x y Hx Hy)). }
    split; [|split].
    - eapply (other_svc_kept sh p sn c0 hs stored ops0); eauto using top_Hid0, top_Hid1.
    - intros b Hb Bp Bn Hnot.
      eapply (other_node_kept sh p sn c0 hs stored ops0) with (z := z); eauto using top_Hid0, top_Hid1.
      intros x Hx. destruct (some_svc x Hx) as (y & Hy). apply (Hnot _ (in_snap x y Hx Hy)).
    - intros k Hk Kp Kn Ks Hnot.
      eapply (other_chk_kept sh p sn c0 hs stored ops0) with (z := z); eauto using top_Hid0, top_Hid1.
      intros x y k' Hx Hy. apply (Hnot _ k' (in_snap x y Hx Hy)).
  Qed.

  Theorem uninvolved_top :
    h_err run = None ->
    forall n, (forall i, In i snap -> n_name (i_node i) <> n) ->
              (forall y, In y (svcs c0) -> s_peer y = p -> s_node y = n -> s_name y <> sn) ->
      (forall b, In b (nodes c0) -> n_peer b = p -> n_name b = n -> In b (nodes (h_cat run))) /\
      (forall y, In y (svcs c0) -> s_peer y = p -> s_node y = n -> In y (svcs (h_cat run))) /\
      (forall k, In k (chks c0) -> c_peer k = p -> c_node k = n -> In k (chks (h_cat run))).
  Proof.
    intros He n Nsnap Nstored. destruct (top_run He) as (stored & Hcsn & E). rewrite E in *. clear E.
    pose proof top_hs_wf as Hhs. pose proof top_coh as Hcoh.
    destruct H4 as [Hids_s Hids_k].
    eapply (uninvolved_kept sh p sn c0 hs stored ops0); eauto using top_Hid0, top_Hid1.
    intros x Hx. destruct (some_svc x Hx) as (y & Hy). apply (Nsnap _ (in_snap x y Hx Hy)).
  Qed.
End Top.

Lemma csn_of_total c p : forall l,
  (forall y, In y l -> get_node c p (s_node y) <> None) -> exists stored, csn_of c p l = Ok stored.
Proof.
  induction l as [|y l IH]; intros H; cbn [csn_of]; [eexists; reflexivity|].
  destruct (get_node c p (s_node y)) as [nd|] eqn:G; [|exfalso; apply (H y); [left; reflexivity|exact G]].
  destruct IH as (rest & ->); [intros z Hz; apply H; right; exact Hz|]. cbn [bind]. eexists. reflexivity.
Qed.

Theorem mirrors_view c p sn snap :
  mirrors c p sn snap -> snap_coh p sn snap ->
  exists view, check_service_nodes c p sn = Ok view /\
    (forall j, In j view -> exists i, In i snap /\ i_node j = i_node i /\ i_svc j = i_svc i /\
                                      (forall r, In r (i_chks j) -> exists k, In k (i_chks i) /\ img_chk k r) /\
                                      (forall k, In k (i_chks i) -> exists r, In r (i_chks j) /\ img_chk k r)) /\
    (forall i, In i snap -> exists j, In j view /\ i_svc j = i_svc i).
Proof.
  intros [W Min Ms Mc] C.
  assert (Hnode : forall i, In i snap -> get_node c p (s_node (i_svc i)) = Some (i_node i)).
  { intros i Hi. destruct (Min i Hi) as (Hn & _). destruct (sc_peer _ _ _ C i Hi) as (Np & _ & Sn & _).
    rewrite Sn, <- Np. apply in_get_node; assumption. }
  destruct (csn_of_total c p (filter (fun s => seqb (s_peer s) p && seqb (s_name s) sn) (svcs c))) as (view & Hv).
  { intros y Hy. apply filter_In in Hy as [Hy E]. apply andb_true_iff in E as [E1 E2]. apply seqb_eq in E1, E2.
    destruct (Ms y Hy E1 E2) as (i & Hi & <-). rewrite (Hnode i Hi). discriminate. }
  exists view. split; [exact Hv|]. split.
  - intros j Hj. destruct (stored_all_ok c p sn view Hv j Hj) as [A B N (D1 & D2 & D3) K].
    destruct (Ms (i_svc j) A B N) as (i & Hi & E). exists i. split; [exact Hi|].
    destruct (Min i Hi) as (Hn & Hs & Hk). destruct (sc_peer _ _ _ C i Hi) as (Np & Sp & Sn & Kp).
    assert (En : i_node j = i_node i).
    { apply (nodup_key_inj node_key (nodes c)); [apply W | exact D1 | exact Hn |].
      unfold node_key. rewrite D2, Np, D3, <- E, Sn. reflexivity. }
    split; [exact En|]. split; [symmetry; exact E|]. split.
    + intros r Hr. apply K in Hr as (R1 & R2 & R3 & R4). apply (Mc i r Hi R1 R2).
      * rewrite R3, <- E, Sn. reflexivity.
      * rewrite <- E in R4. exact R4.
    + intros k Hk'. destruct (Hk k Hk') as (r & Hr & Hi'). exists r. split; [|exact Hi'].
      destruct Hi' as [Kk Kc]. destruct (sc_chk _ _ _ C i k Hi Hk') as (Cn & Cs & _).
      apply K. split; [exact Hr|].
      unfold chk_key in Kk. injection Kk as K1 K2 K3. unfold chk_core in Kc.
      assert (c_sid r = c_sid k) by congruence.
      repeat split.
      * rewrite K1. apply Kp. exact Hk'.
      * rewrite K2, Cn, <- E, Sn. reflexivity.
      * rewrite H, <- E. exact Cs.
  - intros i Hi. destruct (Min i Hi) as (_ & Hs & _). destruct (sc_peer _ _ _ C i Hi) as (_ & Sp & _).
    destruct (sc_name _ _ _ C i Hi) as (Nm & _).
    destruct (stored_complete c p sn view Hv (i_svc i) Hs Sp Nm) as (j & Hj & E). exists j. auto.
Qed.
