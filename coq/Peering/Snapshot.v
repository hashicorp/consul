(* C17 — newHealthSnapshot: for a coherent list of received instances (what a catalog query
   returns) the handler's normalised snapshot is that list grouped by node, nothing lost,
   nothing merged. *)
From Verif Require Import Base.Prelude Peering.Model Peering.Lemmas.
Require Import Coq.Sorting.Permutation.
Local Open Scope string_scope.

Lemma chk_upsert_new k l : ~ In (c_id k) (map c_id l) -> chk_upsert k l = (l ++ [k])%list.
Proof.
  induction l as [|x l IH]; intros H; cbn [chk_upsert app]; [reflexivity|].
  cbn [map In] in H. seqb_cases (c_id x) (c_id k); [exfalso; apply H; left; exact E|].
  rewrite IH; [reflexivity|]. intros Hin. apply H. right. exact Hin.
Qed.

Lemma add_checks_new ks : forall l, NoDup (map c_id (l ++ ks)) -> add_checks ks l = (l ++ ks)%list.
Proof.
  unfold add_checks. induction ks as [|k ks IH]; intros l H; cbn [fold_left]; [rewrite app_nil_r; reflexivity|].
  rewrite chk_upsert_new.
  - rewrite IH; [rewrite <- app_assoc; reflexivity|]. rewrite <- app_assoc. exact H.
  - rewrite map_app in H. cbn [map] in H. apply NoDup_remove_2 in H. intros Hin. apply H. apply in_app_iff. left. exact Hin.
Qed.

Lemma svc_upsert_new i l :
  ~ In (s_id (i_svc i)) (map (fun y => s_id (ss_svc y)) l) ->
  svc_upsert i l = (l ++ [SSnap (i_svc i) (add_checks (i_chks i) [])])%list.
Proof.
  induction l as [|x l IH]; intros H; cbn [svc_upsert app]; [reflexivity|].
  cbn [map In] in H. seqb_cases (s_id (ss_svc x)) (s_id (i_svc i)); [exfalso; apply H; left; exact E|].
  rewrite IH; [reflexivity|]. intros Hin. apply H. right. exact Hin.
Qed.

(* a list of instances as a catalog query for one service name returns it
   (after the handler has stamped the peer name and the node name on the rows) *)
Record snap_coh (p sn : string) (snap : list inst) : Prop := {
  sc_peer : forall i, In i snap -> n_peer (i_node i) = p /\ s_peer (i_svc i) = p
                                   /\ s_node (i_svc i) = n_name (i_node i) /\ forall k, In k (i_chks i) -> c_peer k = p;
  sc_name : forall i, In i snap -> s_name (i_svc i) = sn /\ s_id (i_svc i) <> "";
  (* one row per (node, service id) *)
  sc_keys : NoDup (map (fun i => (n_name (i_node i), s_id (i_svc i))) snap);
  (* one node record per node name, one node name per node ID *)
  sc_node : forall i j, In i snap -> In j snap -> n_name (i_node i) = n_name (i_node j) -> i_node i = i_node j;
  sc_ids : forall i j, In i snap -> In j snap -> n_id (i_node j) = n_id (i_node i) -> n_id (i_node i) <> "" ->
                       n_name (i_node j) = n_name (i_node i);
  (* checks: on the instance's node, of the node or of the instance itself, a status, one per id *)
  sc_cids : forall i, In i snap -> NoDup (map c_id (i_chks i));
  sc_chk : forall i k, In i snap -> In k (i_chks i) ->
                       c_node k = n_name (i_node i) /\ (c_sid k = "" \/ c_sid k = s_id (i_svc i)) /\ c_status k <> 0%N;
  (* node-level checks are attached to every instance of the node; a check id names one check on a node *)
  sc_uni : forall i j k, In i snap -> In j snap -> n_name (i_node i) = n_name (i_node j) ->
                         In k (i_chks i) -> c_sid k = "" -> In k (i_chks j);
  sc_same : forall i j k k', In i snap -> In j snap -> n_name (i_node i) = n_name (i_node j) ->
                             In k (i_chks i) -> In k' (i_chks j) -> c_id k = c_id k' -> k = k' }.

Definition flatten (h : hsnap) : list inst :=
  flat_map (fun x => map (fun y => Inst (ns_node x) (ss_svc y) (ss_chks y)) (ns_svcs x)) h.

Lemma in_flatten h j :
  In j (flatten h) <-> exists x y, In x h /\ In y (ns_svcs x) /\ j = Inst (ns_node x) (ss_svc y) (ss_chks y).
Proof.
  unfold flatten. rewrite in_flat_map. split.
  - intros (x & Hx & Hj). apply in_map_iff in Hj as (y & <- & Hy). eauto.
  - intros (x & y & Hx & Hy & ->). exists x. split; [exact Hx|]. apply in_map_iff. eauto.
Qed.

Record rep (l : list inst) (h : hsnap) : Prop := {
  rp_names : NoDup (map (fun x => n_name (ns_node x)) h);
  rp_sids : forall x, In x h -> NoDup (map (fun y => s_id (ss_svc y)) (ns_svcs x));
  rp_ne : forall x, In x h -> ns_svcs x <> [];
  rp_flat : forall j, In j (flatten h) <-> In j l }.

Lemma rp_slot l h : rep l h -> forall x y, In x h -> In y (ns_svcs x) ->
  In (Inst (ns_node x) (ss_svc y) (ss_chks y)) l.
Proof. intros R x y Hx Hy. apply (rp_flat _ _ R), in_flatten. eauto. Qed.

Lemma rp_all l h : rep l h -> forall i, In i l ->
  exists x y, In x h /\ In y (ns_svcs x) /\ ns_node x = i_node i /\ ss_svc y = i_svc i /\ ss_chks y = i_chks i.
Proof.
  intros R i Hi. apply (rp_flat _ _ R), in_flatten in Hi as (x & y & Hx & Hy & ->). exists x, y. auto.
Qed.

Lemma rep_nil : rep [] [].
Proof. split; [constructor | intros x [] | intros x [] | reflexivity]. Qed.

(* one more instance: it joins the entry of its node, whose record is its own, under a new
   service id, or opens a new entry *)
Lemma node_upsert_rep i h :
  NoDup (map c_id (i_chks i)) ->
  NoDup (map (fun x => n_name (ns_node x)) h) ->
  (forall x, In x h -> NoDup (map (fun y => s_id (ss_svc y)) (ns_svcs x)) /\ ns_svcs x <> []) ->
  (forall z, In z h -> n_name (ns_node z) = n_name (i_node i) ->
             ns_node z = i_node i /\ ~ In (s_id (i_svc i)) (map (fun y => s_id (ss_svc y)) (ns_svcs z))) ->
  NoDup (map (fun x => n_name (ns_node x)) (node_upsert i h)) /\
  (forall x, In x (node_upsert i h) -> NoDup (map (fun y => s_id (ss_svc y)) (ns_svcs x)) /\ ns_svcs x <> []) /\
  (forall j, In j (flatten (node_upsert i h)) <-> In j (flatten h) \/ j = i) /\
  (forall n, In n (map (fun x => n_name (ns_node x)) (node_upsert i h)) ->
             In n (map (fun x => n_name (ns_node x)) h) \/ n = n_name (i_node i)).
Proof.
  intros Hc. assert (Hchk : add_checks (i_chks i) [] = i_chks i) by (apply (add_checks_new (i_chks i) []); exact Hc).
  induction h as [|x h IH]; intros Hn Hx Hz; cbn [node_upsert].
  - cbn [svc_upsert]. rewrite Hchk. split; [|split; [|split]].
    + repeat constructor. intros [].
    + intros x [<-|[]]. cbn. split; [repeat constructor; intros [] | discriminate].
    + intros j. destruct i. cbn. intuition.
    + cbn. intuition.
  - inversion Hn as [|? ? Hnin Hn']; subst. seqb_cases (n_name (ns_node x)) (n_name (i_node i)).
    + (* the entry of the node *)
      destruct (Hz x (or_introl eq_refl) E) as [En Hsid]. destruct (Hx x (or_introl eq_refl)) as [Hs Hne].
      rewrite (svc_upsert_new i (ns_svcs x) Hsid), Hchk. split; [exact Hn|]. split; [|split].
      * intros x' [<-|Hx']; [|apply Hx; right; exact Hx']. cbn [ns_svcs]. rewrite map_app. cbn [map].
        split; [apply NoDup_app_snoc; assumption | destruct (ns_svcs x); discriminate].
      * intros j. unfold flatten. cbn [flat_map ns_svcs ns_node]. rewrite map_app, !in_app_iff. cbn [map In].
        rewrite En. destruct i. cbn. intuition.
      * intros n Hin. left. exact Hin.
    + (* another entry *)
      destruct IH as (A & B & C & D); [exact Hn' | intros; apply Hx; right; assumption | intros; apply Hz; [right|]; assumption|].
      split; [|split; [|split]].
      * cbn [map]. constructor; [|exact A]. intros Hin. destruct (D _ Hin) as [H|H]; [apply Hnin, H | exact (E H)].
      * intros x' [<-|Hx']; [apply Hx; left; reflexivity | apply B, Hx'].
      * intros j. unfold flatten in *. cbn [flat_map]. rewrite !in_app_iff, C. intuition.
      * intros n [<-|Hin]; [left; left; reflexivity|]. destruct (D n Hin); [left; right|right]; assumption.
Qed.

Lemma rep_step l h i :
  rep l h ->
  NoDup (map c_id (i_chks i)) ->
  (forall j, In j l -> (n_name (i_node j), s_id (i_svc j)) <> (n_name (i_node i), s_id (i_svc i))) ->
  (forall j, In j l -> n_name (i_node j) = n_name (i_node i) -> i_node j = i_node i) ->
  rep (l ++ [i]) (node_upsert i h).
Proof.
  intros R Hc Hk Hnode. destruct R as [Rn Rs Rne Rf].
  destruct (node_upsert_rep i h Hc Rn) as (A & B & C & _).
  - intros x Hx. split; [apply Rs | apply Rne]; exact Hx.
  - intros z Hz Ez.
    assert (Hin : forall y, In y (ns_svcs z) -> In (Inst (ns_node z) (ss_svc y) (ss_chks y)) l).
    { intros y Hy. apply Rf, in_flatten. eauto. }
    split.
    + destruct (ns_svcs z) as [|y0 ys] eqn:Es; [destruct (Rne z Hz Es)|].
      apply (Hnode _ (Hin y0 (or_introl eq_refl))). exact Ez.
    + intros Hs. apply in_map_iff in Hs as (y & Ey & Hy). apply (Hk _ (Hin y Hy)). cbn. congruence.
  - split; [exact A | apply B | apply B |]. intros j. rewrite C, Rf, in_app_iff. cbn. intuition.
Qed.

Lemma rep_fold : forall l done h,
  rep done h ->
  (forall i, In i l -> NoDup (map c_id (i_chks i))) ->
  NoDup (map (fun i => (n_name (i_node i), s_id (i_svc i))) (done ++ l)) ->
  (forall i j, In i (done ++ l) -> In j (done ++ l) -> n_name (i_node i) = n_name (i_node j) -> i_node i = i_node j) ->
  rep (done ++ l) (fold_left (fun h i => node_upsert i h) l h).
Proof.
  induction l as [|i l IH]; intros done h R Hc Hk Hn; cbn [fold_left]; [rewrite app_nil_r; exact R|].
  replace (done ++ i :: l)%list with ((done ++ [i]) ++ l)%list in * by (rewrite <- app_assoc; reflexivity).
  apply IH.
  - apply rep_step; [exact R | apply Hc; left; reflexivity | |].
    + intros j Hj E. rewrite <- app_assoc in Hk. cbn [app] in Hk. rewrite map_app in Hk. cbn [map] in Hk.
      apply NoDup_remove_2 in Hk. apply Hk. apply in_app_iff. left. rewrite <- E. apply in_map_iff. exists j. auto.
    + intros j Hj E. apply Hn; [| |exact E]; apply in_app_iff; left; apply in_app_iff; [left; exact Hj | right; left; reflexivity].
  - intros j Hj. apply Hc. right. exact Hj.
  - exact Hk.
  - exact Hn.
Qed.

Lemma nhs_rep p sn export :
  snap_coh p sn (map (inst_set_peer p) export) ->
  rep (map (inst_set_peer p) export) (new_health_snapshot p export).
Proof.
  intros C. unfold new_health_snapshot.
  assert (E : forall l h, fold_left (fun h i => node_upsert (inst_set_peer p i) h) l h
                          = fold_left (fun h i => node_upsert i h) (map (inst_set_peer p) l) h).
  { induction l as [|i l IH]; intros h; cbn [fold_left map]; [reflexivity|apply IH]. }
  rewrite E. apply (rep_fold (map (inst_set_peer p) export) [] [] rep_nil).
  - apply (sc_cids p sn _ C).
  - apply (sc_keys p sn _ C).
  - apply (sc_node p sn _ C).
Qed.
