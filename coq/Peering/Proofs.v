(* C17 — the unconditional statements (refuted in Properties/C17.v by the witnesses of Refute.v)
   and the examples showing that the hypotheses of the conditional theorems are met by
   non-trivial inputs. *)
From Verif Require Import Base.Prelude Peering.Model Peering.Lemmas Peering.Verbs Peering.Snapshot
     Peering.MirrorTop Peering.Refute.
Require Import Coq.Sorting.Permutation.
Local Open Scope string_scope.

(* "after an exported-service update the catalog for (peer, service) equals the snapshot":
   for every prior state and every coherent snapshot — FALSE of the code *)
Definition mirror_statement : Prop :=
  forall sh c0 p sn export,
    shuffles_ok sh -> wf c0 -> ids_nonempty c0 p ->
    snap_coh p sn (map (inst_set_peer p) export) ->
    h_err (handle_update_service sh c0 p sn (Some export)) = None ->
    mirrors (h_cat (handle_update_service sh c0 p sn (Some export))) p sn (map (inst_set_peer p) export).

(* "other services of the same peer keep their instances" — FALSE when a node is renamed *)
Definition same_peer_statement : Prop :=
  forall sh c0 p sn export,
    shuffles_ok sh -> wf c0 -> ids_nonempty c0 p ->
    snap_coh p sn (map (inst_set_peer p) export) ->
    h_err (handle_update_service sh c0 p sn (Some export)) = None ->
    forall z, In z (svcs c0) -> s_peer z = p -> s_name z <> sn ->
              (forall i, In i (map (inst_set_peer p) export) -> svc_key (i_svc i) <> svc_key z) ->
              In z (svcs (h_cat (handle_update_service sh c0 p sn (Some export)))).

Definition ids_nonempty_b (c : cat) (p : string) : bool :=
  forallb (fun z => negb (seqb (s_peer z) p && seqb (s_id z) "")) (svcs c)
  && forallb (fun k => negb (seqb (c_peer k) p && seqb (c_id k) "")) (chks c).

Lemma ids_nonempty_b_spec c p : ids_nonempty_b c p = true -> ids_nonempty c p.
Proof.
  unfold ids_nonempty_b. rewrite andb_true_iff, !forallb_forall. intros [Hs Hk]. split.
  - intros z Hz Hp E. specialize (Hs z Hz). rewrite Hp, E, !seqb_refl in Hs. discriminate.
  - intros k Hk' Hp E. specialize (Hk k Hk'). rewrite Hp, E, !seqb_refl in Hk. discriminate.
Qed.

Lemma mirror_statement_at sh c0 export :
  mirror_statement -> shuffles_ok sh -> wf_b c0 = true -> ids_nonempty_b c0 pa = true ->
  coherent_b pa "web" (map (inst_set_peer pa) export) = true ->
  h_err (handle_update_service sh c0 pa "web" (Some export)) = None ->
  mirrors (h_cat (handle_update_service sh c0 pa "web" (Some export))) pa "web" (map (inst_set_peer pa) export).
Proof.
  intros H Hsh W Hne C E. apply H; auto using wf_b_spec, ids_nonempty_b_spec, coherent_b_spec.
Qed.

(* prior state: the peer's node a with web1 and a check the exporter has dropped; a local row
   and a row of another peer under the same names.  Snapshot: node a with new content, web1
   with new content, one new check. *)
Definition ex_before : cat :=
  Cat [Node pa "a" "" 5; Node "" "a" "" 1; Node "peer-b" "a" "" 2]
      [mk_svc "a" "web1" "web" 9; Svc "" "a" "web1" "web" 7 1 0 false "" [] false;
       Svc "peer-b" "a" "web1" "web" 7 2 0 false "" [] false]
      [Chk pa "a" "old" "web1" "web" 7 1 3; Chk "" "a" "old" "web1" "web" 7 1 3]
      [].
Definition ex_export : list inst :=
  [Inst (Node "" "a" "" 6) (mk_svc "a" "web1" "web" 10) [Chk "" "a" "new" "web1" "web" 7 1 4]].
Definition ex_snap := map (inst_set_peer pa) ex_export.

(* and there the rows of the local cluster and of peer-b with the same node, service and
   check names are untouched while the peer's rows are replaced *)
Lemma ex_result :
  h_cat (handle_update_service id_shuffles ex_before pa "web" (Some ex_export)) =
  Cat [Node pa "a" "" 6; Node "" "a" "" 1; Node "peer-b" "a" "" 2]
      [mk_svc "a" "web1" "web" 10; Svc "" "a" "web1" "web" 7 1 0 false "" [] false;
       Svc "peer-b" "a" "web1" "web" 7 2 0 false "" [] false]
      [Chk pa "a" "new" "web1" "web" 7 1 4; Chk "" "a" "old" "web1" "web" 7 1 3]
      [].
Proof. vm_compute. reflexivity. Qed.

(* prior state: the peer's node a carries a node ID and hosts web1 (check c1) and api1 of another
   service (check c9); node u hosts only api2 and a node-level check.  Snapshot of web: node a with
   the SAME node ID (new content), web1 with new content, check c1 with the same owner, new status. *)
Definition ex2_before : cat :=
  Cat [Node pa "a" idX 5; Node pa "u" "" 1]
      [mk_svc "a" "web1" "web" 9; mk_svc "a" "api1" "api" 9; mk_svc "u" "api2" "api" 9]
      [Chk pa "a" "c1" "web1" "web" 7 1 3; Chk pa "a" "c9" "api1" "api" 7 1 3; Chk pa "u" "serf" "" "" 7 1 3]
      [].
Definition ex2_export : list inst :=
  [Inst (Node "" "a" idX 6) (mk_svc "a" "web1" "web" 10) [Chk "" "a" "c1" "web1" "web" 7 2 3]].
Definition ex2_snap := map (inst_set_peer pa) ex2_export.

Lemma ex2_hypotheses :
  wf ex2_before /\ snap_coh pa "web" ex2_snap /\ ids_keep_names ex2_before pa ex2_snap /\
  check_ids_keep_owner ex2_before pa ex2_snap /\ slots_owned ex2_before pa "web" ex2_snap /\
  ids_nonempty ex2_before pa /\
  h_err (handle_update_service id_shuffles ex2_before pa "web" (Some ex2_export)) = None /\
  (* the ID hypothesis is met by a stored node that really holds the received ID *)
  (exists b i, In b (nodes ex2_before) /\ In i ex2_snap /\ n_id b = n_id (i_node i) /\ n_id b <> "") /\
  (* and the owner hypothesis by a check id that is both stored and received *)
  (exists k0 i k, In k0 (chks ex2_before) /\ In i ex2_snap /\ In k (i_chks i) /\ c_node k0 = n_name (i_node i) /\ c_id k0 = c_id k).
Proof.
  split; [apply wf_b_spec; vm_compute; reflexivity|].
  split; [apply coherent_b_spec; vm_compute; reflexivity|].
  split; [|split; [|split; [|split; [|split; [|split]]]]].
  - intros i b [<-|[]] Hb _ Hid _. cbn in Hb, Hid. destruct Hb as [<-|[<-|[]]]; [reflexivity | cbn in Hid; discriminate].
  - intros k0 i k Hk0 _ [<-|[]] [<-|[]] Hn Hid. cbn in Hk0, Hn, Hid.
    destruct Hk0 as [<-|[<-|[<-|[]]]]; cbn in Hn, Hid |- *; try reflexivity; discriminate.
  - intros k0 i Hk0 _ [<-|[]] Hn Hs Hno. cbn in Hk0, Hn, Hs. exfalso.
    destruct Hk0 as [<-|[<-|[<-|[]]]]; cbn in Hn, Hs.
    + apply (Hno (chk_set_peer pa (Chk "" "a" "c1" "web1" "web" 7 2 3))); [left; reflexivity|reflexivity].
    + destruct Hs; discriminate.
    + discriminate.
  - apply ids_nonempty_b_spec. vm_compute. reflexivity.
  - vm_compute. reflexivity.
  - exists (Node pa "a" idX 5), (inst_set_peer pa (Inst (Node "" "a" idX 6) (mk_svc "a" "web1" "web" 10) [Chk "" "a" "c1" "web1" "web" 7 2 3])).
    cbn. repeat split; auto. discriminate.
  - exists (Chk pa "a" "c1" "web1" "web" 7 1 3),
           (inst_set_peer pa (Inst (Node "" "a" idX 6) (mk_svc "a" "web1" "web" 10) [Chk "" "a" "c1" "web1" "web" 7 2 3])),
           (chk_set_peer pa (Chk "" "a" "c1" "web1" "web" 7 2 3)).
    cbn. repeat split; auto.
Qed.

Lemma ex2_result :
  h_cat (handle_update_service id_shuffles ex2_before pa "web" (Some ex2_export)) =
  Cat [Node pa "a" idX 6; Node pa "u" "" 1]
      [mk_svc "a" "web1" "web" 10; mk_svc "a" "api1" "api" 9; mk_svc "u" "api2" "api" 9]
      [Chk pa "a" "c1" "web1" "web" 7 2 3; Chk pa "a" "c9" "api1" "api" 7 1 3; Chk pa "u" "serf" "" "" 7 1 3]
      [].
Proof. vm_compute. reflexivity. Qed.

(* the peer has web (with its sidecar) and api; the list now names web only *)
Definition ex3_before : cat :=
  Cat [Node pa "a" "" 5; Node pa "b" "" 5]
      [mk_svc "a" "web1" "web" 9; mk_svc "a" "px" "web-sidecar-proxy" 9; mk_svc "b" "api1" "api" 9; mk_svc "a" "api2" "api" 9]
      [Chk pa "a" "c1" "web1" "web" 7 1 3; Chk pa "b" "c2" "api1" "api" 7 1 3]
      [].

Lemma ex3_result :
  h_cat (handle_exported_list id_shuffles ex3_before pa ["web"]) =
  Cat [Node pa "a" "" 5] [mk_svc "a" "web1" "web" 9; mk_svc "a" "px" "web-sidecar-proxy" 9]
      [Chk pa "a" "c1" "web1" "web" 7 1 3] [].
Proof. vm_compute. reflexivity. Qed.
