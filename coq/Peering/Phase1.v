(* C17 — first half of handleUpdateService (the registrations), when no call fails and no
   node is renamed: every table evolves by "puts" of the snapshot's rows at their own keys.
   A well-formed snapshot asks for one row per key, so the order in which Go walks its maps
   does not matter. *)
From Verif Require Import Base.Prelude Peering.Model Peering.Lemmas Peering.Verbs Peering.Prune.
From Verif Require Import Base.Lists.
Require Import Coq.Sorting.Permutation.
Local Open Scope string_scope.

Section Evol.
  Context {A B : Type} (kf : A -> key) (kb : B -> key) (img : B -> A -> Prop).
  Hypothesis img_key : forall b x, img b x -> kf x = kb b.

  (* l0: the table before; S: the snapshot items registered so far; l: the table now.
     [img b x]: row x is what the store holds for snapshot item b (equality for nodes and services;
     equality up to the ServiceName / ServiceTags copies for checks).
     ev_up: every row is an old one or the image of a registered item; ev_lo: an old row whose key
     no registered item has is still there; ev_es: every registered item has its image stored. *)
  Record evol (S : B -> Prop) (l0 l : list A) : Prop := {
    ev_up : forall x, In x l -> In x l0 \/ exists b, S b /\ img b x;
    ev_lo : forall x, In x l0 -> (forall b, S b -> kf x <> kb b) -> In x l;
    ev_es : forall b, S b -> exists x, In x l /\ img b x }.

  Lemma evol_init l0 : evol (fun _ => False) l0 l0.
  Proof. split; [auto | auto | intros b []]. Qed.

  Lemma evol_ext S S' l0 l : (forall b, S b <-> S' b) -> evol S l0 l -> evol S' l0 l.
  Proof.
    intros E [U L Es]. split.
    - intros x Hx. destruct (U x Hx) as [H|(b & Hb & Hi)]; [auto|]. right. exists b. split; [apply E; exact Hb|exact Hi].
    - intros x Hx Hn. apply L; [exact Hx|]. intros b Hb. apply Hn. apply E. exact Hb.
    - intros b Hb. apply Es. apply E. exact Hb.
  Qed.

  (* index sets given by lists: one more item, of which there is one per key, is put *)
  Lemma evol_register l l0 t t' b x :
    evol (fun b' => In b' l) l0 t -> is_put kf x t t' -> img b x ->
    (forall b', In b' l -> kb b' = kb b -> b' = b) -> evol (fun b' => In b' (b :: l)) l0 t'.
  Proof.
    intros [U L Es] Hp Hi Hc. split.
    - intros y Hy. apply Hp in Hy as [->|[Hy _]].
      + right. exists b. split; [left; reflexivity | exact Hi].
      + destruct (U y Hy) as [H|(b' & Hb' & Hi')]; [auto|]. right. exists b'. split; [right; exact Hb' | exact Hi'].
    - intros y Hy Hn. apply Hp. right. split.
      + apply L; [exact Hy|]. intros b' Hb'. apply Hn. right. exact Hb'.
      + rewrite (img_key _ _ Hi). apply Hn. left. reflexivity.
    - intros b' [<-|Hb'].
      + exists x. split; [apply Hp; auto | exact Hi].
      + destruct (Es b' Hb') as (y & Hy & Hiy).
        destruct (key_eqb (kf y) (kf x)) eqn:E.
        * (* the item already registered under this key is b itself *)
          apply key_eqb_eq in E. exists x. split; [apply Hp; auto|]. rewrite (Hc b' Hb'); [exact Hi|].
          rewrite <- (img_key _ _ Hiy), E. apply img_key. exact Hi.
        * apply key_eqb_neq in E. exists y. split; [apply Hp; auto | exact Hiy].
  Qed.

  Lemma evol_same S l0 l l' : (forall x, In x l' <-> In x l) -> evol S l0 l -> evol S l0 l'.
  Proof.
    intros E [U L Es]. split.
    - intros x Hx. apply U. apply E. exact Hx.
    - intros x Hx Hn. apply E. apply L; auto.
    - intros b Hb. destruct (Es b Hb) as (x & Hx & Hi). exists x. split; [apply E; exact Hx|exact Hi].
  Qed.
End Evol.

(* an item that the table held before and that is its own image: it is there now, or an item
   with its key, hence the item itself, has been put *)
Lemma evol_present {A} (kf : A -> key) (img : A -> A -> Prop) l l0 t b :
  (forall b x, img b x -> kf x = kf b) -> img b b -> keys_nodup kf t ->
  evol kf kf img (fun b' => In b' l) l0 t -> In b l0 ->
  (forall b', In b' l -> kf b' = kf b -> b' = b) -> evol kf kf img (fun b' => In b' (b :: l)) l0 t.
Proof.
  intros Hkey Hrefl Hn E Hb U. destruct (existsb (fun b' => key_eqb (kf b') (kf b)) l) eqn:X.
  - apply existsb_exists in X as (b' & Hb' & K). apply key_eqb_eq in K. rewrite (U b' Hb' K) in Hb'.
    eapply evol_ext; [|exact E]. intros b2. cbn [In]. intuition. subst. exact Hb'.
  - rewrite existsb_false_iff in X. apply (evol_register kf kf img Hkey l l0 t t b b); auto.
    apply is_put_same; [exact Hn|]. apply (ev_lo _ _ _ _ _ _ E); [exact Hb|].
    intros b' Hb' K. specialize (X b' Hb'). apply key_eqb_neq in X. congruence.
Qed.

Definition img_eq {A} (b x : A) : Prop := x = b.
Definition img_chk (k x : chk) : Prop := chk_key x = chk_key k /\ chk_core x = chk_core k.

Lemma img_eq_key {A} (kf : A -> key) b x : img_eq b x -> kf x = kf b.
Proof. unfold img_eq. intros ->. reflexivity. Qed.
Lemma img_chk_key b x : img_chk b x -> chk_key x = chk_key b.
Proof. intros [H _]. exact H. Qed.

Lemma find_last_some {A} (f : A -> bool) l x : find_last f l = Some x -> In x l /\ f x = true.
Proof. unfold find_last. intros H. apply find_some in H as [H1 H2]. apply in_rev in H1. auto. Qed.

Lemma find_last_none {A} (f : A -> bool) l : find_last f l = None -> forall x, In x l -> f x = false.
Proof. unfold find_last. intros H x Hx. eapply find_none; [exact H|]. apply in_rev in Hx. exact Hx. Qed.

Lemma in_checks_for c p n sid k :
  In k (checks_for c p n sid) <-> In k (chks c) /\ c_peer k = p /\ c_node k = n /\ c_sid k = sid.
Proof.
  unfold checks_for. rewrite filter_In, !andb_true_iff, !seqb_eq. tauto.
Qed.

(* what CheckServiceNodes guarantees of each instance it returns *)
Record stored_ok (c : cat) (p sn : string) (i : inst) : Prop := {
  so_svc : In (i_svc i) (svcs c);
  so_peer : s_peer (i_svc i) = p;
  so_name : s_name (i_svc i) = sn;
  so_node : In (i_node i) (nodes c) /\ n_peer (i_node i) = p /\ n_name (i_node i) = s_node (i_svc i);
  so_chks : forall k, In k (i_chks i) <->
                      In k (chks c) /\ c_peer k = p /\ c_node k = s_node (i_svc i)
                      /\ (c_sid k = "" \/ c_sid k = s_id (i_svc i)) }.

Lemma stored_all_ok c p sn stored :
  check_service_nodes c p sn = Ok stored -> forall i, In i stored -> stored_ok c p sn i.
Proof.
  unfold check_service_nodes. intros H i Hi. apply csn_of_Ok in H.
  destruct (Forall2_In_r _ _ _ _ H Hi) as (y & Hy & nd & G & ->).
  apply filter_In in Hy as [Hy E]. apply andb_true_iff in E as [E1 E2]. apply seqb_eq in E1, E2.
  apply get_node_in in G as (G1 & G2 & G3).
  split; cbn [inst_of i_svc i_node i_chks]; auto.
  intros k. rewrite in_app_iff, !in_checks_for. intuition.
Qed.

Lemma stored_complete c p sn stored :
  check_service_nodes c p sn = Ok stored ->
  forall y, In y (svcs c) -> s_peer y = p -> s_name y = sn -> exists i, In i stored /\ i_svc i = y.
Proof.
  unfold check_service_nodes. intros H y Hy Hp Hn.
  assert (Hin : In y (map i_svc stored)).
  { rewrite (csn_of_svcs _ _ _ _ H). apply filter_In. split; [exact Hy|]. rewrite Hp, Hn, !seqb_refl. reflexivity. }
  apply in_map_iff in Hin as (i & E & Hi). eauto.
Qed.

Section Stored.
  Variables (c : cat) (p sn : string) (stored : list inst).
  Hypothesis Hst : forall i, In i stored -> stored_ok c p sn i.

  Lemma stored_node_in n x : stored_node stored n = Some x -> In x (nodes c) /\ n_peer x = p /\ n_name x = n.
  Proof.
    unfold stored_node. destruct (find_last _ stored) as [i|] eqn:F; cbn; [|discriminate].
    intros E; injection E as <-. apply find_last_some in F as [Hi Hf]. apply seqb_eq in Hf.
    destruct (Hst i Hi) as [_ _ _ (A & B & _) _]. auto.
  Qed.

  Lemma stored_svc_in n sid x :
    stored_svc stored n sid = Some x -> In x (svcs c) /\ s_peer x = p /\ s_node x = n /\ s_id x = sid.
  Proof.
    unfold stored_svc. destruct (find_last _ stored) as [i|] eqn:F; cbn; [|discriminate].
    intros E; injection E as <-. apply find_last_some in F as [Hi Hf].
    apply andb_true_iff in Hf as [H1 H2]. apply seqb_eq in H1, H2.
    destruct (Hst i Hi) as [A B _ (_ & _ & D) _]. repeat split; auto. congruence.
  Qed.

  Lemma stored_chk_in n sid cid x :
    stored_chk stored n sid cid = Some x -> In x (chks c) /\ c_peer x = p /\ c_node x = n /\ c_id x = cid.
  Proof.
    unfold stored_chk. intros F. apply find_last_some in F as [Hx Hf]. apply seqb_eq in Hf.
    apply in_flat_map in Hx as (i & Hi & Hx).
    destruct (seqb (n_name (i_node i)) n && seqb (s_id (i_svc i)) sid) eqn:E; [|contradiction].
    apply andb_true_iff in E as [E1 E2]. apply seqb_eq in E1, E2.
    destruct (Hst i Hi) as [_ _ _ (_ & _ & D) K]. apply K in Hx as (K1 & K2 & K3 & _).
    repeat split; auto. congruence.
  Qed.
End Stored.

(* the map-of-maps shape newHealthSnapshot builds: one entry per node name, one per service id
   under it, one check per id under that, all stamped with the peer *)
Record hs_wf (p : string) (hs : hsnap) : Prop := {
  hw_names : NoDup (map (fun x => n_name (ns_node x)) hs);
  hw_node_peer : forall x, In x hs -> n_peer (ns_node x) = p;
  hw_sids : forall x, In x hs -> NoDup (map (fun y => s_id (ss_svc y)) (ns_svcs x));
  hw_svc : forall x y, In x hs -> In y (ns_svcs x) ->
                       s_peer (ss_svc y) = p /\ s_node (ss_svc y) = n_name (ns_node x);
  hw_cids : forall x y, In x hs -> In y (ns_svcs x) -> NoDup (map c_id (ss_chks y));
  hw_chk_peer : forall x y k, In x hs -> In y (ns_svcs x) -> In k (ss_chks y) -> c_peer k = p }.

(* coherence of the checks of one snapshot (what a catalog can produce) *)
Record hs_chk_coh (hs : hsnap) : Prop := {
  hc_node : forall x y k, In x hs -> In y (ns_svcs x) -> In k (ss_chks y) -> c_node k = n_name (ns_node x);
  hc_status : forall x y k, In x hs -> In y (ns_svcs x) -> In k (ss_chks y) -> c_status k <> 0%N;
  (* a check id names one check on a node *)
  hc_same : forall x y y' k k', In x hs -> In y (ns_svcs x) -> In y' (ns_svcs x) ->
                                In k (ss_chks y) -> In k' (ss_chks y') -> c_id k = c_id k' -> k = k' }.

Lemma svc_set_node_id s : svc_set_node (s_node s) s = s.
Proof. destruct s; reflexivity. Qed.

Lemma chk_norm_id k : c_status k <> 0%N -> chk_norm k = k.
Proof. unfold chk_norm. intros H. destruct (N.eqb (c_status k) 0) eqn:E; [apply N.eqb_eq in E; contradiction | reflexivity]. Qed.

Section P1.
  Variables (sh : shuffles) (p sn : string) (c0 : cat) (stored : list inst) (hs : hsnap).
  Hypothesis sh_ok : shuffles_ok sh.
  Hypothesis wf0 : wf c0.
  Hypothesis Hst : forall i, In i stored -> stored_ok c0 p sn i.
  Hypothesis Hhs : hs_wf p hs.
  Hypothesis Hcoh : hs_chk_coh hs.
  (* node IDs: no stored node of the peer and no other snapshot node holds the ID of a
     snapshot node under another name *)
  Hypothesis Hid0 : forall x b, In x hs -> In b (nodes c0) -> n_peer b = p ->
                                n_id b = n_id (ns_node x) -> n_id (ns_node x) <> "" -> n_name b = n_name (ns_node x).
  Hypothesis Hid1 : forall x x', In x hs -> In x' hs -> n_id (ns_node x') = n_id (ns_node x) ->
                                 n_id (ns_node x) <> "" -> n_name (ns_node x') = n_name (ns_node x).

  Definition Sn (D : nsnap -> Prop) (b : node) : Prop := exists x, D x /\ b = ns_node x.
  Definition Ss (D : nsnap -> Prop) (b : svc) : Prop := exists x y, D x /\ In y (ns_svcs x) /\ b = ss_svc y.
  Definition Sk (D : nsnap -> Prop) (k : chk) : Prop := exists x y, D x /\ In y (ns_svcs x) /\ In k (ss_chks y).

  Record inv1 (D : nsnap -> Prop) (c : cat) : Prop := {
    i1_wf : wf c;
    i1_n : evol node_key node_key img_eq (Sn D) (nodes c0) (nodes c);
    i1_s : evol svc_key svc_key img_eq (Ss D) (svcs c0) (svcs c);
    i1_k : evol chk_key chk_key img_chk (Sk D) (chks c0) (chks c) }.

  Definition Dok (D : nsnap -> Prop) (x : nsnap) : Prop :=
    forall d, D d -> In d hs /\ n_name (ns_node d) <> n_name (ns_node x).

  Section Block.
    Variables (D : nsnap -> Prop) (x : nsnap).
    Hypothesis HD : Dok D x.
    Let n := n_name (ns_node x).

    Lemma fresh_svc c b : inv1 D c -> In b (svcs c0) -> s_peer b = p -> s_node b = n -> In b (svcs c).
    Proof.
      intros I Hb Hp Hn. apply (ev_lo _ _ _ _ _ _ (i1_s D c I)); [exact Hb|].
      intros b' (d & y & Hd & Hy & ->) E. destruct (HD d Hd) as [Hdin Hne]. apply Hne.
      destruct (hw_svc p hs Hhs d y Hdin Hy) as [_ Hsn].
      unfold svc_key in E. injection E as _ E _. subst n. congruence.
    Qed.

    Lemma fresh_chk c b : inv1 D c -> In b (chks c0) -> c_peer b = p -> c_node b = n -> In b (chks c).
    Proof.
      intros I Hb Hp Hn. apply (ev_lo _ _ _ _ _ _ (i1_k D c I)); [exact Hb|].
      intros b' (d & y & Hd & Hy & Hk) E. destruct (HD d Hd) as [Hdin Hne]. apply Hne.
      rewrite <- (hc_node hs Hcoh d y b' Hdin Hy Hk).
      unfold chk_key in E. injection E as _ E _. subst n. congruence.
    Qed.

  End Block.

  Definition snap_node (b : node) : Prop := Sn (fun d => In d hs) b.
  Definition snap_svc (b : svc) : Prop := Ss (fun d => In d hs) b.
  Definition snap_chk (k : chk) : Prop := Sk (fun d => In d hs) k.

  Lemma same_entry x x' : In x hs -> In x' hs -> n_name (ns_node x') = n_name (ns_node x) -> x' = x.
  Proof.
    intros Hx Hx'. apply (NoDup_map_inj (fun x => n_name (ns_node x)) hs); [apply (hw_names p hs Hhs) | exact Hx' | exact Hx].
  Qed.

  Lemma same_svc x y y' : In x hs -> In y (ns_svcs x) -> In y' (ns_svcs x) -> s_id (ss_svc y') = s_id (ss_svc y) -> y' = y.
  Proof.
    intros Hx Hy Hy'. apply (NoDup_map_inj (fun y => s_id (ss_svc y)) (ns_svcs x)); [apply (hw_sids p hs Hhs x Hx) | exact Hy' | exact Hy].
  Qed.

  (* it asks for one row per key: the order in which they are registered does not matter *)
  Lemma snap_node_key b b' : snap_node b -> snap_node b' -> node_key b' = node_key b -> b' = b.
  Proof.
    intros (x & Hx & ->) (x' & Hx' & ->) E. unfold node_key in E. injection E as _ E.
    rewrite (same_entry x x' Hx Hx' E). reflexivity.
  Qed.

  Lemma snap_svc_key b b' : snap_svc b -> snap_svc b' -> svc_key b' = svc_key b -> b' = b.
  Proof.
    intros (x & y & Hx & Hy & ->) (x' & y' & Hx' & Hy' & ->) E. unfold svc_key in E. injection E as _ E1 E2.
    destruct (hw_svc p hs Hhs x y Hx Hy) as [_ A]. destruct (hw_svc p hs Hhs x' y' Hx' Hy') as [_ A'].
    assert (x' = x) as -> by (apply same_entry; auto; congruence).
    f_equal. apply (same_svc x); auto.
  Qed.

  Lemma snap_chk_key k k' : snap_chk k -> snap_chk k' -> chk_key k' = chk_key k -> k' = k.
  Proof.
    intros (x & y & Hx & Hy & Hk) (x' & y' & Hx' & Hy' & Hk') E. unfold chk_key in E. injection E as _ E1 E2.
    assert (x' = x) as ->.
    { apply same_entry; auto. rewrite <- (hc_node hs Hcoh x y k Hx Hy Hk), <- (hc_node hs Hcoh x' y' k' Hx' Hy' Hk'). exact E1. }
    apply (hc_same hs Hcoh x y' y k' k); auto.
  Qed.

  Record inv (ln : list node) (ls : list svc) (lk : list chk) (c : cat) : Prop := {
    iv_wf : wf c;
    iv_n : evol node_key node_key img_eq (fun b => In b ln) (nodes c0) (nodes c);
    iv_s : evol svc_key svc_key img_eq (fun b => In b ls) (svcs c0) (svcs c);
    iv_k : evol chk_key chk_key img_chk (fun b => In b lk) (chks c0) (chks c);
    iv_ln : forall b, In b ln -> snap_node b;
    iv_ls : forall b, In b ls -> snap_svc b;
    iv_lk : forall b, In b lk -> snap_chk b }.

  Lemma inv_init : inv [] [] [] c0.
  Proof. split; [exact wf0 | apply evol_init | apply evol_init | apply evol_init | | |]; intros b []. Qed.

  Lemma inv_ext ln ln' ls ls' lk lk' c :
    (forall b, In b ln <-> In b ln') -> (forall b, In b ls <-> In b ls') -> (forall b, In b lk <-> In b lk') ->
    inv ln ls lk c -> inv ln' ls' lk' c.
  Proof.
    intros En Es Ek [W N S K Ln Ls Lk].
    split; [exact W | eapply evol_ext; [exact En | exact N] | eapply evol_ext; [exact Es | exact S]
           | eapply evol_ext; [exact Ek | exact K] | | |]; intros b Hb.
    - apply Ln, En, Hb.
    - apply Ls, Es, Hb.
    - apply Lk, Ek, Hb.
  Qed.

  Lemma inv_put_node ln ls lk c c' b : inv ln ls lk c -> snap_node b -> node_put b c c' -> inv (b :: ln) ls lk c'.
  Proof.
    intros [W0 N S K Ln Ls Lk] Hb (W & S1 & K1 & _ & P1).
    split; [exact W | | rewrite S1; exact S | rewrite K1; exact K | | exact Ls | exact Lk].
    - apply (evol_register node_key node_key img_eq (img_eq_key node_key) ln _ _ _ b b N P1 eq_refl).
      intros b' Hb' E. apply snap_node_key; auto.
    - intros b' [<-|Hb']; auto.
  Qed.

  Lemma inv_put_svc ln ls lk c c' b : inv ln ls lk c -> snap_svc b -> svc_put b c c' -> inv ln (b :: ls) lk c'.
  Proof.
    intros [W0 N S K Ln Ls Lk] Hb (W & N1 & K1 & P1).
    split; [exact W | rewrite N1; exact N | | rewrite K1; exact K | exact Ln | | exact Lk].
    - apply (evol_register svc_key svc_key img_eq (img_eq_key svc_key) ls _ _ _ b b S P1 eq_refl).
      intros b' Hb' E. apply snap_svc_key; auto.
    - intros b' [<-|Hb']; auto.
  Qed.

  Lemma inv_put_chk ln ls lk c c' k k2 :
    inv ln ls lk c -> snap_chk k -> chk_put k2 c c' -> img_chk k k2 -> inv ln ls (k :: lk) c'.
  Proof.
    intros [W0 N S K Ln Ls Lk] Hk (W & N1 & S1 & _ & P1) Hi.
    split; [exact W | rewrite N1; exact N | rewrite S1; exact S | | exact Ln | exact Ls |].
    - apply (evol_register chk_key chk_key img_chk img_chk_key lk _ _ _ k k2 K P1 Hi).
      intros b' Hb' E. apply snap_chk_key; auto.
    - intros b' [<-|Hb']; auto.
  Qed.

  Lemma inv_old_node ln ls lk c b : inv ln ls lk c -> snap_node b -> In b (nodes c0) -> inv (b :: ln) ls lk c.
  Proof.
    intros [W N S K Ln Ls Lk] Hb H0. split; auto.
    - apply (evol_present node_key img_eq); auto using (img_eq_key node_key); [reflexivity | apply W|].
      intros b' Hb' E. apply snap_node_key; auto.
    - intros b' [<-|Hb']; auto.
  Qed.

  Lemma inv_old_svc ln ls lk c b : inv ln ls lk c -> snap_svc b -> In b (svcs c0) -> inv ln (b :: ls) lk c.
  Proof.
    intros [W N S K Ln Ls Lk] Hb H0. split; auto.
    - apply (evol_present svc_key img_eq); auto using (img_eq_key svc_key); [reflexivity | apply W|].
      intros b' Hb' E. apply snap_svc_key; auto.
    - intros b' [<-|Hb']; auto.
  Qed.

  Lemma inv_old_chk ln ls lk c k : inv ln ls lk c -> snap_chk k -> In k (chks c0) -> inv ln ls (k :: lk) c.
  Proof.
    intros [W N S K Ln Ls Lk] Hk H0. split; auto.
    - apply (evol_present chk_key img_chk); auto using img_chk_key; [split; reflexivity | apply W|].
      intros b' Hb' E. apply snap_chk_key; auto.
    - intros b' [<-|Hb']; auto.
  Qed.

  Section Node.
    Variable x : nsnap.
    Hypothesis Hx : In x hs.
    Let nd := ns_node x.

    Lemma nd_peer : n_peer nd = p.
    Proof. apply (hw_node_peer p hs Hhs). exact Hx. Qed.

    Lemma nd_snap : snap_node nd.
    Proof. exists x. auto. Qed.

    Lemma no_rename_nd ln ls lk c : inv ln ls lk c -> no_rename c nd.
    Proof.
      intros I b Hb Hp Hi Hne. destruct (ev_up _ _ _ _ _ _ (iv_n _ _ _ _ I) b Hb) as [H0|(b' & Hb' & ->)].
      - apply (Hid0 x b Hx H0); auto. rewrite Hp. apply nd_peer.
      - destruct (iv_ln _ _ _ _ I b' Hb') as (d & Hd & ->). apply (Hid1 x d Hx Hd); auto.
    Qed.

    Lemma step_node ln ls lk s :
      inv ln ls lk (h_cat s) -> h_err s = None ->
      let s1 := if node_changed stored nd then do_reg (Reg nd None []) s else s in
      h_err s1 = None -> inv (nd :: ln) ls lk (h_cat s1).
    Proof.
      intros I He s1 He1. subst s1. destruct (node_changed stored nd) eqn:Ch.
      - destruct (do_reg_stages _ _ _ _ He He1) as (c' & c2 & R1 & R2 & R3).
        cbn [reg_svc] in R2. injection R2 as <-. cbn [ensure_checks] in R3. injection R3 as <-.
        apply (inv_put_node _ _ _ (h_cat s)); [exact I | exact nd_snap|].
        apply (reg_node_spec _ _ _ (iv_wf _ _ _ _ I) (no_rename_nd _ _ _ _ I) R1).
      - (* unchanged: the stored node row is the snapshot's *)
        unfold node_changed in Ch. destruct (stored_node stored (n_name nd)) as [b|] eqn:Sb; [|discriminate].
        apply negb_false_iff, node_eqb_eq in Ch. subst b.
        destruct (stored_node_in c0 p sn stored Hst _ _ Sb) as (B1 & _).
        apply inv_old_node; [exact I | exact nd_snap | exact B1].
    Qed.

    Lemma reg_node_noop ln ls lk c : inv ln ls lk c -> In nd ln -> reg_node c nd = Ok c.
    Proof.
      intros I Hin. destruct (ev_es _ _ _ _ _ _ (iv_n _ _ _ _ I) nd Hin) as (b & Hb & ->).
      unfold reg_node. rewrite (in_get_node c nd (iv_wf _ _ _ _ I) Hb), node_eqb_refl. reflexivity.
    Qed.

    Definition svc_step (s : hst) (y : ssnap) : hst :=
      if svc_changed stored nd (ss_svc y) then do_reg (Reg nd (Some (ss_svc y)) []) s else s.

    Lemma svc_step_sticky s y : h_err s <> None -> svc_step s y = s.
    Proof. intros H. unfold svc_step. destruct (svc_changed _ _ _); [apply do_reg_err; exact H | reflexivity]. Qed.

    Lemma step_svc ln ls lk y s :
      In y (ns_svcs x) -> In nd ln -> inv ln ls lk (h_cat s) -> h_err s = None ->
      h_err (svc_step s y) = None -> inv ln (ss_svc y :: ls) lk (h_cat (svc_step s y)).
    Proof.
      intros Hy Hnd I He He1. unfold svc_step in *.
      assert (Hs : snap_svc (ss_svc y)) by (exists x, y; auto).
      destruct (hw_svc p hs Hhs x y Hx Hy) as [Sp Snode].
      destruct (svc_changed stored nd (ss_svc y)) eqn:Ch.
      - destruct (do_reg_stages _ _ _ _ He He1) as (c1 & c' & R1 & R2 & R3).
        rewrite (reg_node_noop _ _ _ _ I Hnd) in R1. injection R1 as <-.
        cbn [ensure_checks] in R3. injection R3 as <-.
        apply (inv_put_svc _ _ _ (h_cat s)); [exact I | exact Hs|].
        pose proof (reg_svc_spec _ _ _ _ (iv_wf _ _ _ _ I) R2) as Spec.
        rewrite Sp, nd_peer in Spec. specialize (Spec eq_refl).
        replace (svc_set_node (n_name nd) (ss_svc y)) with (ss_svc y) in Spec; [exact Spec|].
        change (n_name nd) with (n_name (ns_node x)). rewrite <- Snode. symmetry. apply svc_set_node_id.
      - unfold svc_changed in Ch. destruct (stored_svc stored (n_name nd) (s_id (ss_svc y))) as [b|] eqn:Sb; [|discriminate].
        apply negb_false_iff, svc_is_same_eq in Ch. subst b.
        destruct (stored_svc_in c0 p sn stored Hst _ _ _ Sb) as (B1 & _).
        apply inv_old_svc; [exact I | exact Hs | exact B1].
    Qed.

    Definition all_chks : list chk := flat_map ss_chks (ns_svcs x).

    Lemma all_chks_in k : In k all_chks <-> exists y, In y (ns_svcs x) /\ In k (ss_chks y).
    Proof. unfold all_chks. rewrite in_flat_map. reflexivity. Qed.

    Lemma all_chks_snap k : In k all_chks -> snap_chk k /\ c_status k <> 0%N.
    Proof.
      intros H. apply all_chks_in in H as (y & Hy & Hk).
      split; [exists x, y; auto | eapply (hc_status hs Hcoh); eauto].
    Qed.

    Lemma steps_chk ln ls : forall ks lk c c',
      (forall k, In k ks -> In k all_chks) ->
      inv ln ls lk c -> ensure_checks c (n_name nd) ks = Ok c' -> inv ln ls (rev ks ++ lk) c'.
    Proof.
      induction ks as [|k ks IH]; intros lk c c' Hks I H; cbn [ensure_checks rev app] in *.
      - injection H as <-. exact I.
      - destruct (negb (seqb (c_node k) (n_name nd))); [discriminate|].
        destruct (ensure_check c k) as [c1|e] eqn:E1; cbn [bind] in H; [|discriminate].
        destruct (ensure_check_spec _ _ _ (iv_wf _ _ _ _ I) E1) as (k2 & Kk & Kc & P1 & _).
        destruct (all_chks_snap k (Hks k (or_introl eq_refl))) as [Hk Hs].
        rewrite <- app_assoc. cbn [app]. apply (IH (k :: lk) c1 c'); [| |exact H].
        + intros k' Hk'. apply Hks. right. exact Hk'.
        + apply (inv_put_chk _ _ _ c c1 k k2); auto.
          split; [exact Kk | rewrite Kc, (chk_norm_id k Hs); reflexivity].
    Qed.

    Definition sent : list chk :=
      sh_chks sh (flat_map (fun y => filter (chk_changed stored nd (ss_svc y)) (ss_chks y)) (ns_svcs x)).

    Lemma sent_all k : In k sent -> In k all_chks.
    Proof.
      unfold sent. intros H. apply -> (sh_chks_in sh sh_ok) in H. apply in_flat_map in H as (y & Hy & Hk).
      apply filter_In in Hk as [Hk _]. apply all_chks_in. eauto.
    Qed.

    (* a check the handler did not send is the stored row itself *)
    Lemma sent_or_stored k : In k all_chks -> In k sent \/ In k (chks c0).
    Proof.
      intros H. apply all_chks_in in H as (y & Hy & Hk).
      destruct (chk_changed stored nd (ss_svc y) k) eqn:Ch.
      - left. unfold sent. apply (sh_chks_in sh sh_ok). apply in_flat_map. exists y. split; [exact Hy|].
        apply filter_In. auto.
      - right. unfold chk_changed in Ch.
        destruct (stored_chk stored (n_name nd) (s_id (ss_svc y)) (c_id k)) as [b|] eqn:Sb; [|discriminate].
        apply negb_false_iff, chk_eqb_eq in Ch. subst b.
        destruct (stored_chk_in c0 p sn stored Hst _ _ _ _ Sb) as (B1 & _). exact B1.
    Qed.

    Lemma add_rest ln ls c : forall l lk,
      (forall k, In k l -> In k all_chks) -> (forall k, In k l -> In k lk \/ In k (chks c0)) ->
      inv ln ls lk c -> inv ln ls (rev l ++ lk) c.
    Proof.
      induction l as [|k l IH]; intros lk Hl Hcase I; cbn [rev app]; [exact I|].
      rewrite <- app_assoc. cbn [app]. apply IH.
      - intros k' Hk'. apply Hl. right. exact Hk'.
      - intros k' Hk'. destruct (Hcase k' (or_intror Hk')) as [H|H]; [left; right; exact H | right; exact H].
      - destruct (Hcase k (or_introl eq_refl)) as [H|H].
        + eapply inv_ext; [reflexivity | reflexivity | | exact I]. intros b. cbn [In]. intuition. subst. exact H.
        + apply inv_old_chk; [exact I | apply all_chks_snap, Hl; left; reflexivity | exact H].
    Qed.

    Lemma node_block_sticky s : h_err s <> None -> node_block sh stored x s = s.
    Proof.
      intros H. unfold node_block.
      assert (H1 : (if node_changed stored (ns_node x) then do_reg (Reg (ns_node x) None []) s else s) = s).
      { destruct (node_changed _ _); [apply do_reg_err; exact H | reflexivity]. }
      rewrite H1.
      assert (H2 : fold_left svc_step (sh_svcs sh (ns_svcs x)) s = s).
      { apply fold_sticky; [|exact H]. intros s0 y H0. apply svc_step_sticky, H0. }
      unfold svc_step in H2. fold nd. rewrite H2. destruct (sh_chks sh _); [reflexivity | apply do_reg_err; exact H].
    Qed.

    Lemma block_spec ln ls lk s :
      inv ln ls lk (h_cat s) -> h_err s = None -> h_err (node_block sh stored x s) = None ->
      inv (nd :: ln) (map ss_svc (ns_svcs x) ++ ls) (all_chks ++ lk) (h_cat (node_block sh stored x s)).
    Proof.
      intros I He Hf. unfold node_block in *. fold nd in Hf |- *.
      set (s1 := if node_changed stored nd then do_reg (Reg nd None []) s else s) in *.
      change (fun s0 y => if svc_changed stored nd (ss_svc y) then do_reg (Reg nd (Some (ss_svc y)) []) s0 else s0)
        with svc_step in *.
      set (s2 := fold_left svc_step (sh_svcs sh (ns_svcs x)) s1) in *.
      fold sent in Hf |- *.
      assert (He2 : h_err s2 = None).
      { destruct sent; [exact Hf|]. destruct (h_err s2) eqn:E; [|reflexivity].
        rewrite do_reg_err in Hf by congruence. congruence. }
      assert (He1 : h_err s1 = None).
      { eapply fold_err_none; [|exact He2]. intros; apply svc_step_sticky; assumption. }
      pose proof (step_node ln ls lk s I He He1) as Ia. fold s1 in Ia.
      assert (Ib : inv (nd :: ln) (fold_left (fun acc y => ss_svc y :: acc) (sh_svcs sh (ns_svcs x)) ls) lk (h_cat s2)).
      { revert He2.
        apply (fold_left_index svc_step ss_svc (fun acc s => h_err s = None -> inv (nd :: ln) acc lk (h_cat s)));
          [|intros _; exact Ia].
        intros acc s' y Hy IH He'. pose proof (fold_err_none svc_step svc_step_sticky [y] s' He') as He0.
        apply step_svc; auto; [apply (sh_svcs_in sh sh_ok), Hy | left; reflexivity]. }
      (* the registration of the changed checks *)
      set (s3 := match sent with [] => s2 | _ :: _ => do_reg (Reg nd None sent) s2 end) in *.
      assert (Ic : inv (nd :: ln) (fold_left (fun acc y => ss_svc y :: acc) (sh_svcs sh (ns_svcs x)) ls)
                       (rev sent ++ lk) (h_cat s3)).
      { subst s3. destruct sent as [|k0 ks0] eqn:Es; [exact Ib|]. rewrite <- Es in *.
        destruct (do_reg_stages _ _ _ _ He2 Hf) as (c1 & c2 & R1 & R2 & R3).
        rewrite (reg_node_noop _ _ _ _ Ib (or_introl eq_refl)) in R1. injection R1 as <-.
        cbn [reg_svc] in R2. injection R2 as <-.
        eapply steps_chk; [|exact Ib|exact R3]. apply sent_all. }
      (* the checks not sent are the stored rows themselves: they enter the index as present *)
      assert (Ic2 : inv (nd :: ln) (fold_left (fun acc y => ss_svc y :: acc) (sh_svcs sh (ns_svcs x)) ls)
                        (rev all_chks ++ rev sent ++ lk) (h_cat s3)).
      { apply add_rest; [auto | | exact Ic]. intros k Hk. destruct (sent_or_stored k Hk) as [H|H]; [left|right; exact H].
        apply in_app_iff. left. rewrite <- in_rev. exact H. }
      eapply inv_ext; [reflexivity | | | exact Ic2].
      - intros b. rewrite in_fold_cons, in_app_iff, in_map_iff. split.
        + intros [H|(y & Hy & ->)]; [right; exact H | left; exists y; split; [reflexivity | apply (sh_svcs_in sh sh_ok), Hy]].
        + intros [(y & <- & Hy)|H]; [right; exists y; split; [apply (sh_svcs_in sh sh_ok), Hy | reflexivity] | left; exact H].
      - intros k. rewrite !in_app_iff, <- !in_rev. split; [intros [H|[H|H]]; auto; left; apply sent_all, H | intros [H|H]; auto].
    Qed.
  End Node.

  Theorem phase1_spec s :
    h_cat s = c0 -> h_err s = None ->
    let s1 := fold_left (fun s x => node_block sh stored x s) (sh_nodes sh hs) s in
    h_err s1 = None -> inv1 (fun d => In d hs) (h_cat s1).
  Proof.
    intros Hc He s1 Hf. subst s1.
    set (done := fold_left (fun acc x => x :: acc) (sh_nodes sh hs) []).
    assert (Hdone : forall x, In x done <-> In x hs).
    { intros x. unfold done. rewrite in_fold_cons, <- (sh_nodes_in sh sh_ok hs x). split.
      - intros [[]|(a & Ha & ->)]. exact Ha.
      - intros H. right. exists x. auto. }
    assert (J : inv (map ns_node done) (flat_map (fun x => map ss_svc (ns_svcs x)) done) (flat_map all_chks done)
                    (h_cat (fold_left (fun s x => node_block sh stored x s) (sh_nodes sh hs) s))).
    { revert Hf.
      apply (fold_left_index (fun s x => node_block sh stored x s) (fun x => x)
               (fun acc s => h_err s = None ->
                  inv (map ns_node acc) (flat_map (fun x => map ss_svc (ns_svcs x)) acc) (flat_map all_chks acc) (h_cat s)));
        [|intros _; rewrite Hc; exact inv_init].
      intros acc s' x Hx IH He'. apply -> (sh_nodes_in sh sh_ok) in Hx.
      pose proof (fold_err_none _ (fun s x => node_block_sticky x s) [x] s' He') as He0.
      apply (block_spec x Hx); auto. }
    destruct J as [W N S K _ _ _]. split; [exact W | | |].
    - eapply evol_ext; [|exact N]. intros b. rewrite in_map_iff. unfold Sn. split.
      + intros (x & <- & Hx). exists x. split; [apply Hdone, Hx | reflexivity].
      + intros (x & Hx & ->). exists x. split; [reflexivity | apply Hdone, Hx].
    - eapply evol_ext; [|exact S]. intros b. rewrite in_flat_map. unfold Ss. split.
      + intros (x & Hx & Hb). apply in_map_iff in Hb as (y & <- & Hy). exists x, y. split; [apply Hdone, Hx | auto].
      + intros (x & y & Hx & Hy & ->). exists x. split; [apply Hdone, Hx | apply in_map, Hy].
    - eapply evol_ext; [|exact K]. intros k. rewrite in_flat_map. unfold Sk. split.
      + intros (x & Hx & Hk). apply all_chks_in in Hk as (y & Hy & Hk). exists x, y. split; [apply Hdone, Hx | auto].
      + intros (x & y & Hx & Hy & Hk). exists x. split; [apply Hdone, Hx | apply all_chks_in; eauto].
  Qed.
End P1.
