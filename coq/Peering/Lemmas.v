(* C17 — basic facts: decidable equalities, keyed tables, what is known of an iteration order, and
   the three loop principles (fold_left_inv, fold_left_reaches, fold_left_index) the handler proofs use. *)
From Verif Require Import Base.Prelude Peering.Model.
From Verif Require Import Base.Lists.
Require Import Coq.Sorting.Permutation.
Local Open Scope string_scope.

Lemma seqb_eq a b : seqb a b = true <-> a = b.
Proof. apply String.eqb_eq. Qed.

Lemma seqb_refl a : seqb a a = true.
Proof. apply String.eqb_refl. Qed.

Lemma seqb_neq a b : seqb a b = false <-> a <> b.
Proof. apply String.eqb_neq. Qed.

Lemma seqb_sym a b : seqb a b = seqb b a.
Proof. apply String.eqb_sym. Qed.

Ltac seqb_cases a b :=
  let E := fresh "E" in
  destruct (seqb a b) eqn:E; [apply seqb_eq in E | apply seqb_neq in E].

Lemma key_eqb_eq a b : key_eqb a b = true <-> a = b.
Proof.
  destruct a as [[a1 a2] a3], b as [[b1 b2] b3]. cbn [key_eqb].
  rewrite !andb_true_iff, !seqb_eq. split.
  - intros [[-> ->] ->]. reflexivity.
  - intros H. injection H as -> -> ->. auto.
Qed.

Lemma key_eqb_refl a : key_eqb a a = true.
Proof. apply key_eqb_eq. reflexivity. Qed.

Lemma key_eqb_neq a b : key_eqb a b = false <-> a <> b.
Proof. apply (eqb_neq _ key_eqb_eq). Qed.

Lemma node_eqb_eq a b : node_eqb a b = true <-> a = b.
Proof.
  destruct a, b. unfold node_eqb. cbn.
  rewrite !andb_true_iff, !seqb_eq, N.eqb_eq. split.
  - intros [[[-> ->] ->] ->]. reflexivity.
  - intros H. injection H as -> -> -> ->. auto.
Qed.

Lemma node_eqb_refl a : node_eqb a a = true.
Proof. apply node_eqb_eq. reflexivity. Qed.

Lemma svc_eqb_eq a b : svc_eqb a b = true <-> a = b.
Proof.
  destruct a, b. unfold svc_eqb. cbn.
  rewrite !andb_true_iff, !seqb_eq, !N.eqb_eq, !Bool.eqb_true_iff, (list_eqb_eq seqb seqb_eq). split.
  - intros H. decompose [and] H. subst. reflexivity.
  - intros H. injection H. intros. subst. repeat split; reflexivity.
Qed.

Lemma svc_eqb_refl a : svc_eqb a a = true.
Proof. apply svc_eqb_eq. reflexivity. Qed.

Lemma chk_eqb_eq a b : chk_eqb a b = true <-> a = b.
Proof.
  destruct a, b. unfold chk_eqb. cbn.
  rewrite !andb_true_iff, !seqb_eq, !N.eqb_eq. split.
  - intros H. decompose [and] H. subst. reflexivity.
  - intros H. injection H. intros. subst. repeat split; reflexivity.
Qed.

Lemma chk_eqb_refl a : chk_eqb a a = true.
Proof. apply chk_eqb_eq. reflexivity. Qed.

Lemma svc_is_same_eq a b : svc_is_same a b = true -> a = b.
Proof. unfold svc_is_same. intros H. apply andb_true_iff in H as [H _]. apply svc_eqb_eq. exact H. Qed.

Lemma filter_none {A} (f : A -> bool) l : (forall x, In x l -> f x = false) -> filter f l = [].
Proof. apply filter_nil_iff. Qed.

Lemma find_filter_imp {A} (f g : A -> bool) l :
  (forall x, In x l -> f x = true -> g x = true) -> find f (filter g l) = find f l.
Proof.
  induction l as [|x l IH]; intros H; cbn [filter find]; [reflexivity|].
  destruct (f x) eqn:F.
  - rewrite (H x (or_introl eq_refl) F). cbn [find]. rewrite F. reflexivity.
  - destruct (g x); cbn [find]; [rewrite F|]; apply IH; intros; apply H; cbn; auto.
Qed.

Lemma fold_left_inv {A B} (Q : A -> Prop) (f : A -> B -> A) l :
  (forall a b, In b l -> Q a -> Q (f a b)) -> forall a, Q a -> Q (fold_left f l a).
Proof.
  induction l as [|b l IH]; intros H a Ha; cbn [fold_left]; [exact Ha|].
  apply IH; [intros; apply H; cbn; auto|]. apply H; cbn; auto.
Qed.

Lemma fold_left_reaches {A B} (f : A -> B -> A) (Pre Post : A -> Prop) b :
  (forall a b', Pre a -> Pre (f a b')) -> (forall a b', Post a -> Post (f a b')) ->
  (forall a, Pre a -> Post (f a b)) ->
  forall l a, In b l -> Pre a -> Post (fold_left f l a).
Proof.
  intros HPre HPost Hb. induction l as [|b' l IH]; intros a Hin Ha; [contradiction|].
  destruct Hin as [->|Hin]; cbn [fold_left].
  - apply fold_left_inv; auto.
  - apply IH; auto.
Qed.

Lemma fold_left_index {A B S} (f : S -> A -> S) (g : A -> B) (I : list B -> S -> Prop) l :
  (forall acc s a, In a l -> I acc s -> I (g a :: acc) (f s a)) ->
  forall acc s, I acc s -> I (fold_left (fun acc a => g a :: acc) l acc) (fold_left f l s).
Proof.
  induction l as [|a l IH]; intros H acc s Hs; cbn [fold_left]; [exact Hs|].
  apply IH; [intros; apply H; cbn; auto|]. apply H; cbn; auto.
Qed.

Lemma in_fold_cons {A B} (g : A -> B) l : forall acc b,
  In b (fold_left (fun acc a => g a :: acc) l acc) <-> In b acc \/ exists a, In a l /\ b = g a.
Proof.
  induction l as [|a l IH]; intros acc b; cbn [fold_left].
  - split; [auto|]. intros [H|(a & [] & _)]. exact H.
  - rewrite IH. cbn [In]. split.
    + intros [[<-|H]|(a' & Ha' & E)]; [right; exists a; auto | left; exact H | right; exists a'; auto].
    + intros [H|(a' & [<-|Ha'] & E)]; [left; right; exact H | left; left; symmetry; exact E | right; exists a'; auto].
Qed.

Lemma find_some_in {A} (f : A -> bool) l x : find f l = Some x -> In x l /\ f x = true.
Proof. apply find_some. Qed.

Lemma find_none_iff {A} (f : A -> bool) l : find f l = None <-> forall x, In x l -> f x = false.
Proof.
  split; [apply find_none|].
  induction l as [|x l IH]; intros H; cbn; [reflexivity|].
  rewrite (H x) by (cbn; auto). apply IH. intros; apply H; cbn; auto.
Qed.

Lemma existsb_false_iff {A} (f : A -> bool) l : existsb f l = false <-> forall x, In x l -> f x = false.
Proof.
  split.
  - intros H x Hx. destruct (f x) eqn:F; [|reflexivity].
    assert (existsb f l = true) by (apply existsb_exists; eauto). congruence.
  - intros H. destruct (existsb f l) eqn:E; [|reflexivity].
    apply existsb_exists in E as (x & Hx & Fx). rewrite H in Fx; auto.
Qed.

Lemma existsb_seqb_in x l : existsb (seqb x) l = true <-> In x l.
Proof.
  rewrite existsb_exists. split.
  - intros (y & Hy & E). apply seqb_eq in E. subst. exact Hy.
  - intros H. exists x. split; [exact H | apply seqb_refl].
Qed.

Lemma existsb_seqb_notin x l : existsb (seqb x) l = false <-> ~ In x l.
Proof.
  split.
  - intros H Hin. apply existsb_seqb_in in Hin. congruence.
  - intros H. destruct (existsb (seqb x) l) eqn:E; [|reflexivity]. apply existsb_seqb_in in E. contradiction.
Qed.

Lemma find_NoDup_key {A B} (f : A -> B) (eqb : B -> B -> bool) :
  (forall a b, eqb a b = true <-> a = b) ->
  forall l x, NoDup (map f l) -> In x l -> find (fun z => eqb (f z) (f x)) l = Some x.
Proof.
  intros Heq l x Hn Hx. destruct (find _ l) as [y|] eqn:E.
  - apply find_some in E as [Hy Ey]. apply Heq in Ey. f_equal. apply (NoDup_map_inj f l); auto.
  - apply (find_none _ _ E) in Hx. rewrite (proj2 (Heq _ _) eq_refl) in Hx. discriminate.
Qed.

Lemma in_add_str x y l : In x (add_str y l) <-> x = y \/ In x l.
Proof.
  unfold add_str. destruct (existsb (seqb y) l) eqn:E.
  - apply existsb_seqb_in in E. split; [auto|]. intros [->|H]; auto.
  - rewrite in_app_iff. cbn. intuition.
Qed.

Lemma in_add_pair x y l : In x (add_pair y l) <-> x = y \/ In x l.
Proof.
  unfold add_pair. destruct (existsb _ l) eqn:E.
  - split; [auto|]. intros [->|H]; [|exact H].
    apply existsb_exists in E as ([a b] & Hz & E). destruct y as [y1 y2]. cbn in E.
    apply andb_true_iff in E as [E1 E2]. apply seqb_eq in E1, E2. subst. exact Hz.
  - rewrite in_app_iff. cbn. intuition.
Qed.

(* all that is known of an iteration order: it visits the same elements *)
Section Shuffled.
  Variable sh : shuffles.
  Hypothesis sh_ok : shuffles_ok sh.

  Lemma sh_nodes_in l x : In x (sh_nodes sh l) <-> In x l.
  Proof. destruct sh_ok as (H & _). split; apply Permutation_in; [|apply Permutation_sym]; apply H. Qed.
  Lemma sh_svcs_in l x : In x (sh_svcs sh l) <-> In x l.
  Proof. destruct sh_ok as (_ & H & _). split; apply Permutation_in; [|apply Permutation_sym]; apply H. Qed.
  Lemma sh_chks_in l x : In x (sh_chks sh l) <-> In x l.
  Proof. destruct sh_ok as (_ & _ & H & _). split; apply Permutation_in; [|apply Permutation_sym]; apply H. Qed.
  Lemma sh_dnc_in l x : In x (sh_dnc sh l) <-> In x l.
  Proof. destruct sh_ok as (_ & _ & _ & H & _). split; apply Permutation_in; [|apply Permutation_sym]; apply H. Qed.
  Lemma sh_unused_in l x : In x (sh_unused sh l) <-> In x l.
  Proof. destruct sh_ok as (_ & _ & _ & _ & H & _). split; apply Permutation_in; [|apply Permutation_sym]; apply H. Qed.
  Lemma sh_names_in l x : In x (sh_names sh l) <-> In x l.
  Proof. destruct sh_ok as (_ & _ & _ & _ & _ & H). split; apply Permutation_in; [|apply Permutation_sym]; apply H. Qed.
End Shuffled.

Section Tbl.
  Context {A : Type} (kf : A -> key).

  Definition keys_nodup (l : list A) : Prop := NoDup (map kf l).

  Lemma in_tdel x k l : In x (tdel kf k l) <-> In x l /\ kf x <> k.
  Proof.
    unfold tdel. rewrite filter_In, negb_true_iff, key_eqb_neq. reflexivity.
  Qed.

  Lemma in_tput x y l : In x (tput kf y l) <-> x = y \/ (In x l /\ kf x <> kf y).
  Proof.
    unfold tput. cbn [In]. rewrite in_tdel. intuition congruence.
  Qed.

  Lemma nodup_filter f l : keys_nodup l -> keys_nodup (filter f l).
  Proof. apply NoDup_map_filter. Qed.

  Lemma nodup_tdel k l : keys_nodup l -> keys_nodup (tdel kf k l).
  Proof. apply nodup_filter. Qed.

  Lemma nodup_tput x l : keys_nodup l -> keys_nodup (tput kf x l).
  Proof.
    intros H. unfold tput, keys_nodup. cbn. constructor.
    - intros Hin. apply in_map_iff in Hin as (y & Ey & Hy). apply in_tdel in Hy as [_ Hy]. congruence.
    - apply nodup_tdel. exact H.
  Qed.

  Lemma tget_some k l x : tget kf k l = Some x -> In x l /\ kf x = k.
  Proof.
    unfold tget. intros H. apply find_some in H as [H1 H2]. apply key_eqb_eq in H2. auto.
  Qed.

  Lemma tget_none k l : tget kf k l = None <-> forall x, In x l -> kf x <> k.
  Proof.
    unfold tget. rewrite find_none_iff. split; intros H x Hx.
    - apply key_eqb_neq. auto.
    - apply key_eqb_neq. auto.
  Qed.

  Lemma nodup_key_inj l x y : keys_nodup l -> In x l -> In y l -> kf x = kf y -> x = y.
  Proof. apply NoDup_map_inj. Qed.

  Lemma tget_in l x : keys_nodup l -> In x l -> tget kf (kf x) l = Some x.
  Proof. apply (find_NoDup_key kf key_eqb key_eqb_eq). Qed.

  Lemma tget_iff l k x : keys_nodup l -> (tget kf k l = Some x <-> In x l /\ kf x = k).
  Proof.
    intros Hn. split; [apply tget_some|]. intros [Hx <-]. apply tget_in; auto.
  Qed.
End Tbl.

Lemma NoDup_app_snoc {A} (l : list A) x : NoDup l -> ~ In x l -> NoDup (l ++ [x]).
Proof.
  induction l as [|y l IH]; intros Hn Hx; cbn [app].
  - constructor; [intros []|constructor].
  - inversion Hn as [|? ? Hnin Hn']; subst. constructor.
    + rewrite in_app_iff. cbn. intros [H|[->|[]]]; [contradiction|]. apply Hx. left. reflexivity.
    + apply IH; [exact Hn'|]. intros H. apply Hx. right. exact H.
Qed.
