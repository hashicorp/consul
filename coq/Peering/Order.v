(* C17 — reordering a list by the keys read off the implementation's call log (Run/C17.v
   reorder) permutes it: the model instance evaluated by the correspondence check is one of
   those the theorems quantify over. *)
From Verif Require Import Base.Prelude Peering.Model Peering.Lemmas Run.C17.
From Verif Require Import Base.Lists.
Require Import Coq.Sorting.Permutation.
Local Open Scope string_scope.

Lemma filter_split_perm {A} (f : A -> bool) l : Permutation l (filter f l ++ filter (fun a => negb (f a)) l).
Proof.
  induction l as [|x l IH]; cbn [filter app]; [constructor|].
  destruct (f x); cbn [negb app].
  - constructor. exact IH.
  - eapply Permutation_trans; [apply perm_skip; exact IH|]. apply Permutation_middle.
Qed.

Section Reorder.
  Context {A K : Type} (key : A -> K) (keqb : K -> K -> bool).
  Hypothesis keqb_eq : forall a b, keqb a b = true <-> a = b.

  Lemma nodup_dedup l : NoDup (dedup keqb l).
  Proof.
    induction l as [|x l IH]; cbn [dedup]; constructor.
    - rewrite filter_In. intros [_ H]. rewrite (proj2 (keqb_eq x x) eq_refl) in H. discriminate.
    - apply NoDup_filter. exact IH.
  Qed.

  Lemma existsb_dedup k l : existsb (fun h => keqb h k) (dedup keqb l) = existsb (fun h => keqb h k) l.
  Proof.
    induction l as [|x l IH]; cbn [dedup existsb]; [reflexivity|].
    destruct (keqb x k) eqn:E; cbn [orb]; [reflexivity|]. rewrite <- IH.
    (* removing the copies of x (a key different from k) does not change whether k occurs *)
    generalize (dedup keqb l). intros m. induction m as [|y m IHm]; cbn [filter existsb]; [reflexivity|].
    destruct (keqb x y) eqn:Exy; cbn [negb existsb].
    - apply keqb_eq in Exy. subst y. rewrite E. cbn [orb]. exact IHm.
    - rewrite IHm. reflexivity.
  Qed.

  Lemma groups_perm : forall hs l, NoDup hs ->
    Permutation l (flat_map (fun h => filter (fun a => keqb h (key a)) l) hs
                   ++ filter (fun a => negb (existsb (fun h => keqb h (key a)) hs)) l).
  Proof.
    induction hs as [|h hs IH]; intros l Hn; cbn [flat_map existsb app].
    - cbn [negb]. rewrite filter_all; [apply Permutation_refl | auto].
    - inversion Hn as [|? ? Hnin Hn']; subst.
      eapply Permutation_trans; [apply (filter_split_perm (fun a => keqb h (key a)) l)|].
      rewrite <- app_assoc. apply Permutation_app_head.
      set (rest := filter (fun a => negb (keqb h (key a))) l).
      assert (E1 : flat_map (fun h' => filter (fun a => keqb h' (key a)) rest) hs
                   = flat_map (fun h' => filter (fun a => keqb h' (key a)) l) hs).
      { apply flat_map_ext_in. intros h' Hh'. unfold rest. apply filter_filter_in.
        intros x _ Hx. apply keqb_eq in Hx. apply negb_true_iff.
        destruct (keqb h (key x)) eqn:E; [|reflexivity]. apply keqb_eq in E. subst. contradiction. }
      assert (E2 : filter (fun a => negb (existsb (fun h' => keqb h' (key a)) hs)) rest
                   = filter (fun a => negb (keqb h (key a) || existsb (fun h' => keqb h' (key a)) hs)) l).
      { unfold rest. rewrite filter_filter. apply filter_ext. intros a.
        destruct (keqb h (key a)); cbn [negb andb orb]; reflexivity. }
      rewrite <- E1, <- E2. apply (IH rest Hn').
  Qed.

  Lemma reorder_perm hint l : Permutation (reorder key keqb hint l) l.
  Proof.
    unfold reorder. apply Permutation_sym.
    eapply Permutation_trans; [apply (groups_perm (dedup keqb hint) l (nodup_dedup hint))|].
    apply Permutation_app_head. apply Permutation_refl'. apply filter_ext. intros a.
    rewrite existsb_dedup. reflexivity.
  Qed.
End Reorder.

Lemma pair_eqb_spec a b : pair_eqb a b = true <-> a = b.
Proof.
  destruct a, b. unfold pair_eqb. cbn. rewrite andb_true_iff, !seqb_eq. split; [intros [-> ->]; reflexivity|intros E; injection E; auto].
Qed.

