(* C17 — the handler state and its two Backend calls; what CheckServiceNodes returns; pruning:
   after an exported-service list has been processed without error, every service row of the
   peer belongs to an exported name (or to the synthetic sidecar of one), and rows are only
   ever removed by that handler. *)
From Verif Require Import Base.Prelude Peering.Model Peering.Lemmas Peering.Verbs.
From Verif Require Import Base.Lists.
Require Import Coq.Sorting.Permutation.
Local Open Scope string_scope.

Lemma delete_check_svcs c p n i : svcs (delete_check c p n i) = svcs c.
Proof. reflexivity. Qed.
Lemma delete_check_nodes c p n i : nodes (delete_check c p n i) = nodes c.
Proof. reflexivity. Qed.

Lemma deregister_svcs_incl c d : incl (svcs (deregister c d)) (svcs c).
Proof. apply deregister_shrinks. Qed.

(* a service row keeps its node row unless the node delete takes both *)
Definition svc_has_node (c : cat) (x : svc) : Prop := get_node c (s_peer x) (s_node x) <> None.

Lemma get_node_delete_node_other c p n p' n' :
  (p', n') <> (p, n) -> get_node (delete_node c p n) p' n' = get_node c p' n'.
Proof.
  intros Hne. unfold delete_node. destruct (get_node c p n); [|reflexivity].
  apply find_filter_imp. intros x _ E1. apply key_eqb_eq in E1. apply negb_true_iff, key_eqb_neq.
  rewrite E1. congruence.
Qed.

Lemma delete_node_keeps_has_node c p n x :
  In x (svcs (delete_node c p n)) -> svc_has_node c x -> svc_has_node (delete_node c p n) x.
Proof.
  intros Hx Hn. apply delete_node_svcs in Hx as [_ [G|Hne]].
  - unfold delete_node. rewrite G. exact Hn.
  - unfold svc_has_node. rewrite get_node_delete_node_other; [exact Hn|]. intros E. injection E as E1 E2. auto.
Qed.

Lemma deregister_keeps_has_node c d x :
  In x (svcs (deregister c d)) -> svc_has_node c x -> svc_has_node (deregister c d) x.
Proof.
  apply (deregister_cases (fun c' => In x (svcs c') -> svc_has_node c x -> svc_has_node c' x)).
  - intros n. apply delete_node_keeps_has_node.
  - intros n i _. unfold svc_has_node, get_node. rewrite delete_service_nodes. auto.
  - intros n i _ H. exact H.
Qed.

Lemma deregister_dsvc_removes c p n i x :
  In x (svcs (deregister c (DSvc p n i))) -> svc_has_node c x -> svc_key x <> (p, n, i).
Proof.
  cbn [deregister]. destruct (seqb i "").
  - intros Hx Hn E. injection E as E1 E2 _. apply delete_node_svcs in Hx as [_ [G|Hne]]; [|auto].
    apply Hn. rewrite E1, E2. exact G.
  - intros Hx _. apply delete_service_svcs in Hx. tauto.
Qed.

Lemma do_dereg_err d s : h_err s <> None -> do_dereg d s = s.
Proof. unfold do_dereg. destruct (h_err s); [reflexivity | contradiction]. Qed.

Lemma do_dereg_ok d s :
  h_err s = None -> h_cat (do_dereg d s) = deregister (h_cat s) d /\ h_err (do_dereg d s) = None.
Proof. unfold do_dereg. intros ->. auto. Qed.

Lemma do_dereg_h_err d s : h_err (do_dereg d s) = h_err s.
Proof. unfold do_dereg. destruct (h_err s) eqn:E; [exact E | reflexivity]. Qed.

Lemma do_dereg_cat (P : cat -> Prop) d s :
  (P (h_cat s) -> P (deregister (h_cat s) d)) -> P (h_cat s) -> P (h_cat (do_dereg d s)).
Proof. unfold do_dereg. destruct (h_err s); cbn [h_cat]; auto. Qed.

Lemma err_dereg d s : h_err s = None -> h_err (do_dereg d s) = None.
Proof. rewrite do_dereg_h_err. auto. Qed.

Lemma do_dereg_svcs_incl d s : incl (svcs (h_cat (do_dereg d s))) (svcs (h_cat s)).
Proof.
  apply (do_dereg_cat (fun c => incl (svcs c) (svcs (h_cat s)))); [|apply incl_refl].
  intros H. eapply incl_tran; [apply deregister_svcs_incl | exact H].
Qed.

Lemma unused_block_closed p (Q : hst -> Prop) s n :
  (forall d s, Q s -> Q (do_dereg d s)) -> Q s -> Q (unused_block p s n).
Proof.
  intros HQ H. unfold unused_block. destruct (h_err s); [exact H|].
  destruct (node_has_services (h_cat s) p n); auto.
Qed.

Lemma do_reg_err r s : h_err s <> None -> do_reg r s = s.
Proof. unfold do_reg. destruct (h_err s); [reflexivity | contradiction]. Qed.

Lemma do_reg_ok r s :
  h_err s = None -> h_err (do_reg r s) = None -> register (h_cat s) r = Ok (h_cat (do_reg r s)).
Proof.
  unfold do_reg. intros ->. destruct (register (h_cat s) r); cbn; [reflexivity | discriminate].
Qed.

Lemma do_reg_stages nd os ks s :
  h_err s = None -> h_err (do_reg (Reg nd os ks) s) = None ->
  exists c1 c2, reg_node (h_cat s) nd = Ok c1 /\ reg_svc c1 nd os = Ok c2 /\
                ensure_checks c2 (n_name nd) ks = Ok (h_cat (do_reg (Reg nd os ks) s)).
Proof.
  intros He He1. pose proof (do_reg_ok _ _ He He1) as R. unfold register in R.
  destruct (reg_peers_ok _); cbn [negb] in R; [|discriminate]. cbn [r_node r_svc r_chks] in R.
  destruct (reg_node (h_cat s) nd) as [c1|e] eqn:R1; cbn [bind] in R; [|discriminate].
  destruct (reg_svc c1 nd os) as [c2|e] eqn:R2; cbn [bind] in R; [|discriminate]. exists c1, c2. auto.
Qed.

Lemma do_reg_cat (P : cat -> Prop) r s :
  (P (h_cat s) -> okp P (register (h_cat s) r)) -> P (h_cat s) -> P (h_cat (do_reg r s)).
Proof.
  unfold do_reg. intros Hr Hs. destruct (h_err s); [exact Hs|]. specialize (Hr Hs).
  destruct (register (h_cat s) r); cbn [h_cat]; assumption.
Qed.

Lemma fold_sticky {A} (f : hst -> A -> hst) :
  (forall s a, h_err s <> None -> f s a = s) ->
  forall l s, h_err s <> None -> fold_left f l s = s.
Proof.
  intros Hf. induction l as [|a l IH]; intros s Hs; cbn [fold_left]; [reflexivity|].
  rewrite Hf by exact Hs. apply IH. exact Hs.
Qed.

Lemma fold_err_none {A} (f : hst -> A -> hst) :
  (forall s a, h_err s <> None -> f s a = s) ->
  forall l s, h_err (fold_left f l s) = None -> h_err s = None.
Proof.
  intros Hf l s H. destruct (h_err s) eqn:E; [|reflexivity].
  rewrite (fold_sticky f Hf) in H by congruence. congruence.
Qed.

Lemma perm_nil_eq {A} (l : list A) : Permutation l [] -> l = [].
Proof. intros H. apply Permutation_sym, Permutation_nil in H. exact H. Qed.

Definition inst_of (c : cat) (p : string) (s : svc) (nd : node) : inst :=
  Inst nd s (checks_for c p (s_node s) "" ++ checks_for c p (s_node s) (s_id s)).

Lemma csn_of_Ok c p : forall l stored,
  csn_of c p l = Ok stored <->
  Forall2 (fun s i => exists nd, get_node c p (s_node s) = Some nd /\ i = inst_of c p s nd) l stored.
Proof.
  induction l as [|y l IH]; intros stored; cbn [csn_of].
  - split; [intros E; injection E as <-; constructor | intros H; inversion H; reflexivity].
  - split.
    + destruct (get_node c p (s_node y)) as [nd|] eqn:G; [|discriminate].
      destruct (csn_of c p l) as [rest|e]; cbn [bind]; [|discriminate].
      intros E; injection E as <-. constructor; [exists nd; auto | apply IH; reflexivity].
    + intros H. inversion H as [|? i ? rest (nd & G & ->) Hr]; subst.
      rewrite G. apply IH in Hr. rewrite Hr. reflexivity.
Qed.

Lemma csn_of_svcs c p : forall l stored,
  csn_of c p l = Ok stored -> map i_svc stored = l.
Proof.
  intros l stored H. apply csn_of_Ok in H.
  induction H as [|y i l stored (nd & _ & ->) _ IH]; cbn; congruence.
Qed.

Lemma csn_of_node_name c p : forall l stored,
  csn_of c p l = Ok stored -> forall i, In i stored -> n_name (i_node i) = s_node (i_svc i).
Proof.
  intros l stored H i Hi. apply csn_of_Ok in H.
  destruct (Forall2_In_r _ _ _ _ H Hi) as (y & _ & nd & G & ->). apply get_node_in in G. apply G.
Qed.

Definition has_node_at (c : cat) (p : string) (x : svc) : Prop := get_node c p (s_node x) <> None.

Lemma csn_of_spec c p : forall l stored,
  csn_of c p l = Ok stored ->
  forall x, In x l -> has_node_at c p x /\ exists i, In i stored /\ i_svc i = x /\ n_name (i_node i) = s_node x.
Proof.
  intros l stored H x Hx. pose proof (csn_of_node_name c p l stored H) as Hn.
  apply csn_of_Ok in H. destruct (Forall2_In_l _ _ _ _ H Hx) as (i & Hi & nd & G & ->).
  split; [unfold has_node_at; congruence|]. exists (inst_of c p x nd). split; [exact Hi|].
  split; [reflexivity | apply (Hn _ Hi)].
Qed.

Section Delete.
  Variable sh : shuffles.
  Hypothesis sh_ok : shuffles_ok sh.
  Variable p : string.

  Lemma stored_block_empty a i :
    stored_block p [] a i =
    P2 (do_dereg (DSvc p (n_name (i_node i)) (s_id (i_svc i))) (p2_st a))
       (add_str (n_name (i_node i)) (p2_unused a)) (p2_dnc a).
  Proof. reflexivity. Qed.

  Definition del_inv (c0 : cat) (sn : string) (s : hst) : Prop :=
    incl (svcs (h_cat s)) (svcs c0) /\
    (forall x, In x (svcs (h_cat s)) -> s_peer x = p -> s_name x = sn -> svc_has_node (h_cat s) x).

  Lemma del_inv_dereg c0 sn d s : del_inv c0 sn s -> del_inv c0 sn (do_dereg d s).
  Proof.
    intros [H1 H2]. unfold do_dereg. destruct (h_err s); [split; assumption|]. cbn [h_cat]. split.
    - eapply incl_tran; [apply deregister_svcs_incl | exact H1].
    - intros x Hx Hp Hs. apply deregister_keeps_has_node; [exact Hx|].
      apply H2; auto. apply deregister_svcs_incl in Hx. exact Hx.
  Qed.

  Definition del_ok (c0 : cat) (sn : string) (a : p2) : Prop :=
    del_inv c0 sn (p2_st a) /\ h_err (p2_st a) = None /\ p2_dnc a = [].

  Lemma del_ok_step c0 sn a i : del_ok c0 sn a -> del_ok c0 sn (stored_block p [] a i).
  Proof.
    intros (A & B & C). rewrite stored_block_empty.
    split; [apply del_inv_dereg, A | split; [apply err_dereg, B | exact C]].
  Qed.

  Lemma stored_loop_empty c0 sn stored a :
    del_ok c0 sn a ->
    let a' := fold_left (stored_block p []) stored a in
    del_ok c0 sn a' /\
    (forall i, In i stored -> forall x, In x (svcs (h_cat (p2_st a'))) -> s_peer x = p -> s_name x = sn ->
                 svc_key x <> (p, n_name (i_node i), s_id (i_svc i))).
  Proof.
    intros Ha a'. split; [apply fold_left_inv; [intros; apply del_ok_step; assumption | exact Ha]|].
    intros i Hi.
    apply (fold_left_reaches (stored_block p []) (del_ok c0 sn)
             (fun a' => forall x, In x (svcs (h_cat (p2_st a'))) -> s_peer x = p -> s_name x = sn ->
                                  svc_key x <> (p, n_name (i_node i), s_id (i_svc i))) i); [| | |exact Hi|exact Ha].
    - intros; apply del_ok_step; assumption.
    - intros a0 j H x Hx. apply H. rewrite stored_block_empty in Hx. apply do_dereg_svcs_incl in Hx. exact Hx.
    - (* the row is removed by this deregistration, and nothing puts it back *)
      intros a0 ([H1 H2] & He & _) x Hx Hp Hs. rewrite stored_block_empty in Hx. cbn [p2_st] in Hx.
      destruct (do_dereg_ok (DSvc p (n_name (i_node i)) (s_id (i_svc i))) (p2_st a0) He) as [Ec _].
      rewrite Ec in Hx. eapply deregister_dsvc_removes; [exact Hx|].
      apply H2; auto. apply deregister_svcs_incl in Hx. exact Hx.
  Qed.

  Lemma unused_loop c0 sn : forall l s,
    del_inv c0 sn s -> del_inv c0 sn (fold_left (unused_block p) l s).
  Proof.
    intros l. apply (fold_left_inv (del_inv c0 sn)). intros; apply unused_block_closed; [apply del_inv_dereg | assumption].
  Qed.

  Lemma unused_loop_incl : forall l s,
    incl (svcs (h_cat (fold_left (unused_block p) l s))) (svcs (h_cat s)).
  Proof.
    intros l s. apply (fold_left_inv (fun s' => incl (svcs (h_cat s')) (svcs (h_cat s)))); [|apply incl_refl].
    intros; apply unused_block_closed; [|assumption].
    intros d s' H'. eapply incl_tran; [apply do_dereg_svcs_incl | exact H'].
  Qed.

  Lemma unused_loop_err : forall l s, h_err s = None -> h_err (fold_left (unused_block p) l s) = None.
  Proof.
    intros l. apply (fold_left_inv (fun s => h_err s = None)).
    intros; apply unused_block_closed; [apply err_dereg | assumption].
  Qed.

  (* handleUpdateService(peer, sn, nil) *)
  Lemma handle_delete_spec s0 sn :
    let s' := handle_update_from sh s0 p sn None in
    h_err s0 = None -> h_err s' = None ->
    incl (svcs (h_cat s')) (svcs (h_cat s0)) /\
    (forall x, In x (svcs (h_cat s')) -> s_peer x = p -> s_name x <> sn).
  Proof.
    intros s' He0 He'. subst s'. unfold handle_update_from in *. rewrite He0 in *.
    destruct (check_service_nodes (h_cat s0) p sn) as [stored|e] eqn:Ecsn; [|cbn in He'; discriminate].
    destruct sh_ok as (Hn & _ & _ & Hdn & _ & _).
    cbn [new_health_snapshot fold_left] in *.
    change (new_health_snapshot p []) with (@nil nsnap) in *.
    rewrite (perm_nil_eq _ (Hn [])) in *. cbn [fold_left] in *.
    set (c0 := h_cat s0) in *.
    assert (Hinv0 : del_inv c0 sn s0).
    { split; [apply incl_refl|]. intros x Hx Hp Hs. unfold check_service_nodes in Ecsn.
      eapply csn_of_spec in Ecsn as [Hh _].
      - unfold svc_has_node. rewrite Hp. exact Hh.
      - apply filter_In. split; [exact Hx|]. subst. rewrite !seqb_refl. reflexivity. }
    pose proof (stored_loop_empty c0 sn stored (P2 s0 [] []) (conj Hinv0 (conj He0 eq_refl))) as ((I1 & I2 & I3) & I4).
    set (a := fold_left (stored_block p []) stored (P2 s0 [] [])) in *.
    rewrite I3 in *. rewrite (perm_nil_eq _ (Hdn [])) in *. cbn [fold_left] in *.
    split.
    - eapply incl_tran; [apply unused_loop_incl|]. destruct I1 as [I1 _]. exact I1.
    - intros x Hx Hp Hs. apply unused_loop_incl in Hx.
      unfold check_service_nodes in Ecsn.
      assert (Hx0 : In x (svcs c0)) by (destruct I1 as [I1 _]; apply I1; exact Hx).
      eapply csn_of_spec in Ecsn as [_ (i & Hi & E1 & E2)].
      2:{ apply filter_In. split; [exact Hx0|]. rewrite Hp, Hs, !seqb_refl. reflexivity. }
      eapply I4; eauto. rewrite E1, E2. destruct x; cbn in *. subst. reflexivity.
  Qed.

  Lemma handle_update_from_err s0 sn ex : h_err s0 <> None -> handle_update_from sh s0 p sn ex = s0.
  Proof. unfold handle_update_from. destruct (h_err s0); [reflexivity | contradiction]. Qed.
End Delete.

Lemma in_nodup_str x l : In x (nodup_str l) <-> In x l.
Proof.
  induction l as [|y l IH]; cbn [nodup_str]; [reflexivity|].
  destruct (existsb (seqb y) l) eqn:E.
  - apply existsb_seqb_in in E. rewrite IH. cbn. split; [auto|]. intros [<-|H]; auto.
  - cbn. rewrite IH. reflexivity.
Qed.

Lemma in_service_list c p sn : In sn (service_list c p) <-> exists x, In x (svcs c) /\ s_peer x = p /\ s_name x = sn.
Proof.
  unfold service_list. rewrite in_nodup_str, in_map_iff. split.
  - intros (x & E & Hx). apply filter_In in Hx as [Hx Hp]. apply seqb_eq in Hp. eauto.
  - intros (x & Hx & Hp & E). exists x. split; [exact E|]. apply filter_In. split; [exact Hx|].
    apply seqb_eq. exact Hp.
Qed.

Section List.
  Variable sh : shuffles.
  Hypothesis sh_ok : shuffles_ok sh.
  Variable p : string.
  Variable names : list string.

  Definition list_step (s : hst) (sn : string) : hst :=
    if existsb (seqb sn) (exported_set names) then s else handle_update_from sh s p sn None.

  Lemma handle_exported_list_fold c :
    handle_exported_list sh c p names = fold_left list_step (sh_names sh (service_list c p)) (HSt c [] None).
  Proof. reflexivity. Qed.

  Lemma list_step_sticky s sn : h_err s <> None -> list_step s sn = s.
  Proof.
    intros H. unfold list_step. destruct (existsb (seqb sn) (exported_set names)); [reflexivity|].
    apply handle_update_from_err. exact H.
  Qed.

  Lemma list_loop : forall l s,
    h_err (fold_left list_step l s) = None ->
    let s' := fold_left list_step l s in
    incl (svcs (h_cat s')) (svcs (h_cat s)) /\
    (forall sn x, In sn l -> ~ In sn (exported_set names) -> In x (svcs (h_cat s')) -> s_peer x = p -> s_name x <> sn).
  Proof.
    induction l as [|sn l IH]; intros s He; cbn [fold_left] in *.
    - split; [apply incl_refl|]. intros sn x [].
    - pose proof (fold_err_none list_step list_step_sticky l _ He) as He2.
      pose proof (fold_err_none list_step list_step_sticky [sn] s He2) as He1.
      set (s1 := list_step s sn) in *.
      assert (Hstep : incl (svcs (h_cat s1)) (svcs (h_cat s)) /\
                      (~ In sn (exported_set names) -> forall x, In x (svcs (h_cat s1)) -> s_peer x = p -> s_name x <> sn)).
      { subst s1. unfold list_step in *. destruct (existsb (seqb sn) (exported_set names)) eqn:Ex.
        - split; [apply incl_refl|]. apply existsb_seqb_in in Ex. intros; contradiction.
        - destruct (handle_delete_spec sh sh_ok p s sn He1 He2) as [A B]. split; [exact A|]. intros _. exact B. }
      destruct Hstep as [A B].
      destruct (IH s1 He) as [C D]. split; [eapply incl_tran; eauto|].
      intros m x [<-|Hm] Hne Hx Hp; [|eapply D; eauto].
      apply B; auto.
  Qed.

End List.
