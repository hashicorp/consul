(* C17 — the other half of pruning: an exported-service list only removes what it has to.
   Every instance of the peer whose service name is still exported (or is the sidecar of an
   exported name) is kept, with its node row and its service-level checks. *)
From Verif Require Import Base.Prelude Peering.Model Peering.Lemmas Peering.Verbs Peering.Prune
     Peering.Phase1 Peering.Phase2 Peering.Mirror Peering.Snapshot Peering.MirrorTop.
Require Import Coq.Sorting.Permutation.
Local Open Scope string_scope.

Lemma snap_coh_nil p sn : snap_coh p sn [].
Proof. split; try (intros i; intros; contradiction). constructor. Qed.

Section DeleteKeeps.
  Variables (sh : shuffles) (p : string).
  Hypothesis sh_ok : shuffles_ok sh.

  Lemma delete_shrinks s sn :
    h_err (handle_update_from sh s p sn None) = None ->
    shrinks (h_cat s) (h_cat (handle_update_from sh s p sn None)).
  Proof.
    intros He. destruct (handle_update_from_ok _ _ _ _ _ He) as (_ & stored & _ & E). rewrite E.
    change (new_health_snapshot p []) with (@nil nsnap). destruct sh_ok as (Hn & _).
    rewrite (perm_nil_eq _ (Hn [])). apply (phase2_shrinks sh p [] stored sh_ok s).
  Qed.

  (* handleUpdateService(peer, sn, nil) leaves an instance of another service name alone: the
     same-peer frame at the empty snapshot *)
  Lemma delete_keeps s sn z :
    h_err s = None -> h_err (handle_update_from sh s p sn None) = None ->
    wf (h_cat s) -> ids_nonempty (h_cat s) p ->
    In z (svcs (h_cat s)) -> s_peer z = p -> s_name z <> sn ->
    let s' := handle_update_from sh s p sn None in
    wf (h_cat s') /\ ids_nonempty (h_cat s') p /\ In z (svcs (h_cat s')) /\
    (forall b, In b (nodes (h_cat s)) -> n_peer b = p -> n_name b = s_node z -> In b (nodes (h_cat s'))) /\
    (forall k, In k (chks (h_cat s)) -> c_peer k = p -> c_node k = s_node z -> c_sid k = s_id z -> In k (chks (h_cat s'))).
  Proof.
    intros He He' W I Hz Zp Zn s'. subst s'.
    destruct (delete_shrinks s sn He') as [_ In2 In3 Wf'].
    destruct s as [c0 ops0 e0]. cbn [h_err h_cat] in *. subst e0.
    split; [apply Wf'; exact W|].
    split; [destruct I as [Is Ik]; split; [intros y Hy; apply Is, In2, Hy | intros k Hk; apply Ik, In3, Hk]|].
    destruct (same_peer_top sh p sn c0 [] ops0 sh_ok W (snap_coh_nil p sn) (fun i b (H : In i []) => match H with end)
                            I He' z Hz Zp Zn (fun i (H : In i []) => match H with end)) as (A & B & C).
    split; [exact A|]. split.
    - intros b Hb Bp Bn. apply B; auto.
    - intros k Hk Kp Kn Ks. apply C; auto.
  Qed.
End DeleteKeeps.

Section ListKeeps.
  Variables (sh : shuffles) (p : string) (names : list string).
  Hypothesis sh_ok : shuffles_ok sh.

  Lemma list_keeps z : forall l s,
    h_err (fold_left (list_step sh p names) l s) = None ->
    wf (h_cat s) -> ids_nonempty (h_cat s) p ->
    In z (svcs (h_cat s)) -> s_peer z = p -> In (s_name z) (exported_set names) ->
    let s' := fold_left (list_step sh p names) l s in
    In z (svcs (h_cat s')) /\
    (forall b, In b (nodes (h_cat s)) -> n_peer b = p -> n_name b = s_node z -> In b (nodes (h_cat s'))) /\
    (forall k, In k (chks (h_cat s)) -> c_peer k = p -> c_node k = s_node z -> c_sid k = s_id z -> In k (chks (h_cat s'))).
  Proof.
    induction l as [|sn l IH]; intros s He W I Hz Zp Zn; cbn [fold_left] in *; [auto|].
    pose proof (fold_err_none _ (list_step_sticky sh p names) l _ He) as He1.
    pose proof (fold_err_none _ (list_step_sticky sh p names) [sn] s He1) as He0.
    destruct (existsb (seqb sn) (exported_set names)) eqn:Ex.
    - assert (E : list_step sh p names s sn = s) by (unfold list_step; rewrite Ex; reflexivity).
      rewrite E in *. apply IH; auto.
    - assert (E : list_step sh p names s sn = handle_update_from sh s p sn None)
        by (unfold list_step; rewrite Ex; reflexivity).
      rewrite E in *.
      assert (Hne : s_name z <> sn).
      { intros E'. apply existsb_seqb_notin in Ex. apply Ex. rewrite <- E'. exact Zn. }
      destruct (delete_keeps sh p sh_ok s sn z He0 He1 W I Hz Zp Hne) as (W1 & I1 & Z1 & N1 & K1).
      destruct (IH (handle_update_from sh s p sn None) He W1 I1 Z1 Zp Zn) as (A & B & C).
      split; [exact A|]. split.
      + intros b Hb Bp Bn. apply B; auto.
      + intros k Hk Kp Kn Ks. apply C; auto.
  Qed.

End ListKeeps.

