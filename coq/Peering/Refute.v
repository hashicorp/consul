(* C17 — concrete inputs on which the faithful model (hence the code: each is replayed on the
   real handler by the harness) does NOT mirror the snapshot / does NOT keep other services of the
   peer, and one (w4) on which local data, rewritten before acb191c + e4a855c, is left alone.
   Every witness is evaluated by vm_compute. *)
From Verif Require Import Base.Prelude Peering.Model Peering.Lemmas Peering.Verbs.
Require Import Coq.Sorting.Permutation.
Local Open Scope string_scope.

Definition pairs {A} (l : list A) : list (A * A) := flat_map (fun a => map (fun b => (a, b)) l) l.

Fixpoint nodup_b {A} (eqb : A -> A -> bool) (l : list A) : bool :=
  match l with
  | [] => true
  | x :: l' => negb (existsb (eqb x) l') && nodup_b eqb l'
  end.

(* the boolean reading of Snapshot.snap_coh: one instance, one of its checks, two instances *)
Definition chk_ok_b (i : inst) (k : chk) : bool :=
  seqb (c_node k) (n_name (i_node i)) && (seqb (c_sid k) "" || seqb (c_sid k) (s_id (i_svc i)))
  && negb (N.eqb (c_status k) 0).

Definition inst_ok_b (p sn : string) (i : inst) : bool :=
  seqb (n_peer (i_node i)) p && seqb (s_peer (i_svc i)) p
  && seqb (s_node (i_svc i)) (n_name (i_node i))
  && forallb (fun k => seqb (c_peer k) p) (i_chks i)
  && seqb (s_name (i_svc i)) sn && negb (seqb (s_id (i_svc i)) "")
  && nodup_b seqb (map c_id (i_chks i))
  && forallb (chk_ok_b i) (i_chks i).

Definition same_node_b (i j : inst) : bool :=
  negb (seqb (n_name (i_node i)) (n_name (i_node j))) || node_eqb (i_node i) (i_node j).
Definition same_id_b (i j : inst) : bool :=
  negb (seqb (n_id (i_node j)) (n_id (i_node i))) || seqb (n_id (i_node i)) ""
  || seqb (n_name (i_node j)) (n_name (i_node i)).
Definition shared_chks_b (i j : inst) : bool :=
  negb (seqb (n_name (i_node i)) (n_name (i_node j)))
  || forallb (fun k => negb (seqb (c_sid k) "") || existsb (chk_eqb k) (i_chks j)) (i_chks i)
     && forallb (fun k => forallb (fun k' => negb (seqb (c_id k) (c_id k')) || chk_eqb k k') (i_chks j)) (i_chks i).

Definition coherent_b (p sn : string) (snap : list inst) : bool :=
  forallb (inst_ok_b p sn) snap
  && nodup_b (fun a b => seqb (fst a) (fst b) && seqb (snd a) (snd b))
             (map (fun i => (n_name (i_node i), s_id (i_svc i))) snap)
  && forallb (fun ij => same_node_b (fst ij) (snd ij)) (pairs snap)
  && forallb (fun ij => same_id_b (fst ij) (snd ij)) (pairs snap)
  && forallb (fun ij => shared_chks_b (fst ij) (snd ij)) (pairs snap).

Definition wf_b (c : cat) : bool :=
  nodup_b key_eqb (map node_key (nodes c)) && nodup_b key_eqb (map svc_key (svcs c))
  && nodup_b key_eqb (map chk_key (chks c)).

Definition has_all_svcs_b (c : cat) (snap : list inst) : bool :=
  forallb (fun i => existsb (svc_eqb (i_svc i)) (svcs c)) snap.

Definition no_extra_chks_b (c : cat) (p : string) (snap : list inst) : bool :=
  forallb (fun i =>
    forallb (fun r => negb (seqb (c_peer r) p && seqb (c_node r) (n_name (i_node i))
                            && (seqb (c_sid r) "" || seqb (c_sid r) (s_id (i_svc i))))
                      || existsb (fun k => seqb (c_id k) (c_id r)) (i_chks i)) (chks c)) snap.

Definition all_chks_stored_b (c : cat) (snap : list inst) : bool :=
  forallb (fun i => forallb (fun k => existsb (fun r => key_eqb (chk_key r) (chk_key k) && seqb (c_sid r) (c_sid k)
                                                       && N.eqb (c_status r) (c_status k) && N.eqb (c_body r) (c_body k)) (chks c))
                            (i_chks i)) snap.

(* an iteration order: snap.Nodes visited in reverse insertion order *)
Definition rev_nodes : shuffles :=
  Shuffles (fun l => rev l) (fun l => l) (fun l => l) (fun l => l) (fun l => l) (fun l => l).

Lemma rev_nodes_ok : shuffles_ok rev_nodes.
Proof.
  repeat split; intros l; cbn; try apply Permutation_refl. apply Permutation_sym, Permutation_rev.
Qed.

Lemma id_shuffles_ok : shuffles_ok id_shuffles.
Proof. repeat split; intros l; cbn; apply Permutation_refl. Qed.

Definition pa : string := "peer-a".
Definition idX : string := "11111111-1111-1111-1111-111111111111".
Definition idZ : string := "22222222-2222-2222-2222-222222222222".

Definition mk_svc (node sid name : string) (body : N) : svc := Svc pa node sid name 7 body 0 false "" [] false.

(* ---- witness 1: a node ID moves to another name (node takeover) ----
   stored:   node a (ID X) with web1
   received: node a (ID Z) with the same web1, node b (ID X) with web1
   visiting b first renames X: the store deletes node a and its instance; a is then
   registered again, but web1 on a "has not changed" and is skipped. *)
Definition w1_before : cat :=
  Cat [Node pa "a" idX 5] [mk_svc "a" "web1" "web" 9] [] [].
Definition w1_export : list inst :=
  [Inst (Node "" "a" idZ 5) (mk_svc "a" "web1" "web" 9) [];
   Inst (Node "" "b" idX 5) (mk_svc "b" "web1" "web" 9) []].
Definition w1_snap := map (inst_set_peer pa) w1_export.
Definition w1_after := handle_update_service rev_nodes w1_before pa "web" (Some w1_export).

Lemma w1_facts :
  wf_b w1_before = true /\ coherent_b pa "web" w1_snap = true /\ h_err w1_after = None
  /\ has_all_svcs_b (h_cat w1_after) w1_snap = false
  /\ svcs (h_cat w1_after) = [mk_svc "b" "web1" "web" 9].
Proof. vm_compute. repeat split; reflexivity. Qed.

(* the other visiting order gives the right result: the outcome depends on Go's map order *)
Lemma w1_other_order :
  has_all_svcs_b (h_cat (handle_update_service id_shuffles w1_before pa "web" (Some w1_export))) w1_snap = true.
Proof. vm_compute. reflexivity. Qed.

(* ---- witness 2: a check id changes owner (node-level before, service-level now) ----
   stored:   node a with web1 and web2, node-level check "c"
   received: web1 with "c" as ITS check, web2 without it
   "c" is registered for web1; the clean-up of web2 then finds the stored node check "c"
   missing from web2's list and deregisters (a, "c"). *)
Definition w2_before : cat :=
  Cat [Node pa "a" "" 5] [mk_svc "a" "web1" "web" 9; mk_svc "a" "web2" "web" 9]
      [Chk pa "a" "c" "" "" 7 1 3] [].
Definition w2_export : list inst :=
  [Inst (Node "" "a" "" 5) (mk_svc "a" "web1" "web" 9) [Chk "" "a" "c" "web1" "web" 7 1 3];
   Inst (Node "" "a" "" 5) (mk_svc "a" "web2" "web" 9) []].
Definition w2_snap := map (inst_set_peer pa) w2_export.
Definition w2_after := handle_update_service id_shuffles w2_before pa "web" (Some w2_export).

Lemma w2_facts :
  wf_b w2_before = true /\ coherent_b pa "web" w2_snap = true /\ h_err w2_after = None
  /\ all_chks_stored_b (h_cat w2_after) w2_snap = false /\ chks (h_cat w2_after) = [].
Proof. vm_compute. repeat split; reflexivity. Qed.

(* ---- witness 3: a stale node-level check survives when no stored instance is retained ----
   stored:   node a with web1 and the node check "maint"
   received: node a with web2 only, no checks
   web1 is deregistered (`continue`), its checks are never compared, "maint" stays attached
   to the new instance web2. *)
Definition w3_before : cat :=
  Cat [Node pa "a" "" 5] [mk_svc "a" "web1" "web" 9] [Chk pa "a" "maint" "" "" 7 3 3] [].
Definition w3_export : list inst := [Inst (Node "" "a" "" 5) (mk_svc "a" "web2" "web" 9) []].
Definition w3_snap := map (inst_set_peer pa) w3_export.
Definition w3_after := handle_update_service id_shuffles w3_before pa "web" (Some w3_export).

Lemma w3_facts :
  wf_b w3_before = true /\ coherent_b pa "web" w3_snap = true /\ h_err w3_after = None
  /\ no_extra_chks_b (h_cat w3_after) pa w3_snap = false
  /\ chks (h_cat w3_after) = [Chk pa "a" "maint" "" "" 7 3 3].
Proof. vm_compute. repeat split; reflexivity. Qed.

(* ---- former witness 4 (fixed in /repo by acb191c + e4a855c): an imported connect-proxy that
   names upstreams used to rewrite the mesh-topology row of a local sidecar; updateMeshTopology
   now returns at once for an imported instance and the row is kept ---- *)
Definition w4_before : cat :=
  Cat [Node "" "l1" "" 5] [Svc "" "l1" "web-proxy" "web-proxy" 7 4 1 false "web" ["db"] false] []
      [Topo "db" "web" ["l1/web-proxy"]].
Definition w4_export : list inst :=
  [Inst (Node "" "r1" "" 5) (Svc "" "r1" "px" "web-sidecar-proxy" 7 4 1 false "web" ["db"] false) []].
Definition w4_after := handle_update_service id_shuffles w4_before pa "web-sidecar-proxy" (Some w4_export).

Lemma w4_facts :
  h_err w4_after = None /\ In (Svc pa "r1" "px" "web-sidecar-proxy" 7 4 1 false "web" ["db"] false) (svcs (h_cat w4_after))
  /\ topo (h_cat w4_after) = topo w4_before.
Proof. vm_compute. repeat split; auto. Qed.

(* ---- witness 5: a node rename takes the instances of OTHER services of the peer with it ----
   stored:   node a (ID X) with web1 (service web) and api1 (service api)
   received for web: node b (ID X) with web1 *)
Definition w5_before : cat :=
  Cat [Node pa "a" idX 5] [mk_svc "a" "web1" "web" 9; mk_svc "a" "api1" "api" 9] [] [].
Definition w5_export : list inst := [Inst (Node "" "b" idX 5) (mk_svc "b" "web1" "web" 9) []].
Definition w5_snap := map (inst_set_peer pa) w5_export.
Definition w5_after := handle_update_service id_shuffles w5_before pa "web" (Some w5_export).

Lemma w5_facts :
  wf_b w5_before = true /\ coherent_b pa "web" w5_snap = true /\ h_err w5_after = None
  /\ svcs (h_cat w5_after) = [mk_svc "b" "web1" "web" 9].
Proof. vm_compute. repeat split; reflexivity. Qed.

From Verif Require Import Peering.Snapshot.

Lemma nodup_b_spec {A} (eqb : A -> A -> bool) :
  (forall a b, eqb a b = true <-> a = b) -> forall l, nodup_b eqb l = true -> NoDup l.
Proof.
  intros Heq. induction l as [|x l IH]; cbn [nodup_b]; intros H; [constructor|].
  apply andb_true_iff in H as [H1 H2]. constructor; [|apply IH; exact H2].
  intros Hin. apply negb_true_iff in H1. rewrite existsb_false_iff in H1.
  specialize (H1 x Hin). assert (eqb x x = true) by (apply Heq; reflexivity). congruence.
Qed.

Lemma wf_b_spec c : wf_b c = true -> wf c.
Proof.
  unfold wf_b. intros H. apply andb_true_iff in H as [H H3]. apply andb_true_iff in H as [H1 H2].
  repeat split; unfold keys_nodup; eapply nodup_b_spec; eauto using key_eqb_eq.
Qed.

Lemma in_pairs {A} (l : list A) a b : In a l -> In b l -> In (a, b) (pairs l).
Proof.
  intros Ha Hb. unfold pairs. apply in_flat_map. exists a. split; [exact Ha|]. apply in_map. exact Hb.
Qed.

Lemma pair_eqb_eq (a b : string * string) : seqb (fst a) (fst b) && seqb (snd a) (snd b) = true <-> a = b.
Proof.
  destruct a, b. cbn. rewrite andb_true_iff, !seqb_eq. split; [intros [-> ->]; reflexivity | intros E; injection E; auto].
Qed.

Lemma chk_ok_b_spec i k :
  chk_ok_b i k = true ->
  c_node k = n_name (i_node i) /\ (c_sid k = "" \/ c_sid k = s_id (i_svc i)) /\ c_status k <> 0%N.
Proof.
  unfold chk_ok_b. rewrite !andb_true_iff, orb_true_iff, !seqb_eq, negb_true_iff, N.eqb_neq. tauto.
Qed.

Lemma inst_ok_b_spec p sn i :
  inst_ok_b p sn i = true ->
  (n_peer (i_node i) = p /\ s_peer (i_svc i) = p /\ s_node (i_svc i) = n_name (i_node i)
   /\ forall k, In k (i_chks i) -> c_peer k = p) /\
  (s_name (i_svc i) = sn /\ s_id (i_svc i) <> "") /\ NoDup (map c_id (i_chks i)) /\
  (forall k, In k (i_chks i) -> chk_ok_b i k = true).
Proof.
  unfold inst_ok_b. rewrite !andb_true_iff, !seqb_eq, negb_true_iff, seqb_neq, !forallb_forall.
  intros (((((((A & B) & C) & D) & E) & F) & G) & H).
  split; [|split; [auto|split; [apply (nodup_b_spec seqb seqb_eq), G | exact H]]].
  split; [exact A|]. split; [exact B|]. split; [exact C|]. intros k Hk. apply seqb_eq, D, Hk.
Qed.

Lemma orb_neq_true a b c : a = b -> negb (seqb a b) || c = true -> c = true.
Proof. intros ->. rewrite seqb_refl. auto. Qed.

Lemma coherent_b_spec p sn snap : coherent_b p sn snap = true -> snap_coh p sn snap.
Proof.
  unfold coherent_b. rewrite !andb_true_iff, !forallb_forall. intros ((((P0 & P1) & P2) & P3) & P4).
  assert (U := fun i Hi => inst_ok_b_spec p sn i (P0 i Hi)).
  split.
  - intros i Hi. apply (U i Hi).
  - intros i Hi. apply (U i Hi).
  - eapply nodup_b_spec; [|exact P1]. intros a b. apply pair_eqb_eq.
  - intros i j Hi Hj E. apply node_eqb_eq, (orb_neq_true _ _ _ E), (P2 (i, j)), in_pairs; assumption.
  - intros i j Hi Hj E Hne. specialize (P3 (i, j) (in_pairs snap i j Hi Hj)). unfold same_id_b in P3. cbn [fst snd] in P3.
    rewrite <- orb_assoc in P3. apply (orb_neq_true _ _ _ E) in P3.
    apply orb_true_iff in P3 as [P3|P3]; apply seqb_eq in P3; [contradiction | exact P3].
  - intros i Hi. apply (U i Hi).
  - intros i k Hi Hk. apply chk_ok_b_spec, (U i Hi), Hk.
  - intros i j k Hi Hj E Hk Hs. pose proof (orb_neq_true _ _ _ E (P4 (i, j) (in_pairs snap i j Hi Hj))) as Q.
    apply andb_true_iff in Q as [Q _]. rewrite forallb_forall in Q.
    apply (orb_neq_true _ _ _ Hs) in Q; [|exact Hk].
    apply existsb_exists in Q as (k' & Hk' & E'). apply chk_eqb_eq in E'. subst k'. exact Hk'.
  - intros i j k k' Hi Hj E Hk Hk' Eid. pose proof (orb_neq_true _ _ _ E (P4 (i, j) (in_pairs snap i j Hi Hj))) as Q.
    apply andb_true_iff in Q as [_ Q]. rewrite forallb_forall in Q. specialize (Q k Hk).
    rewrite forallb_forall in Q. apply chk_eqb_eq, (orb_neq_true _ _ _ Eid), Q, Hk'.
Qed.
