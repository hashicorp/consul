(* C17 — one update of service sn of peer p that returned no error, on the handler's own snapshot:
   what is kept of the peer's other rows, and, under the hypotheses that exclude the three refuted
   classes (Refute.v), that the rows of (peer, service) are the rows of the snapshot. *)
From Verif Require Import Base.Prelude Peering.Model Peering.Lemmas Peering.Verbs Peering.Prune
     Peering.Phase1 Peering.Phase2 Peering.Frame.
Require Import Coq.Sorting.Permutation.
Local Open Scope string_scope.

Lemma find_ns_some hs x :
  NoDup (map (fun x => n_name (ns_node x)) hs) -> In x hs -> find_ns hs (n_name (ns_node x)) = Some x.
Proof. apply (find_NoDup_key (fun x => n_name (ns_node x)) seqb seqb_eq). Qed.

Lemma find_ns_in hs n x : find_ns hs n = Some x -> In x hs /\ n_name (ns_node x) = n.
Proof. unfold find_ns. intros H. apply find_some in H as [H1 H2]. apply seqb_eq in H2. auto. Qed.

Lemma find_ss_some x y :
  NoDup (map (fun y => s_id (ss_svc y)) (ns_svcs x)) -> In y (ns_svcs x) -> find_ss x (s_id (ss_svc y)) = Some y.
Proof. apply (find_NoDup_key (fun y => s_id (ss_svc y)) seqb seqb_eq). Qed.

Lemma find_ss_in x sid y : find_ss x sid = Some y -> In y (ns_svcs x) /\ s_id (ss_svc y) = sid.
Proof. unfold find_ss. intros H. apply find_some in H as [H1 H2]. apply seqb_eq in H2. auto. Qed.

Lemma has_chk_true y id : has_chk y id = true <-> exists k, In k (ss_chks y) /\ c_id k = id.
Proof.
  unfold has_chk. rewrite existsb_exists. split; intros (k & Hk & E); exists k; split; auto; apply seqb_eq; exact E.
Qed.

Definition is_reg (o : op) : Prop := match o with OReg _ => True | ODereg _ => False end.

(* what the theorems ask of the handler's snapshot [hs] against the store [c0], named so that
   MirrorTop can state that the received list provides it *)

Definition ids_keep (c0 : cat) (p : string) (hs : hsnap) : Prop :=
  forall x b, In x hs -> In b (nodes c0) -> n_peer b = p ->
              n_id b = n_id (ns_node x) -> n_id (ns_node x) <> "" -> n_name b = n_name (ns_node x).
Definition ids_one_name (hs : hsnap) : Prop :=
  forall x x', In x hs -> In x' hs -> n_id (ns_node x') = n_id (ns_node x) ->
               n_id (ns_node x) <> "" -> n_name (ns_node x') = n_name (ns_node x).
Definition chks_own (hs : hsnap) : Prop :=
  forall x y k, In x hs -> In y (ns_svcs x) -> In k (ss_chks y) -> c_sid k = "" \/ c_sid k = s_id (ss_svc y).
Definition node_chks_shared (hs : hsnap) : Prop :=
  forall x y y' k, In x hs -> In y (ns_svcs x) -> In y' (ns_svcs x) -> In k (ss_chks y) -> c_sid k = "" -> In k (ss_chks y').
Definition sids_nonempty (hs : hsnap) : Prop := forall x y, In x hs -> In y (ns_svcs x) -> s_id (ss_svc y) <> "".
Definition owners_stable (c0 : cat) (p : string) (hs : hsnap) : Prop :=
  forall k0 x y k, In k0 (chks c0) -> c_peer k0 = p -> In x hs -> In y (ns_svcs x) ->
                   In k (ss_chks y) -> c_node k0 = n_name (ns_node x) -> c_id k0 = c_id k -> c_sid k = c_sid k0.
(* a stored check in a snapshot slot that the snapshot does not list belongs to a stored
   instance of the service which the snapshot retains *)
Definition slots_retained (c0 : cat) (p sn : string) (hs : hsnap) : Prop :=
  forall k0 x y, In k0 (chks c0) -> c_peer k0 = p -> In x hs -> In y (ns_svcs x) ->
    c_node k0 = n_name (ns_node x) -> (c_sid k0 = "" \/ c_sid k0 = s_id (ss_svc y)) -> has_chk y (c_id k0) = false ->
    exists y' z, In y' (ns_svcs x) /\ In z (svcs c0) /\ s_peer z = p /\ s_node z = n_name (ns_node x)
                 /\ s_id z = s_id (ss_svc y') /\ s_name z = sn /\ (c_sid k0 <> "" -> y' = y).

Section Update.
  Variables (sh : shuffles) (p sn : string) (c0 : cat) (hs : hsnap) (stored : list inst).
  (* the calls already logged when this update starts (the exported-service-list handler runs
     several deletions in a row) *)
  Variable ops0 : list op.
  Hypothesis sh_ok : shuffles_ok sh.
  Hypothesis wf0 : wf c0.
  Hypothesis Hcsn : check_service_nodes c0 p sn = Ok stored.
  Hypothesis Hhs : hs_wf p hs.
  Hypothesis Hcoh : hs_chk_coh hs.
  Hypothesis Hid0 : ids_keep c0 p hs.
  Hypothesis Hid1 : ids_one_name hs.
  Hypothesis Hids_s : forall z, In z (svcs c0) -> s_peer z = p -> s_id z <> "".
  Hypothesis Hids_k : forall k, In k (chks c0) -> c_peer k = p -> c_id k <> "".

  Let s0 := HSt c0 ops0 None.
  Let s1 := fold_left (fun s x => node_block sh stored x s) (sh_nodes sh hs) s0.
  Let s' := phase2 sh p hs stored s1.
  Hypothesis Herr : h_err s' = None.

  Let Hst := stored_all_ok c0 p sn stored Hcsn.

  Lemma err1 : h_err s1 = None.
  Proof. rewrite <- (phase2_h_err sh p hs stored s1). exact Herr. Qed.

  Lemma I1 : inv1 c0 (fun d => In d hs) (h_cat s1).
  Proof. apply (phase1_spec sh p sn c0 stored hs); auto. exact err1. Qed.

  Lemma wf' : wf (h_cat s').
  Proof. apply (phase2_shrinks sh p hs stored sh_ok s1). apply (i1_wf _ _ _ I1). Qed.

  Lemma stored_sid i : In i stored ->
    i_sid i <> "" /\ i_n i = s_node (i_svc i) /\ s_peer (i_svc i) = p /\ s_name (i_svc i) = sn /\ In (i_svc i) (svcs c0).
  Proof.
    intros Hi. destruct (Hst i Hi) as [A B N (_ & _ & D) _]. split; [apply Hids_s; auto|]. auto.
  Qed.

  Lemma stored_cid i k : In i stored -> In k (i_chks i) ->
    c_id k <> "" /\ In k (chks c0) /\ c_peer k = p /\ c_node k = i_n i /\ (c_sid k = "" \/ c_sid k = i_sid i).
  Proof.
    intros Hi Hk. destruct (Hst i Hi) as [_ _ _ (_ & _ & D) K]. apply K in Hk as (K1 & K2 & K3 & K4).
    split; [apply Hids_k; auto|]. repeat split; auto. unfold i_n. congruence.
  Qed.

  Let sid_ne i (Hi : In i stored) : i_sid i <> "" := proj1 (stored_sid i Hi).
  Let cid_ne i k (Hi : In i stored) (Hk : In k (i_chks i)) : c_id k <> "" := proj1 (stored_cid i k Hi Hk).

  Let keeps_svc := phase2_keeps_svc sh p hs stored sh_ok sid_ne cid_ne s1.
  Let keeps_node := phase2_keeps_node sh p hs stored sh_ok sid_ne cid_ne s1.
  Let keeps_chk := phase2_keeps_chk sh p hs stored sh_ok sid_ne cid_ne s1.

  Section Other.
    Variable z : svc.
    Hypothesis Hz : In z (svcs c0).
    Hypothesis Zp : s_peer z = p.
    Hypothesis Zn : s_name z <> sn.
    Hypothesis Zslot : forall x y, In x hs -> In y (ns_svcs x) -> svc_key (ss_svc y) <> svc_key z.

    Lemma z_not_stored i : In i stored -> svc_key z <> (p, i_n i, i_sid i).
    Proof.
      intros Hi E. destruct (stored_sid i Hi) as (_ & En & Ep & Ename & Hin).
      assert (z = i_svc i); [|subst z; contradiction].
      apply (nodup_key_inj svc_key (svcs c0)); [apply wf0 | exact Hz | exact Hin |].
      rewrite E. unfold svc_key, i_sid. rewrite Ep, <- En. reflexivity.
    Qed.

    Lemma z_spared : spared p hs stored s1 z.
    Proof.
      split; [|intros i Hi _; apply z_not_stored, Hi].
      apply (ev_lo _ _ _ _ _ _ (i1_s _ _ _ I1)); [exact Hz|].
      intros b (x & y & Hx & Hy & ->) E. apply (Zslot x y Hx Hy). symmetry. exact E.
    Qed.

    Lemma z_hosts : hosts p hs stored s1 (s_node z).
    Proof. exists z. split; [exact z_spared | auto]. Qed.

    Lemma other_svc_kept : In z (svcs (h_cat s')).
    Proof. apply keeps_svc, z_spared. Qed.

    Lemma other_node_kept b :
      In b (nodes c0) -> n_peer b = p -> n_name b = s_node z ->
      (forall x, In x hs -> n_name (ns_node x) <> n_name b) ->
      In b (nodes (h_cat s')).
    Proof.
      intros Hb Bp Bn Hnot. apply keeps_node.
      - apply (ev_lo _ _ _ _ _ _ (i1_n _ _ _ I1)); [exact Hb|].
        intros b' (x & Hx & ->) E. apply (Hnot x Hx). unfold node_key in E. injection E as _ E. congruence.
      - intros i _ _ E. unfold node_key in E. injection E as _ E. rewrite <- E, Bn. exact z_hosts.
    Qed.

    Lemma other_chk_kept k :
      In k (chks c0) -> c_peer k = p -> c_node k = s_node z -> c_sid k = s_id z ->
      (forall x y k', In x hs -> In y (ns_svcs x) -> In k' (ss_chks y) -> chk_key k' <> chk_key k) ->
      In k (chks (h_cat s')).
    Proof.
      intros Hk Kp Kn Ks Hnot.
      assert (Hown : forall i, In i stored -> ~ (c_node k = i_n i /\ c_sid k = i_sid i)).
      { intros i Hi [E1 E2]. apply (z_not_stored i Hi). unfold svc_key. congruence. }
      apply keeps_chk.
      - apply (ev_lo _ _ _ _ _ _ (i1_k _ _ _ I1)); [exact Hk|].
        intros b' (x & y & Hx & Hy & Hb') E. apply (Hnot x y b' Hx Hy Hb'). symmetry. exact E.
      - intros i Hi _ (_ & E). apply (Hown i Hi E).
      - intros i k0 Hi (Hk0 & _) E. destruct (stored_cid i k0 Hi Hk0) as (_ & K0 & K0p & K0n & K0s).
        assert (k = k0).
        { apply (nodup_key_inj chk_key (chks c0)); [apply wf0 | exact Hk | exact K0 |].
          rewrite E. unfold chk_key. rewrite K0p. reflexivity. }
        subst k0. apply (Hown i Hi). split; [exact K0n|].
        destruct K0s as [K0s|K0s]; [|exact K0s]. exfalso. apply (Hids_s z Hz Zp). congruence.
      - intros i _ _ _ E. rewrite <- E, Kn. exact z_hosts.
    Qed.
  End Other.

  Section Uninvolved.
    Variable n : string.
    Hypothesis Nsnap : forall x, In x hs -> n_name (ns_node x) <> n.
    Hypothesis Nstored : forall y, In y (svcs c0) -> s_peer y = p -> s_node y = n -> s_name y <> sn.

    Lemma stored_elsewhere i : In i stored -> i_n i <> n.
    Proof.
      intros Hi E. destruct (stored_sid i Hi) as (_ & En & Ep & Ename & Hin). apply (Nstored (i_svc i)); auto. congruence.
    Qed.

    Lemma uninvolved_kept :
      (forall b, In b (nodes c0) -> n_peer b = p -> n_name b = n -> In b (nodes (h_cat s'))) /\
      (forall y, In y (svcs c0) -> s_peer y = p -> s_node y = n -> In y (svcs (h_cat s'))) /\
      (forall k, In k (chks c0) -> c_peer k = p -> c_node k = n -> In k (chks (h_cat s'))).
    Proof.
      split; [|split].
      - intros b Hb Bp Bn. apply keeps_node.
        + apply (ev_lo _ _ _ _ _ _ (i1_n _ _ _ I1)); [exact Hb|].
          intros b' (x & Hx & ->) E. apply (Nsnap x Hx). unfold node_key in E. injection E as _ E. congruence.
        + intros i Hi _ E. unfold node_key in E. injection E as _ E. destruct (stored_elsewhere i Hi). congruence.
      - (* an instance on n is an instance of another service in a slot the snapshot does not send *)
        intros y Hy Yp Yn. apply (other_svc_kept y Hy Yp (Nstored y Hy Yp Yn)).
        intros x y' Hx Hy' E. apply (Nsnap x Hx).
        destruct (hw_svc p hs Hhs x y' Hx Hy') as [_ A]. unfold svc_key in E. injection E as _ E _. congruence.
      - intros k Hk Kp Kn. apply keeps_chk.
        + apply (ev_lo _ _ _ _ _ _ (i1_k _ _ _ I1)); [exact Hk|].
          intros b' (x & y' & Hx & Hy' & Hb') E. apply (Nsnap x Hx).
          rewrite <- (hc_node hs Hcoh x y' b' Hx Hy' Hb'). unfold chk_key in E. injection E as _ E _. congruence.
        + intros i Hi _ (_ & E & _). apply (stored_elsewhere i Hi). congruence.
        + intros i k0 Hi (Hk0 & _) E. destruct (stored_cid i k0 Hi Hk0) as (_ & _ & _ & K0n & _).
          unfold chk_key in E. injection E as _ E _. apply (stored_elsewhere i Hi). congruence.
        + intros i Hi _ _ E. destruct (stored_elsewhere i Hi). congruence.
    Qed.
  End Uninvolved.

  Section Mirror.
    (* only the two sections above are used with earlier deregistrations in the log; here every
       logged deregistration has to be phase 2's own (logged_gone) *)
    Hypothesis Hops0 : Forall is_reg ops0.
    Hypothesis Hsid : chks_own hs.
    Hypothesis Huni : node_chks_shared hs.
    Hypothesis Hsidne : sids_nonempty hs.
    Hypothesis Hstable : owners_stable c0 p hs.
    Hypothesis Howned : slots_retained c0 p sn hs.

    Lemma in_slot x : In x hs -> find_ns hs (n_name (ns_node x)) = Some x.
    Proof. apply find_ns_some, (hw_names p hs Hhs). Qed.

    Lemma dropped_not_slot i x y : In x hs -> In y (ns_svcs x) -> dropped hs i ->
      ~ (i_n i = n_name (ns_node x) /\ i_sid i = s_id (ss_svc y)).
    Proof.
      intros Hx Hy Hd [E1 E2]. unfold dropped in Hd. rewrite E1, E2, (in_slot x Hx) in Hd.
      destruct Hd as [Hd|(x' & Hx' & Hd)]; [discriminate|]. injection Hx' as <-.
      rewrite (find_ss_some x y (hw_sids p hs Hhs x Hx) Hy) in Hd. discriminate.
    Qed.

    Lemma snap_node_kept x : In x hs -> In (ns_node x) (nodes (h_cat s')).
    Proof.
      intros Hx. apply keeps_node.
      - destruct (ev_es _ _ _ _ _ _ (i1_n _ _ _ I1) (ns_node x)) as (b & Hb & ->); [exists x; auto | exact Hb].
      - intros i _ Hf E. unfold node_key in E. injection E as _ E. rewrite <- E, (in_slot x Hx) in Hf. discriminate.
    Qed.

    Lemma snap_svc_kept x y : In x hs -> In y (ns_svcs x) -> In (ss_svc y) (svcs (h_cat s')).
    Proof.
      intros Hx Hy. destruct (hw_svc p hs Hhs x y Hx Hy) as [Sp Sn']. apply keeps_svc. split.
      - destruct (ev_es _ _ _ _ _ _ (i1_s _ _ _ I1) (ss_svc y)) as (b & Hb & ->); [exists x, y; auto | exact Hb].
      - intros i Hi Hd E. unfold svc_key in E. injection E as _ E1 E2.
        apply (dropped_not_slot i x y Hx Hy Hd). split; congruence.
    Qed.

    Lemma snap_chk_kept x y k : In x hs -> In y (ns_svcs x) -> In k (ss_chks y) ->
      exists r, In r (chks (h_cat s')) /\ img_chk k r.
    Proof.
      intros Hx Hy Hk.
      destruct (ev_es _ _ _ _ _ _ (i1_k _ _ _ I1) k) as (r & Hr & Hi); [exists x, y; auto|].
      exists r. split; [|exact Hi]. destruct Hi as [Kk Kc].
      assert (Rn : c_node r = n_name (ns_node x)).
      { unfold chk_key in Kk. injection Kk as _ E _. rewrite E. apply (hc_node hs Hcoh x y k); auto. }
      assert (Rs : c_sid r = c_sid k) by (unfold chk_core in Kc; congruence).
      assert (Ri : c_id r = c_id k) by (unfold chk_key in Kk; congruence).
      apply keeps_chk; [exact Hr | | |].
      - intros i Hi Hd (_ & E2 & E3).
        destruct (Hsid x y k Hx Hy Hk) as [Hs|Hs]; [apply (sid_ne i Hi); congruence|].
        apply (dropped_not_slot i x y Hx Hy Hd). split; congruence.
      - (* a stale check of a retained instance with r's id would be listed by the snapshot *)
        intros i k0 Hi (Hk0 & x2 & y2 & Fx & Fy & Hh) E.
        destruct (stored_cid i k0 Hi Hk0) as (_ & K0 & Kp & Kn & Ks).
        unfold chk_key in E. injection E as _ E2 E3.
        apply find_ns_in in Fx as [Hx2 Nx2]. apply find_ss_in in Fy as [Hy2 Sy2].
        assert (x2 = x) as -> by (apply (same_entry p hs Hhs); auto; congruence).
        assert (Hst' : c_sid k = c_sid k0) by (apply (Hstable k0 x y k); auto; congruence).
        assert (Hk2 : In k (ss_chks y2)).
        { destruct Ks as [Ks|Ks]; [apply (Huni x y y2 k); auto; congruence|].
          destruct (Hsid x y k Hx Hy Hk) as [Hs|Hs]; [destruct (sid_ne i Hi); congruence|].
          assert (y2 = y) as -> by (apply (same_svc p hs Hhs x); auto; congruence). exact Hk. }
        assert (has_chk y2 (c_id k0) = true) by (apply has_chk_true; exists k; split; [assumption|congruence]).
        congruence.
      - intros i _ Hf _ E. rewrite <- E, Rn, (in_slot x Hx) in Hf. discriminate.
    Qed.

    Lemma phase1_regs : Forall is_reg (h_ops s1).
    Proof.
      apply (fold_left_inv (fun s => Forall is_reg (h_ops s))); [|exact Hops0].
      intros s x Hx Hs. apply (node_block_inv sh p (fun s => Forall is_reg (h_ops s))); auto.
      - intros r s2 _ H. unfold do_reg. destruct (h_err s2); [exact H|].
        destruct (register (h_cat s2) r); cbn [h_ops]; constructor; auto; exact I.
      - apply (hw_node_peer p hs Hhs), (sh_nodes_in sh sh_ok), Hx.
    Qed.

    Lemma logged_gone d : In (ODereg d) (h_ops s') -> gone d (h_cat s').
    Proof.
      intros L. destruct (phase2_gone sh p hs stored sh_ok s1 _ L) as [A|A]; [|exact A].
      pose proof phase1_regs as R. rewrite Forall_forall in R. destruct (R _ A).
    Qed.

    Lemma svc_from_snap z : In z (svcs (h_cat s')) -> s_peer z = p -> s_name z = sn ->
      exists x y, In x hs /\ In y (ns_svcs x) /\ z = ss_svc y.
    Proof.
      intros Hz Hp Hn.
      assert (Hz1 : In z (svcs (h_cat s1))) by (apply (phase2_shrinks sh p hs stored sh_ok s1); exact Hz).
      destruct (ev_up _ _ _ _ _ _ (i1_s _ _ _ I1) z Hz1) as [Hz0|(b & (x & y & Hx & Hy & ->) & ->)];
        [|exists x, y; auto].
      destruct (stored_complete c0 p sn stored Hcsn z Hz0 Hp Hn) as (i & Hi & Ei).
      destruct (stored_sid i Hi) as (Hne & En & _).
      destruct (dropped_or_retained hs i) as [Hd|(x & y & Fx & Fy)].
      { exfalso. apply (logged_gone _ (log_dsvc sh p hs stored sh_ok s1 i err1 Hi Hd) Hne z Hz).
        unfold svc_key, i_sid. rewrite En, Ei, Hp. reflexivity. }
      apply find_ns_in in Fx as [Hx Nx]. apply find_ss_in in Fy as [Hy Sy].
      exists x, y. split; [exact Hx|]. split; [exact Hy|].
      destruct (hw_svc p hs Hhs x y Hx Hy) as [Sp Snode].
      apply (nodup_key_inj svc_key (svcs (h_cat s'))); [apply wf' | exact Hz | apply (snap_svc_kept x y Hx Hy) |].
      unfold svc_key. rewrite Hp, Sp, Snode, Nx, Sy. unfold i_sid. rewrite En, Ei. reflexivity.
    Qed.

    Lemma unlisted_gone r x y : In r (chks c0) -> c_peer r = p -> In x hs -> In y (ns_svcs x) ->
      c_node r = n_name (ns_node x) -> (c_sid r = "" \/ c_sid r = s_id (ss_svc y)) ->
      has_chk y (c_id r) = false -> ~ In r (chks (h_cat s')).
    Proof.
      intros Hr0 Hp Hx Hy Rn Rs Hh Hr.
      destruct (Howned r x y Hr0 Hp Hx Hy Rn Rs Hh) as (y' & z & Hy' & Hz & Zp & Zn & Zi & Zs & Zy).
      destruct (stored_complete c0 p sn stored Hcsn z Hz Zp Zs) as (i & Hi & Ei).
      destruct (stored_sid i Hi) as (_ & En & _).
      assert (Rk : In r (i_chks i)).
      { destruct (Hst i Hi) as [_ _ _ _ K]. apply K. rewrite Ei. repeat split; auto; try congruence.
        destruct Rs as [Rs|Rs]; [left; exact Rs|]. right.
        destruct (string_dec (c_sid r) "") as [E|E]; [rewrite E in Rs; exfalso; apply (Hsidne x y Hx Hy); congruence|].
        rewrite (Zy E) in Zi. congruence. }
      assert (Hstale : stale hs i r).
      { split; [exact Rk|]. exists x, y'. unfold i_n in En. unfold i_n, i_sid.
        rewrite En, Ei, Zn, Zi.
        split; [exact (in_slot x Hx)|].
        split; [apply find_ss_some; [apply (hw_sids p hs Hhs x Hx)|exact Hy']|].
        destruct (has_chk y' (c_id r)) eqn:Hh'; [|reflexivity]. exfalso.
        apply has_chk_true in Hh' as (k & Hk & Ek).
        pose proof (Hstable r x y' k Hr0 Hp Hx Hy' Hk Rn (eq_sym Ek)) as Es.
        assert (In k (ss_chks y)).
        { destruct (string_dec (c_sid r) "") as [E|E]; [apply (Huni x y' y k); auto; congruence | rewrite <- (Zy E); exact Hk]. }
        assert (has_chk y (c_id r) = true) by (apply has_chk_true; exists k; auto). congruence. }
      apply (logged_gone _ (log_dchk sh p hs stored sh_ok s1 i r err1 Hi Hstale) (Hids_k r Hr0 Hp) r Hr).
      unfold chk_key. rewrite Hp. reflexivity.
    Qed.

    Lemma chk_from_snap r x y : In r (chks (h_cat s')) -> c_peer r = p -> In x hs -> In y (ns_svcs x) ->
      c_node r = n_name (ns_node x) -> (c_sid r = "" \/ c_sid r = s_id (ss_svc y)) ->
      exists k, In k (ss_chks y) /\ img_chk k r.
    Proof.
      intros Hr Hp Hx Hy Rn Rs.
      assert (Hr1 : In r (chks (h_cat s1))) by (apply (phase2_shrinks sh p hs stored sh_ok s1); exact Hr).
      destruct (ev_up _ _ _ _ _ _ (i1_k _ _ _ I1) r Hr1) as [Hr0|(k' & (x' & y' & Hx' & Hy' & Hk') & Hi)].
      - (* a row from before: the snapshot lists its id, and the listed check was put at its key *)
        destruct (has_chk y (c_id r)) eqn:Hh; [|destruct (unlisted_gone r x y); assumption].
        apply has_chk_true in Hh as (k & Hk & Ek). exists k. split; [exact Hk|].
        destruct (snap_chk_kept x y k Hx Hy Hk) as (r' & Hr' & Hi').
        assert (r' = r) as ->; [|exact Hi'].
        apply (nodup_key_inj chk_key (chks (h_cat s'))); [apply wf' | exact Hr' | exact Hr |].
        destruct Hi' as [Kk _]. rewrite Kk. unfold chk_key.
        rewrite (hw_chk_peer p hs Hhs x y k Hx Hy Hk), (hc_node hs Hcoh x y k Hx Hy Hk), Hp, Rn, Ek. reflexivity.
      - (* a row the handler wrote: the image of a snapshot check of this node *)
        destruct Hi as [Kk Kc].
        assert (x' = x) as ->.
        { apply (same_entry p hs Hhs); auto.
          rewrite <- (hc_node hs Hcoh x' y' k' Hx' Hy' Hk'), <- Rn. unfold chk_key in Kk. congruence. }
        assert (Es : c_sid r = c_sid k') by (unfold chk_core in Kc; congruence).
        destruct (string_dec (c_sid k') "") as [E|E].
        + exists k'. split; [apply (Huni x y' y k'); auto | split; assumption].
        + assert (y' = y) as ->.
          { destruct (Hsid x y' k' Hx Hy' Hk') as [H|H]; [contradiction|].
            destruct Rs as [Rs|Rs]; [congruence|]. apply (same_svc p hs Hhs x); auto. congruence. }
          exists k'. split; [exact Hk' | split; assumption].
    Qed.
  End Mirror.
End Update.
