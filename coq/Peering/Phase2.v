(* C17 — second half of handleUpdateService (the clean-up): which deregistrations are issued,
   what they remove and what survives them. *)
From Verif Require Import Base.Prelude Peering.Model Peering.Lemmas Peering.Verbs Peering.Prune Peering.Phase1.
Require Import Coq.Sorting.Permutation.
Local Open Scope string_scope.

Definition gone (d : dereq) (c : cat) : Prop :=
  match d with
  | DSvc p n i => i <> "" -> forall y, In y (svcs c) -> svc_key y <> (p, n, i)
  | DChk p n i => i <> "" -> forall x, In x (chks c) -> chk_key x <> (p, n, i)
  | DNode _ _ => True
  end.

Lemma gone_after c d : gone d (deregister c d).
Proof.
  destruct d as [p n i|p n i|p n]; cbn [gone deregister]; [| |exact I].
  - intros Hi y Hy. apply seqb_neq in Hi. rewrite Hi in Hy. apply delete_service_svcs in Hy. tauto.
  - intros Hi x Hx. apply seqb_neq in Hi. rewrite Hi in Hx. apply delete_check_chks in Hx. tauto.
Qed.

Lemma gone_mono c d d' : gone d c -> gone d (deregister c d').
Proof.
  destruct d as [p n i|p n i|p n]; cbn [gone]; [| |auto].
  - intros H Hi y Hy. apply H; [exact Hi|]. apply (deregister_shrinks c d'), Hy.
  - intros H Hi x Hx. apply H; [exact Hi|]. apply (deregister_shrinks c d'), Hx.
Qed.

Lemma svc_survives c d y :
  In y (svcs c) ->
  match d with
  | DSvc p n i => i <> "" /\ svc_key y <> (p, n, i)
  | DChk p n i => i <> ""
  | DNode p n => node_has_services c p n = false
  end -> In y (svcs (deregister c d)).
Proof.
  intros Hy. destruct d as [p n i|p n i|p n]; cbn [deregister].
  - intros [Hi Hk]. apply seqb_neq in Hi. rewrite Hi. apply delete_service_svcs. auto.
  - intros Hi. apply seqb_neq in Hi. rewrite Hi. exact Hy.
  - intros Hn. apply delete_node_svcs. split; [exact Hy|].
    apply node_has_services_false in Hn as [G|H]; [left; exact G | right; apply H, Hy].
Qed.

Lemma node_survives c d b :
  In b (nodes c) ->
  match d with
  | DSvc p n i => i <> ""
  | DChk p n i => i <> ""
  | DNode p n => node_key b <> (p, n, "")
  end -> In b (nodes (deregister c d)).
Proof.
  intros Hb. destruct d as [p n i|p n i|p n]; cbn [deregister].
  - intros Hi. apply seqb_neq in Hi. rewrite Hi, delete_service_nodes. exact Hb.
  - intros Hi. apply seqb_neq in Hi. rewrite Hi. exact Hb.
  - intros Hk. apply delete_node_nodes. auto.
Qed.

Lemma chk_survives c d x :
  In x (chks c) ->
  match d with
  | DSvc p n i => i <> "" /\ ~ (c_peer x = p /\ c_node x = n /\ c_sid x = i)
  | DChk p n i => i <> "" /\ chk_key x <> (p, n, i)
  | DNode p n => ~ (c_peer x = p /\ c_node x = n)
  end -> In x (chks (deregister c d)).
Proof.
  intros Hx. destruct d as [p n i|p n i|p n]; cbn [deregister].
  - intros [Hi Hk]. apply seqb_neq in Hi. rewrite Hi. apply delete_service_chks. auto.
  - intros [Hi Hk]. apply seqb_neq in Hi. rewrite Hi. apply delete_check_chks. auto.
  - intros Hk. apply delete_node_chks. auto.
Qed.

(* the node delete guarded by NodeServiceList does nothing to a node that hosts a service *)
Lemma delete_node_hosted c p n z :
  node_has_services c p n = false -> In z (svcs c) -> s_peer z = p -> s_node z = n -> delete_node c p n = c.
Proof.
  intros Hn Hz Zp Zn. apply node_has_services_false in Hn as [G|H].
  - unfold delete_node. rewrite G. reflexivity.
  - destruct (H z Hz). auto.
Qed.

Definition phase2 (sh : shuffles) (p : string) (hs : hsnap) (stored : list inst) (s1 : hst) : hst :=
  let a := fold_left (stored_block p hs) stored (P2 s1 [] []) in
  let s2 := fold_left (fun s ck => do_dereg (DChk p (snd ck) (fst ck)) s) (sh_dnc sh (p2_dnc a)) (p2_st a) in
  fold_left (unused_block p) (sh_unused sh (p2_unused a)) s2.

Lemma handle_update_from_unfold sh s0 p sn export stored :
  h_err s0 = None -> check_service_nodes (h_cat s0) p sn = Ok stored ->
  let h := new_health_snapshot p (match export with Some l => l | None => [] end) in
  handle_update_from sh s0 p sn export =
  phase2 sh p h stored (fold_left (fun s x => node_block sh stored x s) (sh_nodes sh h) s0).
Proof. intros He Hc h. unfold handle_update_from. rewrite He, Hc. reflexivity. Qed.

Lemma handle_update_from_ok sh s0 p sn export :
  h_err (handle_update_from sh s0 p sn export) = None ->
  let h := new_health_snapshot p (match export with Some l => l | None => [] end) in
  h_err s0 = None /\ exists stored, check_service_nodes (h_cat s0) p sn = Ok stored /\
    handle_update_from sh s0 p sn export =
    phase2 sh p h stored (fold_left (fun s x => node_block sh stored x s) (sh_nodes sh h) s0).
Proof.
  intros He h. destruct (h_err s0) eqn:E0.
  { unfold handle_update_from in He. rewrite E0 in He. congruence. }
  split; [reflexivity|]. destruct (check_service_nodes (h_cat s0) p sn) as [stored|e] eqn:Hc.
  - exists stored. split; [reflexivity|]. apply handle_update_from_unfold; assumption.
  - unfold handle_update_from in He. rewrite E0, Hc in He. discriminate.
Qed.

Section P2.
  Variables (sh : shuffles) (p : string) (hs : hsnap) (stored : list inst).
  Hypothesis sh_ok : shuffles_ok sh.

  Definition i_n (i : inst) : string := n_name (i_node i).
  Definition i_sid (i : inst) : string := s_id (i_svc i).

  (* the stored instance is not in the snapshot *)
  Definition dropped (i : inst) : Prop :=
    find_ns hs (i_n i) = None \/ exists x, find_ns hs (i_n i) = Some x /\ find_ss x (i_sid i) = None.
  (* the stored instance is in the snapshot, its check k is not *)
  Definition stale (i : inst) (k : chk) : Prop :=
    In k (i_chks i) /\ exists x y, find_ns hs (i_n i) = Some x /\ find_ss x (i_sid i) = Some y /\ has_chk y (c_id k) = false.

  Lemma dropped_or_retained i :
    dropped i \/ exists x y, find_ns hs (i_n i) = Some x /\ find_ss x (i_sid i) = Some y.
  Proof.
    unfold dropped. destruct (find_ns hs (i_n i)) as [x|]; [destruct (find_ss x (i_sid i)) as [y|] eqn:F|]; eauto.
  Qed.

  Definition chk_step (y : ssnap) (a : p2) (k : chk) : p2 :=
    if has_chk y (c_id k) then a
    else if seqb (c_sid k) "" then P2 (p2_st a) (p2_unused a) (add_pair (c_id k, c_node k) (p2_dnc a))
    else P2 (do_dereg (DChk p (c_node k) (c_id k)) (p2_st a)) (p2_unused a) (p2_dnc a).

  Lemma stored_block_retained a i x y :
    find_ns hs (i_n i) = Some x -> find_ss x (i_sid i) = Some y ->
    stored_block p hs a i = fold_left (chk_step y) (i_chks i) a.
  Proof. intros Fx Fy. unfold stored_block. fold (i_n i) (i_sid i). rewrite Fx, Fy. reflexivity. Qed.

  Section Inv.
    Variable P : hst -> Prop.
    Hypothesis P_dsvc : forall i s, In i stored -> dropped i -> P s -> P (do_dereg (DSvc p (i_n i) (i_sid i)) s).
    Hypothesis P_dchk : forall i k s, In i stored -> stale i k -> P s -> P (do_dereg (DChk p (c_node k) (c_id k)) s).
    Hypothesis P_dnode : forall i s, In i stored -> find_ns hs (i_n i) = None -> h_err s = None ->
                                     node_has_services (h_cat s) p (i_n i) = false -> P s -> P (do_dereg (DNode p (i_n i)) s).

    Definition inv_A (a : p2) : Prop :=
      P (p2_st a) /\
      (forall n, In n (p2_unused a) -> exists i, In i stored /\ i_n i = n /\ find_ns hs n = None) /\
      (forall ck, In ck (p2_dnc a) -> exists i k, In i stored /\ stale i k /\ ck = (c_id k, c_node k)).

    Lemma stored_block_inv_A a i : In i stored -> inv_A a -> inv_A (stored_block p hs a i).
    Proof.
      intros Hi Ha.
      destruct (find_ns hs (i_n i)) as [x|] eqn:Fn; [destruct (find_ss x (i_sid i)) as [y|] eqn:Fs|].
      - rewrite (stored_block_retained a i x y Fn Fs). apply fold_left_inv; [|exact Ha].
        intros a0 k Hk (A & B & C). unfold chk_step.
        destruct (has_chk y (c_id k)) eqn:Hh; [split; [|split]; assumption|].
        assert (Hstale : stale i k) by (split; [exact Hk | exists x, y; auto]).
        destruct (seqb (c_sid k) ""); (split; [|split]); cbn [p2_st p2_unused p2_dnc]; auto.
        + intros ck Hck. apply in_add_pair in Hck as [->|Hck]; [exists i, k; auto | apply C; exact Hck].
        + eapply P_dchk; eauto.
      - destruct Ha as (HP & HU & HD). unfold stored_block. fold (i_n i) (i_sid i). rewrite Fn, Fs.
        split; [|split; [exact HU | exact HD]]. apply P_dsvc; auto. right. exists x. auto.
      - destruct Ha as (HP & HU & HD). unfold stored_block. fold (i_n i) (i_sid i). rewrite Fn.
        split; [|split; [|exact HD]]; cbn [p2_st p2_unused].
        + apply P_dsvc; auto. left. exact Fn.
        + intros n Hn. apply in_add_str in Hn as [->|Hn]; [exists i; auto | apply HU; exact Hn].
    Qed.

    Lemma phase2_inv s1 : P s1 -> P (phase2 sh p hs stored s1).
    Proof.
      intros H1. unfold phase2.
      set (a := fold_left (stored_block p hs) stored (P2 s1 [] [])).
      assert (Ha : inv_A a).
      { apply fold_left_inv; [intros a0 i Hi; apply stored_block_inv_A, Hi|].
        split; [exact H1|]. split; [intros n []|intros ck []]. }
      destruct Ha as (A & B & C). apply fold_left_inv.
      - intros s n Hn Hs. apply -> (sh_unused_in sh sh_ok) in Hn. unfold unused_block.
        destruct (h_err s) eqn:He; [exact Hs|].
        destruct (node_has_services (h_cat s) p n) eqn:Hns; [exact Hs|].
        destruct (B n Hn) as (i & Hi & <- & Hf). apply P_dnode; auto.
      - apply fold_left_inv; [|exact A]. intros s ck Hck Hs. apply -> (sh_dnc_in sh sh_ok) in Hck.
        destruct (C ck Hck) as (i & k & Hi & Hk & ->). cbn [fst snd]. eapply P_dchk; eauto.
    Qed.
  End Inv.

  (* it only deregisters, notes an unused node, or notes a node check *)
  Record p2_closed (Q : p2 -> Prop) : Prop := {
    pc_dereg : forall a d, Q a -> Q (P2 (do_dereg d (p2_st a)) (p2_unused a) (p2_dnc a));
    pc_unused : forall a n, Q a -> Q (P2 (p2_st a) (add_str n (p2_unused a)) (p2_dnc a));
    pc_dnc : forall a ck, Q a -> Q (P2 (p2_st a) (p2_unused a) (add_pair ck (p2_dnc a))) }.

  Lemma chk_step_closed Q y a k : p2_closed Q -> Q a -> Q (chk_step y a k).
  Proof.
    intros HQ H. unfold chk_step. destruct (has_chk y (c_id k)); [exact H|].
    destruct (seqb (c_sid k) ""); apply HQ, H.
  Qed.

  Lemma stored_block_closed Q a i : p2_closed Q -> Q a -> Q (stored_block p hs a i).
  Proof.
    intros HQ H. unfold stored_block.
    destruct (find_ns hs (n_name (i_node i))) as [x|]; [destruct (find_ss x (s_id (i_svc i))) as [y|]|].
    - apply (fold_left_inv Q (chk_step y)); [|exact H]. intros; apply chk_step_closed; assumption.
    - apply HQ, H.
    - apply (pc_unused Q HQ (P2 _ _ _)), (pc_dereg Q HQ), H.
  Qed.

  Lemma st_closed (Q : hst -> Prop) : (forall d s, Q s -> Q (do_dereg d s)) -> p2_closed (fun a => Q (p2_st a)).
  Proof. intros H. split; intros; cbn [p2_st]; auto. Qed.

  Lemma dnc_closed ck : p2_closed (fun a => In ck (p2_dnc a)).
  Proof. split; intros; cbn [p2_dnc]; auto. apply in_add_pair. auto. Qed.

  Lemma unused_closed n : p2_closed (fun a => In n (p2_unused a)).
  Proof. split; intros; cbn [p2_unused]; auto. apply in_add_str. auto. Qed.

  Lemma or_closed Q1 Q2 : p2_closed Q1 -> p2_closed Q2 -> p2_closed (fun a => Q1 a \/ Q2 a).
  Proof.
    intros H1 H2. split; (intros a x [H|H]; [left; apply H1, H | right; apply H2, H]).
  Qed.

  (* a property of the handler state that deregistrations keep is kept by the whole clean-up:
     phase2_inv for a property that does not care which deregistration is issued (no shuffles_ok needed) *)
  Lemma phase2_closed (Q : hst -> Prop) s1 :
    (forall d s, Q s -> Q (do_dereg d s)) -> Q s1 -> Q (phase2 sh p hs stored s1).
  Proof.
    intros HQ H. unfold phase2.
    apply (fold_left_inv Q); [intros; apply unused_block_closed; assumption|].
    apply (fold_left_inv Q); [intros; apply HQ; assumption|].
    apply (fold_left_inv (fun a => Q (p2_st a))); [|exact H].
    intros; apply stored_block_closed; [apply st_closed, HQ | assumption].
  Qed.

  Lemma phase2_h_err s1 : h_err (phase2 sh p hs stored s1) = h_err s1.
  Proof.
    apply (phase2_closed (fun s => h_err s = h_err s1)); [|reflexivity].
    intros d s H. rewrite do_dereg_h_err. exact H.
  Qed.

  Lemma phase2_err s1 : h_err s1 = None -> h_err (phase2 sh p hs stored s1) = None.
  Proof using sh_ok. rewrite phase2_h_err. auto. Qed.

  (* no error so far, and o is in the call log *)
  Definition logged (o : op) (s : hst) : Prop := h_err s = None /\ In o (h_ops s).

  Lemma logged_dereg o d s : logged o s -> logged o (do_dereg d s).
  Proof. intros [He Ho]. unfold do_dereg. rewrite He. split; [reflexivity | right; exact Ho]. Qed.

  Lemma logged_new d s : h_err s = None -> logged (ODereg d) (do_dereg d s).
  Proof. intros He. unfold do_dereg. rewrite He. split; [reflexivity | left; reflexivity]. Qed.

  Lemma err_closed : p2_closed (fun a => h_err (p2_st a) = None).
  Proof. apply (st_closed (fun s => h_err s = None)), err_dereg. Qed.

  Lemma logged_closed o : p2_closed (fun a => logged o (p2_st a)).
  Proof. apply (st_closed (logged o)), logged_dereg. Qed.

  Lemma phase2_logged o s1 : logged o s1 -> logged o (phase2 sh p hs stored s1).
  Proof. apply phase2_closed. apply logged_dereg. Qed.

  Lemma noted_logged d a :
    h_err (p2_st a) = None ->
    logged (ODereg d) (p2_st a) \/ (exists i n, d = DChk p n i /\ In (i, n) (p2_dnc a)) ->
    let s2 := fold_left (fun s ck => do_dereg (DChk p (snd ck) (fst ck)) s) (sh_dnc sh (p2_dnc a)) (p2_st a) in
    In (ODereg d) (h_ops (fold_left (unused_block p) (sh_unused sh (p2_unused a)) s2)).
  Proof.
    intros He H s2. assert (H2 : logged (ODereg d) s2).
    { destruct H as [H|(i & n & -> & H)].
      - apply fold_left_inv; [|exact H]. intros; apply logged_dereg; assumption.
      - apply (fold_left_reaches _ (fun s => h_err s = None) (logged (ODereg (DChk p n i))) (i, n)); auto.
        + intros; apply err_dereg; assumption.
        + intros; apply logged_dereg; assumption.
        + intros; apply (logged_new (DChk p n i)); assumption.
        + apply (sh_dnc_in sh sh_ok), H. }
    apply (fold_left_inv (logged (ODereg d))); [|exact H2].
    intros; apply unused_block_closed; [apply logged_dereg | assumption].
  Qed.

  Lemma log_dsvc s1 i :
    h_err s1 = None -> In i stored -> dropped i ->
    In (ODereg (DSvc p (i_n i) (i_sid i))) (h_ops (phase2 sh p hs stored s1)).
  Proof.
    intros He Hi Hd. unfold phase2. set (o := ODereg (DSvc p (i_n i) (i_sid i))).
    set (a := fold_left (stored_block p hs) stored (P2 s1 [] [])).
    apply noted_logged.
    - apply (fold_left_inv (fun a => h_err (p2_st a) = None)); [|exact He].
      intros; apply stored_block_closed; [apply err_closed | assumption].
    - left. apply (fold_left_reaches _ (fun a => h_err (p2_st a) = None) (fun a => logged o (p2_st a)) i); auto.
      + intros; apply stored_block_closed; [apply err_closed | assumption].
      + intros; apply stored_block_closed; [apply logged_closed | assumption].
      + intros a0 Ha0. unfold stored_block. fold (i_n i) (i_sid i).
        destruct Hd as [Hd|(x & Hx & Hd)]; [rewrite Hd | rewrite Hx, Hd]; apply logged_new, Ha0.
  Qed.

  (* a stale check of a stored instance ends either as a logged DChk or in the list of node
     checks, which the next loop deregisters *)
  Lemma log_dchk s1 i k :
    h_err s1 = None -> In i stored -> stale i k ->
    In (ODereg (DChk p (c_node k) (c_id k))) (h_ops (phase2 sh p hs stored s1)).
  Proof.
    intros He Hi (Hk & x & y & Hx & Hy & Hh). unfold phase2.
    set (o := ODereg (DChk p (c_node k) (c_id k))).
    set (Pre := fun a => h_err (p2_st a) = None).
    set (Post := fun a => logged o (p2_st a) \/ In (c_id k, c_node k) (p2_dnc a)).
    assert (CPre : p2_closed Pre) by apply err_closed.
    assert (CPost : p2_closed Post) by (apply or_closed; [apply logged_closed | apply dnc_closed]).
    set (a := fold_left (stored_block p hs) stored (P2 s1 [] [])).
    assert (Ha : Post a).
    { apply (fold_left_reaches _ Pre Post i); auto.
      - intros; apply stored_block_closed; assumption.
      - intros; apply stored_block_closed; assumption.
      - intros a0 Ha0. rewrite (stored_block_retained a0 i x y Hx Hy).
        apply (fold_left_reaches _ Pre Post k); auto.
        + intros; apply chk_step_closed; assumption.
        + intros; apply chk_step_closed; assumption.
        + intros a1 Ha1. unfold chk_step. rewrite Hh. destruct (seqb (c_sid k) "").
          * right. apply in_add_pair. auto.
          * left. apply logged_new, Ha1. }
    apply noted_logged.
    - apply (fold_left_inv Pre); [|exact He]. intros; apply stored_block_closed; assumption.
    - destruct Ha as [Ha|Ha]; [left; exact Ha | right; exists (c_id k), (c_node k); auto].
  Qed.

  (* every deregistration in the log was there at the start (ops0) or has its target gone *)
  Definition all_gone (ops0 : list op) (s : hst) : Prop :=
    forall d, In (ODereg d) (h_ops s) -> In (ODereg d) ops0 \/ gone d (h_cat s).

  Lemma all_gone_dereg ops0 d s : all_gone ops0 s -> all_gone ops0 (do_dereg d s).
  Proof.
    intros H. unfold do_dereg. destruct (h_err s); [exact H|]. intros d' [E|Hd']; cbn [h_cat].
    - injection E as <-. right. apply gone_after.
    - destruct (H d' Hd') as [A|A]; [left; exact A | right; apply gone_mono; exact A].
  Qed.

  Lemma phase2_gone s1 : all_gone (h_ops s1) (phase2 sh p hs stored s1).
  Proof.
    apply (phase2_inv (all_gone (h_ops s1))); try (intros; apply all_gone_dereg; assumption).
    intros d Hd. left. exact Hd.
  Qed.

  Lemma phase2_cat_inv (P : cat -> Prop) :
    (forall i c, In i stored -> dropped i -> P c -> P (deregister c (DSvc p (i_n i) (i_sid i)))) ->
    (forall i k c, In i stored -> stale i k -> P c -> P (deregister c (DChk p (c_node k) (c_id k)))) ->
    (forall i c, In i stored -> find_ns hs (i_n i) = None -> node_has_services c p (i_n i) = false ->
                 P c -> P (deregister c (DNode p (i_n i)))) ->
    forall s1, P (h_cat s1) -> P (h_cat (phase2 sh p hs stored s1)).
  Proof.
    intros Hs Hk Hn. apply (phase2_inv (fun s => P (h_cat s))); intros; apply do_dereg_cat; eauto.
  Qed.

  Lemma phase2_shrinks s1 : shrinks (h_cat s1) (h_cat (phase2 sh p hs stored s1)).
  Proof.
    apply (phase2_cat_inv (shrinks (h_cat s1)));
      [intros i c _ _ H | intros i k c _ _ H | intros i c _ _ _ H | apply shrinks_refl];
      exact (shrinks_trans _ _ _ H (deregister_shrinks c _)).
  Qed.

  Section Keeps.
    Hypothesis sid_ne : forall i, In i stored -> i_sid i <> "".
    Hypothesis cid_ne : forall i k, In i stored -> In k (i_chks i) -> c_id k <> "".
    Variable s1 : hst.
    Let s' := phase2 sh p hs stored s1.

    Definition spared (z : svc) : Prop :=
      In z (svcs (h_cat s1)) /\ forall i, In i stored -> dropped i -> svc_key z <> (p, i_n i, i_sid i).
    Definition hosts (n : string) : Prop := exists z, spared z /\ s_peer z = p /\ s_node z = n.

    (* every spared service row is kept, and is known to be there when a node deletion is considered *)
    Lemma phase2_spared_inv (R : cat -> Prop) :
      (forall i c, In i stored -> dropped i -> R c -> R (deregister c (DSvc p (i_n i) (i_sid i)))) ->
      (forall i k c, In i stored -> stale i k -> R c -> R (deregister c (DChk p (c_node k) (c_id k)))) ->
      (forall i c, In i stored -> find_ns hs (i_n i) = None -> node_has_services c p (i_n i) = false ->
                   (forall z, spared z -> In z (svcs c)) -> R c -> R (deregister c (DNode p (i_n i)))) ->
      R (h_cat s1) -> (forall z, spared z -> In z (svcs (h_cat s'))) /\ R (h_cat s').
    Proof.
      intros Hs Hk Hn H1.
      apply (phase2_cat_inv (fun c => (forall z, spared z -> In z (svcs c)) /\ R c)).
      - intros i c Hi Hd [Hz HR]. split; [|auto]. intros z Hsp. apply svc_survives; [auto|].
        split; [apply sid_ne, Hi | apply Hsp; assumption].
      - intros i k c Hi Hst [Hz HR]. split; [|eauto]. intros z Hsp. apply svc_survives; [auto|].
        apply (cid_ne i k Hi), Hst.
      - intros i c Hi Hf Hh [Hz HR]. split; [|auto]. intros z Hsp. apply svc_survives; auto.
      - split; [intros z Hsp; apply Hsp | exact H1].
    Qed.

    Lemma phase2_keeps_svc z : spared z -> In z (svcs (h_cat s')).
    Proof. intros Hz. apply (phase2_spared_inv (fun _ => True)); auto. Qed.

    Lemma phase2_keeps_node b :
      In b (nodes (h_cat s1)) ->
      (forall i, In i stored -> find_ns hs (i_n i) = None -> node_key b = (p, i_n i, "") -> hosts (i_n i)) ->
      In b (nodes (h_cat s')).
    Proof.
      intros Hb Hside. apply (phase2_spared_inv (fun c => In b (nodes c))); [..|exact Hb].
      - intros i c Hi _ H. apply node_survives; [exact H | apply sid_ne, Hi].
      - intros i k c Hi [Hk _] H. apply node_survives; [exact H | apply (cid_ne i k Hi Hk)].
      - intros i c Hi Hf Hh Hz H. destruct (key_eqb (node_key b) (p, i_n i, "")) eqn:E.
        + apply key_eqb_eq in E. destruct (Hside i Hi Hf E) as (z & Hsp & Zp & Zn).
          cbn [deregister]. rewrite (delete_node_hosted c p _ z); auto.
        + apply key_eqb_neq in E. apply node_survives; assumption.
    Qed.

    Lemma phase2_keeps_chk k :
      In k (chks (h_cat s1)) ->
      (forall i, In i stored -> dropped i -> ~ (c_peer k = p /\ c_node k = i_n i /\ c_sid k = i_sid i)) ->
      (forall i k0, In i stored -> stale i k0 -> chk_key k <> (p, c_node k0, c_id k0)) ->
      (forall i, In i stored -> find_ns hs (i_n i) = None -> c_peer k = p -> c_node k = i_n i -> hosts (i_n i)) ->
      In k (chks (h_cat s')).
    Proof.
      intros Hk Hsvc Hchk Hnode. apply (phase2_spared_inv (fun c => In k (chks c))); [..|exact Hk].
      - intros i c Hi Hd H. apply chk_survives; [exact H|]. split; [apply sid_ne, Hi | apply Hsvc; assumption].
      - intros i k0 c Hi Hst H. apply chk_survives; [exact H|].
        split; [apply (cid_ne i k0 Hi), Hst | apply (Hchk i k0 Hi Hst)].
      - intros i c Hi Hf Hh Hz H. destruct (string_dec (c_peer k) p) as [Kp|Kp]; [destruct (string_dec (c_node k) (i_n i)) as [Kn|Kn]|].
        + destruct (Hnode i Hi Hf Kp Kn) as (z & Hsp & Zp & Zn). cbn [deregister]. rewrite (delete_node_hosted c p _ z); auto.
        + apply chk_survives; [exact H|]. tauto.
        + apply chk_survives; [exact H|]. tauto.
    Qed.
  End Keeps.
End P2.

(* "Delete any nodes that do not have any other services registered on them": after an update
   that returned no error, a node on which the service had an instance and that the snapshot
   no longer contains is gone, unless some service of the peer is still registered on it. *)
Definition node_settled (c : cat) (p n : string) : Prop :=
  get_node c p n = None \/ node_has_services c p n = true.

Lemma get_node_delete_node_same c p n : get_node (delete_node c p n) p n = None.
Proof.
  apply tget_none. intros x Hx. apply delete_node_nodes in Hx. tauto.
Qed.

Lemma get_node_none_delete_node c p n p' n' : get_node c p n = None -> get_node (delete_node c p' n') p n = None.
Proof.
  unfold get_node. rewrite !tget_none. intros H x Hx. apply H. apply delete_node_nodes in Hx. tauto.
Qed.

Lemma settled_delete_node c p n n' :
  node_settled c p n -> node_has_services c p n' = false -> node_settled (delete_node c p n') p n.
Proof.
  intros [H|H] Hn'.
  - left. apply get_node_none_delete_node. exact H.
  - destruct (string_dec n' n) as [->|Hne]; [congruence|].
    right. unfold node_has_services in *. rewrite get_node_delete_node_other by congruence.
    destruct (get_node c p n); [|discriminate].
    apply existsb_exists in H as (y & Hy & E). apply existsb_exists. exists y. split; [|exact E].
    apply andb_true_iff in E as [E1 E2]. apply seqb_eq in E1, E2.
    apply delete_node_svcs. split; [exact Hy|]. right. intros [_ E]. congruence.
Qed.

Lemma unused_loop_settled p : forall l s n,
  h_err s = None -> In n l -> node_settled (h_cat (fold_left (unused_block p) l s)) p n.
Proof.
  intros l s n He Hn.
  apply (fold_left_reaches _ (fun s => h_err s = None) (fun s => node_settled (h_cat s) p n) n); auto.
  - intros s0 n' H0. apply unused_block_closed; [apply err_dereg | exact H0].
  - intros s0 n' H0. unfold unused_block. destruct (h_err s0); [exact H0|].
    destruct (node_has_services (h_cat s0) p n') eqn:E; [exact H0|].
    apply do_dereg_cat; [|exact H0]. intros H. apply settled_delete_node; assumption.
  - intros s0 H0. unfold unused_block. rewrite H0.
    destruct (node_has_services (h_cat s0) p n) eqn:E; [right; exact E|].
    left. unfold do_dereg. rewrite H0. apply get_node_delete_node_same.
Qed.

Theorem orphan_nodes_removed sh p sn c0 export :
  shuffles_ok sh ->
  let s := handle_update_service sh c0 p sn (Some export) in
  h_err s = None ->
  forall z, In z (svcs c0) -> s_peer z = p -> s_name z = sn ->
            find_ns (new_health_snapshot p export) (s_node z) = None ->
            node_settled (h_cat s) p (s_node z).
Proof.
  intros Hsh s He z Hz Zp Zn Hf. subst s. unfold handle_update_service in *.
  destruct (handle_update_from_ok _ _ _ _ _ He) as (_ & stored & Hcsn & E). rewrite E in *. clear E.
  cbn [h_cat] in Hcsn. set (hs := new_health_snapshot p export) in *.
  destruct (stored_complete c0 p sn stored Hcsn z Hz Zp Zn) as (i & Hi & Ei).
  destruct (stored_all_ok c0 p sn stored Hcsn i Hi) as [_ _ _ (_ & _ & Dn) _].
  unfold phase2 in *.
  set (s1 := fold_left (fun s x => node_block sh stored x s) (sh_nodes sh hs) (HSt c0 [] None)) in *.
  set (a := fold_left (stored_block p hs) stored (P2 s1 [] [])) in *.
  set (s2 := fold_left (fun s ck => do_dereg (DChk p (snd ck) (fst ck)) s) (sh_dnc sh (p2_dnc a)) (p2_st a)) in *.
  assert (He2 : h_err s2 = None).
  { destruct (h_err s2) eqn:E; [|reflexivity]. exfalso.
    rewrite (fold_sticky (unused_block p)) in He; [congruence| |congruence].
    intros s0 n0 H0. unfold unused_block. destruct (h_err s0); [reflexivity|contradiction]. }
  apply unused_loop_settled; [exact He2|].
  apply (sh_unused_in sh Hsh).
  rewrite <- Ei, <- Dn. subst a.
  apply (fold_left_reaches _ (fun _ => True) (fun a => In (n_name (i_node i)) (p2_unused a)) i); auto.
  - intros; apply stored_block_closed; [apply unused_closed | assumption].
  - intros a0 _. unfold stored_block. rewrite Dn, Ei, Hf. apply in_add_str. auto.
Qed.
