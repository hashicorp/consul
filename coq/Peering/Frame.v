(* C17 — frame.  The two principles from which the property file derives the frame, the facts about
   the call log and the unique keys: handle_inv (a predicate on the handler state kept by every
   call) and handle_closed / run_closed (a catalog predicate closed under the writes at p). *)
From Verif Require Import Base.Prelude Peering.Model Peering.Lemmas Peering.Verbs Peering.Prune Peering.Phase2.
From Verif Require Import Base.Lists.
Require Import Coq.Sorting.Permutation.
Local Open Scope string_scope.

Definition nodes_of (q : string) (c : cat) := filter (fun x => seqb (n_peer x) q) (nodes c).
Definition svcs_of (q : string) (c : cat) := filter (fun x => seqb (s_peer x) q) (svcs c).
Definition chks_of (q : string) (c : cat) := filter (fun x => seqb (c_peer x) q) (chks c).

(* the rows of peer q ("" = the local cluster), in table order; the mesh-topology table has no
   peer in its key and belongs to the local cluster *)
Definition same_rows (q : string) (c c' : cat) : Prop :=
  nodes_of q c' = nodes_of q c /\ svcs_of q c' = svcs_of q c /\ chks_of q c' = chks_of q c
  /\ (q = "" -> topo c' = topo c).

Lemma same_rows_refl q c : same_rows q c c.
Proof. repeat split. Qed.

Lemma same_rows_trans q a b c : same_rows q a b -> same_rows q b c -> same_rows q a c.
Proof.
  unfold same_rows. intros (A1 & A2 & A3 & A4) (B1 & B2 & B3 & B4).
  split; [congruence|]. split; [congruence|]. split; [congruence|]. intros Hq. rewrite (B4 Hq). apply A4, Hq.
Qed.

Lemma same_rows_tables q c c' :
  nodes_of q c' = nodes_of q c -> svcs_of q c' = svcs_of q c -> chks_of q c' = chks_of q c ->
  topo c' = topo c -> same_rows q c c'.
Proof. unfold same_rows. auto. Qed.

Section Peer.
  Context {A : Type} (kf : A -> key) (peer : A -> string).
  Hypothesis kf_peer : forall x, fst (fst (kf x)) = peer x.

  Lemma filter_tdel_other q p a b l :
    p <> q -> filter (fun x => seqb (peer x) q) (tdel kf (p, a, b) l) = filter (fun x => seqb (peer x) q) l.
  Proof.
    intros Hpq. unfold tdel. apply filter_filter_in. intros x _ Hx.
    apply seqb_eq in Hx. apply negb_true_iff, key_eqb_neq. intros E.
    apply Hpq. rewrite <- Hx, <- kf_peer, E. reflexivity.
  Qed.

  Lemma filter_tput_other q x l :
    peer x <> q -> filter (fun x => seqb (peer x) q) (tput kf x l) = filter (fun x => seqb (peer x) q) l.
  Proof.
    intros Hpq. unfold tput. cbn [filter].
    destruct (seqb (peer x) q) eqn:E; [apply seqb_eq in E; contradiction|].
    destruct (kf x) as [[p a] b] eqn:K. apply filter_tdel_other.
    rewrite <- (kf_peer x), K in Hpq. exact Hpq.
  Qed.
End Peer.

Lemma node_key_peer x : fst (fst (node_key x)) = n_peer x. Proof. reflexivity. Qed.
Lemma svc_key_peer x : fst (fst (svc_key x)) = s_peer x. Proof. reflexivity. Qed.
Lemma chk_key_peer x : fst (fst (chk_key x)) = c_peer x. Proof. reflexivity. Qed.

Lemma topo_applies_local s : topo_applies s = true -> s_peer s = "".
Proof. unfold topo_applies. intros T. apply andb_true_iff in T as [_ T]. apply seqb_eq, T. Qed.

(* the rows of q stay what they are in c0 under every write at another peer; the mesh-topology
   update is reached only by local instances (topo_applies), which are not rows of a peer *)
Lemma same_rows_closed q c0 p : p <> q -> closed_at p (same_rows q c0).
Proof.
  intros Hpq.
  (* a delete at p cascades through rows of p only *)
  assert (Hcasc : forall {A} (peer : A -> string) (g : A -> bool) l,
             (forall x, peer x <> p -> g x = true) ->
             filter (fun x => seqb (peer x) q) (filter g l) = filter (fun x => seqb (peer x) q) l).
  { intros A peer g l Hg. apply filter_filter_in. intros x _ Hx. apply seqb_eq in Hx. apply Hg. congruence. }
  split; intros; (eapply same_rows_trans; [eassumption|]).
  - apply same_rows_tables; try reflexivity. apply (filter_tput_other node_key n_peer node_key_peer). congruence.
  - apply same_rows_tables; try reflexivity. apply (filter_tput_other svc_key s_peer svc_key_peer). congruence.
  - apply same_rows_tables; try reflexivity. apply (filter_tput_other chk_key c_peer chk_key_peer). congruence.
  - unfold delete_node. destruct (get_node c p n); [|apply same_rows_refl].
    apply same_rows_tables; try reflexivity.
    + apply (filter_tdel_other node_key n_peer node_key_peer), Hpq.
    + apply (Hcasc _ s_peer). intros x Hx. apply negb_true_iff. seqb_cases (s_peer x) p; [contradiction|reflexivity].
    + apply (Hcasc _ c_peer). intros x Hx. apply negb_true_iff. seqb_cases (c_peer x) p; [contradiction|reflexivity].
  - unfold delete_service. destruct (get_svc c p n i); [|apply same_rows_refl].
    apply same_rows_tables; try reflexivity.
    + apply (filter_tdel_other svc_key s_peer svc_key_peer), Hpq.
    + apply (Hcasc _ c_peer). intros x Hx. apply negb_true_iff. seqb_cases (c_peer x) p; [contradiction|reflexivity].
  - apply same_rows_tables; try reflexivity. apply (filter_tdel_other chk_key c_peer chk_key_peer), Hpq.
  - unfold update_topo. repeat (split; [reflexivity|]). intros ->. exfalso. apply Hpq.
    etransitivity; [symmetry; eassumption | apply topo_applies_local; assumption].
Qed.

Lemma apply_op_other q c o : op_peer o <> q -> same_rows q c (apply_op c o).
Proof.
  destruct o as [r|d]; cbn [apply_op]; intros H.
  - pose proof (register_closed _ _ (same_rows_closed q c _ H) c r eq_refl (same_rows_refl q c)) as Hr.
    destruct (register c r); [exact Hr | apply same_rows_refl].
  - apply (deregister_closed _ _ (same_rows_closed q c _ H)); [reflexivity | apply same_rows_refl].
Qed.

Lemma node_upsert_peer p i h :
  n_peer (i_node i) = p -> Forall (fun x => n_peer (ns_node x) = p) h ->
  Forall (fun x => n_peer (ns_node x) = p) (node_upsert i h).
Proof.
  intros Hi. induction h as [|x h IH]; intros Hf; cbn [node_upsert].
  - constructor; [exact Hi | constructor].
  - inversion Hf as [|? ? Hx Hh]; subst.
    destruct (seqb (n_name (ns_node x)) (n_name (i_node i))); constructor; auto.
Qed.

Lemma nhs_node_peer p all : Forall (fun x => n_peer (ns_node x) = p) (new_health_snapshot p all).
Proof.
  unfold new_health_snapshot.
  assert (G : forall h, Forall (fun x => n_peer (ns_node x) = p) h ->
                        Forall (fun x => n_peer (ns_node x) = p)
                               (fold_left (fun h i => node_upsert (inst_set_peer p i) h) all h)).
  { induction all as [|i all IH]; intros h Hh; cbn [fold_left]; [exact Hh|].
    apply IH. apply node_upsert_peer; [reflexivity | exact Hh]. }
  apply G. constructor.
Qed.

(* Any property of the handler state that every Backend call of peer p and every early
   return preserves holds at the end of both handlers, whatever the iteration order. *)
Section HInv.
  Variable sh : shuffles.
  Variable p : string.
  Variable P : hst -> Prop.
  Hypothesis P_reg : forall r s, n_peer (r_node r) = p -> P s -> P (do_reg r s).
  Hypothesis P_dereg : forall d s, op_peer (ODereg d) = p -> P s -> P (do_dereg d s).
  Hypothesis P_err : forall s e, P s -> P (HSt (h_cat s) (h_ops s) (Some e)).

  Lemma node_block_inv stored x s : n_peer (ns_node x) = p -> P s -> P (node_block sh stored x s).
  Proof.
    intros Hx Hs. unfold node_block.
    set (s1 := if node_changed stored (ns_node x) then _ else s).
    assert (H1 : P s1) by (subst s1; destruct (node_changed stored (ns_node x)); auto).
    set (s2 := fold_left _ (sh_svcs sh (ns_svcs x)) s1).
    assert (H2 : P s2).
    { subst s2. apply (fold_left_inv P); [|exact H1]. intros s' y _ Hs'.
      destruct (svc_changed stored (ns_node x) (ss_svc y)); auto. }
    destruct (sh_chks sh _); auto.
  Qed.

  Hypothesis sh_ok : shuffles_ok sh.

  Lemma handle_update_from_inv s0 sn export : P s0 -> P (handle_update_from sh s0 p sn export).
  Proof.
    intros H0. destruct (h_err s0) eqn:E0; [unfold handle_update_from; rewrite E0; exact H0|].
    destruct (check_service_nodes (h_cat s0) p sn) as [stored|e] eqn:Hc.
    2:{ unfold handle_update_from. rewrite E0, Hc. apply P_err, H0. }
    rewrite (handle_update_from_unfold sh s0 p sn export stored E0 Hc). cbn zeta.
    apply (phase2_inv sh p _ stored sh_ok P).
    - intros i s _ _. apply P_dereg. reflexivity.
    - intros i k s _ _. apply P_dereg. reflexivity.
    - intros i s _ _ _ _. apply P_dereg. reflexivity.
    - apply (fold_left_inv P); [|exact H0]. intros s x Hx Hs. apply -> (sh_nodes_in sh sh_ok) in Hx.
      apply node_block_inv; [|exact Hs].
      pose proof (nhs_node_peer p (match export with Some l => l | None => [] end)) as Hf.
      rewrite Forall_forall in Hf. apply Hf. exact Hx.
  Qed.

  Lemma handle_exported_list_inv c names : P (HSt c [] None) -> P (handle_exported_list sh c p names).
  Proof.
    intros H0. unfold handle_exported_list. apply (fold_left_inv P); [|exact H0].
    intros s sn _ Hs. destruct (existsb (seqb sn) (exported_set names)); [exact Hs|].
    apply handle_update_from_inv. exact Hs.
  Qed.
End HInv.

Lemma handle_inv sh e (P : hst -> Prop) c :
  shuffles_ok sh ->
  (forall r s, n_peer (r_node r) = ev_peer e -> P s -> P (do_reg r s)) ->
  (forall d s, op_peer (ODereg d) = ev_peer e -> P s -> P (do_dereg d s)) ->
  (forall s err, P s -> P (HSt (h_cat s) (h_ops s) (Some err))) ->
  P (HSt c [] None) -> P (handle sh c e).
Proof.
  intros Hsh Hr Hd He H0. destruct e as [p sn export|p names]; cbn [handle ev_peer] in *.
  - apply (handle_update_from_inv sh p P); auto.
  - apply (handle_exported_list_inv sh p P); auto.
Qed.

Theorem handle_closed p (P : cat -> Prop) sh c e :
  closed_at p P -> shuffles_ok sh -> ev_peer e = p -> P c -> P (h_cat (handle sh c e)).
Proof.
  intros HP Hsh He H. apply (handle_inv sh e (fun s => P (h_cat s))); auto.
  - intros r s Hr. apply do_reg_cat. apply (register_closed p P HP). congruence.
  - intros d s Hd. apply do_dereg_cat. apply (deregister_closed p P HP). congruence.
Qed.

Lemma apply_ops_snoc ops o c : apply_ops (ops ++ [o]) c = apply_op (apply_ops ops c) o.
Proof. unfold apply_ops. rewrite fold_left_app. reflexivity. Qed.

(* a history: each event is handled with some iteration order of its own *)
Inductive run : cat -> list event -> cat -> Prop :=
| run_nil c : run c [] c
| run_cons sh c e es c' :
    shuffles_ok sh -> run (h_cat (handle sh c e)) es c' -> run c (e :: es) c'.

Theorem run_closed (P : cat -> Prop) c es c' :
  run c es c' -> (forall e, In e es -> closed_at (ev_peer e) P) -> P c -> P c'.
Proof.
  induction 1 as [c|sh c e es c' Hsh Hr IH]; intros HP H; [exact H|].
  apply IH; [intros e' He'; apply HP; right; exact He'|].
  apply (handle_closed (ev_peer e) P sh c e); auto. apply HP. left. reflexivity.
Qed.

Lemma keys_contain_peer :
  (forall x, fst (fst (node_key x)) = n_peer x) /\ (forall x, fst (fst (svc_key x)) = s_peer x)
  /\ (forall x, fst (fst (chk_key x)) = c_peer x).
Proof. repeat split. Qed.
