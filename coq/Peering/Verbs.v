(* C17 — what one catalog verb does to the three tables, row by row (key locality).
   wf: primary keys are unique in each table (memdb's unique "id" index). *)
From Verif Require Import Base.Prelude Peering.Model Peering.Lemmas.
Require Import Coq.Sorting.Permutation.
Local Open Scope string_scope.

Definition wf (c : cat) : Prop :=
  keys_nodup node_key (nodes c) /\ keys_nodup svc_key (svcs c) /\ keys_nodup chk_key (chks c).

Lemma get_node_in c p n x : get_node c p n = Some x -> In x (nodes c) /\ n_peer x = p /\ n_name x = n.
Proof.
  unfold get_node. intros H. apply tget_some in H as [H K]. injection K as K1 K2. auto.
Qed.

Lemma get_svc_in c p n i x :
  get_svc c p n i = Some x -> In x (svcs c) /\ s_peer x = p /\ s_node x = n /\ s_id x = i.
Proof.
  unfold get_svc. intros H. apply tget_some in H as [H K]. injection K as K1 K2 K3. auto.
Qed.

Lemma get_chk_in c p n i x :
  get_chk c p n i = Some x -> In x (chks c) /\ c_peer x = p /\ c_node x = n /\ c_id x = i.
Proof.
  unfold get_chk. intros H. apply tget_some in H as [H K]. injection K as K1 K2 K3. auto.
Qed.

Lemma in_get_node c x : wf c -> In x (nodes c) -> get_node c (n_peer x) (n_name x) = Some x.
Proof. intros (H & _) Hx. unfold get_node. apply (tget_in node_key _ x H Hx). Qed.

Lemma in_get_svc c x : wf c -> In x (svcs c) -> get_svc c (s_peer x) (s_node x) (s_id x) = Some x.
Proof. intros (_ & H & _) Hx. unfold get_svc. apply (tget_in svc_key _ x H Hx). Qed.

Lemma in_get_chk c x : wf c -> In x (chks c) -> get_chk c (c_peer x) (c_node x) (c_id x) = Some x.
Proof. intros (_ & _ & H) Hx. unfold get_chk. apply (tget_in chk_key _ x H Hx). Qed.

Lemma wf_put_node c x : wf c -> wf (put_node c x).
Proof. intros (A & B & C). repeat split; cbn; auto. apply nodup_tput. exact A. Qed.
Lemma wf_put_svc c x : wf c -> wf (put_svc c x).
Proof. intros (A & B & C). repeat split; cbn; auto. apply nodup_tput. exact B. Qed.
Lemma wf_put_chk c x : wf c -> wf (put_chk c x).
Proof. intros (A & B & C). repeat split; cbn; auto. apply nodup_tput. exact C. Qed.
Lemma wf_set_topo c t : wf c -> wf (set_topo c t).
Proof. intros H. exact H. Qed.

Lemma wf_delete_check c p n i : wf c -> wf (delete_check c p n i).
Proof. intros (A & B & C). repeat split; cbn; auto. apply nodup_tdel. exact C. Qed.

Lemma wf_delete_service c p n i : wf c -> wf (delete_service c p n i).
Proof.
  intros (A & B & C). unfold delete_service. destruct (get_svc c p n i); [|repeat split; assumption].
  repeat split; cbn [nodes svcs chks set_svcs set_chks]; auto.
  - apply nodup_tdel. exact B.
  - apply nodup_filter. exact C.
Qed.

Lemma wf_delete_node c p n : wf c -> wf (delete_node c p n).
Proof.
  intros (A & B & C). unfold delete_node. destruct (get_node c p n); [|repeat split; assumption].
  repeat split; cbn [nodes svcs chks set_svcs set_chks set_nodes].
  - apply nodup_tdel. exact A.
  - apply nodup_filter. exact B.
  - apply nodup_filter. exact C.
Qed.

(* what each delete leaves in each table; the row aimed at is gone whether or not it was there *)
Lemma delete_check_chks c p n i k : In k (chks (delete_check c p n i)) <-> In k (chks c) /\ chk_key k <> (p, n, i).
Proof. apply in_tdel. Qed.

Lemma delete_service_nodes c p n i : nodes (delete_service c p n i) = nodes c.
Proof. unfold delete_service. destruct (get_svc c p n i); reflexivity. Qed.

Lemma delete_service_svcs c p n i y : In y (svcs (delete_service c p n i)) <-> In y (svcs c) /\ svc_key y <> (p, n, i).
Proof.
  unfold delete_service. destruct (get_svc c p n i) eqn:G; [apply in_tdel|].
  unfold get_svc in G. rewrite tget_none in G. split; [intros H; split; [exact H | apply G, H] | tauto].
Qed.

Lemma delete_service_chks c p n i k :
  In k (chks (delete_service c p n i)) <->
  In k (chks c) /\ (get_svc c p n i = None \/ ~ (c_peer k = p /\ c_node k = n /\ c_sid k = i)).
Proof.
  unfold delete_service. destruct (get_svc c p n i); cbn [chks set_svcs set_chks]; [|tauto].
  rewrite filter_In, negb_true_iff, <- not_true_iff_false, !andb_true_iff, !seqb_eq. intuition discriminate.
Qed.

Lemma delete_node_nodes c p n x : In x (nodes (delete_node c p n)) <-> In x (nodes c) /\ node_key x <> (p, n, "").
Proof.
  unfold delete_node. destruct (get_node c p n) eqn:G; [apply in_tdel|].
  unfold get_node in G. rewrite tget_none in G. split; [intros H; split; [exact H | apply G, H] | tauto].
Qed.

Lemma delete_node_svcs c p n y :
  In y (svcs (delete_node c p n)) <-> In y (svcs c) /\ (get_node c p n = None \/ ~ (s_peer y = p /\ s_node y = n)).
Proof.
  unfold delete_node. destruct (get_node c p n); cbn [svcs set_svcs set_chks set_nodes]; [|tauto].
  rewrite filter_In, negb_true_iff, <- not_true_iff_false, !andb_true_iff, !seqb_eq. intuition discriminate.
Qed.

Lemma delete_node_chks c p n k :
  In k (chks (delete_node c p n)) <-> In k (chks c) /\ (get_node c p n = None \/ ~ (c_peer k = p /\ c_node k = n)).
Proof.
  unfold delete_node. destruct (get_node c p n); cbn [chks set_svcs set_chks set_nodes]; [|tauto].
  rewrite filter_In, negb_true_iff, <- not_true_iff_false, !andb_true_iff, !seqb_eq. intuition discriminate.
Qed.

Lemma node_has_services_false c p n :
  node_has_services c p n = false <->
  get_node c p n = None \/ forall y, In y (svcs c) -> ~ (s_peer y = p /\ s_node y = n).
Proof.
  unfold node_has_services. destruct (get_node c p n); [|intuition].
  rewrite existsb_false_iff. split.
  - intros H. right. intros y Hy [<- <-]. specialize (H y Hy). rewrite !seqb_refl in H. discriminate.
  - intros [H|H] y Hy; [discriminate|]. rewrite <- not_true_iff_false, andb_true_iff, !seqb_eq. apply H, Hy.
Qed.

(* FSM.applyDeregister ends in one of the three deletes, at the peer of the request (asked for at
   every name and id, so that callers need not split on the empty id) *)
Lemma deregister_cases (R : cat -> Prop) c d :
  (forall n, R (delete_node c (op_peer (ODereg d)) n)) ->
  (forall n i, R (delete_service c (op_peer (ODereg d)) n i)) ->
  (forall n i, R (delete_check c (op_peer (ODereg d)) n i)) -> R (deregister c d).
Proof. destruct d as [p n i|p n i|p n]; cbn [deregister op_peer]; intros Hn Hs Hc; [destruct (seqb i "")..|]; auto. Qed.

Record shrinks (c c' : cat) : Prop := {
  sk_nodes : incl (nodes c') (nodes c);
  sk_svcs : incl (svcs c') (svcs c);
  sk_chks : incl (chks c') (chks c);
  sk_wf : wf c -> wf c' }.

Lemma shrinks_refl c : shrinks c c.
Proof. split; auto using incl_refl. Qed.

Lemma shrinks_trans a b c : shrinks a b -> shrinks b c -> shrinks a c.
Proof. intros [A1 A2 A3 A4] [B1 B2 B3 B4]. split; eauto using incl_tran. Qed.

Lemma deregister_shrinks c d : shrinks c (deregister c d).
Proof.
  apply deregister_cases; intros; split.
  - intros x Hx. apply delete_node_nodes in Hx. tauto.
  - intros x Hx. apply delete_node_svcs in Hx. tauto.
  - intros x Hx. apply delete_node_chks in Hx. tauto.
  - apply wf_delete_node.
  - rewrite delete_service_nodes. apply incl_refl.
  - intros x Hx. apply delete_service_svcs in Hx. tauto.
  - intros x Hx. apply delete_service_chks in Hx. tauto.
  - apply wf_delete_service.
  - apply incl_refl.
  - apply incl_refl.
  - intros x Hx. apply delete_check_chks in Hx. tauto.
  - apply wf_delete_check.
Qed.

Definition okp {A} (P : A -> Prop) (r : res A) : Prop := match r with Ok a => P a | Err _ => True end.

Lemma okp_bind {A B} (Q : A -> Prop) (P : B -> Prop) r f :
  okp Q r -> (forall a, Q a -> okp P (f a)) -> okp P (bind r f).
Proof. destruct r; cbn; auto. Qed.

(* The two Backend calls of an event of peer p end in seven primitive writes, all at p: three
   puts, three deletes, and the mesh-topology update (which only a local instance reaches).
   A predicate that these preserve is preserved by register and deregister at p; the frame for
   every other peer and the uniqueness of keys are instances. *)
Record closed_at (p : string) (P : cat -> Prop) : Prop := {
  cl_put_node : forall c x, n_peer x = p -> P c -> P (put_node c x);
  cl_put_svc : forall c x, s_peer x = p -> P c -> P (put_svc c x);
  cl_put_chk : forall c x, c_peer x = p -> P c -> P (put_chk c x);
  cl_del_node : forall c n, P c -> P (delete_node c p n);
  cl_del_svc : forall c n i, P c -> P (delete_service c p n i);
  cl_del_chk : forall c n i, P c -> P (delete_check c p n i);
  cl_topo : forall c s e, s_peer s = p -> topo_applies s = true -> P c -> P (update_topo c s e) }.

Lemma wf_closed p : closed_at p wf.
Proof.
  split; intros.
  - apply wf_put_node; assumption.
  - apply wf_put_svc; assumption.
  - apply wf_put_chk; assumption.
  - apply wf_delete_node; assumption.
  - apply wf_delete_service; assumption.
  - apply wf_delete_check; assumption.
  - unfold update_topo. apply wf_set_topo. assumption.
Qed.

Section Closed.
  Variables (p : string) (P : cat -> Prop).
  Hypothesis HP : closed_at p P.

  Lemma deregister_closed c d : op_peer (ODereg d) = p -> P c -> P (deregister c d).
  Proof.
    intros Hp H. apply deregister_cases; rewrite Hp; intros; apply HP; exact H.
  Qed.

  Lemma ensure_node_byid_closed c nd : n_peer nd = p -> P c -> okp (fun cb => P (fst cb)) (ensure_node_byid c nd).
  Proof.
    intros Hp H. unfold ensure_node_byid. rewrite Hp.
    destruct (seqb (n_id nd) ""); [exact H|].
    destruct (get_node_by_id c p (n_id nd)) as [ex|].
    - destruct (seqb (n_name ex) (n_name nd)); [exact H|].
      destruct (similar_name_err c nd false); [exact I|]. apply (cl_del_node p P HP), H.
    - destruct (similar_name_err c nd true); [exact I | exact H].
  Qed.

  Lemma ensure_node_closed c nd : n_peer nd = p -> P c -> okp P (ensure_node c nd).
  Proof.
    intros Hp H. unfold ensure_node. eapply okp_bind; [apply ensure_node_byid_closed; assumption|].
    intros [c1 b] H1. cbn [fst] in H1.
    assert (Hput : P (put_node c1 nd)) by (apply HP; assumption).
    destruct b as [ex|].
    - destruct (node_eqb nd ex); assumption.
    - destruct (get_node c1 (n_peer nd) (n_name nd)) as [ex|]; [destruct (node_eqb nd ex)|]; assumption.
  Qed.

  Lemma reg_node_closed c nd : n_peer nd = p -> P c -> okp P (reg_node c nd).
  Proof.
    intros Hp H. unfold reg_node. destruct (get_node c (n_peer nd) (n_name nd)) as [ex|].
    - destruct (node_eqb ex nd); [exact H | apply ensure_node_closed; assumption].
    - apply ensure_node_closed; assumption.
  Qed.

  Lemma ensure_service_closed c s : s_peer s = p -> P c -> okp P (ensure_service c s).
  Proof.
    intros Hp H. unfold ensure_service.
    set (c1 := if topo_applies s then _ else c).
    assert (H1 : P c1) by (subst c1; destruct (topo_applies s) eqn:T; [apply HP|]; assumption).
    assert (Hput : P (put_svc c1 s)) by (apply HP; assumption).
    destruct (get_node c1 (s_peer s) (s_node s)); [|exact I].
    destruct (get_svc c (s_peer s) (s_node s) (s_id s)) as [e|]; [destruct (svc_eqb s e)|]; assumption.
  Qed.

  Lemma reg_svc_closed c nd os :
    match os with Some s => s_peer s = p | None => True end -> P c -> okp P (reg_svc c nd os).
  Proof.
    intros Hp H. unfold reg_svc. destruct os as [s0|]; [|exact H].
    assert (Hsp : s_peer (svc_set_node (n_name nd) s0) = p) by exact Hp.
    destruct (get_svc c (n_peer nd) (n_name nd) (s_id (svc_set_node (n_name nd) s0))) as [ex|].
    - destruct (svc_is_same ex _); [exact H | apply ensure_service_closed; assumption].
    - apply ensure_service_closed; assumption.
  Qed.

  Lemma ensure_check_closed c k : c_peer k = p -> P c -> okp P (ensure_check c k).
  Proof.
    intros Hp H. unfold ensure_check.
    destruct (get_node c (c_peer k) (c_node k)); [|exact I].
    set (k1 := if N.eqb (c_status k) 0 then _ else k).
    assert (Hk1 : c_peer k1 = p) by (subst k1; destruct (N.eqb (c_status k) 0); exact Hp).
    assert (Hst : forall k2, c_peer k2 = p ->
              okp P match get_chk c (c_peer k) (c_node k) (c_id k) with
                    | Some e => if chk_eqb e k2 then Ok c else Ok (put_chk c k2)
                    | None => Ok (put_chk c k2)
                    end).
    { intros k2 Hk2. assert (Hput : P (put_chk c k2)) by (apply HP; assumption).
      destruct (get_chk c (c_peer k) (c_node k) (c_id k)) as [e|]; [destruct (chk_eqb e k2)|]; assumption. }
    destruct (seqb (c_sid k1) ""); [apply Hst, Hk1|].
    destruct (get_svc c (c_peer k) (c_node k) (c_sid k)) as [s|]; [apply Hst, Hk1 | exact I].
  Qed.

  Lemma ensure_checks_closed node ks : forall c,
    (forall k, In k ks -> c_peer k = p) -> P c -> okp P (ensure_checks c node ks).
  Proof.
    induction ks as [|k ks IH]; intros c Hks H; cbn [ensure_checks]; [exact H|].
    destruct (negb (seqb (c_node k) node)); [exact I|].
    eapply okp_bind; [apply ensure_check_closed; [apply Hks; left; reflexivity | exact H]|].
    intros c1 H1. apply IH; [intros k' Hk'; apply Hks; right; exact Hk' | exact H1].
  Qed.

  Lemma register_closed c r : n_peer (r_node r) = p -> P c -> okp P (register c r).
  Proof.
    intros Hp H. unfold register. destruct (reg_peers_ok r) eqn:Hok; cbn [negb]; [|exact I].
    unfold reg_peers_ok in Hok. rewrite Hp in Hok. apply andb_true_iff in Hok as [Hs Hk].
    eapply okp_bind; [apply reg_node_closed; assumption|]. intros c1 H1.
    eapply okp_bind; [apply reg_svc_closed; [|exact H1]|].
    - destruct (r_svc r); [apply seqb_eq, Hs | exact I].
    - intros c2 H2. apply ensure_checks_closed; [|exact H2].
      rewrite forallb_forall in Hk. intros k Hk'. apply seqb_eq, Hk, Hk'.
  Qed.
End Closed.

(* no node of the peer holds nd's ID under another name: ensureNodeTxn does not take the
   "renaming a node" branch (deleteNodeTxn of the old name) *)
Definition no_rename (c : cat) (nd : node) : Prop :=
  forall x, In x (nodes c) -> n_peer x = n_peer nd -> n_id x = n_id nd -> n_id nd <> "" -> n_name x = n_name nd.

Definition is_put {A} (kf : A -> key) (x : A) (l l' : list A) : Prop :=
  forall y, In y l' <-> y = x \/ (In y l /\ kf y <> kf x).

Lemma is_put_tput {A} (kf : A -> key) x l : is_put kf x l (tput kf x l).
Proof. intros y. apply in_tput. Qed.

Lemma is_put_same {A} (kf : A -> key) x l : keys_nodup kf l -> In x l -> is_put kf x l l.
Proof.
  intros Hn Hx y. split.
  - intros Hy. destruct (key_eqb (kf y) (kf x)) eqn:E.
    + apply key_eqb_eq in E. left. eapply nodup_key_inj; eauto.
    + apply key_eqb_neq in E. auto.
  - intros [->|[Hy _]]; auto.
Qed.

(* the outcome of a verb on its own table, the other tables being left alone (ensure_service may
   run update_topo first, so svc_put says nothing of the topology table) *)
Definition node_put (nd : node) (c c' : cat) : Prop :=
  wf c' /\ svcs c' = svcs c /\ chks c' = chks c /\ topo c' = topo c /\ is_put node_key nd (nodes c) (nodes c').
Definition svc_put (s : svc) (c c' : cat) : Prop :=
  wf c' /\ nodes c' = nodes c /\ chks c' = chks c /\ is_put svc_key s (svcs c) (svcs c').
Definition chk_put (k : chk) (c c' : cat) : Prop :=
  wf c' /\ nodes c' = nodes c /\ svcs c' = svcs c /\ topo c' = topo c /\ is_put chk_key k (chks c) (chks c').

Lemma node_put_new c nd : wf c -> node_put nd c (put_node c nd).
Proof.
  intros W. refine (conj (wf_put_node c nd W) (conj eq_refl (conj eq_refl (conj eq_refl _)))). apply is_put_tput.
Qed.
Lemma node_put_old c nd : wf c -> In nd (nodes c) -> node_put nd c c.
Proof.
  intros W H. refine (conj W (conj eq_refl (conj eq_refl (conj eq_refl _)))). apply is_put_same; [apply W | exact H].
Qed.
Lemma chk_put_new c k : wf c -> chk_put k c (put_chk c k).
Proof.
  intros W. refine (conj (wf_put_chk c k W) (conj eq_refl (conj eq_refl (conj eq_refl _)))). apply is_put_tput.
Qed.
Lemma chk_put_old c k : wf c -> In k (chks c) -> chk_put k c c.
Proof.
  intros W H. refine (conj W (conj eq_refl (conj eq_refl (conj eq_refl _)))). apply is_put_same; [apply W | exact H].
Qed.
Lemma svc_put_old c s : wf c -> In s (svcs c) -> svc_put s c c.
Proof.
  intros W H. refine (conj W (conj eq_refl (conj eq_refl _))). apply is_put_same; [apply W | exact H].
Qed.

Lemma ensure_node_spec c nd c' :
  wf c -> no_rename c nd -> ensure_node c nd = Ok c' -> node_put nd c c'.
Proof.
  intros Hwf Hnr. unfold ensure_node.
  destruct (ensure_node_byid c nd) as [[c1 b]|e] eqn:E1; cbn [bind]; [|discriminate].
  (* without a rename the first half leaves the store alone, and a node found by ID is the
     node of that name *)
  assert (H1 : c1 = c /\ match b with Some ex => In ex (nodes c) | None => True end).
  { unfold ensure_node_byid in E1. seqb_cases (n_id nd) ""; [injection E1 as <- <-; auto|].
    destruct (get_node_by_id c (n_peer nd) (n_id nd)) as [ex|] eqn:G.
    - unfold get_node_by_id in G. apply find_some in G as [Hin G]. apply andb_true_iff in G as [G1 G2].
      apply seqb_eq in G1, G2.
      assert (Hname : n_name ex = n_name nd) by (apply Hnr; auto).
      rewrite Hname, seqb_refl in E1. injection E1 as <- <-. auto.
    - destruct (similar_name_err c nd true); [discriminate|]. injection E1 as <- <-. auto. }
  destruct H1 as [-> Hb].
  assert (Hsame : forall ex, In ex (nodes c) -> node_eqb nd ex = true -> node_put nd c c).
  { intros ex Hin Heq. apply node_eqb_eq in Heq. subst ex. apply node_put_old; assumption. }
  destruct b as [ex|].
  - destruct (node_eqb nd ex) eqn:Eq; intros E; injection E as <-; [eapply Hsame; eauto | apply node_put_new, Hwf].
  - destruct (get_node c (n_peer nd) (n_name nd)) as [ex|] eqn:G; [destruct (node_eqb nd ex) eqn:Eq|];
      intros E; injection E as <-; [|apply node_put_new, Hwf..].
    apply get_node_in in G as (Hin & _). eapply Hsame; eauto.
Qed.

Lemma reg_node_spec c nd c' :
  wf c -> no_rename c nd -> reg_node c nd = Ok c' -> node_put nd c c'.
Proof.
  intros Hwf Hnr. unfold reg_node. destruct (get_node c (n_peer nd) (n_name nd)) as [ex|] eqn:G.
  - destruct (node_eqb ex nd) eqn:Eq; [|apply ensure_node_spec; assumption].
    intros E; injection E as <-. apply node_eqb_eq in Eq. subst ex. apply get_node_in in G as (Hin & _).
    apply node_put_old; assumption.
  - apply ensure_node_spec; assumption.
Qed.

Lemma ensure_service_spec c s c' :
  wf c -> ensure_service c s = Ok c' -> svc_put s c c' /\ get_node c (s_peer s) (s_node s) <> None.
Proof.
  intros Hwf. unfold ensure_service.
  set (c1 := if topo_applies s then _ else c).
  assert (H1 : nodes c1 = nodes c /\ svcs c1 = svcs c /\ chks c1 = chks c).
  { subst c1. destruct (topo_applies s); repeat split; reflexivity. }
  destruct H1 as (N1 & S1 & K1).
  assert (Hwf1 : wf c1) by (unfold wf; rewrite N1, S1, K1; exact Hwf).
  assert (Hg : get_node c1 (s_peer s) (s_node s) = get_node c (s_peer s) (s_node s)).
  { unfold get_node. rewrite N1. reflexivity. }
  rewrite Hg. destruct (get_node c (s_peer s) (s_node s)) as [nd|] eqn:G; [|discriminate].
  assert (Hput : svc_put s c (put_svc c1 s)).
  { refine (conj (wf_put_svc c1 s Hwf1) (conj N1 (conj K1 _))). cbn [put_svc svcs set_svcs]. rewrite S1. apply is_put_tput. }
  destruct (get_svc c (s_peer s) (s_node s) (s_id s)) as [e|] eqn:Ge; [destruct (svc_eqb s e) eqn:Eq|];
    intros E; injection E as <-; (split; [|discriminate]); [|exact Hput..].
  apply svc_eqb_eq in Eq. subst e. apply get_svc_in in Ge as (Hin & _).
  refine (conj Hwf1 (conj N1 (conj K1 _))). rewrite S1. apply is_put_same; [apply Hwf | exact Hin].
Qed.

Lemma reg_svc_spec c nd s0 c' :
  wf c -> reg_svc c nd (Some s0) = Ok c' -> s_peer s0 = n_peer nd -> svc_put (svc_set_node (n_name nd) s0) c c'.
Proof.
  intros Hwf H Hp. unfold reg_svc in H. set (s := svc_set_node (n_name nd) s0) in *.
  destruct (get_svc c (n_peer nd) (n_name nd) (s_id s)) as [ex|] eqn:G.
  - destruct (svc_is_same ex s) eqn:Eq.
    + injection H as <-. apply svc_is_same_eq in Eq. subst ex. apply get_svc_in in G as (Hin & _).
      apply svc_put_old; assumption.
    + apply ensure_service_spec in H; [|exact Hwf]. tauto.
  - apply ensure_service_spec in H; [|exact Hwf]. tauto.
Qed.

(* what IsSame looks at except the two fields the store copies from the service row *)
Definition chk_core (k : chk) : string * string * string * string * N * N :=
  (c_peer k, c_node k, c_id k, c_sid k, c_status k, c_body k).

Definition chk_norm (k : chk) : chk := if N.eqb (c_status k) 0 then chk_with_status k st_critical else k.

Lemma ensure_check_spec c k c' :
  wf c -> ensure_check c k = Ok c' ->
  exists k2, chk_key k2 = chk_key k /\ chk_core k2 = chk_core (chk_norm k) /\ chk_put k2 c c' /\
             (c_sid k <> "" -> exists s, get_svc c (c_peer k) (c_node k) (c_sid k) = Some s
                                         /\ c_sname k2 = s_name s /\ c_stags k2 = s_tags s).
Proof.
  intros Hwf. unfold ensure_check.
  destruct (get_node c (c_peer k) (c_node k)); [|discriminate].
  fold (chk_norm k). set (k1 := chk_norm k).
  assert (Hk1 : chk_key k1 = chk_key k /\ c_sid k1 = c_sid k).
  { subst k1. unfold chk_norm. destruct (N.eqb (c_status k) 0); split; reflexivity. }
  destruct Hk1 as [Hkey Hsid].
  assert (Hst : forall k2,
            match get_chk c (c_peer k) (c_node k) (c_id k) with
            | Some e => if chk_eqb e k2 then Ok c else Ok (put_chk c k2)
            | None => Ok (put_chk c k2)
            end = Ok c' -> chk_put k2 c c').
  { intros k2. destruct (get_chk c (c_peer k) (c_node k) (c_id k)) as [e|] eqn:G; [destruct (chk_eqb e k2) eqn:Eq|];
      intros E; injection E as <-; [|apply chk_put_new, Hwf..].
    apply chk_eqb_eq in Eq. subst e. apply get_chk_in in G as (Hin & _). apply chk_put_old; assumption. }
  rewrite Hsid. seqb_cases (c_sid k) "".
  - intros H. exists k1. split; [exact Hkey|]. split; [reflexivity|]. split; [apply Hst, H|]. intros; contradiction.
  - destruct (get_svc c (c_peer k) (c_node k) (c_sid k)) as [s|] eqn:G; [|discriminate].
    intros H. exists (chk_with_svc k1 (s_name s) (s_tags s)).
    split; [exact Hkey|]. split; [reflexivity|]. split; [apply Hst, H|]. intros _. exists s. auto.
Qed.
