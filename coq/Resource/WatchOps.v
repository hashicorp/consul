(* The publisher state of Resource/Model.v as data.  The watch operations in normal form: each is
   the old store with new topic buffers, snapshot cache and watch list, given by functions of the old
   state; Next acts on one watch ([next_w]).  Topic buffers and snapshot cache as finite maps, seen
   through the items and the reference count of a buffer ([items_of], [refs_of]).  Proofs about a step
   use these equations instead of unfolding the operation. *)
From Verif Require Import Base.Prelude Resource.Model Resource.TableProofs.
From Verif Require Import Base.Lists.
Local Open Scope N_scope.

Lemma Forall_skipn {A} (P : A -> Prop) n l : Forall P l -> Forall P (skipn n l).
Proof. rewrite !Forall_forall. intros H x Hx. apply H. eapply In_skipn. eassumption. Qed.

Lemma flat_map_snoc {A B} (f : A -> list B) l x : flat_map f (l ++ [x]) = flat_map f l ++ f x.
Proof. rewrite flat_map_app. cbn. rewrite app_nil_r. reflexivity. Qed.

Lemma last_some_in {A} (l : list A) x : last (map Some l) None = Some x -> In x l.
Proof.
  induction l as [|y l IH]; cbn; [discriminate|]. destruct l as [|z l].
  - cbn. intros H; injection H as <-. auto.
  - intros H. right. apply IH. exact H.
Qed.

Lemma nth_error_snoc {A} (l : list A) x n w :
  nth_error (l ++ [x]) n = Some w -> nth_error l n = Some w \/ (n = List.length l /\ w = x).
Proof.
  destruct (Nat.lt_ge_cases n (List.length l)) as [H|H].
  - rewrite nth_error_app1 by assumption. auto.
  - rewrite nth_error_app2 by assumption. destruct (n - List.length l)%nat as [|k] eqn:E; [|destruct k; discriminate].
    intros G; injection G as <-. right. split; [lia|reflexivity].
Qed.

Lemma nth_error_snoc_new {A} (l : list A) x : nth_error (l ++ [x]) (List.length l) = Some x.
Proof. rewrite nth_error_app2, Nat.sub_diag by lia. reflexivity. Qed.

Lemma nth_error_snoc_old {A} (l : list A) x n w : nth_error l n = Some w -> nth_error (l ++ [x]) n = Some w.
Proof. intros H. rewrite nth_error_app1; [exact H|]. apply nth_error_Some. congruence. Qed.

Definition set_nth {A} (n : nat) (x : A) (l : list A) : list A := firstn n l ++ x :: skipn (S n) l.

Lemma set_nth_split {A} n (x w : A) l : nth_error l n = Some w ->
  exists l1 l2, l = l1 ++ w :: l2 /\ List.length l1 = n /\ set_nth n x l = l1 ++ x :: l2.
Proof.
  intros H. apply nth_error_split in H as (l1 & l2 & -> & Hl). exists l1, l2. split; [reflexivity|]. split; [assumption|].
  unfold set_nth. subst n. rewrite firstn_app, firstn_all, Nat.sub_diag. cbn [firstn]. rewrite app_nil_r.
  replace (S (List.length l1)) with (List.length l1 + 1)%nat by lia.
  rewrite skipn_add, skipn_app, skipn_all, Nat.sub_diag. reflexivity.
Qed.

Lemma nth_error_set_nth {A} n m (x w : A) l : nth_error l n = Some w ->
  nth_error (set_nth n x l) m = if Nat.eqb m n then Some x else nth_error l m.
Proof.
  intros H. destruct (set_nth_split n x w l H) as (l1 & l2 & -> & <- & ->).
  destruct (Nat.eqb_spec m (List.length l1)) as [->|E].
  - rewrite nth_error_app2, Nat.sub_diag by lia. reflexivity.
  - destruct (Nat.lt_ge_cases m (List.length l1)).
    + rewrite !nth_error_app1 by lia. reflexivity.
    + rewrite !nth_error_app2 by lia. destruct (m - List.length l1)%nat eqn:Em; [lia|]. reflexivity.
Qed.

Lemma nth_error_set_nth_inv {A} n m (x w y : A) l : nth_error l n = Some w ->
  nth_error (set_nth n x l) m = Some y -> (m = n /\ y = x) \/ (m <> n /\ nth_error l m = Some y).
Proof.
  intros H. rewrite (nth_error_set_nth n m x w l H). destruct (Nat.eqb_spec m n); [|auto].
  intros G; injection G as <-. auto.
Qed.

Lemma length_set_nth {A} n (x w : A) l : nth_error l n = Some w -> List.length (set_nth n x l) = List.length l.
Proof. intros H. destruct (set_nth_split n x w l H) as (l1 & l2 & -> & Hl & ->). rewrite !app_length. reflexivity. Qed.

Lemma filter_length_set_nth {A} (f : A -> bool) n (x w : A) l : nth_error l n = Some w ->
  (List.length (filter f (set_nth n x l)) + (if f w then 1 else 0) = List.length (filter f l) + (if f x then 1 else 0))%nat.
Proof.
  intros H. destruct (set_nth_split n x w l H) as (l1 & l2 & -> & Hl & ->).
  rewrite !filter_app, !app_length. cbn [filter]. destruct (f w), (f x); cbn [List.length]; lia.
Qed.

Definition set_pub (st : store) (bufs : list (subject * tbuf)) (cache : list (subject * snapshot)) (ws : list watch) : store :=
  Store (s_res st) (s_idx st) (s_vsn st) (s_stale st) (s_queue st) bufs cache ws.

Lemma set_watch_eq st n w : set_watch st n w = set_pub st (s_bufs st) (s_cache st) (set_nth n w (s_watches st)).
Proof. reflexivity. Qed.

Definition open_buf (st : store) (s : subject) : tbuf :=
  match buf_get s (s_bufs st) with Some b => b | None => TBuf 0 [] end.

(* the snapshot a new watch on s starts from: the cached one, or a fresh one spliced to the buffer *)
Definition fresh_snap (st : store) (s : subject) : snapshot :=
  Snap (s_idx st) (snapshot_batch s (s_idx st) (s_res st)) (splice_pos (b_items (open_buf st s)) (s_idx st)).
Definition open_snap (st : store) (s : subject) : snapshot :=
  match cache_get s (s_cache st) with Some sn => sn | None => fresh_snap st s end.
Definition open_cache (st : store) (s : subject) : list (subject * snapshot) :=
  match cache_get s (s_cache st) with Some _ => s_cache st | None => s_cache st ++ [(s, fresh_snap st s)] end.
Definition open_w (st : store) (q : query) : watch :=
  Watch (watch_subject q) q WOpen false (open_snap st (watch_subject q)) 0 [] 0.

Definition open_bufs (st : store) (s : subject) : list (subject * tbuf) :=
  buf_set s (TBuf (S (b_refs (open_buf st s))) (b_items (open_buf st s))) (s_bufs st).

Lemma watch_open_eq st q :
  watch_open st q =
  (set_pub st (open_bufs st (watch_subject q)) (open_cache st (watch_subject q)) (s_watches st ++ [open_w st q]),
   OutWatch (List.length (s_watches st))).
Proof. unfold watch_open, open_w, open_snap, open_cache, open_bufs, fresh_snap, open_buf. destruct (cache_get _ _); reflexivity. Qed.

(* ONext: what Next does to the watch it is called on, given the items of its topic buffer *)
Definition with_events (w : watch) (pos : nat) (evs : list pev) (idx : N) : watch :=
  Watch (w_subj w) (w_query w) (w_state w) (w_freed w) (w_snap w) pos evs idx.

Definition next_w (items : list batch) (w : watch) : watch * out :=
  match drain (w_query w) (w_events w) with
  | Some (e, rest) => (with_events w (w_pos w) rest (w_idx w), OutEvent (pe_ev e))
  | None =>
      match w_state w with
      | WForceClosed => (with_events w (w_pos w) [] (w_idx w), OutErr EWatchClosed)
      | WUnsub => (with_events w (w_pos w) [] (w_idx w), OutErr EOther)
      | WOpen =>
          match scan_raws (w_query w) (w_idx w) (skipn (w_pos w) (vstream (w_snap w) items)) 0 with
          | (widx, k, Some (e, rest)) => (with_events w (w_pos w + k) rest widx, OutEvent (pe_ev e))
          | (widx, k, None) => (with_events w (w_pos w + k) [] widx, OutNoEvent)
          end
      end
  end.

Lemma watch_next_eq st n :
  watch_next st n =
  match nth_error (s_watches st) n with
  | None => (st, OutErr EOther)
  | Some w => (set_watch st n (fst (next_w (watch_items st w) w)), snd (next_w (watch_items st w) w))
  end.
Proof.
  unfold watch_next, next_w, with_events. destruct (nth_error _ _) as [w|]; [|reflexivity].
  destruct (drain _ _) as [[e r]|]; [reflexivity|]. destruct (w_state w) eqn:E; try reflexivity.
  destruct (scan_raws _ _ _ _) as [[widx k] [[e r]|]]; reflexivity.
Qed.

Lemma next_w_fields items w : exists pos evs idx, fst (next_w items w) = with_events w pos evs idx.
Proof.
  unfold next_w. destruct (drain _ _) as [[e r]|]; [cbn; eauto|]. destruct (w_state w); cbn; eauto.
  destruct (scan_raws _ _ _ _) as [[widx k] [[e r]|]]; cbn; eauto.
Qed.

Definition closed_w (w : watch) : watch :=
  Watch (w_subj w) (w_query w) (match w_state w with WOpen => WUnsub | x => x end) true
        (w_snap w) (w_pos w) (w_events w) (w_idx w).

(* freeBuf: the last reference takes buffer and cached snapshot of the subject with it *)
Definition close_bufs (st : store) (w : watch) : list (subject * tbuf) :=
  if w_freed w then s_bufs st else
  match buf_get (w_subj w) (s_bufs st) with
  | None => s_bufs st
  | Some b => if Nat.eqb (b_refs b) 1 then buf_del (w_subj w) (s_bufs st)
              else buf_set (w_subj w) (TBuf (b_refs b - 1) (b_items b)) (s_bufs st)
  end.
Definition close_cache (st : store) (w : watch) : list (subject * snapshot) :=
  if w_freed w then s_cache st else
  match buf_get (w_subj w) (s_bufs st) with
  | None => s_cache st
  | Some b => if Nat.eqb (b_refs b) 1 then cache_del (w_subj w) (s_cache st) else s_cache st
  end.

Lemma watch_close_eq st n :
  fst (watch_close st n) =
  match nth_error (s_watches st) n with
  | None => st
  | Some w => set_pub st (close_bufs st w) (close_cache st w) (set_nth n (closed_w w) (s_watches st))
  end.
Proof.
  unfold watch_close, close_bufs, close_cache. destruct (nth_error _ _) as [w|]; [|reflexivity].
  destruct (w_freed w); [reflexivity|]. destruct (buf_get _ _) as [b|]; [|reflexivity].
  destruct (Nat.eqb _ _); reflexivity.
Qed.

Lemma publish_one_eq st :
  fst (publish_one st) =
  match s_stale st, s_queue st with
  | S k, _ => Store (s_res st) (s_idx st) (s_vsn st) k (s_queue st) (s_bufs st) (s_cache st) (s_watches st)
  | O, [] => st
  | O, b :: q => Store (s_res st) (s_idx st) (s_vsn st) O q (publish_batch b (s_bufs st)) (s_cache st) (s_watches st)
  end.
Proof. unfold publish_one. destruct (s_stale st); [|reflexivity]. destruct (s_queue st); reflexivity. Qed.

(* what a batch adds to the topic buffer of subject s when it is published *)
Definition pub_items (s : subject) (b : batch) : list batch := match route s b with [] => [] | g => [g] end.

Lemma buf_get_set s s' b l : buf_get s' (buf_set s b l) = if subject_eqb s' s then Some b else buf_get s' l.
Proof.
  induction l as [|[s2 b2] l IH]; cbn; [reflexivity|].
  destruct (subject_eqbP s s2) as [<-|Hn]; cbn; [destruct (subject_eqb s' s); reflexivity|]. rewrite IH.
  destruct (subject_eqbP s' s2) as [->|_]; [|reflexivity]. apply not_eq_sym, subject_eqb_neq in Hn. rewrite Hn. reflexivity.
Qed.

Lemma buf_get_del s s' l : buf_get s' (buf_del s l) = if subject_eqb s' s then None else buf_get s' l.
Proof.
  unfold buf_del. induction l as [|[s2 b2] l IH]; cbn; [destruct (subject_eqb s' s); reflexivity|].
  destruct (subject_eqbP s s2) as [<-|Hn]; cbn; rewrite IH; [destruct (subject_eqb s' s); reflexivity|].
  destruct (subject_eqbP s' s2) as [->|_]; [|reflexivity]. apply not_eq_sym, subject_eqb_neq in Hn. rewrite Hn. reflexivity.
Qed.

Lemma cache_get_del s s' l : cache_get s' (cache_del s l) = if subject_eqb s' s then None else cache_get s' l.
Proof.
  unfold cache_del. induction l as [|[s2 b2] l IH]; cbn; [destruct (subject_eqb s' s); reflexivity|].
  destruct (subject_eqbP s s2) as [<-|Hn]; cbn; rewrite IH; [destruct (subject_eqb s' s); reflexivity|].
  destruct (subject_eqbP s' s2) as [->|_]; [|reflexivity]. apply not_eq_sym, subject_eqb_neq in Hn. rewrite Hn. reflexivity.
Qed.

Lemma cache_get_del_some s s' l sn : cache_get s' (cache_del s l) = Some sn -> cache_get s' l = Some sn /\ s' <> s.
Proof. rewrite cache_get_del. destruct (subject_eqbP s' s); [discriminate|auto]. Qed.

Lemma cache_get_snoc s s' sn l : cache_get s l = None ->
  cache_get s' (l ++ [(s, sn)]) = if subject_eqb s' s then Some sn else cache_get s' l.
Proof.
  intros Hn. induction l as [|[s2 b2] l IH]; cbn; [reflexivity|]. cbn in Hn.
  destruct (subject_eqbP s s2) as [->|Hne]; [discriminate|]. rewrite (IH Hn).
  destruct (subject_eqbP s' s2) as [->|_]; [|reflexivity]. apply not_eq_sym, subject_eqb_neq in Hne. rewrite Hne. reflexivity.
Qed.

(* the two things the proofs ask of a topic buffer: its items and its reference count *)
Definition items_of (s : subject) (bufs : list (subject * tbuf)) : option (list batch) := option_map b_items (buf_get s bufs).
Definition refs_of (s : subject) (bufs : list (subject * tbuf)) : option nat := option_map b_refs (buf_get s bufs).

Lemma items_of_set s s' r its l : items_of s' (buf_set s (TBuf r its) l) = if subject_eqb s' s then Some its else items_of s' l.
Proof. unfold items_of. rewrite buf_get_set. destruct (subject_eqb s' s); reflexivity. Qed.

Lemma refs_of_set s s' r its l : refs_of s' (buf_set s (TBuf r its) l) = if subject_eqb s' s then Some r else refs_of s' l.
Proof. unfold refs_of. rewrite buf_get_set. destruct (subject_eqb s' s); reflexivity. Qed.

Lemma items_of_del s s' l : items_of s' (buf_del s l) = if subject_eqb s' s then None else items_of s' l.
Proof. unfold items_of. rewrite buf_get_del. destruct (subject_eqb s' s); reflexivity. Qed.

Lemma refs_of_del s s' l : refs_of s' (buf_del s l) = if subject_eqb s' s then None else refs_of s' l.
Proof. unfold refs_of. rewrite buf_get_del. destruct (subject_eqb s' s); reflexivity. Qed.

Lemma buf_get_publish s b l :
  buf_get s (publish_batch b l) =
  option_map (fun tb => match route s b with [] => tb | g => TBuf (b_refs tb) (b_items tb ++ [g]) end) (buf_get s l).
Proof.
  induction l as [|[s' tb] l IH]; cbn; [reflexivity|].
  destruct (subject_eqbP s s') as [<-|Hn].
  - destruct (route s b); cbn; rewrite subject_eqb_refl; reflexivity.
  - apply subject_eqb_neq in Hn. destruct (route s' b); cbn; rewrite Hn; exact IH.
Qed.

Lemma items_of_publish s b l : items_of s (publish_batch b l) = option_map (fun its => its ++ pub_items s b) (items_of s l).
Proof.
  unfold items_of, pub_items. rewrite buf_get_publish. destruct (buf_get s l) as [tb|]; [|reflexivity]. cbn.
  destruct (route s b); [rewrite app_nil_r|]; reflexivity.
Qed.

Lemma refs_of_publish s b l : refs_of s (publish_batch b l) = refs_of s l.
Proof. unfold refs_of. rewrite buf_get_publish. destruct (buf_get s l) as [tb|]; [|reflexivity]. cbn. destruct (route s b); reflexivity. Qed.

Lemma watch_items_of st w : watch_items st w = match items_of (w_subj w) (s_bufs st) with Some its => its | None => [] end.
Proof. unfold watch_items, items_of. destruct (buf_get _ _); reflexivity. Qed.

Lemma open_buf_items st s : b_items (open_buf st s) = match items_of s (s_bufs st) with Some its => its | None => [] end.
Proof. unfold open_buf, items_of. destruct (buf_get _ _); reflexivity. Qed.

Lemma open_buf_refs st s : b_refs (open_buf st s) = match refs_of s (s_bufs st) with Some r => r | None => 0%nat end.
Proof. unfold open_buf, refs_of. destruct (buf_get _ _); reflexivity. Qed.
