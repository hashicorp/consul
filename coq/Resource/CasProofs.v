(* C18: version CAS, stable UIDs, lifetimes.  The inmem.Backend path (versions drawn from the counter)
   and the Raft path (versions = log indexes, RaftProofs.v) keep one discipline, [advs]: every row written
   gets a version above every version in use; the theorems are proved once, over [advs].  (WatchOps.v is
   imported for [step_frame]: the watch operations leave table, counter and event index alone.) *)
From Verif Require Import Base.Prelude Resource.Model Resource.TableProofs Resource.WatchOps.
Local Open Scope N_scope.

Definition lk (k : rid) (st : store) : option resource := lookup k (s_res st).

Definition no_restore (o : op) : bool := match o with ORestore _ => false | _ => true end.
(* operations of the storage.Backend API plus the publisher/timer steps: no restore and no
   Store-level write with a caller-chosen version *)
Definition backend_op (o : op) : bool :=
  match o with ORestore _ | OWriteS _ _ => false | _ => true end.

Lemma backend_no_restore o : backend_op o = true -> no_restore o = true.
Proof. destruct o; cbn; congruence. Qed.

(* versions in the table were handed out by the counter *)
Definition vb (st : store) : Prop := forall k r, lk k st = Some r -> 1 <= r_version r <= s_vsn st.
(* the same with the bound as a parameter: [vb st] is [under (s_vsn st) st], RaftProofs.vbb is [under] *)
Definition under (B : N) (st : store) : Prop := forall k r, lk k st = Some r -> 1 <= r_version r <= B.

Definition accept (st : store) (r : resource) (v : N) : Prop :=
  match lk (r_id r) st with
  | None => v = 0
  | Some ex => r_uid ex = r_uid r /\ r_version ex = v
  end.

Lemma store_write_cases st r v :
  (accept st r v /\ store_write st r v =
     (set_res st (upsert r (s_res st)) (s_idx st + 1) (s_queue st ++ [commit_batch (s_idx st + 1) (Upsert r) r]), OutOk))
  \/ (~ accept st r v /\ fst (store_write st r v) = st /\
      (snd (store_write st r v) = OutErr ECAS \/ snd (store_write st r v) = OutErr EWrongUid)).
Proof.
  unfold store_write, accept, lk. destruct (lookup (r_id r) (s_res st)) as [ex|].
  - destruct (str_eqbP (r_uid ex) (r_uid r)) as [E1|E1]; cbn; [|right; split; [tauto|auto]].
    destruct (N.eqb_spec (r_version ex) v) as [E2|E2]; cbn; [left; auto|right; split; [tauto|auto]].
  - destruct (N.eqb_spec v 0); cbn; [left|right]; auto.
Qed.

Lemma store_write_wronguid st r v ex :
  lk (r_id r) st = Some ex -> r_uid ex <> r_uid r -> store_write st r v = (st, OutErr EWrongUid).
Proof. unfold store_write, lk. intros -> H. apply str_eqb_neq in H. rewrite H. reflexivity. Qed.

Definition hits (st : store) (k : rid) (uid : str) (v : N) : Prop :=
  exists ex, lk k st = Some ex /\ uid = r_uid ex /\ v = r_version ex.

Lemma store_delete_cases st k uid v :
  (exists ex, lk k st = Some ex /\ uid = r_uid ex /\ v = r_version ex /\ store_delete st k uid v =
     (set_res st (remove k (s_res st)) (s_idx st + 1) (s_queue st ++ [commit_batch (s_idx st + 1) (Delete ex) ex]), OutOk))
  \/ (~ hits st k uid v /\ fst (store_delete st k uid v) = st).
Proof.
  unfold store_delete, hits, lk. destruct (lookup k (s_res st)) as [ex|].
  - destruct (str_eqbP uid (r_uid ex)) as [E1|E1]; cbn.
    + destruct (N.eqb_spec v (r_version ex)) as [E2|E2]; cbn; [left; exists ex; auto|].
      right. split; [|reflexivity]. intros (e & He & _ & Hv). congruence.
    + right. split; [|reflexivity]. intros (e & He & Hu & _). congruence.
  - right. split; [|reflexivity]. intros (e & He & _). congruence.
Qed.

(* the counter is advanced whether or not the store accepts the write *)
Lemma backend_write_cases st r :
  let st1 := set_vsn st (s_vsn st + 1) in
  let x := with_version r (s_vsn st + 1) in
  (accept st x (r_version r) /\ backend_write st r =
     (set_res st1 (upsert x (s_res st)) (s_idx st + 1) (s_queue st ++ [commit_batch (s_idx st + 1) (Upsert x) x]), OutRes x))
  \/ (~ accept st x (r_version r) /\ fst (backend_write st r) = st1 /\
      (snd (backend_write st r) = OutErr ECAS \/ snd (backend_write st r) = OutErr EWrongUid)).
Proof.
  cbn zeta. unfold backend_write.
  destruct (store_write_cases (set_vsn st (s_vsn st + 1)) (with_version r (s_vsn st + 1)) (r_version r))
    as [[Ha ->]|(Hn & Hs & Ho)]; [left; split; [exact Ha|reflexivity]|].
  right. split; [exact Hn|]. destruct (store_write _ _ _) as [st' o]. cbn in Hs, Ho. subst st'.
  destruct Ho as [->| ->]; cbn; auto.
Qed.

Definition table_op (o : op) : bool :=
  match o with OWrite _ | OWriteS _ _ | ODelete _ _ _ | ORestore _ => true | _ => false end.

Lemma step_frame st o : table_op o = false ->
  s_res (fst (step st o)) = s_res st /\ s_vsn (fst (step st o)) = s_vsn st /\ s_idx (fst (step st o)) = s_idx st.
Proof.
  destruct o; try discriminate; intros _; cbn [step fst]; auto.
  - rewrite watch_open_eq. cbn. auto.
  - rewrite watch_next_eq. destruct (nth_error _ _); cbn; auto.
  - rewrite watch_close_eq. destruct (nth_error _ _); cbn; auto.
  - rewrite publish_one_eq. destruct (s_stale st), (s_queue st); cbn; auto.
Qed.

Lemma step_vsn st o : s_vsn (fst (step st o)) = match o with OWrite _ => s_vsn st + 1 | _ => s_vsn st end.
Proof.
  destruct (table_op o) eqn:Ht.
  2:{ destruct (step_frame st o Ht) as (_ & -> & _). destruct o; try discriminate; reflexivity. }
  destruct o; try discriminate; cbn [step].
  - destruct (backend_write_cases st r) as [[_ ->]|(_ & -> & _)]; reflexivity.
  - destruct (store_write_cases st r vsn) as [[_ ->]|(_ & -> & _)]; reflexivity.
  - destruct (store_delete_cases st k uid vsn) as [(ex & _ & _ & _ & ->)|(_ & ->)]; reflexivity.
  - reflexivity.
Qed.

(* the two write operations seen as one: the row stored on success, the version presented *)
Definition write_of (st : store) (o : op) : option (resource * N) :=
  match o with
  | OWrite r => Some (with_version r (s_vsn st + 1), r_version r)
  | OWriteS r v => Some (r, v)
  | _ => None
  end.

Definition succeeded (o : out) : Prop := o = OutOk \/ exists x, o = OutRes x.

Lemma write_cases st o x v : write_of st o = Some (x, v) ->
  (accept st x v /\ succeeded (snd (step st o)) /\ s_res (fst (step st o)) = upsert x (s_res st))
  \/ (~ accept st x v /\ ~ succeeded (snd (step st o)) /\ s_res (fst (step st o)) = s_res st).
Proof.
  assert (Hfail : forall o', o' = OutErr ECAS \/ o' = OutErr EWrongUid -> ~ succeeded o').
  { intros o' Ho [E|[y E]]; destruct Ho; congruence. }
  destruct o; try discriminate; intros H; injection H as <- <-; cbn [step].
  - destruct (backend_write_cases st r) as [[Ha ->]|(Hn & -> & Ho)]; [left|right]; (split; [assumption|]); cbn.
    + split; [right; eauto|reflexivity].
    + split; [apply Hfail, Ho|reflexivity].
  - destruct (store_write_cases st r vsn) as [[Ha ->]|(Hn & -> & Ho)]; [left|right]; (split; [assumption|]); cbn.
    + split; [left; reflexivity|reflexivity].
    + split; [apply Hfail, Ho|reflexivity].
Qed.

Lemma step_lookup st o k : no_restore o = true ->
  lk k (fst (step st o)) = lk k st
  \/ (lk k (fst (step st o)) = None /\ exists uid v, o = ODelete k uid v)
  \/ (exists x v, write_of st o = Some (x, v) /\ k = r_id x /\ accept st x v /\ lk k (fst (step st o)) = Some x).
Proof.
  intros Hnr. destruct (write_of st o) as [[x v]|] eqn:Ew.
  - destruct (write_cases st o x v Ew) as [(Ha & _ & Hr)|(_ & _ & Hr)]; unfold lk; rewrite Hr; [|auto].
    rewrite lookup_upsert. destruct (rid_eqbP k (r_id x)) as [->|_]; [|auto]. right; right. exists x, v. auto.
  - destruct (table_op o) eqn:Ht; [|left; unfold lk; rewrite (proj1 (step_frame st o Ht)); reflexivity].
    destruct o; try discriminate. cbn [step]. destruct (store_delete_cases st k0 uid vsn) as [(ex & _ & _ & _ & ->)|(_ & ->)]; [|auto].
    unfold lk. cbn. rewrite lookup_remove. destruct (rid_eqbP k k0) as [->|_]; [right; left; eauto|auto].
Qed.

Lemma run_app st a b : run st (a ++ b) = run (run st a) b.
Proof. revert st; induction a as [|o a IH]; intros st; cbn; [reflexivity|apply IH]. Qed.

(* a row that disappears was deleted *)
Definition effective_delete (st : store) (o : op) (k : rid) : Prop :=
  (exists uid v, o = ODelete k uid v) /\ lk k st <> None /\ lk k (fst (step st o)) = None.

Lemma present_absent_delete k ops : forall st,
  forallb no_restore ops = true -> lk k st <> None -> lk k (run st ops) = None ->
  exists b1 d b2, ops = b1 ++ d :: b2 /\ effective_delete (run st b1) d k.
Proof.
  induction ops as [|o ops IH]; intros st Hnr Hp Ha; cbn in *; [contradiction|].
  apply andb_true_iff in Hnr as [Ho Hnr].
  destruct (lk k (fst (step st o))) eqn:E.
  - destruct (IH (fst (step st o)) Hnr) as (b1 & d & b2 & -> & Hd); [congruence|assumption|].
    exists (o :: b1), d, b2. split; [reflexivity|exact Hd].
  - exists [], o, ops. split; [reflexivity|]. cbn. split; [|split; assumption].
    destruct (step_lookup st o k Ho) as [H|[[_ H]|(x & v & _ & _ & _ & H)]]; [congruence|exact H|congruence].
Qed.

Lemma accept_version B st x v : under B st -> accept st x v -> v <= B.
Proof.
  unfold accept. intros Hu Ha. destruct (lk (r_id x) st) as [ex|] eqn:E; [|lia].
  destruct Ha as [_ <-]. apply (Hu _ _ E).
Qed.

(* version v of id k is dead: every stored row of k is newer.  Nothing presenting a dead version
   is accepted, unless it is the empty version and the id is absent. *)
Definition dead (k : rid) (v : N) (st : store) : Prop := forall r, lk k st = Some r -> v < r_version r.

Lemma dead_accept k v st x : dead k v st -> r_id x = k -> accept st x v -> v = 0 /\ lk k st = None.
Proof.
  unfold accept. intros Hd <- Ha. destruct (lk (r_id x) st) as [ex|] eqn:E; [|auto].
  destruct Ha as [_ Hv]. specialize (Hd ex E). lia.
Qed.

Lemma dead_delete k v st uid : dead k v st -> fst (step st (ODelete k uid v)) = st.
Proof.
  intros Hd. cbn [step]. destruct (store_delete_cases st k uid v) as [(ex & Hl & _ & Hv & _)|(_ & H)]; [|exact H].
  specialize (Hd ex Hl). lia.
Qed.

(* one step of a schedule that keeps the discipline: no restore; the bound on the versions in use
   moves from B to B'; a row written gets a version in between *)
Definition adv (B : N) (st : store) (o : op) (B' : N) : Prop :=
  no_restore o = true /\ B <= B' /\ forall x v, write_of st o = Some (x, v) -> B < r_version x <= B'.

Inductive advs : N -> store -> list op -> N -> Prop :=
| advs_nil B st : advs B st [] B
| advs_cons B st o B1 ops B2 : adv B st o B1 -> advs B1 (fst (step st o)) ops B2 -> advs B st (o :: ops) B2.

Lemma adv_row B st o B' k : adv B st o B' ->
  lk k (fst (step st o)) = lk k st
  \/ (lk k (fst (step st o)) = None /\ exists uid v, o = ODelete k uid v)
  \/ exists r, lk k (fst (step st o)) = Some r /\ B < r_version r <= B'.
Proof.
  intros (Hnr & _ & Hw). destruct (step_lookup st o k Hnr) as [H|[H|(x & v & Ew & _ & _ & H)]]; [auto|auto|].
  right; right. exists x. split; [exact H|exact (Hw x v Ew)].
Qed.

Lemma adv_under B st o B' : under B st -> adv B st o B' -> under B' (fst (step st o)).
Proof.
  intros Hu Ha k r Hl. destruct (adv_row B st o B' k Ha) as [H|[[H _]|(x & H & Hx)]]; rewrite H in Hl.
  - apply Hu in Hl. destruct Ha as (_ & Hle & _). lia.
  - discriminate.
  - injection Hl as <-. lia.
Qed.

Lemma advs_le B st ops B' : advs B st ops B' -> B <= B'.
Proof. induction 1 as [|B st o B1 ops B2 (_ & Hle & _) _ IH]; lia. Qed.

Lemma advs_under B st ops B' : advs B st ops B' -> under B st -> under B' (run st ops).
Proof. induction 1 as [|B st o B1 ops B2 Ha _ IH]; intros Hu; [exact Hu|]. apply IH. exact (adv_under _ _ _ _ Hu Ha). Qed.

Lemma advs_no_restore B st ops B' : advs B st ops B' -> forallb no_restore ops = true.
Proof. induction 1 as [|B st o B1 ops B2 (Hnr & _) _ IH]; cbn; [reflexivity|]. rewrite Hnr. exact IH. Qed.

Lemma advs_app B st p s B2 : advs B st (p ++ s) B2 -> exists B1, advs B st p B1 /\ advs B1 (run st p) s B2.
Proof.
  revert B st. induction p as [|o p IH]; intros B st H; cbn in *; [exists B; split; [constructor|exact H]|].
  inversion H as [|? ? ? B1' ? ? Ha Hr]; subst. destruct (IH _ _ Hr) as (B1 & H1 & H2).
  exists B1. split; [econstructor; eassumption|exact H2].
Qed.

(* the one induction: a lower bound v on the versions of k's row survives a disciplined run, strict
   (v stays dead) or weak (the row only moves forward) *)
Lemma advs_row (R : N -> N -> Prop) k v B st ops B' :
  (forall x, v < x -> R v x) -> advs B st ops B' -> v <= B ->
  (forall r, lk k st = Some r -> R v (r_version r)) -> forall r, lk k (run st ops) = Some r -> R v (r_version r).
Proof.
  intros HR H. induction H as [|B st o B1 ops B2 Ha _ IH]; intros Hv Hr; [exact Hr|]. cbn [run].
  apply IH; [destruct Ha as (_ & Hle & _); lia|]. intros r Hl.
  destruct (adv_row _ _ _ _ k Ha) as [H|[[H _]|(x & H & Hx)]]; rewrite H in Hl; [auto|discriminate|].
  injection Hl as <-. apply HR. lia.
Qed.

Lemma advs_dead k v B st ops B' : advs B st ops B' -> v <= B -> dead k v st -> dead k v (run st ops).
Proof. exact (advs_row N.lt k v B st ops B' (fun _ h => h)). Qed.

Lemma backend_adv st o : backend_op o = true -> adv (s_vsn st) st o (s_vsn (fst (step st o))).
Proof.
  intros Hb. rewrite step_vsn. split; [apply backend_no_restore, Hb|].
  destruct o; try discriminate; (split; [lia|]); intros x v E; try discriminate. injection E as <- _. cbn. lia.
Qed.

Lemma backend_advs ops : forall st, forallb backend_op ops = true -> advs (s_vsn st) st ops (s_vsn (run st ops)).
Proof.
  induction ops as [|o ops IH]; intros st Hb; cbn in *; [constructor|]. apply andb_true_iff in Hb as [Ho Hb].
  econstructor; [apply backend_adv, Ho|apply IH, Hb].
Qed.

Lemma run_vb ops st : forallb backend_op ops = true -> vb st -> vb (run st ops).
Proof. intros Hb. exact (advs_under _ _ _ _ (backend_advs ops st Hb)). Qed.

Lemma backend_run_then a o b st : vb st -> forallb backend_op (a ++ o :: b) = true ->
  let s1 := run st a in let s1' := fst (step s1 o) in
  under (s_vsn s1) s1 /\ adv (s_vsn s1) s1 o (s_vsn s1') /\ advs (s_vsn s1') s1' b (s_vsn (run s1' b)).
Proof.
  intros Hvb Hb. rewrite forallb_app in Hb. apply andb_true_iff in Hb as [Hba Hb]. cbn in Hb. apply andb_true_iff in Hb as [Ho Hb].
  split; [exact (run_vb _ _ Hba Hvb)|]. split; [exact (backend_adv _ _ Ho)|exact (backend_advs _ _ Hb)].
Qed.


Lemma write_kills B st o B1 x v :
  under B st -> adv B st o B1 -> write_of st o = Some (x, v) -> succeeded (snd (step st o)) ->
  v <= B1 /\ lk (r_id x) (fst (step st o)) = Some x /\ dead (r_id x) v (fst (step st o)).
Proof.
  intros Hu (Hnr & Hle & Hw) Ew Hs. destruct (write_cases st o x v Ew) as [(Ha & _ & Hr)|(_ & Hn & _)]; [|contradiction].
  pose proof (accept_version B st x v Hu Ha). specialize (Hw x v Ew).
  assert (Hl : lk (r_id x) (fst (step st o)) = Some x) by (unfold lk; rewrite Hr, lookup_upsert, rid_eqb_refl; reflexivity).
  split; [lia|]. split; [exact Hl|]. intros r Hr'. rewrite Hl in Hr'. injection Hr' as <-. lia.
Qed.

(* of two accepted writes presenting the same version for one id, the version is the empty one and
   the id was deleted in between *)
Theorem accepted_twice B st o1 B1 x1 v b B2 o2 x2 :
  under B st -> adv B st o1 B1 -> write_of st o1 = Some (x1, v) -> succeeded (snd (step st o1)) ->
  let st' := fst (step st o1) in
  advs B1 st' b B2 -> write_of (run st' b) o2 = Some (x2, v) -> r_id x2 = r_id x1 ->
  succeeded (snd (step (run st' b) o2)) ->
  v = 0 /\ exists b1 d b2, b = b1 ++ d :: b2 /\ effective_delete (run st' b1) d (r_id x1).
Proof.
  intros Hu Ha E1 S1 st' Hb E2 Hid S2.
  destruct (write_kills _ _ _ _ _ _ Hu Ha E1 S1) as (Hv & Hl & Hd). fold st' in Hl, Hd.
  destruct (write_cases _ _ _ _ E2) as [(Hacc & _)|(_ & Hn & _)]; [|contradiction].
  destruct (dead_accept _ _ _ _ (advs_dead _ _ _ _ _ _ Hb Hv Hd) Hid Hacc) as [Hz Hnone].
  split; [exact Hz|]. apply present_absent_delete; [exact (advs_no_restore _ _ _ _ Hb)|congruence|exact Hnone].
Qed.

(* nor can a later delete use that version *)
Theorem written_then_delete B st o B1 x v b B2 uid :
  under B st -> adv B st o B1 -> write_of st o = Some (x, v) -> succeeded (snd (step st o)) ->
  advs B1 (fst (step st o)) b B2 ->
  fst (step (run (fst (step st o)) b) (ODelete (r_id x) uid v)) = run (fst (step st o)) b.
Proof.
  intros Hu Ha E S Hb. destruct (write_kills _ _ _ _ _ _ Hu Ha E S) as (Hv & _ & Hd).
  apply dead_delete. exact (advs_dead _ _ _ _ _ _ Hb Hv Hd).
Qed.

(* once an id that carried version v has been absent, v is dead for good *)
Theorem lifetime_over k B st r_old b c B' :
  under B st -> lk k st = Some r_old -> advs B st (b ++ c) B' -> lk k (run st b) = None ->
  1 <= r_version r_old /\ dead k (r_version r_old) (run (run st b) c).
Proof.
  intros Hu Hl H Hn. pose proof (Hu _ _ Hl) as Hv. split; [lia|].
  apply advs_app in H as (B1 & Hb & Hc). pose proof (advs_le _ _ _ _ Hb).
  apply (advs_dead _ _ _ _ _ _ Hc); [lia|]. intros r Hr. congruence.
Qed.

Lemma row_monotone k r B st c B' :
  under B st -> lk k st = Some r -> advs B st c B' ->
  match lk k (run st c) with
  | Some r' => r_version r <= r_version r'
  | None => exists c1 d c2, c = c1 ++ d :: c2 /\ effective_delete (run st c1) d k
  end.
Proof.
  intros Hu Hl Hc. destruct (lk k (run st c)) as [r'|] eqn:E.
  - apply (advs_row N.le k (r_version r) _ _ _ _ (fun x => N.lt_le_incl _ x) Hc); [apply (Hu k r Hl)| |exact E].
    intros x Hx. rewrite Hl in Hx. injection Hx as <-. lia.
  - apply present_absent_delete; [exact (advs_no_restore _ _ _ _ Hc)|congruence|exact E].
Qed.

Lemma step_uid st o k r r' : no_restore o = true ->
  lk k st = Some r -> lk k (fst (step st o)) = Some r' -> r_uid r' = r_uid r.
Proof.
  intros Hnr Hl Hl'. destruct (step_lookup st o k Hnr) as [H|[[H _]|(x & v & _ & -> & Hacc & H)]]; rewrite H in Hl'.
  - congruence.
  - discriminate.
  - injection Hl' as <-. unfold accept in Hacc. rewrite Hl in Hacc. symmetry; tauto.
Qed.
