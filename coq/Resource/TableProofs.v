(* Keys and the resources table of Resource/Model.v: the boolean equalities decide equality, the
   table is a finite map from keys to rows. *)
From Verif Require Import Base.Prelude Resource.Model.
From Verif Require Import Base.Lists.

(* a boolean test that decides equality, as a [reflect] view (negative form: Base.Lists.eqb_neq) *)
Lemma eqb_reflect {A} (f : A -> A -> bool) (H : forall a b, f a b = true <-> a = b) a b : reflect (a = b) (f a b).
Proof. apply iff_reflect. symmetry. apply H. Qed.

Lemma str_cmp_eq a b : str_cmp a b = Eq <-> a = b.
Proof.
  revert b; induction a as [|x a IH]; intros [|y b]; cbn [str_cmp]; split; try congruence; try reflexivity.
  - destruct (N.compare x y) eqn:E; try congruence. intros H. apply N.compare_eq_iff in E. apply IH in H. congruence.
  - intros H; injection H as -> ->. rewrite N.compare_refl. apply IH; reflexivity.
Qed.

Lemma cmp_eqb_eq (c : comparison) : match c with Eq => true | _ => false end = true <-> c = Eq.
Proof. destruct c; split; congruence. Qed.

Lemma str_eqb_eq a b : str_eqb a b = true <-> a = b.
Proof. unfold str_eqb. rewrite cmp_eqb_eq. apply str_cmp_eq. Qed.

Definition str_eqbP := eqb_reflect str_eqb str_eqb_eq.
Definition str_eqb_neq := eqb_neq str_eqb str_eqb_eq.

Lemma str_eqb_refl a : str_eqb a a = true.
Proof. apply str_eqb_eq; reflexivity. Qed.

Lemma str_eqb_sym a b : str_eqb a b = str_eqb b a.
Proof. apply (eqb_sym _ str_eqb_eq). Qed.

Lemma then_cmp_eq c d : then_cmp c d = Eq <-> c = Eq /\ d = Eq.
Proof. destruct c; cbn; split; try tauto; try (intros [? ?]; congruence); intros; try congruence. Qed.

Lemma rid_cmp_eq a b : rid_cmp a b = Eq <-> a = b.
Proof.
  unfold rid_cmp. rewrite !then_cmp_eq, !str_cmp_eq.
  destruct a as [[g k] [p n] nm], b as [[g' k'] [p' n'] nm']; cbn. split.
  - intros (-> & -> & -> & -> & ->); reflexivity.
  - intros H; injection H as -> -> -> -> ->; auto.
Qed.

Lemma rid_eqb_eq a b : rid_eqb a b = true <-> a = b.
Proof. unfold rid_eqb. rewrite cmp_eqb_eq. apply rid_cmp_eq. Qed.

Definition rid_eqbP := eqb_reflect rid_eqb rid_eqb_eq.
Definition rid_eqb_neq := eqb_neq rid_eqb rid_eqb_eq.

Lemma rid_eqb_refl a : rid_eqb a a = true.
Proof. apply rid_eqb_eq; reflexivity. Qed.

Lemma rid_eqb_sym a b : rid_eqb a b = rid_eqb b a.
Proof. apply (eqb_sym _ rid_eqb_eq). Qed.

Lemma rtype_eqb_eq a b : rtype_eqb a b = true <-> a = b.
Proof. unfold rtype_eqb. rewrite andb_true_iff, !str_eqb_eq. destruct a, b; cbn; split.
  - intros [-> ->]; reflexivity.
  - intros H; injection H as -> ->; auto.
Qed.

Lemma subject_eqb_eq a b : subject_eqb a b = true <-> a = b.
Proof.
  destruct a as [t|t [p n]], b as [u|u [p' n']]; cbn; split; try congruence.
  - intros H; apply rtype_eqb_eq in H; congruence.
  - intros H; injection H as ->; apply rtype_eqb_eq; reflexivity.
  - rewrite !andb_true_iff, rtype_eqb_eq, !str_eqb_eq. intros [[-> ->] ->]; reflexivity.
  - intros H; injection H as -> -> ->. rewrite !andb_true_iff, rtype_eqb_eq, !str_eqb_eq; auto.
Qed.

Definition subject_eqbP := eqb_reflect subject_eqb subject_eqb_eq.
Definition subject_eqb_neq := eqb_neq subject_eqb subject_eqb_eq.

Lemma subject_eqb_refl a : subject_eqb a a = true.
Proof. apply subject_eqb_eq; reflexivity. Qed.

Lemma lookup_remove k k' t : lookup k (remove k' t) = if rid_eqb k k' then None else lookup k t.
Proof.
  unfold remove. induction t as [|r t IH]; cbn; [destruct (rid_eqb k k'); reflexivity|].
  destruct (rid_eqbP k' (r_id r)) as [<-|Hn]; cbn; rewrite IH; [destruct (rid_eqb k k'); reflexivity|].
  destruct (rid_eqbP k k') as [->|_]; [|reflexivity]. apply rid_eqb_neq in Hn. rewrite Hn. reflexivity.
Qed.

Lemma lookup_insert k r t : lookup k (insert r t) = if rid_eqb k (r_id r) then Some r else lookup k t.
Proof.
  induction t as [|x t IH]; cbn; [reflexivity|].
  destruct (rid_cmp (r_id r) (r_id x)) eqn:E; cbn; try reflexivity. rewrite IH.
  destruct (rid_eqbP k (r_id x)) as [->|_]; [|reflexivity].
  destruct (rid_eqbP (r_id x) (r_id r)) as [H|_]; [|reflexivity].
  rewrite H, (proj2 (rid_cmp_eq _ _) eq_refl) in E. discriminate.
Qed.

Lemma lookup_upsert k r t : lookup k (upsert r t) = if rid_eqb k (r_id r) then Some r else lookup k t.
Proof. unfold upsert. rewrite lookup_insert, lookup_remove. destruct (rid_eqb k (r_id r)); reflexivity. Qed.

Lemma lookup_some_id k t r : lookup k t = Some r -> r_id r = k.
Proof. induction t as [|x t IH]; cbn; [congruence|].
  destruct (rid_eqbP k (r_id x)) as [->|_]; [|assumption]. intros H; injection H as <-. reflexivity.
Qed.

Lemma lookup_in k t r : lookup k t = Some r -> In r t.
Proof. induction t as [|x t IH]; cbn; [congruence|].
  destruct (rid_eqb k (r_id x)); [intros H; injection H as <-; left; reflexivity | intros H; right; auto].
Qed.

Lemma in_insert x r t : In x (insert r t) <-> x = r \/ In x t.
Proof. induction t as [|y t IH]; cbn; [intuition congruence|].
  destruct (rid_cmp (r_id r) (r_id y)); cbn; try rewrite IH; intuition congruence.
Qed.

Lemma in_remove x k t : In x (remove k t) <-> In x t /\ r_id x <> k.
Proof. unfold remove. rewrite filter_In, negb_true_iff, rid_eqb_neq. intuition congruence. Qed.

Lemma in_upsert x r t : In x (upsert r t) <-> x = r \/ (In x t /\ r_id x <> r_id r).
Proof. unfold upsert. rewrite in_insert, in_remove. tauto. Qed.

Definition keys (t : table) : list rid := map r_id t.

Lemma in_keys k t : In k (keys t) <-> exists r, In r t /\ r_id r = k.
Proof. unfold keys. rewrite in_map_iff. firstorder. Qed.

Lemma keys_insert_nodup r t : NoDup (keys t) -> ~ In (r_id r) (keys t) -> NoDup (keys (insert r t)).
Proof. induction t as [|y t IH]; cbn; intros Hnd Hni.
  - constructor; [intros []|constructor].
  - destruct (rid_cmp (r_id r) (r_id y)); cbn; try (constructor; assumption).
    inversion Hnd as [|? ? Hy Ht]; subst. constructor; [|apply IH; [assumption|intros Hin; apply Hni; right; exact Hin]].
    rewrite in_keys. intros (x & Hx & Hk). apply in_insert in Hx as [->|Hx]; [apply Hni; left; symmetry; exact Hk|].
    apply Hy, in_keys. eauto.
Qed.

Lemma keys_remove_nodup k t : NoDup (keys t) -> NoDup (keys (remove k t)).
Proof. induction t as [|y t IH]; cbn; intros Hnd; [constructor|].
  inversion Hnd as [|? ? Hy Ht]; subst. destruct (rid_eqb k (r_id y)); cbn; [auto|].
  constructor; [|auto]. rewrite in_keys. intros (x & Hx & Hk). apply in_remove in Hx as [Hx _].
  apply Hy, in_keys. eauto.
Qed.

Lemma keys_upsert_nodup r t : NoDup (keys t) -> NoDup (keys (upsert r t)).
Proof. intros H. apply keys_insert_nodup; [apply keys_remove_nodup; assumption|].
  rewrite in_keys. intros (x & Hx & Hk). apply in_remove in Hx as [_ Hn]. congruence.
Qed.

Lemma restore_table_nodup l : NoDup (keys (restore_table l)).
Proof. unfold restore_table. assert (H: NoDup (keys [])) by constructor. revert H. generalize (@nil resource).
  induction l as [|r l IH]; cbn; intros t Ht; [assumption|]. apply IH. apply keys_upsert_nodup; assumption.
Qed.

Lemma in_lookup t r : NoDup (keys t) -> In r t -> lookup (r_id r) t = Some r.
Proof. induction t as [|y t IH]; cbn; intros Hnd Hin; [contradiction|].
  inversion Hnd as [|? ? Hy Ht]; subst. destruct Hin as [->|Hin]; [rewrite rid_eqb_refl; reflexivity|].
  destruct (rid_eqbP (r_id r) (r_id y)) as [E|_]; [|auto].
  exfalso. apply Hy. rewrite <- E. apply in_map; assumption.
Qed.

(* listing = exactly the stored rows that pass the scan and the filter *)
Lemma in_list_txn q t r : NoDup (keys t) ->
  (In r (list_txn q t) <-> lookup (r_id r) t = Some r /\ scan q r = true /\ matches q r = true).
Proof. intros Hnd. unfold list_txn. rewrite filter_In, andb_true_iff. split.
  - intros [Hin H]. split; [apply in_lookup; assumption | assumption].
  - intros [Hl H]. split; [eapply lookup_in; eassumption | assumption].
Qed.
