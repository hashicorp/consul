(* C18, the watch theorems: watches are complete and ordered on restore-free runs from a clean
   state; a read after an event is not older than the event. *)
From Verif Require Import Base.Prelude Resource.Model Resource.TableProofs Resource.WatchOps Resource.CasProofs
     Resource.WatchDefs Resource.WatchLemmas Resource.WatchInv.
From Verif Require Import Base.Lists.
Local Open Scope N_scope.

Definition step_D (D : nat -> list wev) (st : store) (o : op) : nat -> list wev :=
  fun m => D m ++ next_of m st o.

Lemma step_D_quiet D st o : (forall m, next_of m st o = []) -> forall m, step_D D st o m = D m.
Proof. intros Hq m. unfold step_D. rewrite Hq. apply app_nil_r. Qed.

Lemma INV_step T0 i0 n0 st L D o :
  INV T0 i0 n0 st L D -> no_restore o = true ->
  INV T0 i0 n0 (fst (step st o)) (L ++ commit_of st o) (step_D D st o).
Proof.
  intros HI Hnr. destruct (table_op o) eqn:Ht.
  - (* a write or a delete: one commit or none, nothing delivered *)
    apply (INV_ext _ _ _ _ (L ++ commit_of st o) _ D); [reflexivity| |].
    { apply step_D_quiet. intros m. destruct o; try discriminate; reflexivity. }
    rewrite (step_commit st o Ht Hnr). unfold commit_of. destruct (commit_ev st o) as [e|] eqn:Ec.
    + replace (s_idx st) with (s_idx (bump st o)) by (destruct o; reflexivity).
      apply INV_commit; [apply INV_bump, HI|apply (commit_ev_op _ _ _ Ec)].
    + rewrite app_nil_r. apply INV_bump, HI.
  - (* the other steps commit nothing, and only Next delivers *)
    assert (Hquiet : (forall m, next_of m st o = []) -> commit_of st o = [] -> forall st1, INV T0 i0 n0 st1 L D ->
                     INV T0 i0 n0 st1 (L ++ commit_of st o) (step_D D st o)).
    { intros Hq Hc st1. apply INV_ext; [rewrite Hc; apply app_nil_r|apply step_D_quiet, Hq]. }
    destruct o; try discriminate; cbn [step fst]; try (apply Hquiet; [reflexivity|reflexivity|]); try exact HI.
    + apply INV_open, HI.
    + (* ONext *) apply (INV_ext _ _ _ _ L _ (next_D D n (snd (watch_next st n)))); [apply app_nil_r| |apply INV_next, HI].
      intros m. unfold step_D, next_of, next_D. cbn [step]. rewrite (Nat.eqb_sym n m).
      destruct (snd (watch_next st n)), (Nat.eqb m n); reflexivity.
    + apply INV_close, HI.
    + (* OPublish *) rewrite publish_one_eq. destruct (s_stale st) as [|k] eqn:Ek.
      * destruct (s_queue st) as [|b q'] eqn:Eq; [exact HI|]. rewrite <- Ek. apply INV_publish; assumption.
      * (* a stale batch is dropped: only [s_stale] changes *)
        destruct HI as [Hres Hidx Hi0 [Hb1 Hb2 Hb3 Hb4] Hc Hw Hr Hn Hd]. constructor; try assumption. split; assumption.
    + apply INV_evict, HI.
Qed.

Lemma INV_run T0 i0 n0 ops : forall st L D,
  INV T0 i0 n0 st L D -> forallb no_restore ops = true ->
  INV T0 i0 n0 (run st ops) (L ++ glog st ops) (fun m => D m ++ deliv m st ops).
Proof.
  induction ops as [|o ops IH]; intros st L D HI Hnr; cbn [run glog deliv].
  - revert HI. apply INV_ext; [apply app_nil_r|intros m; apply app_nil_r].
  - cbn in Hnr. apply andb_true_iff in Hnr as [Ho Hnr].
    generalize (IH _ _ _ (INV_step _ _ _ _ _ _ _ HI Ho) Hnr). apply INV_ext; [apply app_assoc|].
    intros m. unfold step_D. apply app_assoc.
Qed.

Lemma INV_clean st0 : clean st0 ->
  INV (s_res st0) (s_idx st0) (List.length (s_watches st0)) st0 [] (fun _ => []).
Proof.
  intros (Hq & Hb & Hc & Hw & Hi). rewrite Forall_forall in Hw.
  assert (Hw' : forall n w, nth_error (s_watches st0) n = Some w -> w_freed w = true /\ w_state w <> WOpen).
  { intros n w Hn. apply Hw. eapply nth_error_In. eassumption. }
  constructor; try reflexivity; try (cbn; lia).
  - split; rewrite ?Hq, ?Hb, ?Hc; [constructor|intros; discriminate|intros; discriminate|].
    intros n w Hn Ho. apply Hw' in Hn. tauto.
  - intros s sn. rewrite Hc. discriminate.
  - intros n w Hn Hge. assert (n < List.length (s_watches st0))%nat by (apply nth_error_Some; congruence). lia.
  - intros s. rewrite Hb. cbn. unfold count. destruct (filter (unfreed s) (s_watches st0)) as [|x l] eqn:E; [reflexivity|].
    assert (In x (filter (unfreed s) (s_watches st0))) as Hin by (rewrite E; left; reflexivity).
    apply filter_In in Hin as [Hin Hu]. apply Hw in Hin as [Hf _]. unfold unfreed in Hu. rewrite Hf in Hu. discriminate.
Qed.

Lemma step_table_watches st o : table_op o = true -> no_restore o = true -> s_watches (fst (step st o)) = s_watches st.
Proof. intros Ht Hn. rewrite (step_commit st o Ht Hn). destruct (commit_ev st o); destruct o; reflexivity. Qed.

(* Next on the watch itself, or a step that delivers nothing to it and leaves it alone or closes it *)
Lemma step_watch st o n w : nth_error (s_watches st) n = Some w ->
  (o = ONext n /\ nth_error (s_watches (fst (step st o))) n = Some (fst (next_w (watch_items st w) w)) /\
   snd (step st o) = snd (next_w (watch_items st w) w))
  \/ (next_of n st o = [] /\ exists w', nth_error (s_watches (fst (step st o))) n = Some w' /\
        (w' = w \/ w' = closed_w w \/ w' = force_close w)).
Proof.
  intros Hn. assert (Hsame : s_watches (fst (step st o)) = s_watches st -> next_of n st o = [] ->
    next_of n st o = [] /\ exists w', nth_error (s_watches (fst (step st o))) n = Some w' /\ (w' = w \/ w' = closed_w w \/ w' = force_close w)).
  { intros -> Hq. eauto. }
  destruct o as [r|r v|k uid v|k gv uid|q0|k uid|q0|m|m| |l| |q0];
    try (right; apply Hsame; [first [apply step_table_watches; reflexivity|reflexivity]|reflexivity]).
  - (* OWatch *) right. split; [reflexivity|]. exists w. cbn [step]. rewrite watch_open_eq. cbn. eauto using nth_error_snoc_old.
  - (* ONext *) cbn [step]. rewrite watch_next_eq. destruct (Nat.eqb_spec m n) as [->|Hne].
    + left. rewrite Hn, set_watch_eq. cbn. rewrite (nth_error_set_nth n n _ w _ Hn), Nat.eqb_refl. auto.
    + right. unfold next_of. cbn [step]. rewrite watch_next_eq. apply Nat.eqb_neq in Hne. rewrite Hne.
      split; [destruct (snd _); reflexivity|]. exists w. split; [|auto].
      destruct (nth_error (s_watches st) m) as [w1|] eqn:Hm; [|exact Hn]. rewrite set_watch_eq. cbn.
      rewrite (nth_error_set_nth m n _ w1 _ Hm), Nat.eqb_sym, Hne. exact Hn.
  - (* OClose *) right. split; [reflexivity|]. cbn [step]. rewrite watch_close_eq. destruct (nth_error (s_watches st) m) as [w1|] eqn:Hm; [|eauto].
    cbn. rewrite (nth_error_set_nth m n _ w1 _ Hm). destruct (Nat.eqb_spec n m) as [->|_]; [|eauto].
    rewrite Hn in Hm. injection Hm as <-. eauto.
  - (* OPublish *) right. apply Hsame; [|reflexivity]. cbn [step]. rewrite publish_one_eq. destruct (s_stale st), (s_queue st); reflexivity.
  - (* ORestore *) right. split; [reflexivity|]. exists (force_close w). split; [|auto]. cbn. rewrite nth_error_map, Hn. reflexivity.
Qed.

(* a watch keeps its query, subject and snapshot *)
Definition same_static (w w' : watch) : Prop :=
  w_query w' = w_query w /\ w_snap w' = w_snap w /\ w_subj w' = w_subj w.

Lemma watch_static_run ops : forall st n w, nth_error (s_watches st) n = Some w ->
  exists w', nth_error (s_watches (run st ops)) n = Some w' /\ same_static w w'.
Proof.
  induction ops as [|o ops IH]; intros st n w Hn; cbn [run]; [exists w; split; [assumption|repeat split]|].
  assert (H1 : exists w1, nth_error (s_watches (fst (step st o))) n = Some w1 /\ same_static w w1).
  { destruct (step_watch st o n w Hn) as [(_ & H & _)|(_ & w1 & H & Hw1)]; eexists; (split; [exact H|]).
    - destruct (next_w_fields (watch_items st w) w) as (p & e & i & ->). repeat split.
    - destruct Hw1 as [->|[->| ->]]; repeat split. }
  destruct H1 as (w1 & H1 & (A1 & A2 & A3)). destruct (IH _ n w1 H1) as (w2 & H2 & (B1 & B2 & B3)).
  exists w2. split; [assumption|]. repeat split; congruence.
Qed.

(* from the invariant's terms to the client's terms.  [watch_subject] (Store.WatchList) subscribes to the
   wildcard subject of the type when partition or namespace of the query is a wildcard, else to the
   tenancy subject; what that subject routes, filtered by [matches q], is what [wmatch q] accepts *)
Lemma sroutes_wmatch q r : sroutes (watch_subject q) r && matches q r = wmatch q r.
Proof.
  unfold watch_subject, wmatch, matches, sroutes.
  destruct (str_eqb (tn_part (q_ten q)) star) eqn:E1; destruct (str_eqb (tn_ns (q_ten q)) star) eqn:E2;
    cbn [orb subject_eqb]; try (rewrite orb_false_r; reflexivity).
  rewrite (str_eqb_sym (tn_part (i_ten (r_id r)))), (str_eqb_sym (tn_ns (i_ten (r_id r)))).
  destruct (rtype_eqb (q_type q) (i_type (r_id r))), (str_eqb (tn_part (q_ten q)) (tn_part (i_ten (r_id r)))),
    (str_eqb (tn_ns (q_ten q)) (tn_ns (i_ten (r_id r)))), (has_prefix (q_prefix q) (i_name (r_id r))); reflexivity.
Qed.

Lemma scan_wmatch q r :
  (scan (subject_query (watch_subject q)) r && matches (subject_query (watch_subject q)) r) && matches q r = wmatch q r.
Proof.
  unfold watch_subject, wmatch.
  destruct (str_eqb (tn_part (q_ten q)) star) eqn:E1; destruct (str_eqb (tn_ns (q_ten q)) star) eqn:E2; cbn [orb subject_query];
    try (unfold scan, matches at 1; cbn [q_type q_ten q_prefix tn_part tn_ns has_prefix]; rewrite (str_eqb_refl star);
         cbn [orb andb]; rewrite !andb_true_r; reflexivity).
  unfold scan, matches. cbn [q_type q_ten q_prefix has_prefix]. rewrite E1, E2. cbn [orb].
  rewrite (str_eqb_sym (tn_part (i_ten (r_id r)))), (str_eqb_sym (tn_ns (i_ten (r_id r)))).
  destruct (rtype_eqb (q_type q) (i_type (r_id r))), (str_eqb (tn_part (q_ten q)) (tn_part (i_ten (r_id r)))),
    (str_eqb (tn_ns (q_ten q)) (tn_ns (i_ten (r_id r)))), (has_prefix (q_prefix q) (i_name (r_id r))); reflexivity.
Qed.

Lemma evs_snapshot q i T :
  evs q (snapshot_batch (watch_subject q) i T) = map Upsert (filter (wmatch q) T) ++ [EndOfSnapshot].
Proof.
  unfold evs, snapshot_batch. rewrite filter_app, map_app. cbn [filter deliverable ev_resource pe_ev map]. f_equal.
  unfold list_txn. set (s := watch_subject q).
  assert (forall l, map pe_ev (filter (deliverable q) (map (fun r => PEv s i (Upsert r)) l)) = map Upsert (filter (matches q) l)) as H.
  { induction l as [|r l IH]; cbn [map filter]; [reflexivity|].
    change (deliverable q (PEv s i (Upsert r))) with (matches q r).
    destruct (matches q r); cbn [map pe_ev]; rewrite IH; reflexivity. }
  rewrite H, filter_filter. f_equal. apply filter_ext. intros r. apply scan_wmatch.
Qed.

Lemma contrib_ev_match q c :
  contrib (watch_subject q) q c = if ev_match q (snd c) then [snd c] else [].
Proof.
  unfold contrib, lbatch, ev_match. destruct c as [i e]. cbn [fst snd]. destruct (ev_resource e) as [r|] eqn:E; [|reflexivity].
  rewrite route_commit, <- sroutes_wmatch. destruct (sroutes (watch_subject q) r); [|reflexivity].
  unfold evs. cbn [filter]. unfold deliverable. cbn [pe_ev]. rewrite E. destruct (matches q r); reflexivity.
Qed.

Lemma flat_contrib q La : flat_map (contrib (watch_subject q) q) La = filter (ev_match q) (map snd La).
Proof. induction La as [|c La IH]; cbn; [reflexivity|]. rewrite contrib_ev_match, IH. destruct (ev_match q (snd c)); reflexivity. Qed.

Lemma glog_app a : forall st b, glog st (a ++ b) = glog st a ++ glog (run st a) b.
Proof. induction a as [|o a IH]; intros st b; cbn; [reflexivity|]. rewrite IH, app_assoc. reflexivity. Qed.

Lemma deliv_app n a : forall st b, deliv n st (a ++ b) = deliv n st a ++ deliv n (run st a) b.
Proof. induction a as [|o a IH]; intros st b; cbn; [reflexivity|]. rewrite IH, app_assoc. reflexivity. Qed.

(* one epoch (restore-free run from a clean state): delivered ++ held ++ to come = ideal *)
Lemma watch_epoch_core st0 pre q post :
  clean st0 -> forallb no_restore (pre ++ OWatch q :: post) = true ->
  let ops := pre ++ OWatch q :: post in
  let n := List.length (s_watches (run st0 pre)) in
  snd (step (run st0 pre) (OWatch q)) = OutWatch n /\
  exists Lp La,
    glog st0 ops = Lp ++ La /\ (List.length Lp <= List.length (glog st0 pre))%nat /\
    (exists w rest, nth_error (s_watches (run st0 ops)) n = Some w /\ w_query w = q /\
        deliv n st0 ops ++ evs q (w_events w) ++ rest = ideal q (replay (s_res st0) Lp) La) /\
    (s_queue (run st0 ops) = [] -> snd (step (run st0 ops) (ONext n)) = OutNoEvent ->
     deliv n st0 ops = ideal q (replay (s_res st0) Lp) La).
Proof.
  intros Hclean Hnr ops n.
  set (T0 := s_res st0). set (i0 := s_idx st0). set (n0 := List.length (s_watches st0)).
  pose proof (INV_clean st0 Hclean) as H0. fold T0 i0 n0 in H0.
  assert (Hnr0 : forallb no_restore pre = true) by (rewrite forallb_app in Hnr; apply andb_true_iff in Hnr; tauto).
  (* before the open: the new watch is not one of the clean state's *)
  pose proof (INV_run T0 i0 n0 pre _ _ _ H0 Hnr0) as Hpre. cbn [app] in Hpre.
  pose proof (inv_len _ _ _ _ _ _ Hpre) as Hge. fold n in Hge.
  (* right after the open: the watch exists and its snapshot is not newer than the event index *)
  set (s_pre := run st0 pre) in *. set (s_open := fst (step s_pre (OWatch q))).
  assert (Hopen : INV T0 i0 n0 s_open (glog st0 pre) (fun m => deliv m st0 pre)).
  { generalize (INV_step _ _ _ _ _ _ (OWatch q) Hpre eq_refl).
    apply INV_ext; [symmetry; apply app_nil_r|intros m; symmetry; apply app_nil_r]. }
  assert (Hnew : nth_error (s_watches s_open) n = Some (open_w s_pre q) /\ snd (step s_pre (OWatch q)) = OutWatch n).
  { unfold s_open, n. cbn [step]. rewrite watch_open_eq. cbn. split; [apply nth_error_snoc_new|reflexivity]. }
  destruct Hnew as (Hn1 & Hout). split; [exact Hout|].
  destruct (bd_open _ _ (inv_bounded _ _ _ _ _ _ Hopen) n _ Hn1 eq_refl) as (_ & _ & Hsb).
  pose proof (inv_idx _ _ _ _ _ _ Hopen) as Hidx1.
  (* at the end *)
  pose proof (INV_run T0 i0 n0 _ _ _ _ H0 Hnr) as Hend. cbn [app] in Hend. fold ops in Hend.
  assert (Hrun : run st0 ops = run s_open post) by (unfold ops; rewrite run_app; reflexivity).
  destruct (watch_static_run post s_open n _ Hn1) as (w & Hn2 & Hq2 & Hs2 & Hsu2). rewrite <- Hrun in Hn2.
  cbn [open_w w_query w_snap w_subj] in Hq2, Hs2, Hsu2.
  destruct (inv_watch _ _ _ _ _ _ Hend n w Hn2 Hge) as (Hsubj & La & rest & (Lp & HL & Hsi & Hsb2) & Heq & Hop).
  rewrite Hq2 in *. rewrite Hsubj in *.
  exists Lp, La. split; [exact HL|]. split.
  { (* the snapshot point is not after the open *)
    assert (sn_idx (w_snap w) <= s_idx s_open); [|rewrite Hsi, Hidx1 in H; lia].
    destruct (snapshot_batch_head (watch_subject q) (sn_idx (w_snap w)) (replay T0 Lp)) as (e0 & b & Hb' & <-).
    apply Hsb. cbn [open_w w_snap]. rewrite <- Hs2, Hsb2, Hb'. left; reflexivity. }
  assert (Hideal : evs q (sn_batch (w_snap w)) ++ flat_map (contrib (watch_subject q) q) La = ideal q (replay T0 Lp) La).
  { rewrite Hsb2, evs_snapshot, flat_contrib. unfold ideal. rewrite <- app_assoc. reflexivity. }
  rewrite Hideal in Heq. cbn [app] in Heq. split; [exists w, rest; auto|].
  (* completeness: Next finds nothing in Watch.events, nothing in the buffer, and nothing is queued *)
  intros Hqe Hno. cbn [step] in Hno. rewrite watch_next_eq, Hn2 in Hno. cbn [snd] in Hno. unfold next_w in Hno. rewrite Hq2 in Hno.
  destruct (drain q (w_events w)) as [[e r']|] eqn:Ed; [discriminate|].
  rewrite (drain_none _ _ Ed) in Heq. cbn [app] in Heq.
  destruct (w_state w) eqn:Est; try discriminate.
  destruct (Hop eq_refl) as (its & Hi & _ & _ & Hrest). rewrite Hq2, Hsubj in Hrest. rewrite watch_items_of, Hsubj, Hi in Hno.
  destruct (scan_raws q (w_idx w) (skipn (w_pos w) (vstream (w_snap w) its)) 0) as [[widx' k] res] eqn:Es.
  destruct res as [[e r']|]; [discriminate|].
  destruct (scan_raws_spec _ _ _ _ _ _ _ (qraws (watch_subject q) (s_queue (run st0 ops))) Es) as (c & _ & _ & _ & Hres).
  rewrite Hres, Hqe in Hrest. cbn in Hrest. subst rest. rewrite app_nil_r in Heq. exact Heq.
Qed.

(* a watch that is no longer open only hands out what it had already received *)
Definition closed_prefix (n : nat) (q : query) (X : list wev) (st : store) (D : list wev) : Prop :=
  exists w, nth_error (s_watches st) n = Some w /\ w_query w = q /\ w_state w <> WOpen /\
            exists rest, D ++ evs q (w_events w) ++ rest = X.

Lemma closed_step n q X st D o :
  closed_prefix n q X st D -> closed_prefix n q X (fst (step st o)) (D ++ next_of n st o).
Proof.
  intros (w & Hn & Hq & Hs & rest & Heq).
  destruct (step_watch st o n w Hn) as [(-> & H & Ho)|(-> & w' & H & Hw')].
  - (* Next pops Watch.events, or finds it empty and reports the closure *)
    eexists. split; [exact H|]. unfold next_of. rewrite Ho, Nat.eqb_refl. unfold next_w. rewrite Hq.
    destruct (drain q (w_events w)) as [[e r']|] eqn:Ed; cbn.
    + split; [exact Hq|]. split; [exact Hs|]. exists rest.
      rewrite (drain_some _ _ _ _ Ed) in Heq. rewrite <- Heq, <- !app_assoc. reflexivity.
    + rewrite (drain_none _ _ Ed) in Heq. destruct (w_state w) eqn:Est; [contradiction| |]; cbn;
        (split; [exact Hq|]); (split; [rewrite Est; discriminate|]); exists rest; rewrite app_nil_r; exact Heq.
  - rewrite app_nil_r. exists w'. split; [exact H|].
    destruct Hw' as [->|[->| ->]]; cbn; (split; [exact Hq|]); (split; [first [exact Hs|destruct (w_state w); discriminate]|eauto]).
Qed.

Lemma closed_run n q X ops : forall st D,
  closed_prefix n q X st D -> closed_prefix n q X (run st ops) (D ++ deliv n st ops).
Proof.
  induction ops as [|o ops IH]; intros st D H; cbn [run deliv]; [rewrite app_nil_r; exact H|].
  rewrite app_assoc. apply IH. apply closed_step. exact H.
Qed.

Theorem watch_complete_ordered st0 pre q post :
  clean st0 -> forallb no_restore (pre ++ OWatch q :: post) = true ->
  let ops := pre ++ OWatch q :: post in
  let n := List.length (s_watches (run st0 pre)) in
  snd (step (run st0 pre) (OWatch q)) = OutWatch n /\
  exists Lp La,
    glog st0 ops = Lp ++ La /\ (List.length Lp <= List.length (glog st0 pre))%nat /\
    (exists rest, deliv n st0 ops ++ rest = ideal q (replay (s_res st0) Lp) La) /\
    (s_queue (run st0 ops) = [] -> snd (step (run st0 ops) (ONext n)) = OutNoEvent ->
     deliv n st0 ops = ideal q (replay (s_res st0) Lp) La).
Proof.
  intros Hc Hnr ops n. destruct (watch_epoch_core st0 pre q post Hc Hnr) as (H1 & Lp & La & H2 & H3 & (w & rest & _ & _ & H4) & H5).
  split; [exact H1|]. exists Lp, La. repeat (split; [assumption|]). split; [|exact H5].
  exists (evs q (w_events w) ++ rest). exact H4.
Qed.

Lemma in_replay r L : forall T, In r (replay T L) -> In r T \/ In (Upsert r) (map snd L).
Proof.
  induction L as [|[i e] L IH]; intros T H; cbn [replay] in H; [auto|]. cbn [map snd In].
  destruct e as [x|x|]; apply IH in H as [H|H]; auto.
  - apply in_upsert in H as [->|[H _]]; auto.
  - apply in_remove in H as [H _]. auto.
Qed.

Theorem delivered_committed st0 ops n e :
  clean st0 -> forallb no_restore ops = true -> (List.length (s_watches st0) <= n)%nat ->
  In e (deliv n st0 ops) ->
  match e with
  | Upsert r => In r (s_res st0) \/ In (Upsert r) (map snd (glog st0 ops))
  | Delete r => In (Delete r) (map snd (glog st0 ops))
  | EndOfSnapshot => True
  end.
Proof.
  intros Hclean Hnr Hge Hin.
  pose proof (INV_run _ _ _ _ _ _ _ (INV_clean st0 Hclean) Hnr) as [_ _ _ _ _ Hw _ _ Hd]. cbn [app] in Hw, Hd.
  destruct (nth_error (s_watches (run st0 ops)) n) as [w|] eqn:Hn.
  2:{ apply nth_error_None in Hn. rewrite (Hd n Hn) in Hin. contradiction. }
  destruct (Hw n w Hn Hge) as (Hsubj & La & rest & (Lp & HL & Hsi & Hsb) & Heq & _).
  rewrite Hsubj in Heq, Hsb. rewrite Hsb, evs_snapshot, flat_contrib in Heq.
  assert (Hin2 : In e (map Upsert (filter (wmatch (w_query w)) (replay (s_res st0) Lp)) ++ [EndOfSnapshot]
                        ++ filter (ev_match (w_query w)) (map snd La))).
  { rewrite <- app_assoc in Heq. rewrite <- Heq. apply in_app_iff. left. exact Hin. }
  rewrite HL, map_app. apply in_app_iff in Hin2 as [H|[<-|H]]; [| exact I |].
  - apply in_map_iff in H as (r & <- & Hr). apply filter_In in Hr as [Hr _].
    apply in_replay in Hr as [Hr|Hr]; [auto|]. right. apply in_app_iff. auto.
  - apply filter_In in H as [H Hm]. destruct e as [r|r|]; [right| |exact I]; apply in_app_iff; auto.
Qed.

Lemma glog_event_state e ops : forall st, In e (map snd (glog st ops)) ->
  exists a1 o a2, ops = a1 ++ o :: a2 /\ commit_ev (run st a1) o = Some e.
Proof.
  induction ops as [|o ops IH]; intros st H; cbn [glog] in H; [contradiction|].
  rewrite map_app in H. apply in_app_iff in H as [H|H].
  - unfold commit_of in H. destruct (commit_ev st o) as [e'|] eqn:E; [|contradiction].
    destruct H as [<-|[]]. exists [], o, ops. auto.
  - destruct (IH _ H) as (a1 & o' & a2 & -> & Hc). exists (o :: a1), o', a2. auto.
Qed.

Lemma event_row_point st0 a n e :
  clean st0 -> NoDup (keys (s_res st0)) -> forallb no_restore a = true -> (List.length (s_watches st0) <= n)%nat ->
  snd (step (run st0 a) (ONext n)) = OutEvent e ->
  match e with
  | Upsert r => exists a1 a2, a = a1 ++ a2 /\ lk (r_id r) (run st0 a1) = Some r
  | Delete r => exists a1 o a2, a = a1 ++ o :: a2 /\ lk (r_id r) (run st0 a1) = Some r /\
                                lk (r_id r) (fst (step (run st0 a1) o)) = None
  | EndOfSnapshot => True
  end.
Proof.
  intros Hclean Hnd Hnr0 Hge Hout.
  assert (Hnr : forallb no_restore (a ++ [ONext n]) = true) by (rewrite forallb_app, Hnr0; reflexivity).
  assert (Hin : In e (deliv n st0 (a ++ [ONext n]))).
  { rewrite deliv_app. apply in_app_iff. right. cbn [deliv]. unfold next_of. rewrite Hout, Nat.eqb_refl. left; reflexivity. }
  pose proof (delivered_committed st0 _ n e Hclean Hnr Hge Hin) as Hc.
  assert (Hgl : glog st0 (a ++ [ONext n]) = glog st0 a) by (rewrite glog_app; cbn; apply app_nil_r).
  rewrite Hgl in Hc. destruct e as [r|r|]; [| |exact I].
  - destruct Hc as [Hc|Hc].
    + exists [], a. split; [reflexivity|]. cbn. unfold lk. apply in_lookup; assumption.
    + apply glog_event_state in Hc as (a1 & o & a2 & -> & Hce). exists (a1 ++ [o]), a2. rewrite <- app_assoc. split; [reflexivity|].
      rewrite run_app. cbn [run]. apply commit_upsert_row. exact Hce.
  - apply glog_event_state in Hc as (a1 & o & a2 & Ha & Hce). apply commit_delete_row in Hce as [Hl Hl'].
    exists a1, o, a2. auto.
Qed.

(* the stored row after an event, under the version discipline of either path *)
Theorem row_after_event B st0 a n e b B' :
  clean st0 -> under B st0 -> NoDup (keys (s_res st0)) ->
  advs B st0 (a ++ ONext n :: b) B' -> (List.length (s_watches st0) <= n)%nat ->
  let s1 := run st0 a in
  snd (step s1 (ONext n)) = OutEvent e ->
  let s2 := run (fst (step s1 (ONext n))) b in
  match e with
  | Upsert r =>
      exists a1 a2, a = a1 ++ a2 /\ lk (r_id r) (run st0 a1) = Some r /\
        match lk (r_id r) s2 with
        | Some r' => r_version r <= r_version r'
        | None => exists c1 d c2, a2 ++ ONext n :: b = c1 ++ d :: c2 /\ effective_delete (run (run st0 a1) c1) d (r_id r)
        end
  | Delete r => match lk (r_id r) s2 with Some r' => r_version r < r_version r' | None => True end
  | EndOfSnapshot => True
  end.
Proof.
  intros Hclean Hu Hnd Hadv Hge s1 Hout s2.
  pose proof (advs_no_restore _ _ _ _ Hadv) as Hnr. rewrite forallb_app in Hnr. apply andb_true_iff in Hnr as [Hnra _].
  pose proof (event_row_point st0 a n e Hclean Hnd Hnra Hge Hout) as Hp.
  destruct e as [r|r|]; [| |exact I].
  - (* the row was stored at a1 and only moves forward from there *)
    destruct Hp as (a1 & a2 & Ha & Hl). exists a1, a2. split; [exact Ha|]. split; [exact Hl|].
    rewrite Ha, <- app_assoc in Hadv. apply advs_app in Hadv as (B1 & Ha1 & Ha2).
    replace s2 with (run (run st0 a1) (a2 ++ ONext n :: b)) by (unfold s2, s1; rewrite Ha, !run_app; reflexivity).
    exact (row_monotone _ r B1 _ _ _ (advs_under _ _ _ _ Ha1 Hu) Hl Ha2).
  - (* the delete left the version of the deleted row dead *)
    destruct Hp as (a1 & o & a2 & Ha & Hl & Hl').
    rewrite Ha, <- app_assoc in Hadv. apply advs_app in Hadv as (B1 & Ha1 & Ha2).
    cbn [app] in Ha2. inversion Ha2 as [|? ? ? B2 ? ? Ho Hrest]; subst.
    pose proof (advs_under _ _ _ _ Ha1 Hu _ _ Hl) as Hv.
    assert (Hd : dead (r_id r) (r_version r) (run (fst (step (run st0 a1) o)) (a2 ++ ONext n :: b))).
    { apply (advs_dead _ _ _ _ _ _ Hrest); [destruct Ho as (_ & Hle & _); lia|]. intros x Hx. congruence. }
    replace s2 with (run (fst (step (run st0 a1) o)) (a2 ++ ONext n :: b))
      by (unfold s2, s1; rewrite !run_app; reflexivity).
    destruct (lk (r_id r) (run (fst (step (run st0 a1) o)) (a2 ++ ONext n :: b))) as [r'|] eqn:E; [exact (Hd r' E)|exact I].
Qed.

(* a read without uid in terms of the stored row; [read_sees] is how C18_read_after_event says
   what such a reader is shown *)
Lemma read_row st k gv :
  match lk k st with
  | Some r => snd (step st (ORead k gv [])) = OutRes r \/ snd (step st (ORead k gv [])) = OutGVM r
  | None => snd (step st (ORead k gv [])) = OutErr ENotFound
  end.
Proof.
  cbn [step snd]. unfold store_read, lk. destruct (lookup k (s_res st)) as [r|]; [|reflexivity].
  cbn [str_eqb str_cmp negb andb]. destruct (negb (str_eqb gv (r_gv r))); auto.
Qed.

Definition read_sees (st : store) (k : rid) (gv : str) (r' : resource) : Prop :=
  snd (step st (ORead k gv [])) = OutRes r' \/ snd (step st (ORead k gv [])) = OutGVM r'.
