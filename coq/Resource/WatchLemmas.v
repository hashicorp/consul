(* C18, stream lemmas: what a watch will be given as a function of the raw items ahead
   of it; Watch.Next against that function; a write or delete as one commit or none ([step_commit]). *)
From Verif Require Import Base.Prelude Resource.Model Resource.TableProofs Resource.WatchOps Resource.CasProofs Resource.WatchDefs.
From Verif Require Import Base.Lists.
Local Open Scope N_scope.

(* events a watch keeps of a list of published events *)
Definition evs (q : query) (l : list pev) : list wev := map pe_ev (filter (deliverable q) l).

(* everything Next will return from the raw items [raws], starting with Watch.idx = widx *)
Fixpoint fut_raws (q : query) (widx : N) (raws : list raw) : list wev :=
  match raws with
  | [] => []
  | RFrame :: rs => fut_raws q widx rs
  | RBatch [] :: rs => fut_raws q widx rs
  | RBatch (e0 :: b) :: rs =>
      if N.leb (pe_idx e0) widx then fut_raws q widx rs
      else evs q (e0 :: b) ++ fut_raws q (pe_idx e0) rs
  end.

(* Watch.idx after reading all of [raws] *)
Fixpoint end_idx (widx : N) (raws : list raw) : N :=
  match raws with
  | [] => widx
  | RFrame :: rs => end_idx widx rs
  | RBatch [] :: rs => end_idx widx rs
  | RBatch (e0 :: b) :: rs => if N.leb (pe_idx e0) widx then end_idx widx rs else end_idx (pe_idx e0) rs
  end.

Definition raw_le (m : N) (r : raw) : Prop :=
  match r with RFrame => True | RBatch b => forall e, In e b -> pe_idx e <= m end.

(* reading one raw item with Watch.idx = widx: the index afterwards and the batch handed on.
   [fut_raws], [end_idx] and [scan_raws] all go through the items one by one in this way. *)
Definition read_item (widx : N) (r : raw) : N * batch :=
  match r with
  | RBatch (e0 :: b) => if N.leb (pe_idx e0) widx then (widx, []) else (pe_idx e0, e0 :: b)
  | _ => (widx, [])
  end.

Lemma fut_raws_cons q widx r rs :
  fut_raws q widx (r :: rs) = evs q (snd (read_item widx r)) ++ fut_raws q (fst (read_item widx r)) rs.
Proof. destruct r as [[|e0 b]|]; try reflexivity. cbn [fut_raws read_item]. destruct (N.leb (pe_idx e0) widx); reflexivity. Qed.

Lemma end_idx_cons widx r rs : end_idx widx (r :: rs) = end_idx (fst (read_item widx r)) rs.
Proof. destruct r as [[|e0 b]|]; try reflexivity. cbn [end_idx read_item]. destruct (N.leb (pe_idx e0) widx); reflexivity. Qed.

Lemma scan_raws_cons q widx r rs n :
  scan_raws q widx (r :: rs) n =
  match drain q (snd (read_item widx r)) with
  | Some (e, rest) => (fst (read_item widx r), S n, Some (e, rest))
  | None => scan_raws q (fst (read_item widx r)) rs (S n)
  end.
Proof.
  destruct r as [[|e0 b]|]; try reflexivity. cbn [scan_raws read_item]. destruct (N.leb (pe_idx e0) widx); [reflexivity|].
  cbn [fst snd]. destruct (drain q (e0 :: b)) as [[e rest]|]; reflexivity.
Qed.

Lemma read_item_ge widx r : widx <= fst (read_item widx r).
Proof. destruct r as [[|e0 b]|]; cbn; try lia. destruct (N.leb_spec (pe_idx e0) widx); cbn; lia. Qed.

Lemma read_item_le widx r m : widx <= m -> raw_le m r -> fst (read_item widx r) <= m.
Proof.
  intros Hw Hr. destruct r as [[|e0 b]|]; cbn; try exact Hw.
  destruct (N.leb (pe_idx e0) widx); cbn; [exact Hw|]. apply Hr. left; reflexivity.
Qed.

Lemma read_item_batch widx r m x : raw_le m r -> In x (snd (read_item widx r)) -> pe_idx x <= m.
Proof.
  intros Hr. destruct r as [[|e0 b]|]; cbn; try contradiction.
  destruct (N.leb (pe_idx e0) widx); cbn; [contradiction|apply Hr].
Qed.

Lemma read_item_old widx r : raw_le widx r -> read_item widx r = (widx, []).
Proof.
  destruct r as [[|e0 b]|]; try reflexivity. intros H. cbn.
  assert (pe_idx e0 <= widx) as Hle by (apply H; left; reflexivity). apply N.leb_le in Hle. rewrite Hle. reflexivity.
Qed.

Lemma fut_raws_app q rs : forall widx X,
  fut_raws q widx (rs ++ X) = fut_raws q widx rs ++ fut_raws q (end_idx widx rs) X.
Proof.
  induction rs as [|r rs IH]; intros widx X; [reflexivity|]. cbn [app].
  rewrite !fut_raws_cons, end_idx_cons, IH, app_assoc. reflexivity.
Qed.

Lemma end_idx_app rs : forall widx X, end_idx widx (rs ++ X) = end_idx (end_idx widx rs) X.
Proof. induction rs as [|r rs IH]; intros widx X; [reflexivity|]. cbn [app]. rewrite !end_idx_cons. apply IH. Qed.

Lemma end_idx_le m rs : forall widx, widx <= m -> Forall (raw_le m) rs -> end_idx widx rs <= m.
Proof.
  induction rs as [|r rs IH]; intros widx Hw Hf; [exact Hw|]. inversion Hf as [|? ? Hr Hrs]; subst.
  rewrite end_idx_cons. apply IH; [exact (read_item_le _ _ _ Hw Hr)|exact Hrs].
Qed.

Lemma end_idx_ge rs : forall widx, widx <= end_idx widx rs.
Proof.
  induction rs as [|r rs IH]; intros widx; [cbn; lia|]. rewrite end_idx_cons.
  pose proof (read_item_ge widx r). specialize (IH (fst (read_item widx r))). lia.
Qed.

Lemma fut_raws_all_le q rs : forall widx, Forall (raw_le widx) rs -> fut_raws q widx rs = [].
Proof.
  induction rs as [|r rs IH]; intros widx Hf; [reflexivity|]. inversion Hf as [|? ? Hr Hrs]; subst.
  rewrite fut_raws_cons, (read_item_old _ _ Hr). exact (IH _ Hrs).
Qed.

Lemma drain_some q l e rest : drain q l = Some (e, rest) -> evs q l = pe_ev e :: evs q rest.
Proof.
  unfold evs. revert e rest; induction l as [|x l IH]; intros e rest; cbn; [discriminate|].
  destruct (deliverable q x) eqn:E.
  - intros H; injection H as <- <-. reflexivity.
  - apply IH.
Qed.

Lemma drain_none q l : drain q l = None -> evs q l = [].
Proof.
  unfold evs. induction l as [|x l IH]; cbn; [reflexivity|].
  destruct (deliverable q x); [discriminate|apply IH].
Qed.

Lemma drain_in q l e rest x : drain q l = Some (e, rest) -> In x rest -> In x l.
Proof.
  revert e rest; induction l as [|y l IH]; intros e rest; cbn; [discriminate|].
  destruct (deliverable q y).
  - intros H; injection H as <- <-. auto.
  - intros H Hin. right. eapply IH; eassumption.
Qed.

Lemma scan_raws_spec q rs : forall widx n widx' k res X,
  scan_raws q widx rs n = (widx', k, res) ->
  exists c, k = (n + c)%nat /\ (c <= List.length rs)%nat /\
  match res with
  | Some (e, rest) =>
      fut_raws q widx (rs ++ X) = pe_ev e :: evs q rest ++ fut_raws q widx' (skipn c rs ++ X)
  | None => c = List.length rs /\ fut_raws q widx (rs ++ X) = fut_raws q widx' X
  end.
Proof.
  induction rs as [|r rs IH]; intros widx n widx' k res X.
  - intros H; injection H as <- <- <-. exists 0%nat. cbn. split; [lia|]. split; [lia|]. auto.
  - rewrite scan_raws_cons. cbn [app]. rewrite fut_raws_cons.
    destruct (drain q (snd (read_item widx r))) as [[e rest]|] eqn:Ed.
    + intros H; injection H as <- <- <-. exists 1%nat. cbn [List.length skipn]. split; [lia|]. split; [lia|].
      rewrite (drain_some _ _ _ _ Ed). reflexivity.
    + rewrite (drain_none _ _ Ed). cbn [app]. intros H. destruct (IH _ _ _ _ _ X H) as (c & -> & Hc & Hres).
      exists (S c). cbn [List.length skipn]. split; [lia|]. split; [lia|].
      destruct res as [[e rest]|]; [exact Hres|]. destruct Hres as [-> Hres]. auto.
Qed.

Lemma scan_raws_idx q m rs : forall widx n widx' k res,
  scan_raws q widx rs n = (widx', k, res) -> widx <= m -> Forall (raw_le m) rs -> widx' <= m.
Proof.
  induction rs as [|r rs IH]; intros widx n widx' k res; [intros H; injection H as <- <- <-; auto|].
  intros H Hw Hf. inversion Hf as [|? ? Hr Hrs]; subst. rewrite scan_raws_cons in H.
  pose proof (read_item_le _ _ _ Hw Hr) as Hle.
  destruct (drain q (snd (read_item widx r))) as [[e rest]|]; [injection H as <- _ _; exact Hle|eapply IH; eassumption].
Qed.

Lemma scan_raws_rest q m rs : forall widx n widx' k e rest,
  scan_raws q widx rs n = (widx', k, Some (e, rest)) -> Forall (raw_le m) rs -> forall x, In x rest -> pe_idx x <= m.
Proof.
  induction rs as [|r rs IH]; intros widx n widx' k e rest; [discriminate|].
  intros H Hf. inversion Hf as [|? ? Hr Hrs]; subst. rewrite scan_raws_cons in H.
  destruct (drain q (snd (read_item widx r))) as [[e' rest']|] eqn:Ed; [|eapply IH; eassumption].
  injection H as _ _ <- <-. intros x Hx. apply (read_item_batch widx r m x Hr). eapply drain_in; eassumption.
Qed.

Definition sroutes (s : subject) (r : resource) : bool :=
  subject_eqb s (SWild (i_type (r_id r))) || subject_eqb s (STen (i_type (r_id r)) (i_ten (r_id r))).

Lemma route_commit s i e r :
  route s (commit_batch i e r) = if sroutes s r then [PEv s i e] else [].
Proof.
  unfold route, commit_batch, sroutes. cbn [filter pe_subj].
  destruct (subject_eqbP s (SWild (i_type (r_id r)))) as [->|_]; [reflexivity|].
  destruct (subject_eqbP s (STen (i_type (r_id r)) (i_ten (r_id r)))) as [->|_]; reflexivity.
Qed.

(* the batch published for a commit *)
Definition lbatch (c : cev) : batch :=
  match ev_resource (snd c) with Some r => commit_batch (fst c) (snd c) r | None => [] end.

(* the raw items the queued batches will become when they are published *)
Definition qraws (s : subject) (q : list batch) : list raw := map RBatch (flat_map (pub_items s) q).

Lemma qraws_app s a b : qraws s (a ++ b) = qraws s a ++ qraws s b.
Proof. unfold qraws. rewrite flat_map_app. apply map_app. Qed.

Lemma qraws_cons s b q : qraws s (b :: q) = map RBatch (pub_items s b) ++ qraws s q.
Proof. unfold qraws. cbn [flat_map]. apply map_app. Qed.

(* what the commit c contributes to a watch on subject s with query q *)
Definition contrib (s : subject) (q : query) (c : cev) : list wev := evs q (route s (lbatch c)).

Lemma fut_raws_qraw_new s q widx c : widx < fst c -> fut_raws q widx (qraws s [lbatch c]) = contrib s q c.
Proof.
  intros Hlt. unfold contrib, qraws, pub_items, lbatch. cbn [flat_map]. destruct c as [i e]. cbn [fst snd] in *.
  destruct (ev_resource e) as [r|]; [|reflexivity].
  rewrite route_commit. destruct (sroutes s r); [|reflexivity]. cbn [app map fut_raws pe_idx].
  assert (N.leb i widx = false) as -> by (apply N.leb_gt; lia). apply app_nil_r.
Qed.

Definition batch_le (m : N) (b : batch) : Prop := forall e, In e b -> pe_idx e <= m.

Lemma batch_le_mono m m' b : m <= m' -> batch_le m b -> batch_le m' b.
Proof. intros H Hb e He. specialize (Hb e He). lia. Qed.

Lemma Forall_batch_le_mono m m' l : m <= m' -> Forall (batch_le m) l -> Forall (batch_le m') l.
Proof. intros H. apply Forall_impl. intros b. apply batch_le_mono, H. Qed.

Lemma raw_le_batches m l : Forall (batch_le m) l -> Forall (raw_le m) (map RBatch l).
Proof. intros H. apply Forall_map. exact H. Qed.

Lemma pub_items_le s m b : batch_le m b -> Forall (batch_le m) (pub_items s b).
Proof.
  intros H. assert (G : batch_le m (route s b)) by (intros e He; apply filter_In in He; apply H, He).
  unfold pub_items. destruct (route s b); [constructor|]. constructor; [exact G|constructor].
Qed.

Lemma raw_le_qraws s m q : Forall (batch_le m) q -> Forall (raw_le m) (qraws s q).
Proof.
  intros H. apply raw_le_batches, Forall_flat_map. revert H. apply Forall_impl. intros b. apply pub_items_le.
Qed.

(* a commit appends one batch to the queue; that adds [contrib s q c] to the future of every reader
   that has not read past the current index *)
Lemma fut_raws_commit s q widx raws queue c i :
  widx <= i -> Forall (raw_le i) raws -> Forall (batch_le i) queue -> i < fst c ->
  fut_raws q widx (raws ++ qraws s (queue ++ [lbatch c])) = fut_raws q widx (raws ++ qraws s queue) ++ contrib s q c.
Proof.
  intros Hw Hr Hq Hc. rewrite qraws_app, app_assoc, fut_raws_app. f_equal. apply fut_raws_qraw_new.
  apply N.le_lt_trans with i; [|exact Hc]. apply end_idx_le; [exact Hw|].
  apply Forall_app. split; [exact Hr|apply raw_le_qraws, Hq].
Qed.

Lemma replay_snoc L : forall t c, replay t (L ++ [c]) = replay (replay t L) [c].
Proof. induction L as [|x L IH]; intros t c; [reflexivity|]. cbn [app replay]. destruct x as [i [r|r|]]; apply IH. Qed.

Lemma lbatch_le c : batch_le (fst c) (lbatch c).
Proof. unfold lbatch. destruct (ev_resource (snd c)); [|intros x []]. intros x [<-|[<-|[]]]; cbn; lia. Qed.

Lemma vstream_le i sn its : batch_le i (sn_batch sn) -> Forall (batch_le i) its -> Forall (raw_le i) (vstream sn its).
Proof. intros Hs Hi. constructor; [exact Hs|]. constructor; [exact I|]. apply raw_le_batches, Forall_skipn, Hi. Qed.

Lemma vstream_app sn its x : (sn_pos sn <= List.length its)%nat -> vstream sn (its ++ x) = vstream sn its ++ map RBatch x.
Proof. intros H. unfold vstream. rewrite skipn_app_le, map_app by exact H. reflexivity. Qed.

Lemma snapshot_batch_head s i t : exists e0 b, snapshot_batch s i t = e0 :: b /\ pe_idx e0 = i.
Proof. unfold snapshot_batch. destruct (list_txn (subject_query s) t) as [|r l]; cbn; eauto. Qed.

Lemma snapshot_batch_le s i t : batch_le i (snapshot_batch s i t).
Proof.
  unfold snapshot_batch. intros e H. apply in_app_iff in H as [H|[<-|[]]]; [|cbn; lia].
  apply in_map_iff in H as (r & <- & _). cbn. lia.
Qed.

(* a subscription starts with Watch.idx = 0 on the snapshot batch, which carries the snapshot's index *)
Lemma fut_raws_vstream q sn its X s t : sn_batch sn = snapshot_batch s (sn_idx sn) t -> 0 < sn_idx sn ->
  fut_raws q 0 (vstream sn its ++ X) =
  evs q (sn_batch sn) ++ fut_raws q (sn_idx sn) (map RBatch (skipn (sn_pos sn) its) ++ X).
Proof.
  intros Hb Hpos. unfold vstream. destruct (snapshot_batch_head s (sn_idx sn) t) as (e0 & b & E & He0).
  rewrite Hb, E. cbn [app fut_raws]. rewrite He0. assert (N.leb (sn_idx sn) 0 = false) as -> by (apply N.leb_gt; lia).
  reflexivity.
Qed.

(* spliceFromTopicBuffer finds nothing to splice in when no buffered item is newer than the snapshot *)
Lemma splice_pos_all items idx : Forall (batch_le idx) items -> splice_pos items idx = List.length items.
Proof.
  intros H. unfold splice_pos, batch in *. destruct (last (map Some items) None) as [it|] eqn:E.
  - apply last_some_in in E. destruct it as [|e0 b]; cbn; [reflexivity|].
    rewrite Forall_forall in H. assert (pe_idx e0 <= idx) as Hle by (apply (H _ E); left; reflexivity).
    assert (N.ltb idx (pe_idx e0) = false) as -> by (apply N.ltb_ge; lia). reflexivity.
  - destruct items as [|y l]; [reflexivity|]. exfalso. clear H. revert y E. induction l as [|z l IH]; intros y; cbn; [discriminate|]. apply IH.
Qed.

Definition bump (st : store) (o : op) : store := match o with OWrite _ => set_vsn st (s_vsn st + 1) | _ => st end.

Definition commit_st (st : store) (e : wev) : store :=
  set_res st (replay (s_res st) [(s_idx st + 1, e)]) (s_idx st + 1) (s_queue st ++ [lbatch (s_idx st + 1, e)]).

Lemma step_commit st o : table_op o = true -> no_restore o = true ->
  fst (step st o) = match commit_ev st o with Some e => commit_st (bump st o) e | None => bump st o end.
Proof.
  destruct o; try discriminate; intros _ _; cbn [step commit_ev bump].
  - destruct (backend_write_cases st r) as [[_ E]|(_ & E & [Ho|Ho])]; rewrite ?E, ?Ho; reflexivity.
  - destruct (store_write_cases st r vsn) as [[_ E]|(_ & E & [Ho|Ho])]; rewrite ?E, ?Ho; reflexivity.
  - unfold store_delete, lk. destruct (lookup k (s_res st)) as [ex|] eqn:Hl; [|reflexivity].
    destruct (str_eqb uid (r_uid ex)); [|reflexivity]. destruct (N.eqb vsn (r_version ex)); [|reflexivity].
    cbn. unfold commit_st. cbn. rewrite (lookup_some_id _ _ _ Hl). reflexivity.
Qed.

Lemma commit_ev_op st o e : commit_ev st o = Some e -> table_op o = true /\ no_restore o = true /\ ev_resource e <> None.
Proof.
  destruct o; try discriminate; cbn [commit_ev]; intros H; (split; [reflexivity|]); (split; [reflexivity|]).
  - destruct (snd _); try discriminate. injection H as <-. discriminate.
  - destruct (snd _); try discriminate. injection H as <-. discriminate.
  - destruct (lk k st); [|discriminate]. destruct (_ && _); [|discriminate]. injection H as <-. discriminate.
Qed.

Lemma commit_upsert_row st o r : commit_ev st o = Some (Upsert r) -> lk (r_id r) (fst (step st o)) = Some r.
Proof.
  intros H. destruct (commit_ev_op _ _ _ H) as (Ht & Hn & _). rewrite (step_commit st o Ht Hn), H.
  unfold lk, commit_st. cbn. rewrite lookup_upsert, rid_eqb_refl. reflexivity.
Qed.

Lemma commit_delete_row st o r : commit_ev st o = Some (Delete r) ->
  lk (r_id r) st = Some r /\ lk (r_id r) (fst (step st o)) = None.
Proof.
  intros H. destruct (commit_ev_op _ _ _ H) as (Ht & Hn & _). rewrite (step_commit st o Ht Hn), H. split.
  - destruct o; try discriminate; cbn [commit_ev] in H; try (destruct (snd _); discriminate).
    destruct (lk k st) as [ex|] eqn:Hl; [|discriminate].
    destruct (_ && _); [|discriminate]. injection H as <-. rewrite (lookup_some_id _ _ _ Hl). exact Hl.
  - unfold lk, commit_st. cbn. rewrite lookup_remove, rid_eqb_refl. reflexivity.
Qed.
