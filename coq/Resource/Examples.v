(* C18: concrete schedules.  The two restore schedules below leave a batch of the replaced database
   queued at the restore.  Before d82b299 consul delivered the stale upsert of "a" after
   end-of-snapshot and filtered out the first commit of the new database (which gets index 3 again);
   since then the restore makes the publisher drop what is queued.  The schedules meet the hypotheses
   of the watch theorem and show the repaired behaviour.  [restore_clean] — every restore gives a clean
   state, whatever was queued — is the general fact they start from. *)
From Verif Require Import Base.Prelude Resource.Model Resource.TableProofs Resource.CasProofs
     Resource.WatchDefs.
Local Open Scope N_scope.

Definition xk (nm : str) : rid := RId (RType [103] [107]) (Ten [112] [110]) nm.
Definition xres (nm uid : str) (ver data : N) : resource := Res (xk nm) [118;49] uid ver data None.
Definition xq : query := Query (RType [103] [107]) (Ten [112] [110]) [].

Definition after_restore (pre : list op) : store := fst (step (run init pre) (ORestore [])).

(* a batch committed before the restore is still queued when the new watch subscribes *)
Definition pre_a : list op := [OWrite (xres [97] [117;49] 0 1)].
Definition post_a : list op := [ONext 0; ONext 0; OPublish; ONext 0].

(* an unreleased watch of the old database and a queued batch; then a commit in the new database *)
Definition pre_b : list op := [OWatch xq; OWrite (xres [97] [117;49] 0 1)].
Definition post_b : list op := [OPublish; ONext 1; ONext 1; OWrite (xres [98] [117;50] 0 2); OPublish; ONext 1; ONext 0].

(* EVERY restore gives a clean state: whatever was queued is dropped, whatever watches are unreleased *)
Lemma restore_clean st l : clean (fst (step st (ORestore l))).
Proof.
  unfold clean. cbn. repeat split; try lia.
  apply Forall_forall. intros w Hw. apply in_map_iff in Hw as (x & <- & _). cbn. split; [reflexivity|].
  destruct (w_state x); discriminate.
Qed.

(* a run on which the watch theorem delivers something: two commits in the gap, then one more *)
Definition demo : list op :=
  [OWrite (xres [97] [117;49] 0 1); OWrite (xres [97] [117;49] 1 2); OWatch xq; ONext 0; ONext 0; OPublish; OPublish;
   ONext 0; OWrite (xres [97] [117;49] 2 3); OPublish; ONext 0].
