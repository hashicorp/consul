(* C18, the watch invariant: the relation between the store's publisher state, the ghost log of
   commits and what every watch has been given, for restore-free runs from a clean state.
   The clauses about one cache entry ([entry_ok]) and one watch ([watch_inv]) see the store only
   through the queue and the items of the topic buffers; each operation is first followed on one
   entry or one watch, then [INV_*] puts the clauses together. *)
From Verif Require Import Base.Prelude Resource.Model Resource.TableProofs Resource.WatchOps Resource.CasProofs
     Resource.WatchDefs Resource.WatchLemmas.
From Verif Require Import Base.Lists.
Local Open Scope N_scope.

Definition unfreed (s : subject) (w : watch) : bool := negb (w_freed w) && subject_eqb s (w_subj w).
Definition count (s : subject) (ws : list watch) : nat := List.length (filter (unfreed s) ws).

Lemma count_app s a b : count s (a ++ b) = (count s a + count s b)%nat.
Proof. unfold count. rewrite filter_app, app_length. reflexivity. Qed.

Lemma count_set_nth s n w w' ws : nth_error ws n = Some w ->
  (count s (set_nth n w' ws) + (if unfreed s w then 1 else 0) = count s ws + (if unfreed s w' then 1 else 0))%nat.
Proof. apply filter_length_set_nth. Qed.

Lemma count_pos s ws n w : nth_error ws n = Some w -> unfreed s w = true -> (0 < count s ws)%nat.
Proof.
  intros Hn Hu. destruct (set_nth_split n w w ws Hn) as (l1 & l2 & -> & _ & _).
  rewrite count_app. unfold count at 2. cbn [filter]. rewrite Hu. cbn. lia.
Qed.

Lemma count_two s ws n m w x : nth_error ws n = Some w -> nth_error ws m = Some x -> m <> n ->
  unfreed s w = true -> unfreed s x = true -> (2 <= count s ws)%nat.
Proof.
  intros Hn Hm Hne Hw Hx. pose proof (count_set_nth s n w (closed_w w) ws Hn) as E. rewrite Hw in E. cbn in E.
  assert (0 < count s (set_nth n (closed_w w) ws))%nat; [|lia].
  apply (count_pos s _ m x); [|exact Hx]. rewrite (nth_error_set_nth n m _ w ws Hn).
  destruct (Nat.eqb_spec m n); [contradiction|exact Hm].
Qed.

(* what is known of an open watch besides [watch_inv]: it holds its reference, and neither its index
   nor its snapshot is newer than i *)
Definition open_facts (i : N) (w : watch) : Prop :=
  w_freed w = false /\ w_idx w <= i /\ batch_le i (sn_batch (w_snap w)).

(* nothing in the publisher is newer than the event index i *)
Record bounded_at (i : N) (st : store) : Prop := {
  bd_queue : Forall (batch_le i) (s_queue st);
  bd_items : forall s its, items_of s (s_bufs st) = Some its -> Forall (batch_le i) its;
  bd_cache : forall s sn, cache_get s (s_cache st) = Some sn -> sn_idx sn <= i /\ batch_le i (sn_batch sn);
  bd_open : forall n w, nth_error (s_watches st) n = Some w -> w_state w = WOpen -> open_facts i w }.

Lemma bounded_mono i j st : i <= j -> bounded_at i st -> bounded_at j st.
Proof.
  intros Hle [H1 H2 H3 H4]. split.
  - exact (Forall_batch_le_mono _ _ _ Hle H1).
  - intros s its Hi. exact (Forall_batch_le_mono _ _ _ Hle (H2 s its Hi)).
  - intros s sn Hg. destruct (H3 s sn Hg) as [Ha Hb]. split; [lia|exact (batch_le_mono _ _ _ Hle Hb)].
  - intros n w Hn Ho. destruct (H4 n w Hn Ho) as (Hf & Ha & Hb). split; [exact Hf|]. split; [lia|exact (batch_le_mono _ _ _ Hle Hb)].
Qed.

Definition out_ev (o : out) : list wev := match o with OutEvent e => [e] | _ => [] end.

Lemma next_w_idx its w i :
  w_idx w <= i -> batch_le i (sn_batch (w_snap w)) -> Forall (batch_le i) its -> w_idx (fst (next_w its w)) <= i.
Proof.
  intros Hw Hs Hi. unfold next_w. destruct (drain _ _) as [[e r]|]; [exact Hw|]. destruct (w_state w); try exact Hw.
  destruct (scan_raws _ _ _ _) as [[widx' k] res] eqn:Es.
  assert (widx' <= i) by (eapply scan_raws_idx; [exact Es|exact Hw|apply Forall_skipn, vstream_le; assumption]).
  destruct res as [[e r]|]; assumption.
Qed.

Section Inv.
  Variables (T0 : table) (i0 : N) (n0 : nat).
  (* T0, i0: table and event index of the clean state the run starts from; n0: watches it already has *)

  (* the snapshot was taken after the commits Lp; La are the commits since *)
  Definition snap_ok (L : list cev) (s : subject) (sn : snapshot) (La : list cev) : Prop :=
    exists Lp, L = Lp ++ La /\ sn_idx sn = i0 + N.of_nat (List.length Lp) /\
               sn_batch sn = snapshot_batch s (sn_idx sn) (replay T0 Lp).

  (* a cached snapshot of subject s, whose buffer holds [its]: read from its splice position, buffer and
     queue yield exactly the commits since the snapshot *)
  Definition entry_ok (L : list cev) (queue : list batch) (s : subject) (sn : snapshot) (its : list batch) : Prop :=
    (sn_pos sn <= List.length its)%nat /\ exists La, snap_ok L s sn La /\
      forall q, fut_raws q (sn_idx sn) (map RBatch (skipn (sn_pos sn) its) ++ qraws s queue) = flat_map (contrib s q) La.

  (* [rest] is what an open watch will still read *)
  Definition open_ok (queue its : list batch) (w : watch) (rest : list wev) : Prop :=
    (w_pos w <= List.length (vstream (w_snap w) its))%nat /\ (sn_pos (w_snap w) <= List.length its)%nat /\
    rest = fut_raws (w_query w) (w_idx w) (skipn (w_pos w) (vstream (w_snap w) its) ++ qraws (w_subj w) queue).

  (* delivered ++ held in Watch.events ++ still to come = snapshot ++ the commits since *)
  Definition watch_inv (L : list cev) (queue : list batch) (bufs : list (subject * tbuf)) (Dn : list wev) (w : watch) : Prop :=
    w_subj w = watch_subject (w_query w) /\
    exists La rest, snap_ok L (w_subj w) (w_snap w) La /\
      Dn ++ evs (w_query w) (w_events w) ++ rest
        = evs (w_query w) (sn_batch (w_snap w)) ++ flat_map (contrib (w_subj w) (w_query w)) La /\
      (w_state w = WOpen -> exists its, items_of (w_subj w) bufs = Some its /\ open_ok queue its w rest).

  Definition cache_ok (st : store) (L : list cev) : Prop :=
    forall s sn, cache_get s (s_cache st) = Some sn ->
      exists its, items_of s (s_bufs st) = Some its /\ entry_ok L (s_queue st) s sn its.

  Definition watch_ok (st : store) (L : list cev) (D : nat -> list wev) : Prop :=
    forall n w, nth_error (s_watches st) n = Some w -> (n0 <= n)%nat -> watch_inv L (s_queue st) (s_bufs st) (D n) w.

  (* a topic buffer exists exactly while unreleased watches refer to it, and counts them *)
  Definition refs_ok (st : store) : Prop :=
    forall s, match refs_of s (s_bufs st) with Some r => r = count s (s_watches st) | None => count s (s_watches st) = 0%nat end.

  Record INV (st : store) (L : list cev) (D : nat -> list wev) : Prop := {
    inv_res : s_res st = replay T0 L;
    inv_idx : s_idx st = i0 + N.of_nat (List.length L);
    inv_i0 : 2 <= i0;
    inv_bounded : bounded_at (s_idx st) st;
    inv_cache : cache_ok st L;
    inv_watch : watch_ok st L D;
    inv_refs : refs_ok st;
    inv_len : (n0 <= List.length (s_watches st))%nat;
    inv_D : forall n, (List.length (s_watches st) <= n)%nat -> D n = []
  }.

  Lemma INV_ext st L L' D D' : L' = L -> (forall n, D' n = D n) -> INV st L D -> INV st L' D'.
  Proof.
    intros -> He [Hres Hidx Hi0 Hb Hc Hw Hr Hn Hd]. constructor; try assumption.
    - intros n w Hn' Hge. rewrite He. exact (Hw n w Hn' Hge).
    - intros n Hl. rewrite He. exact (Hd n Hl).
  Qed.

  (* the invariant does not look at the version counter *)
  Lemma INV_bump st o L D : INV st L D -> INV (bump st o) L D.
  Proof.
    destruct o; try exact id. intros [Hres Hidx Hi0 [Hb1 Hb2 Hb3 Hb4] Hc Hw Hr Hn Hd].
    constructor; try assumption. split; assumption.
  Qed.

  Lemma snap_ok_snoc L s sn La c : snap_ok L s sn La -> snap_ok (L ++ [c]) s sn (La ++ [c]).
  Proof. intros (Lp & -> & H1 & H2). exists Lp. rewrite app_assoc. auto. Qed.


  (* an open watch needs only the items of its subject's buffer *)
  Lemma watch_inv_bufs L queue bufs bufs' Dn w :
    (w_state w = WOpen -> forall its, items_of (w_subj w) bufs = Some its -> items_of (w_subj w) bufs' = Some its) ->
    watch_inv L queue bufs Dn w -> watch_inv L queue bufs' Dn w.
  Proof.
    intros Hk (Hs & La & rest & H1 & H2 & H3). split; [exact Hs|]. exists La, rest. split; [exact H1|]. split; [exact H2|].
    intros Eo. destruct (H3 Eo) as (its & Hi & Ho). exists its. split; [exact (Hk Eo its Hi)|exact Ho].
  Qed.

  Lemma entry_ok_commit L queue s sn its c i :
    entry_ok L queue s sn its -> sn_idx sn <= i -> Forall (batch_le i) its -> Forall (batch_le i) queue -> i < fst c ->
    entry_ok (L ++ [c]) (queue ++ [lbatch c]) s sn its.
  Proof.
    intros (Hp & La & Hs & Hf) Hi Hits Hq Hc. split; [exact Hp|]. exists (La ++ [c]). split; [apply snap_ok_snoc, Hs|].
    intros q. rewrite flat_map_snoc, <- Hf. apply (fut_raws_commit _ _ _ _ _ _ i); try assumption.
    apply raw_le_batches, Forall_skipn, Hits.
  Qed.

  Lemma watch_inv_commit L queue bufs Dn w c i :
    watch_inv L queue bufs Dn w ->
    (w_state w = WOpen -> open_facts i w) ->
    (forall s its, items_of s bufs = Some its -> Forall (batch_le i) its) -> Forall (batch_le i) queue -> i < fst c ->
    watch_inv (L ++ [c]) (queue ++ [lbatch c]) bufs Dn w.
  Proof.
    intros (Hs & La & rest & Hsn & Heq & Hop) Hb4 Hb2 Hq Hc. split; [exact Hs|].
    exists (La ++ [c]), (rest ++ contrib (w_subj w) (w_query w) c). split; [apply snap_ok_snoc, Hsn|]. split.
    - rewrite flat_map_snoc, (app_assoc (evs _ (sn_batch _))), <- Heq, <- !app_assoc. reflexivity.
    - intros Eo. destruct (Hop Eo) as (its & Hi & Hp & Hsp & ->). destruct (Hb4 Eo) as (_ & Hwi & Hsb).
      exists its. split; [exact Hi|]. split; [exact Hp|]. split; [exact Hsp|]. symmetry.
      apply (fut_raws_commit _ _ _ _ _ _ i); try assumption. apply Forall_skipn, vstream_le; [exact Hsb|exact (Hb2 _ _ Hi)].
  Qed.

  Lemma INV_commit st L D e :
    INV st L D -> ev_resource e <> None -> INV (commit_st st e) (L ++ [(s_idx st + 1, e)]) D.
  Proof.
    intros [Hres Hidx Hi0 Hb Hc Hw Hr Hn Hd] He. set (c := (s_idx st + 1, e)).
    assert (Hlt : s_idx st < fst c) by (cbn; lia). pose proof Hb as [Hb1 Hb2 Hb3 Hb4].
    constructor; try assumption.
    - unfold commit_st. cbn. rewrite replay_snoc, <- Hres. reflexivity.
    - cbn. rewrite app_length. cbn [List.length]. lia.
    - apply (bounded_mono (s_idx st) (s_idx st + 1)) in Hb; [|lia]. destruct Hb as [Hq Hi Hca Ho].
      split; [|exact Hi|exact Hca|exact Ho]. apply Forall_app. split; [exact Hq|]. constructor; [apply (lbatch_le c)|constructor].
    - intros s sn Hg. destruct (Hc s sn Hg) as (its & Hi & Hen). exists its. split; [exact Hi|].
      exact (entry_ok_commit _ _ _ _ _ c _ Hen (proj1 (Hb3 s sn Hg)) (Hb2 s its Hi) Hb1 Hlt).
    - intros n w Hn' Hge. exact (watch_inv_commit _ _ _ _ _ c _ (Hw n w Hn' Hge) (Hb4 n w Hn') Hb2 Hb1 Hlt).
  Qed.

  Lemma entry_ok_publish L b q' s sn its :
    entry_ok L (b :: q') s sn its -> entry_ok L q' s sn (its ++ pub_items s b).
  Proof.
    intros (Hp & La & Hs & Hf). split; [rewrite app_length; lia|]. exists La. split; [exact Hs|].
    intros q. rewrite <- Hf, qraws_cons, skipn_app_le by exact Hp. rewrite map_app, <- app_assoc. reflexivity.
  Qed.

  Lemma watch_inv_publish L b q' bufs Dn w :
    watch_inv L (b :: q') bufs Dn w -> watch_inv L q' (publish_batch b bufs) Dn w.
  Proof.
    intros (Hs & La & rest & H1 & H2 & H3). split; [exact Hs|]. exists La, rest. split; [exact H1|]. split; [exact H2|].
    intros Eo. destruct (H3 Eo) as (its & Hi & Hp & Hsp & ->). exists (its ++ pub_items (w_subj w) b).
    split; [rewrite items_of_publish, Hi; reflexivity|]. unfold open_ok. rewrite vstream_app, !app_length by exact Hsp.
    split; [lia|]. split; [lia|]. rewrite skipn_app_le, qraws_cons, app_assoc by exact Hp. reflexivity.
  Qed.

  Lemma INV_publish st L D b q' :
    INV st L D -> s_queue st = b :: q' ->
    INV (Store (s_res st) (s_idx st) (s_vsn st) (s_stale st) q' (publish_batch b (s_bufs st)) (s_cache st) (s_watches st)) L D.
  Proof.
    intros [Hres Hidx Hi0 [Hb1 Hb2 Hb3 Hb4] Hc Hw Hr Hn Hd] Hqe. rewrite Hqe in Hb1.
    assert (Hpub : forall s its', items_of s (publish_batch b (s_bufs st)) = Some its' ->
                     exists its, items_of s (s_bufs st) = Some its /\ its' = its ++ pub_items s b).
    { intros s its'. rewrite items_of_publish. destruct (items_of s (s_bufs st)) as [its|]; [|discriminate].
      intros H; injection H as <-. eauto. }
    constructor; try assumption.
    - split; [exact (Forall_inv_tail Hb1)| |exact Hb3|exact Hb4].
      intros s its' Hi'. destruct (Hpub s its' Hi') as (its & Hi & ->). apply Forall_app.
      split; [exact (Hb2 s its Hi)|apply pub_items_le, (Forall_inv Hb1)].
    - intros s sn Hg. destruct (Hc s sn Hg) as (its & Hi & Hen). rewrite Hqe in Hen.
      exists (its ++ pub_items s b). cbn [s_bufs s_queue]. rewrite items_of_publish, Hi. split; [reflexivity|apply entry_ok_publish, Hen].
    - intros n w Hn' Hge. specialize (Hw n w Hn' Hge). rewrite Hqe in Hw. apply watch_inv_publish, Hw.
    - intros s. cbn [s_bufs s_watches]. rewrite refs_of_publish. apply Hr.
  Qed.

  Lemma INV_evict st L D s :
    INV st L D -> INV (set_pub st (s_bufs st) (cache_del s (s_cache st)) (s_watches st)) L D.
  Proof.
    intros [Hres Hidx Hi0 [Hb1 Hb2 Hb3 Hb4] Hc Hw Hr Hn Hd]. constructor; try assumption.
    - split; [exact Hb1|exact Hb2| |exact Hb4].
      intros s' sn Hg. apply cache_get_del_some in Hg as [Hg _]. exact (Hb3 s' sn Hg).
    - intros s' sn Hg. apply cache_get_del_some in Hg as [Hg _]. exact (Hc s' sn Hg).
  Qed.

  Lemma INV_set_watch st L D D' n w w' :
    INV st L D -> nth_error (s_watches st) n = Some w ->
    w_subj w' = w_subj w -> w_freed w' = w_freed w ->
    (w_state w' = WOpen -> open_facts (s_idx st) w') ->
    (forall m, m <> n -> D' m = D m) ->
    ((n0 <= n)%nat -> watch_inv L (s_queue st) (s_bufs st) (D' n) w') ->
    INV (set_watch st n w') L D'.
  Proof.
    intros [Hres Hidx Hi0 [Hb1 Hb2 Hb3 Hb4] Hc Hw Hr1 Hn Hd] Hnth Hsu Hfr Hop HD Hwn.
    assert (Hlt : (n < List.length (s_watches st))%nat) by (apply nth_error_Some; congruence).
    assert (Hu : forall s, unfreed s w' = unfreed s w) by (intros s; unfold unfreed; rewrite Hsu, Hfr; reflexivity).
    rewrite set_watch_eq. constructor; try assumption; cbn [set_pub s_watches s_bufs s_queue s_idx].
    - split; [exact Hb1|exact Hb2|exact Hb3|]. intros m x Hm Hx.
      apply (nth_error_set_nth_inv n m w' w x _ Hnth) in Hm as [[-> ->]|[_ Hm]]; [apply Hop, Hx|exact (Hb4 m x Hm Hx)].
    - intros m x Hm Hge. apply (nth_error_set_nth_inv n m w' w x _ Hnth) in Hm as [[-> ->]|[Hne Hm]]; [exact (Hwn Hge)|].
      rewrite (HD m Hne). exact (Hw m x Hm Hge).
    - intros s. cbn [set_pub s_watches s_bufs]. pose proof (count_set_nth s n w w' _ Hnth) as E. rewrite Hu in E.
      replace (count s (set_nth n w' (s_watches st))) with (count s (s_watches st)) by (destruct (unfreed s w); lia). apply Hr1.
    - rewrite (length_set_nth n w' w _ Hnth). exact Hn.
    - rewrite (length_set_nth n w' w _ Hnth). intros m Hm. rewrite HD by lia. exact (Hd m Hm).
  Qed.

  Lemma next_w_inv L queue bufs Dn w :
    watch_inv L queue bufs Dn w ->
    let r := next_w (match items_of (w_subj w) bufs with Some its => its | None => [] end) w in
    watch_inv L queue bufs (Dn ++ out_ev (snd r)) (fst r).
  Proof.
    intros (Hs & La & rest & Hsn & Heq & Hop). cbn zeta. unfold next_w.
    destruct (drain (w_query w) (w_events w)) as [[e rest']|] eqn:Ed; cbn [fst snd out_ev].
    - (* an event kept from an earlier batch *)
      split; [exact Hs|]. exists La, rest. split; [exact Hsn|]. split; [|exact Hop].
      cbn. rewrite (drain_some _ _ _ _ Ed) in Heq. rewrite <- Heq, <- !app_assoc. reflexivity.
    - rewrite (drain_none _ _ Ed) in Heq. cbn [app] in Heq.
      assert (Hclosed : w_state w <> WOpen -> watch_inv L queue bufs (Dn ++ []) (with_events w (w_pos w) [] (w_idx w))).
      { intros Hno. split; [exact Hs|]. exists La, rest. split; [exact Hsn|]. split; [rewrite app_nil_r; exact Heq|].
        intros Eo. contradiction. }
      destruct (w_state w) eqn:Est; cbn [fst snd out_ev]; try (apply Hclosed; discriminate).
      (* open: read the subscription *)
      destruct (Hop eq_refl) as (its & Hi & Hp & Hsp & ->). rewrite Hi.
      set (raws := skipn (w_pos w) (vstream (w_snap w) its)) in *.
      destruct (scan_raws (w_query w) (w_idx w) raws 0) as [[widx' k] res] eqn:Es.
      destruct (scan_raws_spec _ _ _ _ _ _ _ (qraws (w_subj w) queue) Es) as (c & -> & Hc' & Hres).
      unfold raws in Hc'. rewrite skipn_length in Hc'.
      assert (Hopen' : forall evs', open_ok queue its (with_events w (w_pos w + (0 + c)) evs' widx')
                                     (fut_raws (w_query w) widx' (skipn c raws ++ qraws (w_subj w) queue))).
      { intros evs'. unfold open_ok, with_events. cbn [w_pos w_snap w_query w_idx w_subj plus].
        split; [lia|]. split; [exact Hsp|]. unfold raws. rewrite <- skipn_add. reflexivity. }
      destruct res as [[e rest']|]; cbn [fst snd out_ev]; (split; [exact Hs|]);
        exists La; eexists; (split; [exact Hsn|]); (split; [|intros _; exists its; split; [exact Hi|apply Hopen']]).
      + cbn. rewrite <- Heq, Hres, <- !app_assoc. reflexivity.
      + destruct Hres as [-> Hres]. cbn. rewrite <- Heq, Hres, app_nil_r, skipn_all. reflexivity.
  Qed.

  Definition next_D (D : nat -> list wev) (n : nat) (o : out) : nat -> list wev :=
    fun m => D m ++ if Nat.eqb m n then out_ev o else [].

  Lemma INV_next st L D n :
    INV st L D -> INV (fst (watch_next st n)) L (next_D D n (snd (watch_next st n))).
  Proof.
    intros HI. rewrite watch_next_eq. destruct (nth_error (s_watches st) n) as [w|] eqn:Hnth; cbn [fst snd].
    2:{ apply (INV_ext st L L D); [reflexivity| |exact HI]. intros m. unfold next_D. destruct (Nat.eqb m n); apply app_nil_r. }
    pose proof HI as [_ _ _ [_ Hb2 _ Hb4] _ Hw _ _ _].
    destruct (next_w_fields (watch_items st w) w) as (pos & evs' & idx & Ef).
    apply (INV_set_watch st L D _ n w); try assumption; try (rewrite Ef; reflexivity).
    - intros Eo. rewrite Ef in Eo. cbn in Eo. destruct (Hb4 n w Hnth Eo) as (Hfr & Hwi & Hsb).
      split; [rewrite Ef; exact Hfr|]. split; [|rewrite Ef; exact Hsb].
      apply next_w_idx; [exact Hwi|exact Hsb|]. rewrite watch_items_of.
      destruct (items_of (w_subj w) (s_bufs st)) as [its|] eqn:Ei; [exact (Hb2 _ _ Ei)|constructor].
    - intros m Hm. unfold next_D. apply Nat.eqb_neq in Hm. rewrite Hm. apply app_nil_r.
    - intros Hge. unfold next_D. rewrite Nat.eqb_refl, watch_items_of. apply next_w_inv. exact (Hw n w Hnth Hge).
  Qed.

  Lemma items_of_open st s s' its : items_of s' (s_bufs st) = Some its -> items_of s' (open_bufs st s) = Some its.
  Proof.
    intros H. unfold open_bufs. rewrite items_of_set, open_buf_items.
    destruct (subject_eqbP s' s) as [->|_]; [rewrite H; reflexivity|exact H].
  Qed.

  Lemma open_cache_get st s s' sn : cache_get s' (open_cache st s) = Some sn ->
    cache_get s' (s_cache st) = Some sn \/ (s' = s /\ sn = fresh_snap st s).
  Proof.
    unfold open_cache. destruct (cache_get s (s_cache st)) eqn:E; [auto|]. rewrite (cache_get_snoc _ _ _ _ E).
    destruct (subject_eqbP s' s) as [->|_]; [|auto]. intros H; injection H as <-. auto.
  Qed.

  Lemma open_cache_snap st s : cache_get s (open_cache st s) = Some (open_snap st s).
  Proof.
    unfold open_cache, open_snap. destruct (cache_get s (s_cache st)) eqn:E; [exact E|].
    rewrite (cache_get_snoc _ _ _ _ E), subject_eqb_refl. reflexivity.
  Qed.

  (* a fresh snapshot is spliced to the end of the buffer: every buffered item is older, and so is
     everything queued, so nothing has happened since *)
  Lemma entry_ok_fresh st L s :
    s_res st = replay T0 L -> s_idx st = i0 + N.of_nat (List.length L) -> bounded_at (s_idx st) st ->
    entry_ok L (s_queue st) s (fresh_snap st s) (b_items (open_buf st s)).
  Proof.
    intros Hres Hidx [Hb1 Hb2 _ _].
    assert (Hits : Forall (batch_le (s_idx st)) (b_items (open_buf st s))).
    { rewrite open_buf_items. destruct (items_of s (s_bufs st)) eqn:E; [exact (Hb2 _ _ E)|constructor]. }
    unfold entry_ok, fresh_snap. cbn [sn_pos sn_idx sn_batch]. rewrite (splice_pos_all _ _ Hits). split; [lia|].
    exists []. split.
    - exists L. rewrite app_nil_r. cbn [sn_idx sn_batch]. rewrite Hres. auto.
    - intros q. rewrite skipn_all. cbn [map app flat_map]. apply fut_raws_all_le, raw_le_qraws, Hb1.
  Qed.

  Lemma INV_open st L D q : INV st L D -> INV (fst (watch_open st q)) L D.
  Proof.
    intros [Hres Hidx Hi0 Hb Hc Hw Hr1 Hn Hd]. pose proof Hb as [Hb1 Hb2 Hb3 Hb4].
    rewrite watch_open_eq. cbn [fst]. unfold open_w. set (s := watch_subject q).
    (* the cache clause after the open: old entries keep their items, the fresh one sees nothing since *)
    assert (Hc' : forall s' sn, cache_get s' (open_cache st s) = Some sn ->
              exists its, items_of s' (open_bufs st s) = Some its /\ entry_ok L (s_queue st) s' sn its).
    { intros s' sn Hg. destruct (open_cache_get _ _ _ _ Hg) as [Hold|(-> & ->)].
      - destruct (Hc s' sn Hold) as (its & Hi & He). exists its. split; [exact (items_of_open _ _ _ _ Hi)|exact He].
      - exists (b_items (open_buf st s)). split; [unfold open_bufs; rewrite items_of_set, subject_eqb_refl; reflexivity|].
        apply entry_ok_fresh; assumption. }
    (* no cached snapshot is newer than the event index *)
    assert (Hb3' : forall s' sn, cache_get s' (open_cache st s) = Some sn ->
              sn_idx sn <= s_idx st /\ batch_le (s_idx st) (sn_batch sn)).
    { intros s' sn Hg. destruct (open_cache_get _ _ _ _ Hg) as [Hold|(_ & ->)]; [exact (Hb3 _ _ Hold)|].
      split; [cbn; lia|apply snapshot_batch_le]. }
    set (w0 := Watch s q WOpen false (open_snap st s) 0 [] 0).
    (* the new watch is one more reference to the buffer of its subject *)
    assert (Hcount : forall s', count s' (s_watches st ++ [w0]) = (count s' (s_watches st) + if subject_eqb s' s then 1 else 0)%nat).
    { intros s'. rewrite count_app. unfold count at 2. cbn [filter]. unfold unfreed, w0. cbn [w_freed w_subj negb andb].
      destruct (subject_eqb s' s); reflexivity. }
    constructor; try assumption; unfold cache_ok, watch_ok, refs_ok; cbn [set_pub s_idx s_queue s_bufs s_cache s_watches].
    - split; cbn [set_pub s_queue s_bufs s_cache s_watches]; [exact Hb1| |exact Hb3'|].
      + intros s' its. unfold open_bufs. rewrite items_of_set, open_buf_items. destruct (subject_eqbP s' s) as [->|_]; [|apply Hb2].
        intros H; injection H as <-. destruct (items_of s (s_bufs st)) eqn:E; [exact (Hb2 _ _ E)|constructor].
      + intros n w Hn' Ho. apply nth_error_snoc in Hn' as [Hn'|[_ ->]]; [exact (Hb4 n w Hn' Ho)|].
        split; [reflexivity|]. split; [cbn; lia|]. exact (proj2 (Hb3' s _ (open_cache_snap st s))).
    - intros n w Hn' Hge. apply nth_error_snoc in Hn' as [Hn'|[-> ->]].
      + apply (watch_inv_bufs L _ (s_bufs st)); [|exact (Hw n w Hn' Hge)]. intros _ its. apply items_of_open.
      + (* the new watch: nothing delivered, everything of its snapshot and of the commits since still to come *)
        rewrite (Hd _ (Nat.le_refl _)). destruct (Hc' s _ (open_cache_snap st s)) as (its & Hi & Hp & La & Hsn & Hf).
        split; [reflexivity|]. exists La. eexists. split; [exact Hsn|]. split.
        2:{ intros _. exists its. split; [exact Hi|]. split; [cbn; lia|]. split; [exact Hp|reflexivity]. }
        destruct Hsn as (Lp & _ & Hsi & Hsb).
        assert (Hpos : 0 < i0 + N.of_nat (List.length Lp)) by lia. rewrite <- Hsi in Hpos.
        unfold w0. cbn [app w_query w_events w_snap w_subj w_idx w_pos skipn]. unfold evs at 1. cbn [filter map app].
        rewrite (fut_raws_vstream q _ its _ _ _ Hsb) by assumption. rewrite Hf. reflexivity.
    - intros s'. rewrite Hcount. unfold open_bufs. rewrite refs_of_set, open_buf_refs. specialize (Hr1 s').
      destruct (subject_eqbP s' s) as [->|_]; [|rewrite Nat.add_0_r; exact Hr1].
      destruct (refs_of s (s_bufs st)); lia.
    - rewrite app_length. lia.
    - rewrite app_length. intros n Hn'. apply Hd. lia.
  Qed.

  Lemma watch_inv_closed L queue bufs bufs' Dn w : watch_inv L queue bufs Dn w -> watch_inv L queue bufs' Dn (closed_w w).
  Proof.
    intros (Hs & La & rest & H1 & H2 & _). split; [exact Hs|]. exists La, rest. split; [exact H1|]. split; [exact H2|].
    intros Eo. cbn in Eo. destruct (w_state w); discriminate.
  Qed.

  Lemma close_views st w b : w_freed w = false -> buf_get (w_subj w) (s_bufs st) = Some b ->
    (forall s', items_of s' (close_bufs st w) =
       if subject_eqb s' (w_subj w) then (if Nat.eqb (b_refs b) 1 then None else Some (b_items b)) else items_of s' (s_bufs st)) /\
    (forall s', refs_of s' (close_bufs st w) =
       if subject_eqb s' (w_subj w) then (if Nat.eqb (b_refs b) 1 then None else Some (b_refs b - 1)%nat) else refs_of s' (s_bufs st)) /\
    (forall s' sn, cache_get s' (close_cache st w) = Some sn ->
       cache_get s' (s_cache st) = Some sn /\ (Nat.eqb (b_refs b) 1 = true -> s' <> w_subj w)).
  Proof.
    intros Hfr Hb. unfold close_bufs, close_cache. rewrite Hfr, Hb. destruct (Nat.eqb (b_refs b) 1).
    - split; [intros; apply items_of_del|]. split; [intros; apply refs_of_del|].
      intros s' sn Hg. apply cache_get_del_some in Hg as [Hg Hne]. auto.
    - split; [intros; apply items_of_set|]. split; [intros; apply refs_of_set|].
      intros s' sn Hg. split; [exact Hg|discriminate].
  Qed.

  Lemma INV_close st L D n : INV st L D -> INV (fst (watch_close st n)) L D.
  Proof.
    intros HI. rewrite watch_close_eq. destruct (nth_error (s_watches st) n) as [w|] eqn:Hnth; [|exact HI].
    pose proof HI as [Hres Hidx Hi0 [Hb1 Hb2 Hb3 Hb4] Hc Hw Hr1 Hn Hd].
    assert (Hnopen : w_state (closed_w w) <> WOpen) by (cbn; destruct (w_state w); discriminate).
    destruct (w_freed w) eqn:Hfr.
    - (* already released: only the state changes, and it was not open *)
      unfold close_bufs, close_cache. rewrite Hfr, <- set_watch_eq.
      apply (INV_set_watch st L D D n w); try assumption; try reflexivity.
      + cbn. symmetry; exact Hfr.
      + intros E. contradiction.
      + intros Hge. apply (watch_inv_closed L _ (s_bufs st)). exact (Hw n w Hnth Hge).
    - (* the watch held a reference, so its buffer exists and counts it *)
      assert (Hun : unfreed (w_subj w) w = true) by (unfold unfreed; rewrite Hfr; apply subject_eqb_refl).
      pose proof (count_pos _ _ n w Hnth Hun) as Hpos. pose proof (Hr1 (w_subj w)) as Hrs. unfold refs_of in Hrs.
      destruct (buf_get (w_subj w) (s_bufs st)) as [b|] eqn:Hbuf; cbn in Hrs; [|lia].
      destruct (close_views st w b Hfr Hbuf) as (Vi & Vr & Vc).
      remember (Nat.eqb (b_refs b) 1) as last eqn:El. symmetry in El.
      assert (Hcount : forall s', (count s' (set_nth n (closed_w w) (s_watches st)) + (if subject_eqb s' (w_subj w) then 1 else 0)
                                   = count s' (s_watches st))%nat).
      { intros s'. pose proof (count_set_nth s' n w (closed_w w) _ Hnth) as E. unfold unfreed in E. rewrite Hfr in E. cbn in E.
        destruct (subject_eqb s' (w_subj w)); lia. }
      (* a buffer that is still needed keeps its items *)
      assert (Hkeep : forall s' its, items_of s' (s_bufs st) = Some its -> (s' = w_subj w -> last = false) ->
                                     items_of s' (close_bufs st w) = Some its).
      { intros s' its Hi Hl. rewrite Vi. destruct (subject_eqbP s' (w_subj w)) as [->|_]; [|exact Hi]. rewrite (Hl eq_refl).
        unfold items_of in Hi. rewrite Hbuf in Hi. exact Hi. }
      constructor; try assumption; unfold cache_ok, watch_ok, refs_ok; cbn [set_pub s_idx s_queue s_bufs s_cache s_watches].
      + split; cbn [set_pub s_queue s_bufs s_cache s_watches]; [exact Hb1| | |].
        * intros s' its. rewrite Vi. destruct (subject_eqbP s' (w_subj w)) as [->|_]; [|apply Hb2]. destruct last; [discriminate|].
          intros H; injection H as <-. apply (Hb2 (w_subj w)). unfold items_of. rewrite Hbuf. reflexivity.
        * intros s' sn Hg. apply Vc in Hg as [Hg _]. exact (Hb3 _ _ Hg).
        * intros m x Hm Hx. apply (nth_error_set_nth_inv n m _ w x _ Hnth) in Hm as [[_ ->]|[_ Hm]]; [contradiction|exact (Hb4 m x Hm Hx)].
      + intros s' sn Hg. apply Vc in Hg as [Hg Hne]. destruct (Hc s' sn Hg) as (its & Hi & He). exists its. split; [|exact He].
        apply Hkeep; [exact Hi|]. intros ->. destruct last; [exfalso; exact (Hne eq_refl eq_refl)|reflexivity].
      + intros m x Hm Hge. apply (nth_error_set_nth_inv n m _ w x _ Hnth) in Hm as [[-> ->]|[Hne Hm]].
        * apply (watch_inv_closed L _ (s_bufs st)). exact (Hw n w Hnth Hge).
        * apply (watch_inv_bufs L _ (s_bufs st)); [|exact (Hw m x Hm Hge)]. intros Eo its Hi. apply Hkeep; [exact Hi|]. intros Es.
          (* another open watch on the subject: the reference was not the last one *)
          assert (Hux : unfreed (w_subj w) x = true) by (unfold unfreed; rewrite (proj1 (Hb4 m x Hm Eo)), Es; apply subject_eqb_refl).
          pose proof (count_two _ _ n m w x Hnth Hm Hne Hun Hux). destruct last; [apply Nat.eqb_eq in El; lia|reflexivity].
      + intros s'. generalize (Hcount s') (Hr1 s'). rewrite Vr. destruct (subject_eqbP s' (w_subj w)) as [->|_]; intros Hc1 Hr1'.
        * destruct last; [apply Nat.eqb_eq in El|]; lia.
        * destruct (refs_of s' (s_bufs st)); lia.
      + rewrite (length_set_nth n _ w _ Hnth). exact Hn.
      + rewrite (length_set_nth n _ w _ Hnth). exact Hd.
  Qed.
End Inv.
