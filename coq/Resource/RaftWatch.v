(* C18: a concrete schedule of the Raft-backed path (Store-level writes with log-index versions), used in Properties/C18.v. *)
From Verif Require Import Base.Prelude Resource.Model.
Local Open Scope N_scope.

Definition zk (nm : str) : rid := RId (RType [103] [107]) (Ten [112] [110]) nm.
Definition zres (nm uid : str) (ver data : N) : resource := Res (zk nm) [118;49] uid ver data None.

(* a Raft-shaped schedule with a restore in the middle: log indexes 3, 5, restore of the snapshot taken
   after index 3, then index 9 *)
Definition raft_demo : list op :=
  [OWriteS (zres [97] [117;49] 3 1) 0; OWriteS (zres [97] [117;49] 5 2) 3;
   ORestore [zres [97] [117;49] 3 1]; OWriteS (zres [97] [117;49] 9 3) 3].
