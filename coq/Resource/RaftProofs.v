(* C18: version CAS, lifetimes and row monotonicity for the Raft-backed path.
   raft.Backend.Apply calls Store.WriteCAS(res, presented) with res.Version = the log index, so the
   new version is chosen by the caller ([OWriteS]); a restore (snapshot install) replaces the table.
   The discipline Raft provides, and the only thing assumed here: every log index exceeds every
   version stored so far ([raft_ok], a condition on the schedule alone), restores included: after a
   restore the bound is raised to the largest version it installed.  Between restores this is the
   discipline [advs] of CasProofs.v, whose theorems give the ones here. *)
From Verif Require Import Base.Prelude Resource.Model Resource.TableProofs Resource.CasProofs.
Local Open Scope N_scope.

Definition maxver (B : N) (l : list resource) : N := fold_left (fun b r => N.max b (r_version r)) l B.

(* the highest version in use after a schedule, starting from bound B *)
Fixpoint raft_bound (B : N) (ops : list op) : N :=
  match ops with
  | [] => B
  | OWriteS r _ :: t => raft_bound (r_version r) t
  | ORestore l :: t => raft_bound (maxver B l) t
  | _ :: t => raft_bound B t
  end.

(* a schedule of the Raft-backed store: no Backend-counter writes, every written version is a fresh
   index, restored rows carry a version (>= 1) *)
Fixpoint raft_ok (B : N) (ops : list op) : Prop :=
  match ops with
  | [] => True
  | OWrite _ :: _ => False
  | OWriteS r _ :: t => B < r_version r /\ raft_ok (r_version r) t
  | ORestore l :: t => (forall r, In r l -> 1 <= r_version r) /\ raft_ok (maxver B l) t
  | _ :: t => raft_ok B t
  end.

Definition vbb (B : N) (st : store) : Prop := forall k r, lk k st = Some r -> 1 <= r_version r <= B.

Lemma maxver_spec l : forall B, B <= maxver B l /\ forall r, In r l -> r_version r <= maxver B l.
Proof.
  unfold maxver. induction l as [|x l IH]; intros B; cbn; [split; [lia|intros r []]|].
  destruct (IH (N.max B (r_version x))) as [H1 H2]. split; [lia|]. intros r [<-|Hr]; [lia|auto].
Qed.

Lemma in_restore_table r l : In r (restore_table l) -> In r l.
Proof.
  unfold restore_table. assert (G : forall t, In r (fold_left (fun t r => upsert r t) l t) -> In r t \/ In r l).
  { induction l as [|x l IH]; intros t H; cbn in *; [auto|]. apply IH in H as [H|H]; [|auto].
    apply in_upsert in H as [->|[H _]]; auto. }
  intros H. apply G in H as [[]|H]. exact H.
Qed.

Lemma raft_bound_cons B o t : raft_bound B (o :: t) = raft_bound (raft_bound B [o]) t.
Proof. destruct o; reflexivity. Qed.

Lemma raft_ok_cons B o t : raft_ok B (o :: t) -> raft_ok (raft_bound B [o]) t.
Proof. destruct o; cbn; tauto. Qed.

Lemma raft_bound_app a : forall B c, raft_bound B (a ++ c) = raft_bound (raft_bound B a) c.
Proof. induction a as [|o a IH]; intros B c; [reflexivity|]. destruct o; cbn; apply IH. Qed.

Lemma raft_ok_app a : forall B c, raft_ok B (a ++ c) <-> raft_ok B a /\ raft_ok (raft_bound B a) c.
Proof.
  induction a as [|o a IH]; intros B c; cbn [app]; [cbn; tauto|].
  destruct o; cbn [raft_ok raft_bound]; try apply IH; try tauto; rewrite IH; tauto.
Qed.

Lemma raft_adv B st o t : raft_ok B (o :: t) -> no_restore o = true -> adv B st o (raft_bound B [o]).
Proof.
  intros Hok Hnr. split; [exact Hnr|]. destruct o; try discriminate; cbn in *; try contradiction;
    (split; [lia|]); intros x v E; try discriminate. injection E as <- _. lia.
Qed.

Lemma raft_advs ops : forall B st, raft_ok B ops -> forallb no_restore ops = true -> advs B st ops (raft_bound B ops).
Proof.
  induction ops as [|o ops IH]; intros B st Hok Hnr; [constructor|]. cbn [forallb] in Hnr. apply andb_true_iff in Hnr as [Ho Hnr].
  rewrite raft_bound_cons. econstructor; [exact (raft_adv _ _ _ _ Hok Ho)|]. apply IH; [exact (raft_ok_cons _ _ _ Hok)|exact Hnr].
Qed.

Lemma raft_step B st o t : vbb B st -> raft_ok B (o :: t) ->
  B <= raft_bound B [o] /\ vbb (raft_bound B [o]) (fst (step st o)).
Proof.
  intros Hv Hok. destruct (no_restore o) eqn:Hnr.
  - pose proof (raft_adv B st o t Hok Hnr) as Ha. split; [apply Ha|exact (adv_under _ _ _ _ Hv Ha)].
  - destruct o; try discriminate. destruct Hok as [Hpos _]. destruct (maxver_spec l B) as [H1 H2]. split; [exact H1|].
    intros k x Hl. unfold lk in Hl. cbn in Hl. apply lookup_in, in_restore_table in Hl. split; auto.
Qed.

Lemma raft_run a : forall B st c, vbb B st -> raft_ok B (a ++ c) ->
  B <= raft_bound B a /\ vbb (raft_bound B a) (run st a) /\ raft_ok (raft_bound B a) c.
Proof.
  induction a as [|o a IH]; intros B st c Hv Hok; cbn [app run] in *; [cbn; split; [lia|auto]|].
  destruct (raft_step B st o (a ++ c) Hv Hok) as (H1 & H2).
  destruct (IH _ _ c H2 (raft_ok_cons _ _ _ Hok)) as (H3 & H4 & H5).
  rewrite raft_bound_cons. split; [lia|auto].
Qed.

Lemma raft_run_then a o b : forall B st c, vbb B st -> raft_ok B (a ++ o :: b ++ c) -> forallb no_restore (o :: b) = true ->
  let B1 := raft_bound B a in
  vbb B1 (run st a) /\ adv B1 (run st a) o (raft_bound B1 [o]) /\
  advs (raft_bound B1 [o]) (fst (step (run st a) o)) b (raft_bound (raft_bound B1 [o]) b).
Proof.
  intros B st c Hv Hok Hnr B1. cbn [forallb] in Hnr. apply andb_true_iff in Hnr as [Ho Hnr].
  destruct (raft_run a B st _ Hv Hok) as (_ & Hv1 & Hok1). fold B1 in Hv1, Hok1.
  split; [exact Hv1|]. split; [exact (raft_adv _ _ _ _ Hok1 Ho)|].
  apply raft_advs; [|exact Hnr]. apply raft_ok_cons, raft_ok_app in Hok1. tauto.
Qed.
