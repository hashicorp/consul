(* C09 — the declarative result [spec_response] seen through the flattened view of Spec.v:
   its identifiers are those of the readable [items], in order, and its flag says whether a
   [bad_item] is among them.  The statements are about Spec.v alone; with [switch_exact] they
   become statements about the filter code (Properties/C09.v). *)
From Verif Require Import Base.Prelude.
From Verif Require Import Base.Lists.
From Verif Require Import Filter.Model.
From Verif Require Import Filter.Loops.
From Verif Require Import Filter.Spec.
From Verif Require Import Filter.Proofs.
From Verif Require Import Filter.Switch.

Lemma somes_map_some {A B} (f : A -> B) (l : list A) : somes (map (fun x => Some (f x)) l) = map f l.
Proof. unfold somes. induction l; cbn; congruence. Qed.

Lemma somes_visible {A} (f : A -> A) (b : bool) l :
  somes (if b then map (fun x => Some (f x)) l else []) = if b then map f l else [].
Proof. destruct b; [apply somes_map_some|reflexivity]. Qed.

Lemma map_map_same {A B} (f : A -> A) (g : A -> B) l : (forall x, g (f x) = g x) -> map g (map f l) = map g l.
Proof. intros H. rewrite map_map. apply map_ext, H. Qed.

Section Items.
  Variable az : authz.

  (* [items_of], [items_unflagged] and the items of a list of prepared queries all have this form *)
  Lemma ids_items {A} (id : A -> N) (p fl : A -> bool) l :
    map it_id (filter it_readable (map (fun x => Item (id x) (p x) (fl x)) l)) = map id (filter p l).
  Proof. induction l as [|x l IH]; cbn; [reflexivity|]. destruct (p x); cbn; rewrite IH; reflexivity. Qed.

  Lemma reported_items {A} (id : A -> N) (p fl : A -> bool) l :
    existsb bad_item (map (fun x => Item (id x) (p x) (fl x)) l)
    = existsb (fun x => fl x && negb (p x)) l.
  Proof. induction l as [|x l IH]; cbn; [reflexivity|]. rewrite IH, andb_comm. reflexivity. Qed.

  Lemma removed_items {A} (id : A -> N) (p : A -> bool) l :
    existsb bad_item (map (fun x => Item (id x) (p x) true) l)
    = removed p l.
  Proof. rewrite (reported_items id p (fun _ => true)). apply existsb_negb_forallb. Qed.

  (* groups: a dropped (emptied) group contributes no identifiers *)
  Lemma ids_groups {A} (id : A -> N) (p : A -> bool) (m : amap (list A)) :
    map it_id (filter it_readable (flat_map (fun kv => map (fun x => Item (id x) (p x) true) (snd kv)) m))
    = flat_map (fun kv => map id (snd kv)) (spec_groups p m).
  Proof.
    unfold spec_groups. induction m as [|[k l] m IH]; cbn [flat_map snd fst]; [reflexivity|].
    rewrite filter_app, map_app, IH, ids_items, flat_map_app. f_equal.
    destruct (filter p l); cbn; rewrite ?app_nil_r; reflexivity.
  Qed.

  Lemma removed_groups {A} (id : A -> N) (p : A -> bool) (m : amap (list A)) :
    existsb bad_item
            (flat_map (fun kv => map (fun x => Item (id x) (p x) true) (snd kv)) m)
    = group_removed p m.
  Proof.
    unfold group_removed. induction m as [|[k l] m IH]; cbn [flat_map existsb snd]; [reflexivity|].
    rewrite existsb_app, IH, removed_items. reflexivity.
  Qed.

  (* node dumps: an unreadable node hides its services and checks *)
  Lemma ids_nodeinfo_items i :
    map it_id (filter it_readable (items_nodeinfo az i))
    = if readable_nodeinfo az i then ids_nodeinfo (spec_nodeinfo az i) else [].
  Proof.
    unfold items_nodeinfo, items_of. cbn [filter it_readable]. rewrite !filter_app.
    destruct (readable_nodeinfo az i); cbn [andb map it_id]; rewrite map_app, !ids_items, ?filter_const; reflexivity.
  Qed.

  Lemma ids_node_dump l :
    map it_id (filter it_readable (flat_map (items_nodeinfo az) l))
    = flat_map ids_nodeinfo (map (spec_nodeinfo az) (filter (readable_nodeinfo az) l)).
  Proof.
    induction l as [|i l IH]; [reflexivity|]. cbn [flat_map filter].
    rewrite filter_app, map_app, IH, ids_nodeinfo_items. destruct (readable_nodeinfo az i); reflexivity.
  Qed.

  Lemma removed_nodeinfo_items i :
    existsb bad_item (items_nodeinfo az i) = negb (nodeinfo_intact az i).
  Proof.
    unfold items_nodeinfo, items_of, nodeinfo_intact. cbn [existsb it_readable it_flagged]. rewrite existsb_app.
    destruct (readable_nodeinfo az i); cbn [andb negb orb]; [|reflexivity].
    rewrite !removed_items, negb_andb. reflexivity.
  Qed.

  Lemma removed_node_dump l :
    existsb bad_item (flat_map (items_nodeinfo az) l)
    = removed (nodeinfo_intact az) l.
  Proof.
    unfold removed. rewrite <- existsb_negb_forallb.
    induction l as [|i l IH]; [reflexivity|]. cbn [existsb flat_map].
    rewrite existsb_app, IH, removed_nodeinfo_items. reflexivity.
  Qed.

  Lemma pq_id_spec q : pq_id (spec_query az q) = pq_id q.
  Proof. unfold spec_query. destruct (acl_write az); [reflexivity|]. destruct (str_empty (pq_token q)); reflexivity. Qed.

  Lemma tk_id_spec t : tk_id (spec_token az t) = tk_id t.
  Proof. unfold spec_token. destruct (acl_write az); reflexivity. Qed.

  (* Completeness (which contains soundness, order and multiplicity): the identifiers present
     after filtering are exactly those of the readable elements, in the original order.
     The first line settles every constructor whose items are [items_of] lists, groups or node
     dumps; what is left has a guard (a node, a management right) in front of its list. *)
  Theorem spec_complete : forall r,
    ids (spec_response az r) = map it_id (filter it_readable (items az r)).
  Proof.
    destruct r; cbn [spec_response ids items]; unfold items_of, items_unflagged;
      rewrite ?filter_app, ?map_app, ?ids_items, ?ids_groups, ?ids_node_dump, ?filter_const, ?somes_visible, ?map_id;
      try reflexivity;
      (* ACL objects behind the acl:read guard: lists, then single pointers *)
      try (destruct (acl_read az); [apply map_map_same, tk_id_spec|reflexivity]);
      try (destruct t, (acl_read az); cbn; rewrite ?tk_id_spec; reflexivity);
      try (destruct p, (acl_read az); reflexivity).
    - destruct entries as [l|]; [|reflexivity].
      rewrite ids_items, filter_const, ixn_match_denied_spec, negb_involutive.
      destruct (forallb (fun e => str_empty (snd e) || intention_read az (snd e)) l); reflexivity.
    - destruct ns as [[n m]|]; [|reflexivity]. cbn [filter it_readable].
      destruct (readable_node az n); cbn [andb ids map it_id]; rewrite ids_items, ?filter_const; reflexivity.
    - destruct n as [n|]; cbn [filter it_readable]; [destruct (readable_node az n)|];
        cbn [andb ids map it_id]; rewrite ids_items, ?filter_const; reflexivity.
    - apply map_map_same, pq_id_spec.
    - cbn. rewrite pq_id_spec. reflexivity.
  Qed.

  (* The flag law: afterwards the flag is set exactly when an element whose removal has to be
     reported was removed by this run; what the flag was on entry does not matter. *)
  Theorem spec_flag : forall r,
    match flag_of (spec_response az r) with
    | Some f' => f' = existsb bad_item (items az r)
    | None => flag_of r = None
    end.
  Proof.
    destruct r; cbn [spec_response flag_of items]; unfold items_of;
      rewrite ?existsb_app, ?removed_items, ?removed_groups, ?removed_node_dump, ?reported_items, ?orb_assoc;
      try reflexivity.
    - (* RIntentionQueryMatch *) destruct entries as [l|]; [|reflexivity].
      destruct (forallb (fun e => str_empty (snd e) || intention_read az (snd e)) l); reflexivity.
    - (* RIndexedNodeServices *) destruct ns as [[n m]|]; [|reflexivity]. cbn [existsb it_readable it_flagged].
      destruct (readable_node az n); cbn [andb negb orb flag_of]; rewrite ?removed_items; reflexivity.
    - (* RIndexedNodeServiceList; without a node nothing is removed *)
      destruct n as [n|]; cbn [existsb it_readable it_flagged]; [destruct (readable_node az n)|];
        cbn [andb negb orb flag_of]; rewrite ?removed_items; try reflexivity.
      unfold removed. induction l; cbn; [reflexivity|assumption].
  Qed.
End Items.
