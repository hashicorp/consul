(* C09 — the loop shapes of the ACL filters compute List.filter (for every predicate, every
   list): the in-place deletion walk, the range/append loop, the span compaction of
   FilterEntries, and the map loops (for every visiting order). *)
From Verif Require Import Base.Prelude.
From Verif Require Import Base.Lists.
From Verif Require Import Filter.Model.

Section ListFacts.
  Context {A : Type}.

  Lemma firstn_app_exact (l r : list A) n : n = List.length l -> firstn n (l ++ r) = l.
  Proof. intros ->. rewrite firstn_app, Nat.sub_diag, firstn_all. apply app_nil_r. Qed.

  Lemma skipn_app_plus (l r : list A) n k : n = List.length l + k -> skipn n (l ++ r) = skipn k r.
  Proof. intros ->. rewrite skipn_app, skipn_all2 by lia. cbn. f_equal. lia. Qed.

  Lemma forallb_filter_id (p : A -> bool) l : forallb p l = true -> filter p l = l.
  Proof. intros H. apply filter_all. apply forallb_forall, H. Qed.

  Lemma existsb_negb_forallb : forall (p : A -> bool) l, existsb (fun x => negb (p x)) l = negb (forallb p l).
  Proof. induction l as [|x l IH]; cbn; [reflexivity|]. rewrite IH. destruct (p x); reflexivity. Qed.
End ListFacts.

Section Inplace.
  Context {A : Type}.

  Lemma nth_error_mid (pre suf : list A) x : nth_error (pre ++ x :: suf) (List.length pre) = Some x.
  Proof. induction pre as [|a pre IH]; [reflexivity|exact IH]. Qed.

  Lemma delete_at_mid (pre suf : list A) x : delete_at (List.length pre) (pre ++ x :: suf) = pre ++ suf.
  Proof. unfold delete_at. induction pre as [|a pre IH]; cbn; [reflexivity|]. f_equal. exact IH. Qed.

  Lemma set_at_mid (pre suf : list A) x y : set_at (List.length pre) y (pre ++ x :: suf) = pre ++ y :: suf.
  Proof. unfold set_at. induction pre as [|a pre IH]; cbn; [reflexivity|]. f_equal. exact IH. Qed.

  Lemma set_at_same (s : list A) i x : nth_error s i = Some x -> set_at i x s = s.
  Proof. intros E. unfold set_at. rewrite <- (nth_error_skipn_cons _ _ _ E). apply firstn_skipn. Qed.

  Definition walk_list (visit : A -> option A * bool) (l : list A) : list A :=
    flat_map (fun x => match fst (visit x) with Some y => [y] | None => [] end) l.
  Definition walk_flag (visit : A -> option A * bool) (l : list A) : bool :=
    existsb (fun x => match visit x with (None, _) => true | (Some _, r) => r end) l.

  (* Invariant of the walk at index len(pre): [pre] is final, [suf] is still to be visited.
     Holds for every fuel that covers [suf]. *)
  Lemma inplace_walk_app (visit : A -> option A * bool) : forall suf pre fuel r,
    List.length suf <= fuel ->
    inplace_walk visit fuel (List.length pre) (pre ++ suf) r
    = (pre ++ walk_list visit suf, r || walk_flag visit suf).
  Proof.
    induction suf as [|x suf IH]; intros pre fuel r Hf.
    - unfold walk_list, walk_flag. cbn [flat_map existsb]. rewrite !app_nil_r, orb_false_r.
      destruct fuel; cbn [inplace_walk]; [reflexivity|].
      rewrite (proj2 (nth_error_None pre _) (le_n _)). reflexivity.
    - destruct fuel as [|fuel]; [inversion Hf|]. apply le_S_n in Hf.
      cbn [inplace_walk]. rewrite nth_error_mid.
      unfold walk_list, walk_flag. cbn [flat_map existsb].
      destruct (visit x) as [[x'|] rx]; cbn [fst].
      + rewrite set_at_mid, <- (last_length pre x').
        change (pre ++ x' :: suf) with (pre ++ [x'] ++ suf). rewrite app_assoc, IH by exact Hf.
        unfold walk_list, walk_flag. rewrite <- app_assoc, orb_assoc. reflexivity.
      + rewrite delete_at_mid, IH by exact Hf. rewrite orb_true_r. reflexivity.
  Qed.

  Corollary inplace_walk_spec (visit : A -> option A * bool) (s : list A) :
    inplace_walk visit (List.length s) 0 s false = (walk_list visit s, walk_flag visit s).
  Proof. apply (inplace_walk_app visit s []), le_n. Qed.

  Definition keep_visit (keep : A -> bool) (x : A) : option A * bool :=
    if keep x then (Some x, false) else (None, true).

  Lemma inplace_loop_walk (keep : A -> bool) : forall fuel i s r,
    inplace_loop keep fuel i s r = inplace_walk (keep_visit keep) fuel i s r.
  Proof.
    induction fuel as [|fuel IH]; intros i s r; cbn [inplace_loop inplace_walk]; [reflexivity|].
    destruct (nth_error s i) as [x|] eqn:E; [|reflexivity].
    unfold keep_visit. destruct (keep x); rewrite IH; [|reflexivity].
    rewrite (set_at_same _ _ _ E), orb_false_r. reflexivity.
  Qed.

  Lemma walk_list_keep (keep : A -> bool) l : walk_list (keep_visit keep) l = filter keep l.
  Proof.
    unfold walk_list, keep_visit. induction l as [|x l IH]; cbn; [reflexivity|].
    rewrite IH. destruct (keep x); reflexivity.
  Qed.

  Lemma walk_flag_keep (keep : A -> bool) l : walk_flag (keep_visit keep) l = negb (forallb keep l).
  Proof.
    unfold walk_flag, keep_visit. induction l as [|x l IH]; cbn; [reflexivity|].
    rewrite IH. destruct (keep x); reflexivity.
  Qed.

  Lemma inplace_loop_app (keep : A -> bool) pre suf fuel r :
    List.length suf <= fuel ->
    inplace_loop keep fuel (List.length pre) (pre ++ suf) r
    = (pre ++ filter keep suf, r || negb (forallb keep suf)).
  Proof.
    intros Hf. rewrite inplace_loop_walk, inplace_walk_app, walk_list_keep, walk_flag_keep by exact Hf.
    reflexivity.
  Qed.

  Corollary inplace_filter_spec (keep : A -> bool) (s : list A) :
    inplace_filter keep s = (filter keep s, negb (forallb keep s)).
  Proof. apply (inplace_loop_app keep []), le_n. Qed.

  Lemma range_loop_spec (keep : A -> bool) : forall l ret r,
    range_loop keep l ret r = (ret ++ filter keep l, r || negb (forallb keep l)).
  Proof.
    induction l as [|x l IH]; intros ret r; cbn.
    - rewrite app_nil_r, orb_false_r. reflexivity.
    - destruct (keep x); rewrite IH; cbn.
      + rewrite <- app_assoc. reflexivity.
      + rewrite orb_true_r. reflexivity.
  Qed.

  Corollary range_filter_spec (keep : A -> bool) (l : list A) :
    range_filter keep l = (filter keep l, negb (forallb keep l)).
  Proof. apply range_loop_spec. Qed.

  Definition opt_list (f : A -> option A) (l : list A) : list A :=
    flat_map (fun x => match f x with Some y => [y] | None => [] end) l.

  Lemma range_opt_loop_spec (f : A -> option A) : forall l ret,
    range_opt_loop f l ret = ret ++ opt_list f l.
  Proof.
    induction l as [|x l IH]; intros ret; cbn.
    - rewrite app_nil_r. reflexivity.
    - destruct (f x); rewrite IH; cbn; [rewrite <- app_assoc|]; reflexivity.
  Qed.

  Corollary range_opt_spec (f : A -> option A) (l : list A) : range_opt f l = opt_list f l.
  Proof. apply range_opt_loop_spec. Qed.
End Inplace.

Section CompactProofs.
  Context {A : Type}.
  Variable filtered : A -> bool.
  Let keep (x : A) : bool := negb (filtered x).

  (* a run of [q] is maximal when what follows it, if anything, starts with an element failing [q] *)
  Definition stops (q : A -> bool) (back : list A) : Prop :=
    match back with [] => True | y :: _ => q y = false end.

  Lemma span_split (q : A -> bool) : forall l, exists run back, l = run ++ back /\ forallb q run = true /\ stops q back.
  Proof.
    induction l as [|x l (run & back & -> & Hr & Hb)]; [exists [], []; repeat split|].
    destruct (q x) eqn:Q.
    - exists (x :: run), back. cbn. rewrite Q, Hr. auto.
    - exists [], (x :: run ++ back). cbn. auto.
  Qed.

  Lemma scan_run (p : nat -> bool) (q : A -> bool) (a : list A) :
    (forall k x, nth_error a k = Some x -> p k = q x) ->
    forall run front back fuel i n,
      a = front ++ run ++ back -> i = List.length front -> n = List.length a ->
      forallb q run = true -> stops q back -> List.length run <= fuel ->
      scan p fuel i n = i + List.length run.
  Proof.
    intros Hp. induction run as [|x run IH]; intros front back fuel i n Ha Hi Hn Hr Hb Hf.
    - rewrite Nat.add_0_r. destruct fuel; cbn [scan]; [reflexivity|].
      destruct back as [|y back].
      + replace (i <? n) with false; [reflexivity|]. symmetry. apply Nat.ltb_ge. subst. rewrite app_length. cbn. lia.
      + rewrite (Hp i y), Hb, andb_false_r; [reflexivity|]. subst. apply nth_error_mid.
    - destruct fuel; [inversion Hf|]. apply le_S_n in Hf. cbn [scan]. cbn in Hr. apply andb_true_iff in Hr as [Hx Hr].
      rewrite (Hp i x), Hx by (subst; apply nth_error_mid).
      replace (i <? n) with true by (symmetry; apply Nat.ltb_lt; subst; rewrite app_length; cbn; lia).
      cbn [andb]. rewrite (IH (front ++ [x]) back fuel (S i) n); cbn; try assumption; try lia.
      + rewrite Ha, <- app_assoc. reflexivity.
      + rewrite last_length, Hi. reflexivity.
  Qed.

  Lemma filter_dropped l : forallb filtered l = true -> filter keep l = [].
  Proof.
    induction l as [|x l IH]; cbn; [reflexivity|]. intros H. apply andb_true_iff in H as [Hx H].
    unfold keep at 1. rewrite Hx. auto.
  Qed.

  Lemma move_parts (p g k r : list A) dst src span :
    dst = List.length p -> src = List.length p + List.length g -> span = List.length k ->
    move (p ++ g ++ k ++ r) dst src span = p ++ k ++ skipn span (g ++ k) ++ r.
  Proof.
    intros -> -> ->. unfold move. rewrite firstn_app_exact by reflexivity. f_equal.
    rewrite (skipn_app_plus p _ _ (List.length g)), (skipn_app_plus g _ _ 0), (skipn_app_plus p _ _ (List.length k))
      by (rewrite ?Nat.add_0_r; reflexivity).
    cbn [skipn]. rewrite firstn_app_exact by reflexivity. f_equal.
    rewrite (app_assoc g), skipn_app. f_equal.
    replace (List.length k - List.length (g ++ k)) with 0 by (rewrite app_length; lia). reflexivity.
  Qed.

  (* Invariant of the outer loop: the input is [done ++ rest], the slice holds the kept elements
     of [done], then as much junk as was dropped, then [rest] untouched; dst and src are the
     lengths of the first part and of the first two. *)
  Lemma compact_inv (a0 : list A) : forall fuel done junk rest,
    a0 = done ++ rest ->
    List.length (filter keep done) + List.length junk = List.length done ->
    List.length rest < fuel ->
    let c := compact filtered fuel (filter keep done ++ junk ++ rest) (List.length a0)
                     (List.length (filter keep done)) (List.length done) in
    firstn (fst c) (snd c) = filter keep a0.
  Proof.
    induction fuel as [|fuel IH]; intros done junk rest Ha Hlen Hf; [inversion Hf|].
    cbv zeta. cbn [compact].
    set (kept := filter keep done) in *. set (a := kept ++ junk ++ rest).
    assert (Hat : forall k x, nth_error a k = Some x -> filt_at filtered a k = filtered x).
    { intros k x E. unfold filt_at. rewrite E. reflexivity. }
    destruct (Nat.ltb_spec (List.length kept) (List.length a0)) as [Hdst|Hdst].
    2:{ rewrite Ha, app_length in Hdst. destruct rest; [|cbn in *; lia]. destruct junk; [|cbn in *; lia].
        cbn [fst snd]. unfold a. rewrite !app_nil_r, firstn_all, Ha, app_nil_r. reflexivity. }
    (* the first scan skips the dropped run at the head of [rest] *)
    destruct (span_split filtered rest) as (drop & rest1 & -> & Hdrop & Hstop).
    assert (Hn : List.length a0 = List.length a) by (unfold a; rewrite Ha, !app_length; lia).
    (* side conditions in the order of [scan_run]: the split of [a], the start index, the length, the run
       passes the test, what follows stops it, the fuel covers the run *)
    rewrite (scan_run _ filtered a Hat drop (kept ++ junk) rest1 _ (List.length done));
      [ | unfold a; rewrite app_assoc; reflexivity | rewrite app_length; lia | exact Hn | assumption..
        | rewrite Hn; unfold a; rewrite !app_length; lia ].
    destruct rest1 as [|y rest1].
    - (* all of [rest] is dropped *)
      replace (_ =? _) with true by (symmetry; apply Nat.eqb_eq; rewrite Hn; unfold a; rewrite !app_length; cbn; lia).
      cbn [fst snd]. unfold a. rewrite firstn_app_exact by reflexivity.
      rewrite Ha, !filter_app, (filter_dropped drop Hdrop). cbn. rewrite app_nil_r. reflexivity.
    - (* the second scan runs over the kept run that starts with y; Move copies it behind [kept] *)
      replace (_ =? _) with false by (symmetry; apply Nat.eqb_neq; rewrite Hn; unfold a; rewrite !app_length; cbn; lia).
      destruct (span_split keep rest1) as (keeps & rest2 & -> & Hkeeps & Hstop2).
      rewrite (scan_run _ keep a (fun k x E => f_equal negb (Hat k x E)) keeps (kept ++ junk ++ drop ++ [y]) rest2);
        [ | unfold a; rewrite <- !app_assoc; reflexivity | rewrite !app_length; cbn; lia | exact Hn | assumption..
          | rewrite Hn; unfold a; rewrite !app_length; cbn; rewrite app_length; lia ].
      replace (_ - _) with (List.length (y :: keeps)) by (cbn [List.length]; lia). cbn [Nat.ltb Nat.leb List.length].
      replace a with (kept ++ (junk ++ drop) ++ (y :: keeps) ++ rest2) by (unfold a; rewrite <- app_assoc; reflexivity).
      rewrite move_parts by (rewrite ?app_length; cbn; lia).
      (* the invariant holds again with both runs added to [done] *)
      specialize (IH (done ++ drop ++ y :: keeps) (skipn (S (List.length keeps)) ((junk ++ drop) ++ y :: keeps)) rest2).
      replace (filter keep (done ++ drop ++ y :: keeps)) with (kept ++ y :: keeps) in IH.
      2:{ rewrite !filter_app, (filter_dropped drop Hdrop). cbn [filter app]. unfold keep at 2. cbn in Hstop. rewrite Hstop.
          cbn [negb]. rewrite (forallb_filter_id keep keeps Hkeeps). reflexivity. }
      rewrite <- app_assoc, !app_length in IH. cbn [List.length app] in IH.
      rewrite (app_assoc kept), <- Nat.add_assoc. apply IH.
      + rewrite Ha, <- !app_assoc. reflexivity.
      + rewrite skipn_length, !app_length. cbn [List.length]. lia.
      + rewrite !app_length in Hf. cbn [List.length] in Hf. rewrite app_length in Hf. lia.
  Qed.

  Theorem compact_is_filter (a : list A) :
    filter_slice filtered a = filter (fun x => negb (filtered x)) a.
  Proof.
    unfold filter_slice, filter_entries.
    pose proof (compact_inv a (S (List.length a)) [] [] a eq_refl eq_refl (le_n _)) as H. cbn [filter app List.length] in H.
    destruct (compact filtered (S (List.length a)) a (List.length a) 0 0) as [k a']. exact H.
  Qed.
End CompactProofs.

Section MapProofs.
  Context {V : Type}.
  Implicit Types m ord : amap V.

  Definition key_is (k : string) (kv : string * V) : bool := String.eqb (fst kv) k.

  Lemma nodup_keys_same (m : amap V) k v v' :
    NoDup (map fst m) -> In (k, v) m -> In (k, v') m -> v = v'.
  Proof. intros Hnd H1 H2. pose proof (NoDup_map_inj fst m _ _ Hnd H1 H2 eq_refl). congruence. Qed.

  (* "for k, v := range m { if !keep(k, v) { removed = true; delete(m, k) } }" *)
  Fixpoint del_loop (keep : string * V -> bool) (ord m : amap V) (r : bool) : amap V * bool :=
    match ord with
    | [] => (m, r)
    | kv :: ord' => if keep kv then del_loop keep ord' m r
                    else del_loop keep ord' (map_delete (fst kv) m) true
    end.

  (* an entry survives iff no visited entry with its key was rejected *)
  Lemma del_loop_gen (keep : string * V -> bool) : forall ord m r,
    del_loop keep ord m r
    = (filter (fun kv => forallb (fun o => keep o || negb (String.eqb (fst kv) (fst o))) ord) m,
       r || negb (forallb keep ord)).
  Proof.
    induction ord as [|o ord IH]; intros m r; cbn [del_loop forallb].
    - rewrite orb_false_r, filter_const. reflexivity.
    - destruct (keep o); rewrite IH; [reflexivity|].
      unfold map_delete. rewrite filter_filter, orb_true_r. reflexivity.
  Qed.

  Lemma del_loop_spec (keep : string * V -> bool) : forall ord m,
    NoDup (map fst m) -> (forall kv, In kv ord <-> In kv m) ->
    del_loop keep ord m false = (filter keep m, negb (forallb keep m)).
  Proof.
    intros ord m Hnd Hio. rewrite del_loop_gen. cbn [orb]. f_equal.
    - apply filter_ext_in. intros [k v] Hin. cbn [fst]. destruct (keep (k, v)) eqn:K.
      + apply forallb_forall. intros [k' v'] Ho. cbn [fst].
        destruct (String.eqb k k') eqn:E; [|apply orb_true_r]. apply String.eqb_eq in E. subst k'.
        apply Hio in Ho. rewrite (nodup_keys_same m k v' v Hnd Ho Hin), K. reflexivity.
      + apply not_true_iff_false. intros H. rewrite forallb_forall in H.
        specialize (H (k, v) (proj2 (Hio _) Hin)). cbn [fst] in H. rewrite K, String.eqb_refl in H. discriminate.
    - rewrite <- !existsb_negb_forallb. apply existsb_same_members, Hio.
  Qed.

  (* "for k, v := range m { v' := tr(k, v); if gone { delete(m, k) } else { m[k] = v' } }" *)
  Fixpoint upd_loop (tr : string * V -> option V) (ord m : amap V) : amap V :=
    match ord with
    | [] => m
    | kv :: ord' => match tr kv with
                    | None => upd_loop tr ord' (map_delete (fst kv) m)
                    | Some v' => upd_loop tr ord' (map_set (fst kv) v' m)
                    end
    end.

  Definition upd_entry (tr : string * V -> option V) (ord : amap V) (e : string * V) : amap V :=
    match find (key_is (fst e)) ord with
    | Some o => match tr o with None => [] | Some v' => [(fst e, v')] end
    | None => [e]
    end.

  Lemma find_key_none ord k : ~ In k (map fst ord) -> find (key_is k) ord = None.
  Proof.
    intros H. destruct (find (key_is k) ord) as [[k' v']|] eqn:F; [|reflexivity].
    apply find_some in F as [Hin E]. apply String.eqb_eq in E. cbn in E. subst k'.
    exfalso. apply H. apply (in_map fst) in Hin. exact Hin.
  Qed.

  Lemma upd_entry_cons (tr : string * V -> option V) : forall k v ord k1 v1,
    upd_entry tr ((k, v) :: ord) (k1, v1)
    = if String.eqb k k1 then match tr (k, v) with None => [] | Some v' => [(k1, v')] end
      else upd_entry tr ord (k1, v1).
  Proof.
    intros. unfold upd_entry, key_is. cbn [fst find]. destruct (String.eqb k k1); reflexivity.
  Qed.

  Lemma upd_loop_gen (tr : string * V -> option V) : forall ord m,
    NoDup (map fst ord) -> upd_loop tr ord m = flat_map (upd_entry tr ord) m.
  Proof.
    induction ord as [|[k v] ord IH]; intros m Hnd.
    - cbn. induction m as [|e m IHm]; cbn; [reflexivity|]. rewrite <- IHm. reflexivity.
    - cbn in Hnd. inversion Hnd as [|? ? Hnin Hnd']; subst. cbn [upd_loop fst].
      destruct (tr (k, v)) as [v'|] eqn:T; rewrite IH by assumption.
      + unfold map_set. rewrite flat_map_concat_map, map_map, <- flat_map_concat_map.
        apply flat_map_ext. intros [k1 v1]. rewrite upd_entry_cons, T. cbn [fst].
        rewrite (String.eqb_sym k k1).
        destruct (String.eqb k1 k) eqn:E; [|reflexivity].
        apply String.eqb_eq in E. subst k1.
        unfold upd_entry. cbn [fst]. rewrite (find_key_none ord k Hnin). reflexivity.
      + unfold map_delete.
        induction m as [|[k1 v1] m IHm]; [reflexivity|]. cbn [filter flat_map fst].
        rewrite upd_entry_cons, T, <- IHm. rewrite (String.eqb_sym k k1).
        destruct (String.eqb k1 k); reflexivity.
  Qed.

  Lemma find_key_self ord k v : NoDup (map fst ord) -> In (k, v) ord -> find (key_is k) ord = Some (k, v).
  Proof.
    intros Hnd Hin. destruct (find (key_is k) ord) as [[k' v']|] eqn:F.
    - apply find_some in F as [Hin' E]. apply String.eqb_eq in E. cbn in E. subst k'.
      rewrite (nodup_keys_same ord k v' v Hnd Hin' Hin). reflexivity.
    - apply (find_none _ _ F) in Hin. unfold key_is in Hin. cbn in Hin. rewrite String.eqb_refl in Hin. discriminate.
  Qed.

  Lemma upd_loop_spec (tr : string * V -> option V) : forall ord m,
    NoDup (map fst ord) -> (forall kv, In kv m -> In kv ord) ->
    upd_loop tr ord m
    = flat_map (fun e => match tr e with None => [] | Some v' => [(fst e, v')] end) m.
  Proof.
    intros ord m Hnd Hin. rewrite upd_loop_gen by assumption.
    apply flat_map_ext_in. intros [k v] He. unfold upd_entry. cbn [fst].
    rewrite (find_key_self ord k v Hnd (Hin _ He)). reflexivity.
  Qed.
End MapProofs.

