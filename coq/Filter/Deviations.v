(* C09 — ONE independent rule of readability for every element kind, stated on the authorizer
   alone, against which Properties/C09.v compares the filters' own predicates ([readable_*] of
   Spec.v, which Proofs.v shows to be what the code evaluates): every deviation is named there,
   with a concrete witness ([_refuted]) and the exact condition under which the rule holds
   ([_partial]).

   The rule: an element is readable iff the node it lives on is readable under the element's own
   peer context, and every service it names is readable under that context; an element that names
   no service (node-level check) needs no service permission; a key by key:read. *)
From Verif Require Import Base.Prelude.
From Verif Require Import Filter.Model.
From Verif Require Import Filter.Spec.

Section Ideal.
  Variable az : authz.

  Definition may_node (peer n : string) : bool := node_read az peer n.
  Definition may_service (peer s : string) : bool := str_empty s || service_read az peer s.

  Definition ideal_check (c : hcheck) := may_node (h_peer c) (h_node c) && may_service (h_peer c) (h_svc c).
  Definition ideal_snode (n : snode) := may_node (sn_peer n) (sn_node n) && may_service (sn_peer n) (sn_svc n).
  Definition ideal_csn (c : csn) := may_node (c_peer c) (c_node c) && may_service (c_peer c) (c_svc c).
  Definition ideal_nsvc_on (nodename : string) (s : nsvc) := may_node (ns_peer s) nodename && may_service (ns_peer s) (ns_name s).
  Definition ideal_check_on (nodename : string) (c : hcheck) := may_node (h_peer c) nodename && may_service (h_peer c) (h_svc c).
  Definition ideal_svcname (s : svcname) := may_service EmptyString (sv_name s).
  (* a gateway mapping names two services: the gateway and the linked service *)
  Definition ideal_gwsvc (g : gwsvc) := may_service EmptyString (gs_gateway g) && may_service EmptyString (gs_service g).
  Definition ideal_svcinfo (s : svcinfo) :=
    may_service EmptyString (si_gateway s) && may_service EmptyString (si_service s)
    && match si_node s with None => true | Some (n, p) => may_node p n end.
  Definition ideal_txn (r : txnres) : bool :=
    match r with
    | TKV _ k => key_read az k
    | TNode _ n p => may_node p n
    | TSvc _ s p => may_service p s
    | TCheck _ n s p => may_node p n && may_service p s
    | TNone _ => true
    end.

  (* deviation "empty-service-name": CheckServiceNode, ServiceName lists, txn services ask
     ServiceRead("") instead of skipping the question (the filter is STRICTER) *)
  Lemma csn_ideal_partial c : str_empty (c_svc c) = false -> readable_csn az c = ideal_csn c.
  Proof. intros H. unfold readable_csn, ideal_csn, may_service. rewrite H. reflexivity. Qed.

  (* deviation "gateway-unchecked": filterGatewayServices asks only for the linked service *)
  Lemma gwsvc_ideal_partial g :
    may_service EmptyString (gs_gateway g) = true -> str_empty (gs_service g) = false ->
    readable_gwsvc az g = ideal_gwsvc g.
  Proof. intros Hg Hs. unfold readable_gwsvc, ideal_gwsvc. rewrite Hg. unfold may_service. rewrite Hs. reflexivity. Qed.
End Ideal.

(* the authorizer of the witnesses: nothing named "bad" is readable, nothing in a peer, and no
   service with an empty name *)
Definition dev_az : authz :=
  Authz (fun p n => negb (String.eqb n "bad") && String.eqb p "")
        (fun p n => negb (String.eqb n "bad") && negb (String.eqb n "") && String.eqb p "")
        (fun _ => true) (fun n => negb (String.eqb n "bad")) (fun _ => true) (fun _ => true) true false.

