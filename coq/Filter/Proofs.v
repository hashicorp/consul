(* C09 — every filter of the model computes exactly "keep the readable elements, in order,
   report whether one was removed", for every authorizer and every response. *)
From Verif Require Import Base.Prelude.
From Verif Require Import Base.Lists.
From Verif Require Import Filter.Model.
From Verif Require Import Filter.Loops.
From Verif Require Import Filter.Spec.
From Coq Require Import Permutation.

Lemma filter_removed_ext_in {A} (p q : A -> bool) l :
  (forall x, In x l -> p x = q x) -> (filter p l, negb (forallb p l)) = (filter q l, negb (forallb q l)).
Proof. intros H. rewrite (filter_ext_in _ _ _ H), (forallb_ext_in _ _ _ H). reflexivity. Qed.

Lemma inplace_filter_ext {A} (p q : A -> bool) l :
  (forall x, p x = q x) -> inplace_filter p l = (filter q l, negb (forallb q l)).
Proof. intros H. rewrite inplace_filter_spec. apply filter_removed_ext_in. auto. Qed.

Lemma range_filter_ext {A} (p q : A -> bool) l :
  (forall x, p x = q x) -> range_filter p l = (filter q l, negb (forallb q l)).
Proof. intros H. rewrite range_filter_spec. apply filter_removed_ext_in. auto. Qed.

Lemma flat_map_if_map {A B} (p : A -> bool) (f : A -> B) l :
  flat_map (fun x => if p x then [f x] else []) l = map f (filter p l).
Proof. induction l as [|x l IH]; cbn; [reflexivity|]. destruct (p x); cbn; rewrite IH; reflexivity. Qed.

(* a range loop over pointers that keeps [f x] for the non-nil [x], or nothing at all *)
Lemma opt_list_somes {A} (g : option A -> option A) (f : A -> A) (b : bool) l :
  g None = None -> (forall x, g (Some x) = if b then Some (f x) else None) ->
  opt_list (fun t => match g t with Some x => Some (Some x) | None => None end) l
  = if b then map (fun x => Some (f x)) (somes l) else [].
Proof.
  intros HN HS. unfold opt_list, somes.
  induction l as [|[x|] l IH]; cbn [flat_map]; rewrite ?HN, ?HS, ?IH; destruct b; reflexivity.
Qed.

Lemma removed_two_passes {A} (p q : A -> bool) l :
  negb (forallb p l) || negb (forallb q (filter p l)) = negb (forallb (fun x => p x && q x) l).
Proof.
  induction l as [|x l IH]; cbn; [reflexivity|].
  destruct (p x); cbn; [destruct (q x); cbn|]; try rewrite <- IH; try reflexivity.
  - rewrite orb_true_r. reflexivity.
Qed.

Lemma sticky_orb old r : sticky old r = old || r.
Proof. destruct old, r; reflexivity. Qed.

Section Proofs.
  Variable az : authz.

  (* The predicates the code evaluates are the readability predicates of Spec: by computation where the
     code spells [&&] and [||] out as they are defined, by a case split on its early returns otherwise. *)
  Lemma allow_service_ok ctx s : allow_service az ctx s = svc_ok az ctx s.
  Proof. reflexivity. Qed.
  Lemma keep_check_ok c : keep_check az c = readable_check az c.
  Proof. reflexivity. Qed.
  Lemma keep_snode_ok c : keep_snode az c = readable_snode az c.
  Proof. reflexivity. Qed.
  Lemma csn_can_read_ok c : csn_can_read az c = readable_csn az c.
  Proof.
    unfold csn_can_read, readable_csn.
    destruct (node_read az (c_peer c) (c_node c)), (service_read az (c_peer c) (c_svc c)); reflexivity.
  Qed.
  Lemma ixn_can_read_ok x : ixn_can_read az x = readable_intention az x.
  Proof.
    unfold ixn_can_read, readable_intention.
    destruct (negb (str_empty (ix_src x)) && str_empty (ix_src_peer x) && intention_read az (ix_src x));
      destruct (negb (str_empty (ix_dst x)) && intention_read az (ix_dst x)); reflexivity.
  Qed.
  Lemma keep_dump_service_ok n s : keep_dump_service az n s = readable_nsvc_on az n s.
  Proof. reflexivity. Qed.
  Lemma keep_dump_check_ok n c : keep_dump_check az n c = readable_check_on az n c.
  Proof. reflexivity. Qed.
  Lemma keep_nsvc_name_ok s : keep_nsvc_name az s = readable_nsvc az s.
  Proof. reflexivity. Qed.
  Lemma keep_svcinfo_ok s : keep_svcinfo az s = readable_svcinfo az s.
  Proof.
    unfold keep_svcinfo, readable_svcinfo, allow_gateway, local. change (allow_service az) with (svc_ok az).
    destruct (svc_ok az EmptyString (si_gateway s)), (svc_ok az EmptyString (si_service s)); reflexivity.
  Qed.
  Lemma txn_filtered_ok r : negb (txn_filtered az r) = readable_txn az r.
  Proof.
    destruct r; cbn; rewrite ?negb_involutive; try reflexivity.
    destruct (str_empty svc); cbn; rewrite negb_involutive; reflexivity.
  Qed.

  Lemma filter_health_checks_exact l :
    filter_health_checks az l = (filter (readable_check az) l, negb (forallb (readable_check az) l)).
  Proof. apply inplace_filter_ext, keep_check_ok. Qed.
  Lemma filter_service_nodes_exact l :
    filter_service_nodes az l = (filter (readable_snode az) l, negb (forallb (readable_snode az) l)).
  Proof. apply inplace_filter_ext, keep_snode_ok. Qed.
  Lemma filter_csns_exact l :
    filter_csns az l = (filter (readable_csn az) l, negb (forallb (readable_csn az) l)).
  Proof. apply inplace_filter_ext, csn_can_read_ok. Qed.
  Lemma filter_sessions_exact l :
    filter_sessions az l = (filter (readable_session az) l, negb (forallb (readable_session az) l)).
  Proof. apply inplace_filter_ext. reflexivity. Qed.
  Lemma filter_coordinates_exact l :
    filter_coordinates az l = (filter (readable_coord az) l, negb (forallb (readable_coord az) l)).
  Proof. apply inplace_filter_ext. reflexivity. Qed.
  Lemma filter_nodes_exact l :
    filter_nodes az l = (filter (readable_node az) l, negb (forallb (readable_node az) l)).
  Proof. apply inplace_filter_ext. reflexivity. Qed.
  Lemma filter_intentions_exact l :
    filter_intentions az l = (filter (readable_intention az) l, negb (forallb (readable_intention az) l)).
  Proof. apply range_filter_ext, ixn_can_read_ok. Qed.
  Lemma filter_service_dump_exact l :
    filter_service_dump az l = (filter (readable_svcinfo az) l, negb (forallb (readable_svcinfo az) l)).
  Proof. apply inplace_filter_ext, keep_svcinfo_ok. Qed.
  Lemma filter_service_list_exact l :
    filter_service_list az l = (filter (readable_svcname az) l, negb (forallb (readable_svcname az) l)).
  Proof. apply range_filter_ext. reflexivity. Qed.
  Lemma filter_gateway_services_exact l :
    filter_gateway_services az l = (filter (readable_gwsvc az) l, negb (forallb (readable_gwsvc az) l)).
  Proof. apply range_filter_ext. reflexivity. Qed.
  Lemma filter_gateways_by_gateway_exact l :
    filter_gateways_by_gateway az l
    = (filter (fun g => svc_ok az EmptyString (gs_gateway g)) l,
       negb (forallb (fun g => svc_ok az EmptyString (gs_gateway g)) l)).
  Proof. apply range_filter_ext. intros g. apply allow_service_ok. Qed.

  Lemma filter_dir_ent_exact l : filter_dir_ent az l = filter (readable_dirent az) l.
  Proof.
    unfold filter_dir_ent. rewrite compact_is_filter. apply filter_ext. intros d.
    unfold dirent_filtered, readable_dirent. apply negb_involutive.
  Qed.
  Lemma filter_txn_results_exact l : filter_txn_results az l = filter (readable_txn az) l.
  Proof. unfold filter_txn_results. rewrite compact_is_filter. apply filter_ext, txn_filtered_ok. Qed.

  Lemma filter_topology_exact u d :
    filter_topology az u d
    = ((filter (readable_csn az) u, filter (readable_csn az) d),
       negb (forallb (readable_csn az) u) || negb (forallb (readable_csn az) d)).
  Proof. unfold filter_topology. rewrite !filter_csns_exact. reflexivity. Qed.

  (* the first unreadable name empties the list: all or nothing *)
  Lemma ixn_match_denied_spec l :
    ixn_match_denied az l
    = negb (forallb (fun e => str_empty (snd e) || intention_read az (snd e)) l).
  Proof.
    induction l as [|[i n] l IH]; cbn; [reflexivity|]. rewrite IH.
    destruct (str_empty n), (intention_read az n); reflexivity.
  Qed.

  Lemma visit_nodeinfo_spec i :
    visit_nodeinfo az i
    = if readable_nodeinfo az i
      then (Some (spec_nodeinfo az i),
            negb (forallb (readable_nsvc_on az (ni_node i)) (ni_services i))
            || negb (forallb (readable_check_on az (ni_node i)) (ni_checks i)))
      else (None, true).
  Proof.
    unfold visit_nodeinfo, readable_nodeinfo, allow_node.
    destruct (node_read az (ni_peer i) (ni_node i)); cbn [negb]; [|reflexivity].
    rewrite (inplace_filter_ext _ _ _ (keep_dump_service_ok (ni_node i))).
    rewrite (inplace_filter_ext _ _ _ (keep_dump_check_ok (ni_node i))). reflexivity.
  Qed.

  Lemma filter_node_dump_exact l :
    filter_node_dump az l
    = (map (spec_nodeinfo az) (filter (readable_nodeinfo az) l), negb (forallb (nodeinfo_intact az) l)).
  Proof.
    unfold filter_node_dump. rewrite inplace_walk_spec. f_equal.
    - unfold walk_list. rewrite <- flat_map_if_map. apply flat_map_ext. intros i.
      rewrite visit_nodeinfo_spec. destruct (readable_nodeinfo az i); reflexivity.
    - unfold walk_flag. rewrite <- existsb_negb_forallb.
      induction l as [|i l IH]; cbn [existsb]; [reflexivity|]. rewrite IH. f_equal.
      rewrite visit_nodeinfo_spec. unfold nodeinfo_intact.
      destruct (readable_nodeinfo az i); cbn; [|reflexivity].
      rewrite negb_andb. reflexivity.
  Qed.

  Lemma filter_node_service_list_exact n l :
    filter_node_service_list az n l
    = match n with
      | None => ((None, l), false)
      | Some nd => if readable_node az nd
                   then ((Some nd, filter (readable_nsvc az) l), negb (forallb (readable_nsvc az) l))
                   else ((None, []), true)
      end.
  Proof.
    unfold filter_node_service_list. destruct n as [nd|]; [|reflexivity].
    unfold readable_node, allow_node. destruct (node_read az (nd_peer nd) (nd_name nd)); cbn [negb]; [|reflexivity].
    rewrite (inplace_filter_ext _ _ _ keep_nsvc_name_ok). reflexivity.
  Qed.

  Lemma filter_services_loop_del : forall ord m r,
    filter_services_loop az ord m r = del_loop (fun kv => svc_ok az EmptyString (fst kv)) ord m r.
  Proof.
    induction ord as [|[k v] ord IH]; intros m r; cbn [filter_services_loop del_loop fst]; [reflexivity|].
    rewrite !IH. reflexivity.
  Qed.

  Lemma filter_services_ord_exact ord m :
    NoDup (map fst m) -> (forall kv, In kv ord <-> In kv m) ->
    filter_services_ord az ord m
    = (filter (fun kv => svc_ok az EmptyString (fst kv)) m,
       negb (forallb (fun kv => svc_ok az EmptyString (fst kv)) m)).
  Proof. intros Hnd Hio. unfold filter_services_ord. rewrite filter_services_loop_del. apply del_loop_spec; assumption. Qed.

  Lemma node_services_loop_del nodename : forall ord m r,
    node_services_loop az nodename ord m r
    = del_loop (fun kv => readable_nsvc_on az nodename (snd kv)) ord m r.
  Proof.
    induction ord as [|[k v] ord IH]; intros m r; cbn [node_services_loop del_loop fst snd]; [reflexivity|].
    rewrite !IH. reflexivity.
  Qed.

  Lemma filter_node_services_ord_exact ord n m :
    NoDup (map fst m) -> (forall kv, In kv ord <-> In kv m) ->
    filter_node_services_ord az ord (Some (n, m))
    = if readable_node az n
      then (Some (n, filter (fun kv => readable_nsvc_on az (nd_name n) (snd kv)) m),
            negb (forallb (fun kv => readable_nsvc_on az (nd_name n) (snd kv)) m))
      else (None, true).
  Proof.
    intros Hnd Hio. unfold filter_node_services_ord, readable_node, allow_node.
    destruct (node_read az (nd_peer n) (nd_name n)); cbn [negb]; [|reflexivity].
    rewrite node_services_loop_del, del_loop_spec by assumption. reflexivity.
  Qed.

  Lemma dc_loop_spec : forall ord out removed,
    dc_loop az ord out removed
    = (out ++ spec_groups (readable_csn az) ord, removed || group_removed (readable_csn az) ord).
  Proof.
    induction ord as [|[dc nodes] ord IH]; intros out removed; cbn [dc_loop].
    - cbn. rewrite app_nil_r, orb_false_r. reflexivity.
    - rewrite filter_csns_exact.
      unfold spec_groups, group_removed. cbn [flat_map existsb fst snd].
      destruct (filter (readable_csn az) nodes) as [|c l'] eqn:F; cbn [List.length Nat.ltb Nat.leb];
        rewrite IH; unfold spec_groups, group_removed; rewrite <- ?app_assoc; cbn [app];
        destruct (negb (forallb (readable_csn az) nodes)); destruct removed; reflexivity.
  Qed.

  Lemma filter_dc_nodes_exact m :
    filter_dc_nodes az m = (spec_groups (readable_csn az) m, group_removed (readable_csn az) m).
  Proof. apply dc_loop_spec. Qed.

  Lemma spec_groups_perm {A} (p : A -> bool) (m m' : amap (list A)) :
    Permutation m m' -> Permutation (spec_groups p m) (spec_groups p m').
  Proof.
    intros H. unfold spec_groups. induction H; cbn.
    - constructor.
    - apply Permutation_app_head. assumption.
    - rewrite !app_assoc. apply Permutation_app_tail. apply Permutation_app_comm.
    - eapply perm_trans; eassumption.
  Qed.

  Definition exported_tr (kv : string * list svcname) : option (list svcname) :=
    let l := filter (readable_svcname az) (snd kv) in
    if List.length l =? 0 then None else Some l.

  Lemma exported_loop_upd : forall ord m flag,
    exported_loop az ord m flag
    = (upd_loop exported_tr ord m, flag || group_removed (readable_svcname az) ord).
  Proof.
    induction ord as [|[peer svcs] ord IH]; intros m flag; cbn [exported_loop upd_loop].
    - cbn. rewrite orb_false_r. reflexivity.
    - rewrite filter_service_list_exact. unfold exported_tr at 1. cbn [snd fst].
      unfold group_removed. cbn [existsb snd].
      destruct (List.length (filter (readable_svcname az) svcs) =? 0); rewrite IH; unfold group_removed;
        (f_equal; destruct (negb (forallb (readable_svcname az) svcs)); destruct flag; reflexivity).
  Qed.

  Lemma exported_tr_groups m :
    flat_map (fun e => match exported_tr e with None => [] | Some v' => [(fst e, v')] end) m
    = spec_groups (readable_svcname az) m.
  Proof.
    unfold spec_groups. apply flat_map_ext. intros [k l]. unfold exported_tr. cbn [fst snd].
    destruct (filter (readable_svcname az) l); reflexivity.
  Qed.

  Lemma exported_loop_exact ord m flag :
    NoDup (map fst ord) -> (forall kv, In kv ord <-> In kv m) ->
    exported_loop az ord m flag
    = (spec_groups (readable_svcname az) m, flag || group_removed (readable_svcname az) m).
  Proof.
    intros Hnd Hio. rewrite exported_loop_upd.
    rewrite upd_loop_spec by (try assumption; intros kv; apply Hio).
    rewrite exported_tr_groups. f_equal. f_equal.
    unfold group_removed. apply existsb_same_members. assumption.
  Qed.

  Lemma redact_query_spec q : redact_query az q = spec_query az q.
  Proof.
    unfold redact_query, spec_query. destruct (acl_write az); [reflexivity|].
    destruct (str_empty (pq_token q)); reflexivity.
  Qed.

  Lemma pq_loop_spec (Hw : acl_write az = false) : forall l ret nr,
    pq_loop az l ret nr
    = (ret ++ map (spec_query az) (filter (readable_query az) l),
       nr || existsb (fun q => query_named q && negb (readable_query az q)) l).
  Proof.
    assert (Hrq : forall q, readable_query az q = query_named q && query_read az (pq_name q)).
    { intros q. unfold readable_query. rewrite Hw. reflexivity. }
    induction l as [|q l IH]; intros ret nr; cbn [pq_loop filter map existsb].
    - rewrite app_nil_r, orb_false_r. reflexivity.
    - rewrite (Hrq q). change (pq_has_name q) with (query_named q).
      destruct (query_named q); cbn [andb negb].
      + destruct (query_read az (pq_name q)); cbn [negb andb orb map]; rewrite IH.
        * rewrite redact_query_spec, <- app_assoc. reflexivity.
        * rewrite orb_true_r. reflexivity.
      + rewrite IH. reflexivity.
  Qed.

  Lemma filter_prepared_queries_exact l :
    filter_prepared_queries az l
    = (map (spec_query az) (filter (readable_query az) l),
       existsb (fun q => query_named q && negb (readable_query az q)) l).
  Proof.
    unfold filter_prepared_queries. destruct (acl_write az) eqn:Hw; [|apply (pq_loop_spec Hw)].
    (* management sees every query, unredacted *)
    unfold readable_query, spec_query. rewrite Hw. cbn [orb negb]. rewrite filter_const, map_id. f_equal.
    induction l as [|q l IH]; cbn; [reflexivity|]. rewrite andb_false_r. exact IH.
  Qed.

  Lemma filter_token_spec t :
    filter_token az t = match t with
                        | None => None
                        | Some tk => if acl_read az then Some (spec_token az tk) else None
                        end.
  Proof.
    unfold filter_token, spec_token. destruct t as [tk|]; [|reflexivity].
    destruct (acl_read az), (acl_write az); reflexivity.
  Qed.

  Lemma filter_aclobj_spec p : filter_aclobj az p = if acl_read az then p else None.
  Proof. unfold filter_aclobj. destruct p, (acl_read az); reflexivity. Qed.

  Lemma filter_tokens_exact l :
    filter_tokens az l = if acl_read az then map (fun t => Some (spec_token az t)) (somes l) else [].
  Proof.
    unfold filter_tokens. rewrite range_opt_spec.
    apply opt_list_somes; [reflexivity|]. intros tk. apply (filter_token_spec (Some tk)).
  Qed.

  Lemma filter_aclobjs_exact l :
    filter_aclobjs az l = if acl_read az then map Some (somes l) else [].
  Proof.
    unfold filter_aclobjs. rewrite range_opt_spec.
    apply (opt_list_somes (filter_aclobj az) (fun x => x)); [reflexivity|]. intros x. apply filter_aclobj_spec.
  Qed.
End Proofs.
