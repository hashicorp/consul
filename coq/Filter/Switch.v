(* C09 — the whole Filter.Filter type switch refines the declarative specification
   [spec_response], for every response of every type and every authorizer.  Items.v reads
   soundness, completeness (order, multiplicity) and the flag law off [spec_response]. *)
From Verif Require Import Base.Prelude.
From Verif Require Import Base.Lists.
From Verif Require Import Filter.Model.
From Verif Require Import Filter.Loops.
From Verif Require Import Filter.Spec.
From Verif Require Import Filter.Proofs.

Section Switch.
  Variable az : authz.

  (* Each branch is rewritten with what its filters compute; the branches left are those that
     read a map in its own order (unique keys), return a node pointer, or run two passes over
     one list. *)
  Theorem switch_exact : forall r, wf r -> filter_response az r = spec_response az r.
  Proof.
    intros r Hwf. destruct r; cbn [filter_response spec_response];
      rewrite ?filter_csns_exact, ?filter_topology_exact, ?filter_dc_nodes_exact, ?filter_coordinates_exact,
        ?filter_health_checks_exact, ?filter_intentions_exact, ?filter_node_dump_exact, ?filter_service_dump_exact,
        ?filter_nodes_exact, ?filter_node_service_list_exact, ?filter_service_nodes_exact, ?filter_sessions_exact,
        ?filter_prepared_queries_exact, ?redact_query_spec, ?filter_tokens_exact, ?filter_token_spec,
        ?filter_aclobjs_exact, ?filter_aclobj_spec, ?filter_service_list_exact, ?filter_gateway_services_exact,
        ?filter_gateways_by_gateway_exact, ?filter_dir_ent_exact, ?filter_txn_results_exact, ?sticky_orb;
      try reflexivity.
    - (* RIntentionQueryMatch *) destruct entries as [l|]; cbn [filter_intention_match]; [|reflexivity].
      rewrite ixn_match_denied_spec.
      destruct (forallb (fun e => str_empty (snd e) || intention_read az (snd e)) l); reflexivity.
    - (* RIndexedNodeServices *) destruct ns as [[n m]|]; [|reflexivity]. unfold filter_node_services.
      rewrite filter_node_services_ord_exact by (try exact Hwf; intros; reflexivity).
      destruct (readable_node az n); reflexivity.
    - (* RIndexedNodeServiceList *) destruct n as [nd|]; [|reflexivity]. destruct (readable_node az nd); reflexivity.
    - (* RIndexedServices *) unfold filter_services. rewrite filter_services_ord_exact by (try exact Hwf; intros; reflexivity).
      reflexivity.
    - (* RIndexedExportedServiceList *) rewrite exported_loop_exact by (try exact Hwf; intros; reflexivity). reflexivity.
    - (* RIndexedNodesWithGateways *) rewrite filter_filter. unfold removed.
      rewrite <- (orb_assoc (negb (forallb (readable_csn az) nodes))).
      rewrite (removed_two_passes (readable_gwsvc az) (fun g => svc_ok az EmptyString (gs_gateway g)) gws).
      reflexivity.
  Qed.

  (* an item whose removal the flag has to report *)
  Definition bad_item (it : item) : bool := negb (it_readable it) && it_flagged it.

  Lemma unflagged_no_flag {A} (id : A -> N) (p : A -> bool) (l : list A) :
    existsb (fun it => negb (it_readable it) && it_flagged it) (items_unflagged id p l) = false.
  Proof. unfold items_unflagged. induction l; cbn; [reflexivity|]. rewrite andb_false_r. assumption. Qed.

  Lemma filter_app_map {A} (p : A -> bool) l1 l2 : filter p (l1 ++ l2) = filter p l1 ++ filter p l2.
  Proof. apply filter_app. Qed.

  Lemma filter_andb_true {A} (p : A -> bool) l : filter (fun x => true && p x) l = filter p l.
  Proof. apply filter_ext. reflexivity. Qed.
End Switch.
