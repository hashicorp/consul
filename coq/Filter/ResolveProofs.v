(* C09 — an expired token is never honoured, whatever the cache holds, whatever the backend
   and the primary datacenter answer, for every down policy and on every retry. *)
From Verif Require Import Base.Prelude.
From Verif Require Import Filter.ResolveModel.

Lemma is_expired_spec t now :
  is_expired t now = true <->
  now <> 0%N /\ exists e, id_exp t = Some e /\ e <> 0%N /\ (e < now)%N.
Proof.
  unfold is_expired, has_expiration. destruct (id_exp t) as [e|].
  2:{ rewrite orb_true_r. split; [discriminate|]. intros (_ & e & He & _). discriminate. }
  destruct (N.eqb_spec now 0) as [->|H0]; [split; [discriminate|intros [H _]; contradiction]|].
  destruct (N.eqb_spec e 0) as [->|He]; cbn [negb orb].
  - split; [discriminate|]. intros (_ & e' & [= <-] & Hne & _). contradiction.
  - rewrite N.ltb_lt. split; [intros H; eauto 6|]. intros (_ & e' & [= <-] & _ & Hlt). exact Hlt.
Qed.

Lemma is_expired_mono t n1 n2 : is_expired t n1 = true -> (n1 <= n2)%N -> is_expired t n2 = true.
Proof.
  rewrite !is_expired_spec. intros (H0 & e & He & Hne & Hlt) Hle. split; [lia|]. exists e. repeat split; auto. lia.
Qed.

Lemma no_expiration_never_expired t now : has_expiration t = false -> is_expired t now = false.
Proof. intros H. unfold is_expired. rewrite H. cbn [negb]. rewrite orb_true_r. reflexivity. Qed.

Inductive offered (bk : bk_out) (cache : option ident) (rpc : rpc_out) (t : ident) : Prop :=
| from_backend e : bk = BkDone (Some t) e -> offered bk cache rpc t
| from_cache : cache = Some t -> offered bk cache rpc t
| from_rpc s : rpc = RpcToken t s -> offered bk cache rpc t.

Lemma fetch_sources bk cached rpc down t e c' :
  fetch_and_cache cached rpc down = ((Some t, e), c') -> offered bk cached rpc t.
Proof.
  unfold fetch_and_cache. destruct rpc as [i s| | |]; try discriminate.
  - destruct (id_local i && negb s); [discriminate|]. intros [= -> _ _]. eapply from_rpc. reflexivity.
  - destruct cached as [c|]; [|discriminate]. destruct (extends_cache down); [|discriminate].
    intros [= -> _ _]. apply from_cache. reflexivity.
Qed.

Lemma resolve_identity_sources bk cache fresh rpc down t e c' :
  resolve_identity bk cache fresh rpc down = ((Some t, e), c') -> offered bk cache rpc t.
Proof.
  unfold resolve_identity. destruct bk as [|i be].
  - destruct cache as [c|]; [|apply fetch_sources].
    destruct fresh; [intros [= -> _ _]; apply from_cache; reflexivity|].
    destruct (fetch_and_cache (Some c) rpc down) as [[i' e'] c''] eqn:F.
    destruct down; intros [= -> _ _]; try exact (fetch_sources _ _ _ _ _ _ _ F).
    (* async: the stale entry itself *)
    apply from_cache. reflexivity.
  - intros [= -> _ _]. eapply from_backend. reflexivity.
Qed.

(* Whatever is granted was offered by one of the sources at the attempt that granted it and
   passed the expiry test of that attempt; a retry starts from an empty cache. *)
Lemma granted_offered env down : forall fuel i cache last t c',
  resolve_loop env down fuel i cache last = (OGranted t, c') ->
  exists k ck, i <= k < i + fuel /\ (k = i /\ ck = cache \/ i < k /\ ck = None)
    /\ offered (a_bk (env k)) ck (a_rpc (env k)) t /\ is_expired t (a_now (env k)) = false.
Proof.
  induction fuel as [|fuel IH]; intros i cache last t c' H; cbn [resolve_loop] in H; [discriminate|].
  destruct (resolve_identity (a_bk (env i)) cache (a_fresh (env i)) (a_rpc (env i)) down) as [[idn err] cache1] eqn:R.
  destruct err; try discriminate.
  destruct idn as [t0|]; [|discriminate].
  destruct (is_expired t0 (a_now (env i))) eqn:E; [discriminate|].
  destruct (a_pol (env i)); try discriminate.
  - injection H as -> _. exists i, cache. split; [lia|]. split; [left; split; reflexivity|].
    split; [|exact E]. eapply resolve_identity_sources, R.
  - apply IH in H as (k & ck & Hk & Hck & Ho & Hx). exists k, None.
    assert (ck = None) as -> by (destruct Hck as [[_ ->]|[_ ->]]; reflexivity).
    split; [lia|]. split; [right; split; [lia|reflexivity]|]. split; assumption.
Qed.

(* An identity that is expired at the time of the attempt — wherever it was obtained: backend,
   fresh cache entry, stale entry served asynchronously, extended cache, primary datacenter —
   ends the resolution with "ACL not found". *)
Lemma expired_not_found env down fuel i cache last t c1 :
  resolve_identity (a_bk (env i)) cache (a_fresh (env i)) (a_rpc (env i)) down = ((Some t, INone), c1) ->
  is_expired t (a_now (env i)) = true ->
  resolve_loop env down (S fuel) i cache last = (OErr ENotFound, c1).
Proof. intros H E. cbn [resolve_loop]. rewrite H, E. reflexivity. Qed.

(* If every token any source offers at an attempt is expired by then, the outcome does not
   depend on any token: not found, an error, or the token-independent down policy. *)
Lemma all_expired_at env down fuel i cache last :
  (forall t, offered (a_bk (env i)) cache (a_rpc (env i)) t -> is_expired t (a_now (env i)) = true) ->
  match fst (resolve_loop env down (S fuel) i cache last) with
  | OErr _ | ODown => True
  | _ => False
  end.
Proof.
  intros Hall. cbn [resolve_loop].
  destruct (resolve_identity (a_bk (env i)) cache (a_fresh (env i)) (a_rpc (env i)) down) as [[idn err] c1] eqn:R.
  destruct err; cbn; auto.
  destruct idn as [t|]; cbn; auto.
  rewrite (Hall t (resolve_identity_sources _ _ _ _ _ _ _ _ R)). cbn. exact I.
Qed.

Corollary uncached_primary_returns_expired env down fuel t s last :
  a_bk (env 0) = BkNotDone -> a_rpc (env 0) = RpcToken t s -> id_local t && negb s = false ->
  is_expired t (a_now (env 0)) = true ->
  resolve_loop env down (S fuel) 0 None last = (OErr ENotFound, Some t).
Proof.
  intros Hb Hr Hl E. eapply expired_not_found; [|exact E].
  unfold resolve_identity, fetch_and_cache. rewrite Hb, Hr, Hl. reflexivity.
Qed.

Lemma auth_of_token o t : auth_of o = ByToken t -> o = OGranted t.
Proof. destruct o; cbn; congruence. Qed.

(* Endpoints that keep the authorizer: every run is authorized by the token resolved before the
   loop, the runs after its expiration included (Properties/C09.v, C09_held_authorizer_refuted) *)
Theorem held_runs_by_first t times k :
  k < List.length times -> nth_error (blocking_held (OGranted t) times) k = Some (ByToken t).
Proof.
  intros Hk. unfold blocking_held. cbn [auth_of].
  destruct (nth_error times k) as [now|] eqn:E; [|apply nth_error_None in E; lia].
  rewrite nth_error_map, E. reflexivity.
Qed.

Theorem mask_only_clears blank ok anon flag : mask_flag blank ok anon flag = true -> flag = true.
Proof. unfold mask_flag. destruct blank, ok, anon; cbn; congruence. Qed.
