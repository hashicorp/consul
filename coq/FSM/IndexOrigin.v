(* Property C01, clause "no replicated value may depend on anything not carried in the command":
   every Raft index the core store model writes into a row (create / modify indexes, tombstones,
   the index table) is the index of the log entry being applied or an index that was already in
   the store.  There is no local counter. *)
From stdpp Require Import gmap strings.
From RecordUpdate Require Import RecordSet.
From Coq Require Import NArith.
From Verif Require Import Store.Model Store.Walk.
Import RecordSetNotations.
Local Open Scope N_scope.

Definition Bnd (P : N -> Prop) (s : st) : Prop :=
  map_Forall (fun _ e => P (kv_create e) /\ P (kv_modify e)) (kvs s) /\
  map_Forall (fun _ n => P n) (tombs s) /\
  map_Forall (fun _ x => P (s_create x)) (sessions s) /\
  map_Forall (fun _ x => P (n_create x) /\ P (n_modify x)) (nodes s) /\
  map_Forall (fun _ x => P (sv_create x) /\ P (sv_modify x)) (services s) /\
  map_Forall (fun _ x => P (c_create x) /\ P (c_modify x)) (checks s) /\
  map_Forall (fun _ n => P n) (index s).

Definition has_idx (s : st) (n : N) : Prop :=
  (exists k e, kvs s !! k = Some e /\ (kv_create e = n \/ kv_modify e = n)) \/
  (exists k, tombs s !! k = Some n) \/
  (exists k x, sessions s !! k = Some x /\ s_create x = n) \/
  (exists k x, nodes s !! k = Some x /\ (n_create x = n \/ n_modify x = n)) \/
  (exists k x, services s !! k = Some x /\ (sv_create x = n \/ sv_modify x = n)) \/
  (exists k x, checks s !! k = Some x /\ (c_create x = n \/ c_modify x = n)) \/
  (exists k, index s !! k = Some n).

Lemma Bnd_has_idx P s : Bnd P s <-> (forall n, has_idx s n -> P n).
Proof.
  split.
  - intros (Hk & Ht & Hs & Hn & Hv & Hc & Hi) n [H|[H|[H|[H|[H|[H|H]]]]]].
    + destruct H as (k & e & He & [<-|<-]); [apply (Hk k e He)|apply (Hk k e He)].
    + destruct H as (k & He). apply (Ht k n He).
    + destruct H as (k & x & He & <-). apply (Hs k x He).
    + destruct H as (k & x & He & [<-|<-]); apply (Hn k x He).
    + destruct H as (k & x & He & [<-|<-]); apply (Hv k x He).
    + destruct H as (k & x & He & [<-|<-]); apply (Hc k x He).
    + destruct H as (k & He). apply (Hi k n He).
  - intros H. unfold Bnd.
    split; [intros k x Hx; split; apply H; left; eauto 6|].
    split; [intros k x Hx; apply H; right; left; eauto|].
    split; [intros k x Hx; apply H; do 2 right; left; eauto|].
    split; [intros k x Hx; split; apply H; do 3 right; left; eauto 6|].
    split; [intros k x Hx; split; apply H; do 4 right; left; eauto 6|].
    split; [intros k x Hx; split; apply H; do 5 right; left; eauto 6|].
    intros k x Hx; apply H; do 6 right; eauto.
Qed.

Section MF.
  Context {K A : Type} `{Countable K} (Q : K -> A -> Prop).
  Lemma mf_filter (F : K * A -> Prop) `{forall x, Decision (F x)} (m : gmap K A) :
    map_Forall Q m -> map_Forall Q (filter F m).
  Proof. intros Hm k x Hx. apply map_filter_lookup_Some in Hx as [Hx _]. exact (Hm k x Hx). Qed.
  Lemma mf_fmap (f : A -> A) (m : gmap K A) :
    (forall k x, Q k x -> Q k (f x)) -> map_Forall Q m -> map_Forall Q (f <$> m).
  Proof.
    intros Hf Hm k x Hx. rewrite lookup_fmap in Hx. destruct (m !! k) as [y|] eqn:Ey; [|discriminate].
    cbn in Hx. injection Hx as <-. apply Hf. exact (Hm k y Ey).
  Qed.
End MF.

Ltac bsplit := unfold Bnd; split; [|split; [|split; [|split; [|split; [|split]]]]].

Section Origin.
  Variable P : N -> Prop.
  Variable idx : N.
  Hypothesis Pidx : P idx.

  Notation B := (Bnd P).

  Lemma B_intro s s' :
    map_Forall (fun _ e => P (kv_create e) /\ P (kv_modify e)) (kvs s') ->
    map_Forall (fun _ n => P n) (tombs s') ->
    map_Forall (fun _ x => P (s_create x)) (sessions s') ->
    map_Forall (fun _ x => P (n_create x) /\ P (n_modify x)) (nodes s') ->
    map_Forall (fun _ x => P (sv_create x) /\ P (sv_modify x)) (services s') ->
    map_Forall (fun _ x => P (c_create x) /\ P (c_modify x)) (checks s') ->
    map_Forall (fun _ n => P n) (index s') -> B s -> B s'.
  Proof. intros. bsplit; assumption. Qed.

  (* the check links, the prepared queries and the lock delays carry no index *)
  Lemma B_schecks s f : B s -> B (s <| schecks ::= f |>).
  Proof. exact id. Qed.
  Lemma B_queries s f : B s -> B (s <| queries ::= f |>).
  Proof. exact id. Qed.
  Lemma B_lockdelay s f : B s -> B (s <| lockdelay ::= f |>).
  Proof. exact id. Qed.

  Lemma set_index_B k s : B s -> B (set_index k idx s).
  Proof.
    intros (Hk & Ht & Hs & Hn & Hv & Hc & Hi). bsplit; cbn; try assumption.
    apply map_Forall_insert_2; assumption.
  Qed.

  Lemma kvs_set_B k e u s : B s -> B (kvs_set idx k e u s).1.
  Proof.
    intros HB. pose proof HB as (Hk & Ht & Hs & Hn & Hv & Hc & Hi). unfold kvs_set.
    destruct (kvs s !! k) as [x|] eqn:Ex.
    - destruct (kv_same x _); cbn; [exact HB|].
      apply set_index_B. bsplit; cbn; try assumption.
      apply map_Forall_insert_2; [|exact Hk]. cbn. split; [apply (Hk k x Ex)|exact Pidx].
    - cbn. apply set_index_B. bsplit; cbn; try assumption.
      apply map_Forall_insert_2; [|exact Hk]. cbn. split; exact Pidx.
  Qed.

  Lemma kvs_delete_B k s : B s -> B (kvs_delete idx k s).
  Proof.
    intros HB. unfold kvs_delete. destruct (kvs s !! k); [|exact HB].
    apply set_index_B.
    assert (H1 : B (set_index "tombstones" idx (s <| tombs ::= <[k := idx]> |>))).
    { apply set_index_B. destruct HB as (Hk & Ht & Hs & Hn & Hv & Hc & Hi). bsplit; cbn; try assumption.
      apply map_Forall_insert_2; assumption. }
    destruct H1 as (Hk & Ht & Hs & Hn & Hv & Hc & Hi). cbn in *; bsplit; cbn; try assumption.
    apply map_Forall_delete. exact Hk.
  Qed.

  Lemma kvs_delete_tree_B p s : B s -> B (kvs_delete_tree idx p s).
  Proof.
    intros HB. unfold kvs_delete_tree. destruct (bool_decide _); [exact HB|].
    apply set_index_B.
    assert (H1 : B (s <| kvs ::= filter (fun kv => has_prefix p kv.1 = false) |>
                      <| tombs ::= filter (fun kt => has_prefix p kt.1 = false) |>)).
    { destruct HB as (Hk & Ht & Hs & Hn & Hv & Hc & Hi). bsplit; cbn; try assumption.
      - apply mf_filter. exact Hk.
      - apply mf_filter. exact Ht. }
    destruct (bool_decide (p = "")); [exact H1|].
    apply set_index_B. destruct H1 as (Hk & Ht & Hs & Hn & Hv & Hc & Hi). cbn in *; bsplit; cbn; try assumption.
    apply map_Forall_insert_2; assumption.
  Qed.

  Lemma B_kv_step s s' : B s -> kv_step idx s s' -> B s'.
  Proof.
    intros HB. destruct 1; [exact HB|apply kvs_set_B|apply kvs_delete_B|apply kvs_delete_tree_B]; exact HB.
  Qed.

  Lemma reap_B upto s : B s -> B (reap_tombstones upto s).
  Proof.
    intros (Hk & Ht & Hs & Hn & Hv & Hc & Hi). unfold reap_tombstones; bsplit; cbn; try assumption.
    apply mf_filter. exact Ht.
  Qed.

  (* a check row written with its own indexes preserved must carry bounded ones *)
  Definition hc_ok (pre : bool) (hc : check) : Prop := pre = true -> P (c_create hc) /\ P (c_modify hc).

  Lemma store_check_B pre nd cid hc s0 s :
    B s0 -> B s -> hc_ok pre hc -> B (store_check pre idx nd cid hc (checks s0 !! (nd, cid)) s).
  Proof.
    intros HB0 HB Hhc. unfold store_check.
    destruct (match checks s0 !! (nd, cid) with Some x => negb (check_same x hc) | None => true end); [|exact HB].
    destruct HB as (Hk & Ht & Hs & Hn & Hv & Hc & Hi). bsplit; cbn; try assumption.
    apply map_Forall_insert_2; [|exact Hc]. cbn.
    destruct HB0 as (_ & _ & _ & _ & _ & Hc0 & _).
    destruct (checks s0 !! (nd, cid)) as [x|] eqn:Ex.
    - pose proof (Hc0 _ x Ex) as [? ?]. destruct pre; split; assumption.
    - destruct pre; [destruct (Hhc eq_refl); split; assumption|split; exact Pidx].
  Qed.

  Lemma release_or_delete_keys_B sid ss s : B s -> B (release_or_delete_keys idx sid ss s).
  Proof.
    intros HB. unfold release_or_delete_keys. destruct (bool_decide _); [exact HB|].
    destruct HB as (Hk & Ht & Hs & Hn & Hv & Hc & Hi).
    assert (Hheld : map_Forall (fun _ n => P n)
                      ((fun _ : kvent => idx) <$> filter (fun kv : string * kvent => kv_session kv.2 = sid) (kvs s))).
    { intros k x Hx. rewrite lookup_fmap in Hx. destruct (filter _ (kvs s) !! k); [|discriminate].
      injection Hx as <-. exact Pidx. }
    destruct (s_delete ss), (s_delay ss); try apply B_lockdelay; repeat apply set_index_B;
      bsplit; cbn; try assumption;
      first [apply mf_filter; exact Hk|apply map_Forall_union_2; assumption|apply mf_fmap; [|exact Hk]];
      intros k x [Hx1 Hx2]; destruct (bool_decide _); cbn; split; assumption.
  Qed.

  Lemma drop_session_B sid ss s : B s -> B (drop_session idx sid ss s).
  Proof.
    intros HB.
    destruct (drop_session_cases idx sid ss s) as [-> | ->]; [|apply set_index_B, B_queries];
      apply B_schecks, release_or_delete_keys_B, set_index_B;
      destruct HB as (Hk & Ht & Hs & Hn & Hv & Hc & Hi); bsplit; cbn; try assumption;
      apply map_Forall_delete; exact Hs.
  Qed.

  Lemma B_casc_at : casc_at idx hc_ok B.
  Proof.
    split.
    - intros s s1 pre nd cid hc. apply store_check_B.
    - intros pre hc n Hok. exact Hok.
    - intros s sid ss HB _. apply drop_session_B. exact HB.
    - intros s nd cid c status o (_ & _ & _ & _ & _ & Hc & _) Hx _ _. exact (Hc _ c Hx).
  Qed.

  Lemma B_rows_at : rows_at idx B.
  Proof.
    split.
    - intros s k (Hk & Ht & Hs & Hn & Hv & Hc & Hi). bsplit; cbn; try assumption. apply map_Forall_delete, Hc.
    - intros s k (Hk & Ht & Hs & Hn & Hv & Hc & Hi). bsplit; cbn; try assumption. apply map_Forall_delete, Hv.
    - intros s k (Hk & Ht & Hs & Hn & Hv & Hc & Hi). bsplit; cbn; try assumption. apply map_Forall_delete, Hn.
    - intros s k name port (Hk & Ht & Hs & Hn & Hv & Hc & Hi). bsplit; cbn; try assumption.
      apply map_Forall_insert_2; [split; exact Pidx|exact Hv].
    - intros s k name port x (Hk & Ht & Hs & Hn & Hv & Hc & Hi) Hx. bsplit; cbn; try assumption.
      apply map_Forall_insert_2; [split; [apply (Hv _ x Hx)|exact Pidx]|exact Hv].
    - intros s nd id addr (Hk & Ht & Hs & Hn & Hv & Hc & Hi). bsplit; cbn; try assumption.
      apply map_Forall_insert_2; [split; exact Pidx|exact Hn].
    - intros s' s nd id addr nm x (_ & _ & _ & Hn' & _) Hx (Hk & Ht & Hs & Hn & Hv & Hc & Hi).
      bsplit; cbn; try assumption.
      apply map_Forall_insert_2; [split; [apply (Hn' _ x Hx)|exact Pidx]|exact Hn].
  Qed.

  Lemma B_cat_step s r : B s -> cat_step idx s r -> rpost (nofuel B) B r.
  Proof. apply (cat_step_casc idx hc_ok B B_casc_at B_rows_at). intros hc Hx. discriminate. Qed.

  Theorem apply_B c s : B s -> B (apply idx c s).1.
  Proof.
    apply (walk_apply B (nofuel B) idx (fun _ _ => True) B_kv_step B_cat_step).
    - (* Hnf *) intros e s0 Hs0 He. split; assumption.
    - (* Hsc *) intros sid ss s0 _. apply (session_create_casc idx hc_ok B sid ss B_casc_at).
      intros s1 (Hk & Ht & Hs & Hn & Hv & Hc & Hi) _. apply set_index_B. bsplit; cbn; try assumption.
      apply map_Forall_insert_2; [exact Pidx|exact Hs].
    - (* Hqs *) intros qid sess s0 HB. unfold query_set. destruct (_ || _); [|split; [discriminate|exact HB]].
      apply set_index_B, B_queries, HB.
    - (* Hqd *) intros qid s0 HB. unfold query_delete. destruct (queries s0 !! qid); [|exact HB].
      apply set_index_B, B_queries, HB.
    - (* Hreap *) exact reap_B.
    - (* F *) intros; exact I.
  Qed.
End Origin.

Theorem index_from_log_only idx c s n :
  has_idx (apply idx c s).1 n -> n = idx \/ has_idx s n.
Proof.
  intros Hn.
  assert (HB : Bnd (fun m => m = idx \/ has_idx s m) s).
  { apply Bnd_has_idx. intros m Hm. right. exact Hm. }
  pose proof (apply_B (fun m => m = idx \/ has_idx s m) idx (or_introl eq_refl) c s HB) as HB'.
  apply (proj1 (Bnd_has_idx _ _) HB' n Hn).
Qed.

Theorem run_index_from_log_only log : forall s n,
  has_idx (run log s).1 n -> n ∈ (fst <$> log) \/ has_idx s n.
Proof.
  induction log as [|[idx c] log IH]; intros s n; cbn; [intros H; right; exact H|].
  destruct (apply idx c s) as [s' r] eqn:Ea. specialize (IH s' n).
  destruct (run log s') as [s'' rs]. cbn in *. intros H.
  destruct (IH H) as [Hin|Hs'].
  - left. right. exact Hin.
  - pose proof (index_from_log_only idx c s n) as Hx. rewrite Ea in Hx. cbn in Hx.
    destruct (Hx Hs') as [->|Hs]; [left; left|right; exact Hs].
Qed.
