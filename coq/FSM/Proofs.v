(* Property C01: the handlers that range over Go maps (coq/FSM/Model.v) store the same rows and
   return the same result and the same error text whatever order the environment picks.  Plain loops
   (usage rows, topology rows, tagged addresses): their steps commute ([foldl_perm_comm]).  Error texts:
   the keys are sorted first ([ssort_order], fixes 7ea9e44, 281c379).  AssignManualServiceVIPs: the loop
   in closed form ([fold_spec]); the list it returns is sorted since fix 9d6116b. *)
From stdpp Require Import gmap strings sorting.
From RecordUpdate Require Import RecordSet.
From Coq Require Import NArith.
From Verif Require Import Store.Model Store.Facts FSM.Model FSM.Sorting.
Import RecordSetNotations.
Local Open Scope N_scope.

Section FoldInv.
  Context {A B : Type} (f : B -> A -> B) (I : B -> Prop) (Q : A -> Prop).
  Hypothesis I_step : forall b x, I b -> Q x -> I (f b x).

  Lemma foldl_I l : forall b, I b -> Forall Q l -> I (foldl f b l).
  Proof.
    induction l as [|x l IH]; intros b Hb Hl; cbn; [exact Hb|].
    inversion Hl; subst. apply IH; [apply I_step; assumption|assumption].
  Qed.
End FoldInv.

(* Steps that commute pairwise can be taken in any order.  Two occurrences of one element need not
   commute with anything: a permutation never has to swap them. *)
Lemma foldl_perm_comm {A B} (f : B -> A -> B) (C : A -> A -> Prop) :
  (forall b x y, C x y -> f (f b x) y = f (f b y) x) ->
  forall l1 l2, Permutation l1 l2 -> (forall x y, x ∈ l1 -> y ∈ l1 -> C x y \/ x = y) ->
  forall b, foldl f b l1 = foldl f b l2.
Proof.
  intros Hc l1 l2 Hp. induction Hp as [|x l1 l2 Hp IH|x y l|l1 l2 l3 Hp1 IH1 Hp2 IH2]; intros HC b; cbn.
  - reflexivity.
  - apply IH. intros a c Ha Hc'. apply HC; right; assumption.
  - f_equal. destruct (HC y x) as [Hyx| ->]; [left|right; left|apply Hc; exact Hyx|reflexivity].
  - rewrite IH1 by assumption. apply IH2. intros a c Ha Hc'. apply HC; rewrite Hp1; assumption.
Qed.

(* entries with one key are one entry: what a list needs for "one write per key" to commute *)
Definition keyed {K V} (l : list (K * V)) : Prop := forall x y, x ∈ l -> y ∈ l -> x.1 ≠ y.1 \/ x = y.

Lemma NoDup_fst_keyed {K V} (l : list (K * V)) : NoDup l.*1 -> keyed l.
Proof.
  intros Hnd x y Hx Hy. apply elem_of_list_lookup in Hx as [i Hi], Hy as [j Hj].
  destruct (decide (i = j)) as [->|Hij]; [right; congruence|left].
  intros Heq. apply Hij.
  apply (NoDup_lookup l.*1 i j x.1 Hnd); rewrite list_lookup_fmap; [rewrite Hi|rewrite Hj]; cbn; congruence.
Qed.

Lemma usage_step_comm idx u (a b : string * Z) :
  a.1 ≠ b.1 -> usage_step idx (usage_step idx u a) b = usage_step idx (usage_step idx u b) a.
Proof.
  destruct a as [k1 v1], b as [k2 v2]. cbn. intros Hne. unfold usage_step.
  assert (H1 : forall w, (<[k1 := w]> u) !! k2 = u !! k2) by (intros w; apply lookup_insert_ne; exact Hne).
  assert (H2 : forall w, (<[k2 := w]> u) !! k1 = u !! k1) by (intros w; apply lookup_insert_ne; congruence).
  destruct (u !! k1) as [[c1 i1]|] eqn:E1, (u !! k2) as [[c2 i2]|] eqn:E2;
    rewrite ?H1, ?H2, ?E1, ?E2; apply insert_commute; congruence.
Qed.

Theorem write_usage_deltas_order idx d1 d2 u :
  Permutation d1 d2 -> keyed d1 -> write_usage_deltas idx d1 u = write_usage_deltas idx d2 u.
Proof.
  intros Hp Hk. apply (foldl_perm_comm (usage_step idx) (fun a b => a.1 ≠ b.1)); [|exact Hp|exact Hk].
  intros m a b. apply usage_step_comm.
Qed.

Lemma index_max_idem idx v : index_max idx (index_max idx v) = index_max idx v.
Proof. unfold index_max. repeat case_bool_decide; try reflexivity; lia. Qed.

Theorem prune_old_upstreams_order idx ds ins old1 old2 t :
  Permutation old1 old2 -> prune_old_upstreams idx ds ins old1 t = prune_old_upstreams idx ds ins old2 t.
Proof.
  intros Hp. apply (foldl_perm_comm (prune_step idx ds ins) (fun _ _ => True)); [|exact Hp|auto].
  intros t' x y _. unfold prune_step. destruct (bool_decide (x ∈ ins)), (bool_decide (y ∈ ins)); try reflexivity.
  destruct t' as [rows ti]; unfold set; cbn. f_equal. apply delete_commute.
Qed.

Theorem merge_tagged_order a1 a2 m :
  Permutation a1 a2 -> keyed a1 -> merge_tagged a1 m = merge_tagged a2 m.
Proof.
  intros Hp Hk.
  apply (foldl_perm_comm (fun m kv => <[kv.1 := kv.2]> m) (fun a b => a.1 ≠ b.1)); [|exact Hp|exact Hk].
  intros m' x y Hne. apply insert_commute. congruence.
Qed.

(* the pair named by validateMetadata does not depend on the order in which the keys were collected *)
Theorem validate_meta_order e1 e2 bad meta : validate_meta e1 bad meta = validate_meta e2 bad meta.
Proof.
  unfold validate_meta. rewrite (ssort_order (order e1 (elements (dom meta))) (order e2 (elements (dom meta)))); [reflexivity|].
  rewrite !order_perm. reflexivity.
Qed.

Example validate_meta_example :
  validate_meta env_rev (fun _ => true) (<["bad key!" := "x"]> (<["also bad?" := "y"]> ∅)) = Some ("also bad?", "y") /\
  validate_meta env_id (fun _ => true) (<["bad key!" := "x"]> (<["also bad?" := "y"]> ∅)) = Some ("also bad?", "y").
Proof. split; vm_compute; reflexivity. Qed.

(* the lines reported for missing JWT providers come in one order *)
Theorem missing_providers_order known r1 r2 :
  Permutation r1 r2 -> missing_providers known r1 = missing_providers known r2.
Proof. intros Hp. unfold missing_providers. rewrite (ssort_order r1 r2 Hp). reflexivity. Qed.

Example missing_providers_example :
  missing_providers ∅ ["okta"; "auth0"] = ["auth0"; "okta"] /\ missing_providers ∅ ["auth0"; "okta"] = ["auth0"; "okta"].
Proof. split; vm_compute; reflexivity. Qed.

(* a manual IP belongs to at most one service (what AssignManualServiceVIPs is there to ensure) *)
Definition Uniq (m : gmap string vip) : Prop :=
  forall n1 n2 r1 r2 ip, m !! n1 = Some r1 -> m !! n2 = Some r2 -> ip ∈ v_manual r1 -> ip ∈ v_manual r2 -> n1 = n2.

Lemma holder_of_Some ip m n r : holder_of ip m = Some (n, r) -> m !! n = Some r /\ ip ∈ v_manual r.
Proof.
  unfold holder_of. intros Hh. apply head_Some_elem_of in Hh.
  apply elem_of_list_omap in Hh as (n' & _ & Hf).
  destruct (m !! n') as [r'|] eqn:En; [|discriminate].
  case_bool_decide; [|discriminate]. injection Hf as -> ->. split; assumption.
Qed.

Lemma holder_of_None ip m : holder_of ip m = None -> forall n r, m !! n = Some r -> ip ∉ v_manual r.
Proof.
  unfold holder_of. intros Hh%head_None n r Hn Hin.
  apply (elem_of_nil (n, r)). rewrite <- Hh. apply elem_of_list_omap. exists n. split.
  - apply elem_of_ssort, elem_of_elements, elem_of_dom. eauto.
  - rewrite Hn, bool_decide_eq_true_2 by exact Hin. reflexivity.
Qed.

Lemma holder_of_uniq ip m n r : Uniq m -> m !! n = Some r -> ip ∈ v_manual r -> holder_of ip m = Some (n, r).
Proof.
  intros Hu Hn Hin. destruct (holder_of ip m) as [[n' r']|] eqn:Eh.
  - apply holder_of_Some in Eh as [Hn' Hin']. assert (n' = n) by (eapply Hu; eassumption). subst.
    rewrite Hn in Hn'. injection Hn' as <-. reflexivity.
  - exfalso. eapply holder_of_None; eassumption.
Qed.

Definition strip (idx : N) (ipset : list string) (row : vip) : vip :=
  row <| v_manual := ssort (filter (fun x => x ∉ ipset) (v_manual row)) |> <| v_modify := idx |>.

Lemma strip_manual idx ipset row x : x ∈ v_manual (strip idx ipset row) <-> x ∈ v_manual row /\ x ∉ ipset.
Proof. unfold strip; cbn. rewrite elem_of_ssort, elem_of_list_filter. tauto. Qed.

Lemma unassign_step_eq idx svc ipset acc ip :
  unassign_step idx svc ipset acc ip =
  match holder_of ip (vips acc.1) with
  | None => acc
  | Some (name, row) =>
    if bool_decide (name = svc) then acc
    else (acc.1 <| vips ::= <[name := strip idx ipset row]> |> <| vindex ::= index_max idx |>,
          if bool_decide (name ∈ acc.2) then acc.2 else acc.2 ++ [name])
  end.
Proof. reflexivity. Qed.

Lemma Uniq_mono m m' :
  Uniq m ->
  (forall n r' ip, m' !! n = Some r' -> ip ∈ v_manual r' -> exists r, m !! n = Some r /\ ip ∈ v_manual r) ->
  Uniq m'.
Proof.
  intros Hu Hsub n1 n2 r1 r2 ip H1 H2 Hi1 Hi2.
  destruct (Hsub _ _ _ H1 Hi1) as (? & ? & ?), (Hsub _ _ _ H2 Hi2) as (? & ? & ?). eapply Hu; eassumption.
Qed.

Lemma Uniq_insert m n row :
  Uniq m -> map_Forall (fun n' r' => n' ≠ n -> forall ip, ip ∈ v_manual row -> ip ∉ v_manual r') m ->
  Uniq (<[n := row]> m).
Proof.
  intros Hu Hd n1 n2 r1 r2 ip H1 H2 Hi1 Hi2.
  apply lookup_insert_Some in H1 as [[<- <-]|[Hne1 H1]], H2 as [[<- <-]|[Hne2 H2]].
  - reflexivity.
  - destruct (Hd _ _ H2 (not_eq_sym Hne2) ip Hi1 Hi2).
  - destruct (Hd _ _ H1 (not_eq_sym Hne1) ip Hi2 Hi1).
  - eapply Hu; eassumption.
Qed.

Lemma ex_row_iff (m : gmap string vip) n (P Q : vip -> Prop) :
  (forall row, m !! n = Some row -> P row <-> Q row) ->
  (exists row, m !! n = Some row /\ P row) <-> (exists row, m !! n = Some row /\ Q row).
Proof. intros H. split; intros (row & Hr & Hp); exists row; (split; [exact Hr|apply (H _ Hr), Hp]). Qed.

Lemma vst_eq (s s' : vst) : vips s = vips s' -> vindex s = vindex s' -> s = s'.
Proof. destruct s, s'; cbn; congruence. Qed.

(* The loop of AssignManualServiceVIPs in closed form.  Under [Uniq] an address has one holder, and a
   row that was stripped holds no address of [ipset] any more, so no later iteration finds it: every
   row is stripped at most once, and which rows are stripped depends only on the SET of addresses
   visited.  The order shows in the order of the names collected, nowhere else. *)
Section Assign.
  Variable idx : N.
  Variable svc : string.
  Variable ipset : list string.

  Notation step := (unassign_step idx svc ipset).

  (* [row], stored under [n], belongs to another service and holds one of the addresses [l] *)
  Definition hit (l : list string) (n : string) (row : vip) : Prop :=
    n ≠ svc /\ Exists (fun ip => ip ∈ v_manual row) l.
  #[local] Instance hit_dec l n row : Decision (hit l n row).
  Proof. unfold hit. apply _. Defined.

  Definition swept (l : list string) (n : string) (row : vip) : vip :=
    if decide (hit l n row) then strip idx ipset row else row.
  Definition sweep (l : list string) (s : vst) : vst :=
    VSt (map_imap (fun n row => Some (swept l n row)) (vips s))
        (if decide (map_Exists (hit l) (vips s)) then index_max idx (vindex s) else vindex s).

  Lemma hit_cons x l n row : hit (x :: l) n row <-> (n ≠ svc /\ x ∈ v_manual row) \/ hit l n row.
  Proof. unfold hit. rewrite Exists_cons. tauto. Qed.

  Lemma hit_strip l n row : Forall (fun ip => ip ∈ ipset) l -> ~ hit l n (strip idx ipset row).
  Proof.
    intros Hl [_ He]. apply Exists_exists in He as (ip & Hin & Hs).
    apply strip_manual in Hs as [_ Hs]. rewrite Forall_forall in Hl. auto.
  Qed.

  Lemma sweep_lookup l s n : vips (sweep l s) !! n = swept l n <$> vips s !! n.
  Proof. cbn. rewrite map_lookup_imap. destruct (vips s !! n); reflexivity. Qed.

  Lemma sweep_ext l l' s :
    (forall n row, vips s !! n = Some row -> hit l n row <-> hit l' n row) -> sweep l s = sweep l' s.
  Proof.
    intros Hh. apply vst_eq.
    - apply map_eq. intros n. rewrite !sweep_lookup.
      destruct (vips s !! n) as [row|] eqn:E; [|reflexivity]. cbn. f_equal. apply decide_ext, Hh, E.
    - cbn. apply decide_ext. rewrite !map_Exists_lookup.
      split; intros (n & row & E & H); exists n, row; (split; [exact E|apply (Hh _ _ E), H]).
  Qed.

  Lemma sweep_nil s : sweep [] s = s.
  Proof.
    assert (Hn : forall n row, ~ hit [] n row) by (intros n row [_ He]; inversion He).
    apply vst_eq.
    - apply map_eq. intros n. rewrite sweep_lookup. destruct (vips s !! n) as [row|]; [|reflexivity].
      cbn. unfold swept. rewrite decide_False by apply Hn. reflexivity.
    - cbn. apply decide_False. intros (n & row & _ & H). exact (Hn _ _ H).
  Qed.

  (* one iteration: either no other service holds [x], or exactly one row does and is stripped *)
  Lemma step_spec b x :
    Uniq (vips b.1) ->
    (step b x = b /\ forall n r, vips b.1 !! n = Some r -> x ∈ v_manual r -> n = svc) \/
    (exists n row, n ≠ svc /\ vips b.1 !! n = Some row /\ x ∈ v_manual row /\
       step b x = (b.1 <| vips ::= <[n := strip idx ipset row]> |> <| vindex ::= index_max idx |>,
                   if bool_decide (n ∈ b.2) then b.2 else b.2 ++ [n])).
  Proof.
    intros Hu. rewrite unassign_step_eq.
    destruct (holder_of x (vips b.1)) as [[name row]|] eqn:Eh.
    - pose proof (holder_of_Some _ _ _ _ Eh) as [Hn Hin].
      case_bool_decide as Hname.
      + left. split; [reflexivity|]. intros n r Hr Hxr. subst. eapply Hu; eassumption.
      + right. exists name, row. repeat split; assumption.
    - left. split; [reflexivity|]. intros n r Hr Hxr. exfalso. eapply holder_of_None; eassumption.
  Qed.

  (* modifiedEntries[name] = struct{}{} on the list of distinct names *)
  Lemma add_name_spec n (acc : list string) :
    NoDup acc ->
    let acc' := if bool_decide (n ∈ acc) then acc else acc ++ [n] in
    NoDup acc' /\ forall k, k ∈ acc' <-> k ∈ acc \/ k = n.
  Proof.
    intros Hnd. cbn. case_bool_decide as Hin.
    - split; [exact Hnd|]. intros k. split; [auto|]. intros [Hk| ->]; assumption.
    - split.
      + apply NoDup_app. split; [exact Hnd|]. split; [|apply NoDup_singleton].
        intros y Hy ->%elem_of_list_singleton. contradiction.
      + intros k. rewrite elem_of_app, elem_of_list_singleton. reflexivity.
  Qed.

  Lemma Uniq_strip m n row : Uniq m -> m !! n = Some row -> Uniq (<[n := strip idx ipset row]> m).
  Proof.
    intros Hu Hn. apply (Uniq_mono m); [exact Hu|]. intros n' r' ip [[<- <-]|[_ Hr]]%lookup_insert_Some Hin.
    - apply strip_manual in Hin as [Hin _]. eauto.
    - eauto.
  Qed.

  (* the one holder of x stripped first, then the holders of l: the holders of x :: l stripped *)
  Lemma sweep_strip x l s n0 row0 :
    Forall (fun ip => ip ∈ ipset) l -> n0 ≠ svc -> vips s !! n0 = Some row0 -> x ∈ v_manual row0 ->
    (forall n row, n ≠ n0 -> vips s !! n = Some row -> hit l n row <-> hit (x :: l) n row) ->
    sweep l (s <| vips ::= <[n0 := strip idx ipset row0]> |> <| vindex ::= index_max idx |>) = sweep (x :: l) s.
  Proof.
    intros Hl Hn0 Hrow0 Hx0 Hh. apply vst_eq.
    - apply map_eq. intros n. rewrite !sweep_lookup. cbn. destruct (decide (n = n0)) as [->|Hne].
      + rewrite lookup_insert, Hrow0. cbn. f_equal. unfold swept.
        rewrite decide_False by (apply hit_strip, Hl). rewrite decide_True; [reflexivity|].
        apply hit_cons. auto.
      + rewrite lookup_insert_ne by congruence.
        destruct (vips s !! n) as [row|] eqn:Erow; [|reflexivity]. cbn. f_equal.
        apply decide_ext, Hh; assumption.
    - cbn. rewrite (decide_True (P := map_Exists (hit (x :: l)) _)).
      + destruct (decide _); [apply index_max_idem|reflexivity].
      + apply map_Exists_lookup. exists n0, row0. split; [exact Hrow0|]. apply hit_cons. auto.
  Qed.

  Theorem fold_spec l : Forall (fun ip => ip ∈ ipset) l -> forall b, Uniq (vips b.1) -> NoDup b.2 ->
    (foldl step b l).1 = sweep l b.1 /\ NoDup (foldl step b l).2 /\
    forall n, n ∈ (foldl step b l).2 <-> n ∈ b.2 \/ exists row, vips b.1 !! n = Some row /\ hit l n row.
  Proof.
    induction 1 as [|x l Hx Hl IH]; intros b Hu Hnd; cbn [foldl].
    { rewrite sweep_nil. split; [reflexivity|]. split; [exact Hnd|]. intros n. split; [auto|].
      intros [Hn|(row & _ & _ & He)]; [exact Hn|inversion He]. }
    destruct (step_spec b x Hu) as [[-> Hfree]|(n0 & row0 & Hn0 & Hrow0 & Hx0 & Hstep)].
    - (* no row to strip for x: the rows hit are those hit by l *)
      assert (Hh : forall n row, vips b.1 !! n = Some row -> hit l n row <-> hit (x :: l) n row).
      { intros n row Hrow. rewrite hit_cons. split; [auto|]. intros [[Hne Hin]|Hh]; [|exact Hh].
        destruct Hne. eauto. }
      destruct (IH b Hu Hnd) as (Hs & Hnd' & Hm). split; [|split; [exact Hnd'|]].
      + rewrite Hs. apply sweep_ext, Hh.
      + intros n. rewrite Hm. apply or_iff_compat_l, ex_row_iff, Hh.
    - (* row0 is stripped; by Uniq no other row holds x, and l finds nothing more in row0 *)
      assert (Hh : forall n row, n ≠ n0 -> vips b.1 !! n = Some row -> hit l n row <-> hit (x :: l) n row).
      { intros n row Hne Hrow. rewrite hit_cons. split; [auto|]. intros [[_ Hin]|Hh]; [|exact Hh].
        destruct Hne. eapply Hu; eassumption. }
      destruct (add_name_spec n0 b.2 Hnd) as [Hnd1 Hacc].
      specialize (IH (step b x)). rewrite Hstep in *.
      destruct IH as (Hs & Hnd' & Hm); [apply Uniq_strip; assumption|exact Hnd1|].
      cbn [fst snd] in Hs, Hm. split; [|split; [exact Hnd'|]].
      + rewrite Hs. apply sweep_strip; assumption.
      + intros n. rewrite Hm, Hacc. cbn. destruct (decide (n = n0)) as [->|Hne].
        * split; [|auto]. intros _. right. exists row0. split; [exact Hrow0|]. apply hit_cons. auto.
        * rewrite lookup_insert_ne by congruence.
          rewrite (ex_row_iff _ n (hit l n) (hit (x :: l) n)) by (intros row; apply Hh, Hne). tauto.
  Qed.

  Lemma sweep_Uniq l s : Uniq (vips s) -> Uniq (vips (sweep l s)).
  Proof.
    intros Hu. apply (Uniq_mono (vips s)); [exact Hu|]. intros n r' ip Hr Hin.
    rewrite sweep_lookup in Hr. destruct (vips s !! n) as [row|]; [|discriminate]. injection Hr as <-.
    exists row. split; [reflexivity|]. unfold swept in Hin. destruct (decide _); [|exact Hin].
    apply strip_manual in Hin as [Hin _]. exact Hin.
  Qed.

  (* once the whole of [ipset] has been visited, no other service holds any of its addresses *)
  Lemma sweep_clean l s n r ip :
    Forall (fun ip => ip ∈ ipset) l -> vips (sweep l s) !! n = Some r -> n ≠ svc -> ip ∈ l -> ip ∉ v_manual r.
  Proof.
    intros Hl Hr Hne Hip Hin. rewrite sweep_lookup in Hr.
    destruct (vips s !! n) as [row|]; [|discriminate]. injection Hr as <-.
    unfold swept in Hin. destruct (decide (hit l n row)) as [_|Hnh].
    - apply strip_manual in Hin as [_ Hin]. rewrite Forall_forall in Hl. auto.
    - apply Hnh. split; [exact Hne|]. apply Exists_exists. eauto.
  Qed.

  Lemma fold_order l1 l2 b :
    Permutation l1 l2 -> Forall (fun ip => ip ∈ ipset) l1 -> Uniq (vips b.1) -> NoDup b.2 ->
    (foldl step b l1).1 = (foldl step b l2).1 /\ Permutation (foldl step b l1).2 (foldl step b l2).2.
  Proof.
    intros Hp Hl1 Hu Hnd. assert (Hl2 : Forall (fun ip => ip ∈ ipset) l2) by (rewrite <- Hp; exact Hl1).
    assert (Hh : forall n row, hit l1 n row <-> hit l2 n row).
    { intros n row. unfold hit. rewrite !Exists_exists. setoid_rewrite Hp. reflexivity. }
    destruct (fold_spec l1 Hl1 b Hu Hnd) as (-> & Hnd1 & Hm1), (fold_spec l2 Hl2 b Hu Hnd) as (-> & Hnd2 & Hm2).
    split; [apply sweep_ext; auto|]. apply NoDup_Permutation; [assumption..|].
    intros n. rewrite Hm1, Hm2. setoid_rewrite Hh. reflexivity.
  Qed.
End Assign.

Lemma Forall_order e (l : list string) : Forall (fun x => x ∈ l) (order e l).
Proof. apply Forall_forall. intros x Hx. rewrite <- (order_perm e). exact Hx. Qed.

Theorem assign_manual_order e1 e2 e1' e2' idx svc ips s :
  Uniq (vips s) ->
  assign_manual e1 e2 idx svc ips s = assign_manual e1' e2' idx svc ips s.
Proof.
  intros Hu. unfold assign_manual.
  assert (Hp : Permutation (order e1 (dedup ips)) (order e1' (dedup ips)))
    by (rewrite !order_perm; reflexivity).
  destruct (fold_order idx svc (dedup ips) _ _ (s, []) Hp (Forall_order e1 _) Hu NoDup_nil_2) as [Hs Hm].
  destruct (foldl _ (s, []) (order e1 (dedup ips))) as [s1 m1], (foldl _ (s, []) (order e1' (dedup ips))) as [s1' m1'].
  cbn in Hs, Hm. subst s1'.
  destruct (vips s1 !! svc) as [row|]; cbn; [|reflexivity].
  f_equal. f_equal. apply ssort_order. rewrite !order_perm. exact Hm.
Qed.

Theorem assign_manual_Uniq e1 e2 idx svc ips s : Uniq (vips s) -> Uniq (vips (assign_manual e1 e2 idx svc ips s).1).
Proof.
  intros Hu. unfold assign_manual.
  pose proof (Forall_order e1 (dedup ips)) as Hl.
  destruct (fold_spec idx svc (dedup ips) _ Hl (s, []) Hu NoDup_nil_2) as (Hs & _).
  destruct (foldl _ (s, []) (order e1 (dedup ips))) as [s1 m1]. cbn in Hs. subst s1.
  destruct (vips (sweep _ _ _ _ s) !! svc) as [row|] eqn:Erow; cbn; [|exact Hu].
  destruct (equal_map_keys _ _); [apply sweep_Uniq, Hu|]. cbn.
  apply Uniq_insert; [apply sweep_Uniq, Hu|]. intros n r Hr Hne ip Hip. cbn in Hip.
  eapply sweep_clean; [exact Hl|exact Hr|exact Hne|].
  rewrite order_perm. apply elem_of_remove_dups, elem_of_ssort, Hip.
Qed.

Lemma vapply_Uniq e1 e2 idx c s : Uniq (vips s) -> Uniq (vips (vapply e1 e2 idx c s).1).
Proof.
  intros Hu. destruct c as [svc ips|svc ip|svc]; cbn.
  - pose proof (assign_manual_Uniq e1 e2 idx svc ips s Hu) as Hx.
    destruct (assign_manual e1 e2 idx svc ips s). exact Hx.
  - destruct (vips s !! svc) eqn:Es; [exact Hu|]. cbn.
    apply (Uniq_mono (vips s)); [exact Hu|]. intros n r' x [[_ <-]|[_ Hr]]%lookup_insert_Some Hin; [inversion Hin|eauto].
  - destruct (vips s !! svc); [|exact Hu]. cbn.
    apply (Uniq_mono (vips s)); [exact Hu|]. intros n r' x [_ Hr]%lookup_delete_Some Hin. eauto.
Qed.

Lemma Uniq_empty : Uniq (vips vst0).
Proof. intros n1 n2 r1 r2 ip H1. cbn in H1. rewrite lookup_empty in H1. discriminate. Qed.

Lemma vapply_order e1 e2 e1' e2' idx c s : Uniq (vips s) -> vapply e1 e2 idx c s = vapply e1' e2' idx c s.
Proof.
  intros Hu. destruct c as [svc ips|svc ip|svc]; cbn; [|reflexivity|reflexivity].
  rewrite (assign_manual_order e1 e2 e1' e2' idx svc ips s Hu). reflexivity.
Qed.

(* two log entries that carry the same index and command, under arbitrary, different environments:
   what two replicas run (C01_manual_vips_runs_agree) *)
Definition same_cmd (a b : Env * Env * N * vcmd) : Prop := a.1.2 = b.1.2 /\ a.2 = b.2.

(* Two services lose an address each (the case in which the list returned by consul before 9d6116b
   depended on the iteration order): both orders return the same list. *)
Definition ex_vstate : vst :=
  VSt (<["web" := Vip 1 ["240.0.0.1"] 1 1]> (<["db" := Vip 2 ["240.0.0.2"] 2 2]> (<["cache" := Vip 3 [] 3 3]> ∅))) 3.

Example assign_manual_example :
  (assign_manual env_id env_id 9 "cache" ["240.0.0.1"; "240.0.0.2"] ex_vstate).2 = VRes true ["db"; "web"] /\
  (assign_manual env_rev env_rev 9 "cache" ["240.0.0.1"; "240.0.0.2"] ex_vstate).2 = VRes true ["db"; "web"].
Proof. split; vm_compute; reflexivity. Qed.

Example usage_deltas_example :
  write_usage_deltas 7 [("nodes", 1%Z); ("services", (-3)%Z)] (<["services" := (2, 4)]> ∅) =
  <["services" := (0, 7)]> (<["nodes" := (1, 7)]> ∅).
Proof. eapply bool_decide_eq_true_1. vm_compute. reflexivity. Qed.
