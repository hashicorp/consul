(* Property C01 over the core store model (coq/Store/Model.v): the local, non-replicated part of a
   server's state (the lock-delay set, which stands for everything that depends on that server's
   wall clock) never flows into the replicated tables or into a command's result.
   One lemma per verb: nothing reads [lockdelay]. *)
From stdpp Require Import gmap strings.
From RecordUpdate Require Import RecordSet.
From Coq Require Import NArith.
From Verif Require Import Store.Model.
Import RecordSetNotations.
Local Open Scope N_scope.

Definition sim (a b : st) : Prop := repl a = repl b.

Lemma sim_refl a : sim a a.
Proof. reflexivity. Qed.
Lemma sim_sym a b : sim a b -> sim b a.
Proof. unfold sim; congruence. Qed.
Lemma sim_trans a b c : sim a b -> sim b c -> sim a c.
Proof. unfold sim; congruence. Qed.

Lemma sim_with_delay s d : sim (s <| lockdelay := d |>) s.
Proof. reflexivity. Qed.

(* similar states differ in the lock-delay set only; proofs about a primitive replace the second
   state by this form, after which both sides compute alike *)
Lemma sim_elim a b : sim a b -> exists d, b = a <| lockdelay := d |>.
Proof.
  destruct a, b. unfold sim, repl; cbn. intros H. injection H as -> -> -> -> -> -> -> -> ->. eauto.
Qed.

Lemma sim_read {A} (f : st -> A) a b : sim a b -> (forall s, f (repl s) = f s) -> f a = f b.
Proof. intros H Hf. rewrite <- (Hf a), <- (Hf b), H. reflexivity. Qed.
Notation rd f H := (sim_read f _ _ H (fun _ => eq_refl)).

(* closes [sim (u a) (u b)] when [u] is one update built from values already known to agree *)
Ltac sim_same H := destruct (sim_elim _ _ H) as [? ->]; reflexivity.

Definition rsim {A} (R : A -> A -> Prop) (r1 r2 : result A) : Prop :=
  match r1, r2 with
  | Ok a, Ok b => R a b
  | Err e p, Err e' p' => e = e' /\ sim p p'
  | _, _ => False
  end.

Lemma bind_sim {A B} (RA : A -> A -> Prop) (RB : B -> B -> Prop) (m1 m2 : result A) (k1 k2 : A -> result B) :
  rsim RA m1 m2 -> (forall a b, RA a b -> rsim RB (k1 a) (k2 b)) -> rsim RB (m1 ≫= k1) (m2 ≫= k2).
Proof. destruct m1, m2; cbn; intros H Hk; try contradiction; [apply Hk; exact H|exact H]. Qed.

Lemma rfold_sim {A} (f1 f2 : st -> A -> result st) l :
  (forall x a b, sim a b -> rsim sim (f1 a x) (f2 b x)) ->
  forall a b, sim a b -> rsim sim (rfold f1 l a) (rfold f2 l b).
Proof.
  intros Hf. induction l as [|x l IH]; intros a b Hab; cbn; [exact Hab|].
  apply (bind_sim sim sim); [apply Hf; exact Hab|]. intros a' b' H'. apply IH. exact H'.
Qed.

Lemma err_sim {A} (R : A -> A -> Prop) e a b : sim a b -> rsim R (Err e a) (Err e b).
Proof. intros H. split; [reflexivity|exact H]. Qed.

Definition op_rel (a b : st * list tres) : Prop := sim a.1 b.1 /\ a.2 = b.2.

(* the KV verbs neither read nor write the lock delays *)

Lemma txn_kv_delay idx v q s d :
  txn_kv idx v q (s <| lockdelay := d |>) =
  match txn_kv idx v q s with
  | Ok (s', r) => Ok (s' <| lockdelay := d |>, r)
  | Err e p => Err e (p <| lockdelay := d |>)
  end.
Proof.
  unfold txn_kv, kvs_delete_cas, kvs_set_cas, kvs_lock, kvs_unlock, kvs_set, kvs_delete, kvs_delete_tree.
  destruct v; cbn; repeat (case_match; simplify_eq/=); reflexivity.
Qed.

Lemma apply_kvs_delay idx v q s d :
  apply_kvs idx v q (s <| lockdelay := d |>) =
  ((apply_kvs idx v q s).1 <| lockdelay := d |>, (apply_kvs idx v q s).2).
Proof.
  unfold apply_kvs, kvs_delete_cas, kvs_set_cas, kvs_lock, kvs_unlock, kvs_set, kvs_delete, kvs_delete_tree.
  destruct v; cbn; repeat (case_match; simplify_eq/=); reflexivity.
Qed.

Lemma txn_kv_sim idx v q s1 s2 : sim s1 s2 -> rsim op_rel (txn_kv idx v q s1) (txn_kv idx v q s2).
Proof.
  intros H. destruct (sim_elim _ _ H) as [d ->]. rewrite txn_kv_delay.
  destruct (txn_kv idx v q s1) as [[s' r]|e p]; repeat split.
Qed.

Lemma apply_kvs_sim idx v q s1 s2 : sim s1 s2 ->
  sim (apply_kvs idx v q s1).1 (apply_kvs idx v q s2).1 /\ (apply_kvs idx v q s1).2 = (apply_kvs idx v q s2).2.
Proof. intros H. destruct (sim_elim _ _ H) as [d ->]. rewrite apply_kvs_delay. split; reflexivity. Qed.

Lemma resolve_service_sim nd hc s1 s2 : sim s1 s2 -> rsim eq (resolve_service nd hc s1) (resolve_service nd hc s2).
Proof.
  intros H. unfold resolve_service. rewrite (rd services H).
  destruct (bool_decide _); [reflexivity|]. destruct (services s2 !! _); [reflexivity|apply err_sim, H].
Qed.

Lemma store_check_sim p idx nd cid hc ex s1 s2 : sim s1 s2 ->
  sim (store_check p idx nd cid hc ex s1) (store_check p idx nd cid hc ex s2).
Proof. intros H. unfold store_check. case_match; [|exact H]. sim_same H. Qed.

Definition del_sim (d1 d2 : N -> string -> st -> result st) : Prop :=
  forall i sid a b, sim a b -> rsim sim (d1 i sid a) (d2 i sid b).

Lemma ensure_check_with_sim d1 d2 p idx nd cid hc s1 s2 : del_sim d1 d2 -> sim s1 s2 ->
  rsim sim (ensure_check_with d1 p idx nd cid hc s1) (ensure_check_with d2 p idx nd cid hc s2).
Proof.
  intros Hd H. unfold ensure_check_with. rewrite (rd nodes H), (rd checks H).
  destruct (nodes s2 !! nd); [|apply err_sim, H].
  apply (bind_sim eq sim); [apply resolve_service_sim; exact H|]. intros hc1 ? <-.
  apply (bind_sim sim sim); [|intros a b Hab; apply store_check_sim; exact Hab].
  unfold invalidate_if_critical. destruct (bool_decide _); [|exact H].
  rewrite (rd (sessions_of_check nd cid) H). apply rfold_sim; [|exact H].
  intros sid a b Hab. apply Hd. exact Hab.
Qed.

Lemma release_or_delete_keys_sim idx sid ss s1 s2 : sim s1 s2 ->
  sim (release_or_delete_keys idx sid ss s1) (release_or_delete_keys idx sid ss s2).
Proof.
  intros H. unfold release_or_delete_keys. rewrite (rd kvs H). generalize (kvs s2). intros m.
  destruct (bool_decide _); [exact H|].
  destruct (s_delete ss), (s_delay ss); sim_same H.
Qed.

(* the last two steps of [drop_session], on the state the first two leave *)
Definition drop_tail (idx : N) (sid : string) (s2 : st) : st :=
  let s3 := s2 <| schecks ::= filter (fun m => m.2 ≠ sid) |> in
  if bool_decide (filter (fun q => q.2 = sid) (queries s2) = ∅) then s3
  else set_index "prepared-queries" idx (s3 <| queries ::= filter (fun q => q.2 ≠ sid) |>).

Lemma drop_session_sim idx sid ss s1 s2 : sim s1 s2 -> sim (drop_session idx sid ss s1) (drop_session idx sid ss s2).
Proof.
  intros H.
  assert (Htail : forall a b, sim a b -> sim (drop_tail idx sid a) (drop_tail idx sid b)).
  { intros a b Hab. unfold drop_tail. cbn zeta. rewrite (rd queries Hab).
    destruct (bool_decide _); sim_same Hab. }
  apply (Htail (release_or_delete_keys idx sid ss _) (release_or_delete_keys idx sid ss _)),
        release_or_delete_keys_sim.
  sim_same H.
Qed.

Lemma delete_session_sim fuel : forall idx sid s1 s2, sim s1 s2 ->
  rsim sim (delete_session fuel idx sid s1) (delete_session fuel idx sid s2).
Proof.
  induction fuel as [|fuel IH]; intros idx sid s1 s2 H; cbn [delete_session]; [apply err_sim, H|].
  rewrite (rd sessions H). destruct (sessions s2 !! sid) as [ss|]; [|exact H].
  pose proof (drop_session_sim idx sid ss s1 s2 H) as Hd.
  rewrite (rd (session_checks_of_node _ _) Hd), (rd checks Hd). apply rfold_sim; [|exact Hd].
  intros cid a b Hab. destruct (checks (drop_session idx sid ss s2) !! _); [|exact Hab].
  apply ensure_check_with_sim; [|exact Hab]. intros i sid' a' b' H'. apply IH. exact H'.
Qed.

Lemma delete_session_top_sim idx sid s1 s2 : sim s1 s2 ->
  rsim sim (delete_session_top idx sid s1) (delete_session_top idx sid s2).
Proof. intros H. unfold delete_session_top. rewrite (rd fuel_of H). apply delete_session_sim. exact H. Qed.

Lemma ensure_check_p_sim p idx nd cid hc s1 s2 : sim s1 s2 ->
  rsim sim (ensure_check_p p idx nd cid hc s1) (ensure_check_p p idx nd cid hc s2).
Proof.
  intros H. unfold ensure_check_p. apply ensure_check_with_sim; [|exact H].
  intros i sid a b Hab. apply (delete_session_top_sim i sid a b Hab).
Qed.

Lemma session_create_sim idx sid ss s1 s2 : sim s1 s2 ->
  rsim sim (session_create idx sid ss s1) (session_create idx sid ss s2).
Proof.
  intros H. unfold session_create.
  destruct (bool_decide (sid = "")); [apply err_sim, H|].
  rewrite (rd nodes H), (rd checks H).
  destruct (nodes s2 !! s_node ss); [|apply err_sim, H].
  destruct (forallb _ _); [|apply err_sim, H].
  match goal with |- rsim sim (rfold _ _ ?a) (rfold _ _ ?b) =>
    assert (Hab : sim a b) by (sim_same H) end.
  rewrite (rd (session_checks_of_node _ _) Hab), (rd checks Hab).
  apply rfold_sim; [|exact Hab]. intros cid a b Hx.
  match goal with |- context [checks ?s !! ?key] => destruct (checks s !! key) end; [|exact Hx].
  apply ensure_check_p_sim. exact Hx.
Qed.

Lemma delete_check_sim idx nd cid s1 s2 : sim s1 s2 -> rsim sim (delete_check idx nd cid s1) (delete_check idx nd cid s2).
Proof.
  intros H. unfold delete_check. rewrite (rd checks H).
  destruct (checks s2 !! (nd, cid)); [|exact H].
  assert (Hab : sim (s1 <| checks ::= delete (nd, cid) |>) (s2 <| checks ::= delete (nd, cid) |>))
    by (sim_same H).
  rewrite (rd (sessions_of_check nd cid) Hab). apply rfold_sim; [|exact Hab].
  intros sid a b Hx. apply delete_session_top_sim. exact Hx.
Qed.

Lemma delete_service_sim idx nd svc s1 s2 : sim s1 s2 -> rsim sim (delete_service idx nd svc s1) (delete_service idx nd svc s2).
Proof.
  intros H. unfold delete_service. rewrite (rd services H).
  destruct (services s2 !! (nd, svc)); [|exact H].
  rewrite (rd (checks_of_service nd svc) H). apply (bind_sim sim sim).
  - apply rfold_sim; [|exact H]. intros cid a b Hx. apply delete_check_sim. exact Hx.
  - intros a b Hab. sim_same Hab.
Qed.

Lemma delete_node_sim idx nd s1 s2 : sim s1 s2 -> rsim sim (delete_node idx nd s1) (delete_node idx nd s2).
Proof.
  intros H. unfold delete_node. rewrite (rd nodes H).
  destruct (nodes s2 !! nd); [|exact H].
  rewrite (rd (services_of_node nd) H). apply (bind_sim sim sim).
  { apply rfold_sim; [|exact H]. intros x a b Hx. apply delete_service_sim. exact Hx. }
  intros a b Hab. rewrite (rd (checks_of_node nd) Hab). apply (bind_sim sim sim).
  { apply rfold_sim; [|exact Hab]. intros x a' b' Hx. apply delete_check_sim. exact Hx. }
  intros a' b' Hab'.
  assert (H3 : sim (a' <| nodes ::= delete nd |>) (b' <| nodes ::= delete nd |>))
    by (sim_same Hab').
  rewrite (rd (sessions_of_node nd) H3). apply rfold_sim; [|exact H3].
  intros x a'' b'' Hx. apply delete_session_top_sim. exact Hx.
Qed.

Lemma ensure_node_sim idx nd id addr s1 s2 : sim s1 s2 ->
  rsim sim (ensure_node idx nd id addr s1) (ensure_node idx nd id addr s2).
Proof.
  intros H. unfold ensure_node.
  apply (bind_sim (fun a b => a.1 = b.1 /\ sim a.2 b.2) sim).
  - destruct (bool_decide (id = "")); [split; [reflexivity|exact H]|].
    rewrite (rd (node_by_id id) H), (rd (similar_clash false nd id) H), (rd (similar_clash true nd id) H).
    destruct (node_by_id id s2) as [[oname on]|].
    + destruct (bool_decide (oname = nd)); [split; [reflexivity|exact H]|].
      destruct (similar_clash false nd id s2); [apply err_sim, H|].
      apply (bind_sim sim (fun a b => a.1 = b.1 /\ sim a.2 b.2)); [apply delete_node_sim; exact H|].
      intros a b Hab. split; [reflexivity|exact Hab].
    + destruct (similar_clash true nd id s2); [apply err_sim, H|split; [reflexivity|exact H]].
  - intros [n0 a] [n0' b] [Hn Hab]. cbn in Hn, Hab. subst n0'. cbn. rewrite (rd nodes Hab).
    destruct (match n0 with Some x => Some x | None => nodes b !! nd end) as [x|];
      [destruct (_ && _); [exact Hab|]|]; sim_same Hab.
Qed.

Lemma ensure_service_sim idx nd svc name port s1 s2 : sim s1 s2 ->
  rsim sim (ensure_service idx nd svc name port s1) (ensure_service idx nd svc name port s2).
Proof.
  intros H. unfold ensure_service. rewrite (rd nodes H), (rd services H).
  destruct (nodes s2 !! nd); [|apply err_sim, H].
  destruct (services s2 !! (nd, svc)) as [x|]; [destruct (_ && _); [exact H|]|];
    sim_same H.
Qed.

Lemma ok_sim (r : list tres) a b : sim a b -> rsim op_rel (Ok (a, r)) (Ok (b, r)).
Proof. intros H. split; [exact H|reflexivity]. Qed.

Lemma txn_node_sim idx v nd id addr cidx s1 s2 : sim s1 s2 ->
  rsim op_rel (txn_node idx v nd id addr cidx s1) (txn_node idx v nd id addr cidx s2).
Proof.
  intros H. unfold txn_node.
  assert (Hreply : forall a b, sim a b -> rsim op_rel
     (match (if bool_decide (id = "") then (fun n => (nd, n)) <$> nodes a !! nd else node_by_id id a) with
      | Some (nm, n) => Ok (a, [RNode nm n]) | None => Ok (a, []) end)
     (match (if bool_decide (id = "") then (fun n => (nd, n)) <$> nodes b !! nd else node_by_id id b) with
      | Some (nm, n) => Ok (b, [RNode nm n]) | None => Ok (b, []) end)).
  { intros a b Hab. rewrite (rd nodes Hab), (rd (node_by_id id) Hab).
    destruct (if bool_decide (id = "") then _ else _) as [[nm n]|]; apply ok_sim, Hab. }
  destruct v.
  - rewrite (rd nodes H), (rd (node_by_id id) H).
    destruct (if bool_decide (id = "") then _ else _) as [[nm n]|]; [apply ok_sim, H|apply err_sim, H].
  - apply (bind_sim sim op_rel); [apply ensure_node_sim; exact H|exact Hreply].
  - rewrite (rd nodes H). destruct (cas_ok _ _ _); [|apply err_sim, H].
    apply (bind_sim sim op_rel); [apply ensure_node_sim; exact H|exact Hreply].
  - apply (bind_sim sim op_rel); [apply delete_node_sim; exact H|intros a b; apply ok_sim].
  - rewrite (rd nodes H). destruct (nodes s2 !! nd) as [x|]; [|apply err_sim, H].
    destruct (bool_decide (n_modify x = cidx)); [|apply err_sim, H].
    apply (bind_sim sim op_rel); [apply delete_node_sim; exact H|intros a b; apply ok_sim].
Qed.

Lemma txn_service_sim idx v nd svc name port cidx s1 s2 : sim s1 s2 ->
  rsim op_rel (txn_service idx v nd svc name port cidx s1) (txn_service idx v nd svc name port cidx s2).
Proof.
  intros H. unfold txn_service.
  assert (Hreply : forall a b, sim a b -> rsim op_rel
     (match services a !! (nd, svc) with Some x => Ok (a, [RService nd svc x]) | None => Ok (a, []) end)
     (match services b !! (nd, svc) with Some x => Ok (b, [RService nd svc x]) | None => Ok (b, []) end)).
  { intros a b Hab. rewrite (rd services Hab). destruct (services b !! (nd, svc)); apply ok_sim, Hab. }
  rewrite (rd services H). destruct v.
  - destruct (services s2 !! (nd, svc)); [apply ok_sim, H|apply err_sim, H].
  - apply (bind_sim sim op_rel); [apply ensure_service_sim; exact H|exact Hreply].
  - destruct (cas_ok _ _ _); [|apply err_sim, H].
    apply (bind_sim sim op_rel); [apply ensure_service_sim; exact H|exact Hreply].
  - apply (bind_sim sim op_rel); [apply delete_service_sim; exact H|intros a b; apply ok_sim].
  - destruct (services s2 !! (nd, svc)) as [x|]; [|apply err_sim, H].
    destruct (bool_decide _); [|apply err_sim, H].
    apply (bind_sim sim op_rel); [apply delete_service_sim; exact H|intros a b; apply ok_sim].
Qed.

Lemma txn_check_sim idx v c s1 s2 : sim s1 s2 -> rsim op_rel (txn_check idx v c s1) (txn_check idx v c s2).
Proof.
  intros H. unfold txn_check.
  assert (Hreply : forall a b, sim a b -> rsim op_rel
     (match checks a !! (cr_node c, cr_id c) with Some x => Ok (a, [RCheck (cr_node c) (cr_id c) x]) | None => Ok (a, []) end)
     (match checks b !! (cr_node c, cr_id c) with Some x => Ok (b, [RCheck (cr_node c) (cr_id c) x]) | None => Ok (b, []) end)).
  { intros a b Hab. rewrite (rd checks Hab). destruct (checks b !! _); apply ok_sim, Hab. }
  rewrite (rd checks H). destruct v.
  - destruct (checks s2 !! _); [apply ok_sim, H|apply err_sim, H].
  - apply (bind_sim sim op_rel); [apply ensure_check_p_sim; exact H|exact Hreply].
  - destruct (cas_ok _ _ _); [|apply err_sim, H].
    apply (bind_sim sim op_rel); [apply ensure_check_p_sim; exact H|exact Hreply].
  - apply (bind_sim sim op_rel); [apply delete_check_sim; exact H|intros a b; apply ok_sim].
  - destruct (checks s2 !! _) as [x|]; [|apply err_sim, H].
    destruct (bool_decide _); [|apply err_sim, H].
    apply (bind_sim sim op_rel); [apply delete_check_sim; exact H|intros a b; apply ok_sim].
Qed.

Lemma txn_op_sim idx op s1 s2 : sim s1 s2 -> rsim op_rel (txn_op idx op s1) (txn_op idx op s2).
Proof.
  intros H. destruct op; cbn [txn_op].
  - apply txn_kv_sim; exact H.
  - apply txn_node_sim; exact H.
  - apply txn_service_sim; exact H.
  - apply txn_check_sim; exact H.
  - rewrite (rd sessions H). destruct (sessions s2 !! sid); [|apply err_sim, H].
    apply (bind_sim sim op_rel); [apply delete_session_top_sim; exact H|intros a b; apply ok_sim].
Qed.

Lemma txn_dispatch_sim idx ops : forall i s1 s2, sim s1 s2 ->
  sim (txn_dispatch idx i ops s1).1.1 (txn_dispatch idx i ops s2).1.1 /\
  (txn_dispatch idx i ops s1).1.2 = (txn_dispatch idx i ops s2).1.2 /\
  (txn_dispatch idx i ops s1).2 = (txn_dispatch idx i ops s2).2.
Proof.
  induction ops as [|op ops IH]; intros i s1 s2 H; cbn; [repeat split; [exact H]|].
  pose proof (txn_op_sim idx op s1 s2 H) as Hop.
  destruct (txn_op idx op s1) as [[a1 r1]|e1 p1], (txn_op idx op s2) as [[a2 r2]|e2 p2]; cbn in Hop; try contradiction.
  - destruct Hop as [Ha Hr]; cbn in Ha, Hr. subst r2.
    specialize (IH (S i) a1 a2 Ha).
    destruct (txn_dispatch idx (S i) ops a1) as [[x1 y1] z1], (txn_dispatch idx (S i) ops a2) as [[x2 y2] z2]; cbn in *.
    destruct IH as (? & ? & ?). subst. repeat split; assumption.
  - destruct Hop as [-> Hp]. specialize (IH (S i) p1 p2 Hp).
    destruct (txn_dispatch idx (S i) ops p1) as [[x1 y1] z1], (txn_dispatch idx (S i) ops p2) as [[x2 y2] z2]; cbn in *.
    destruct IH as (? & ? & ?). subst. repeat split; assumption.
Qed.

Lemma of_unit_sim r1 r2 s1 s2 : sim s1 s2 -> rsim sim r1 r2 ->
  sim (of_unit r1 s1).1 (of_unit r2 s2).1 /\ (of_unit r1 s1).2 = (of_unit r2 s2).2.
Proof.
  intros H Hr. destruct r1, r2; cbn in *; try contradiction.
  - split; [exact Hr|reflexivity].
  - destruct Hr as [-> _]. split; [exact H|reflexivity].
Qed.

Lemma ensure_registration_sim idx nd id addr skip svc cks s1 s2 : sim s1 s2 ->
  rsim sim (ensure_registration idx nd id addr skip svc cks s1) (ensure_registration idx nd id addr skip svc cks s2).
Proof.
  intros H. unfold ensure_registration.
  apply (bind_sim sim sim).
  { rewrite (rd nodes H). destruct (changes_node _ _ _ _); [apply ensure_node_sim; exact H|exact H]. }
  intros a b Hab. apply (bind_sim sim sim).
  { destruct svc as [[[sid name] port]|]; [|exact Hab]. rewrite (rd services Hab).
    destruct (services b !! (nd, sid)) as [x|]; [destruct (_ && _); [exact Hab|]|];
      apply ensure_service_sim; exact Hab. }
  intros a' b' Hab'. apply rfold_sim; [|exact Hab'].
  intros c x y Hxy. destruct (bool_decide _); [apply ensure_check_p_sim; exact Hxy|apply err_sim, Hxy].
Qed.

Lemma query_set_sim idx qid sess s1 s2 : sim s1 s2 -> rsim sim (query_set idx qid sess s1) (query_set idx qid sess s2).
Proof.
  intros H. unfold query_set. rewrite (rd sessions H).
  destruct (_ || _); [|apply err_sim, H]. sim_same H.
Qed.

Theorem apply_sim idx c s1 s2 : sim s1 s2 ->
  sim (apply idx c s1).1 (apply idx c s2).1 /\ (apply idx c s1).2 = (apply idx c s2).2.
Proof.
  intros H. destruct c; cbn [apply].
  - apply apply_kvs_sim; exact H.
  - pose proof (session_create_sim idx sid ss s1 s2 H) as Hc.
    destruct (session_create idx sid ss s1), (session_create idx sid ss s2); cbn in Hc; try contradiction.
    + split; [exact Hc|reflexivity].
    + destruct Hc as [-> _]. split; [exact H|reflexivity].
  - apply of_unit_sim; [exact H|apply delete_session_top_sim; exact H].
  - apply of_unit_sim; [exact H|apply ensure_registration_sim; exact H].
  - destruct (negb (bool_decide (svc = ""))); [|destruct (negb (bool_decide (cid = "")))];
      (apply of_unit_sim; [exact H|]).
    + apply delete_service_sim; exact H.
    + apply delete_check_sim; exact H.
    + apply delete_node_sim; exact H.
  - unfold txn_rw. pose proof (txn_dispatch_sim idx ops 0%nat s1 s2 H) as (Hs & Hr & He).
    destruct (txn_dispatch idx 0 ops s1) as [[x1 y1] z1], (txn_dispatch idx 0 ops s2) as [[x2 y2] z2]; cbn in *. subst.
    destruct z2; cbn; split; try reflexivity; assumption.
  - split; [|reflexivity]. sim_same H.
  - apply of_unit_sim; [exact H|apply query_set_sim; exact H].
  - split; [|reflexivity]. unfold query_delete. rewrite (rd queries H).
    destruct (queries s2 !! qid); [|exact H]. sim_same H.
Qed.

Theorem run_sim log : forall s1 s2, sim s1 s2 ->
  sim (run log s1).1 (run log s2).1 /\ (run log s1).2 = (run log s2).2.
Proof.
  induction log as [|[idx c] log IH]; intros s1 s2 H; cbn; [split; [exact H|reflexivity]|].
  pose proof (apply_sim idx c s1 s2 H) as [Ha Hr].
  destruct (apply idx c s1) as [a1 r1], (apply idx c s2) as [a2 r2]; cbn in *. subst r2.
  specialize (IH a1 a2 Ha). destruct (run log a1) as [x1 y1], (run log a2) as [x2 y2]; cbn in *.
  destruct IH as [Hx ->]. split; [exact Hx|reflexivity].
Qed.

(* replicas that start from the same replicated state and apply the same log end in the same
   replicated state and give the same answers, whatever their lock-delay sets were *)
Theorem replicas_agree log s1 s2 :
  repl s1 = repl s2 ->
  repl (run log s1).1 = repl (run log s2).1 /\ (run log s1).2 = (run log s2).2.
Proof. intros H. apply (run_sim log s1 s2 H). Qed.

(* no command reads the lock-delay set *)
Theorem local_never_read idx c s l :
  repl (apply idx c (s <| lockdelay := l |>)).1 = repl (apply idx c s).1 /\
  (apply idx c (s <| lockdelay := l |>)).2 = (apply idx c s).2.
Proof. apply (apply_sim idx c _ s (sim_with_delay s l)). Qed.

(* A concrete instance: node n1 with check c1; a session with a lock delay bound to c1 holds key
   "a"; then c1 turns critical, which invalidates the session and registers a lock delay for "a".
   Replica 2 starts with a lock delay on another key (its clock and history differ). *)
Definition ex_log : list (N * cmd) :=
  [ (1, Register "n1" "" 1 false None [CheckReq "n1" "c1" 0 "" false "" 0 0]);
    (2, SessionCreate "s1" (Sess "n1" "" false ["c1"] true 0));
    (3, KVS VLock (KVReq "a" [] 0 "s1" 0 0));
    (5, Register "n1" "" 1 false None [CheckReq "n1" "c1" 2 "" false "" 0 0]);
    (6, KVS VLock (KVReq "a" [] 0 "s1" 0 0)) ].
Definition ex_s2 : st := st0 <| lockdelay := {["zz"]} |>.

Example replicas_agree_example :
  repl st0 = repl ex_s2 /\ st0 ≠ ex_s2 /\
  lockdelay (run ex_log st0).1 = {["a"]} /\ lockdelay (run ex_log ex_s2).1 = {["a"; "zz"]} /\
  (run ex_log st0).2 = [CNil; CStr "s1"; CBool true; CNil; CErr EInvalidSession] /\
  kvs (run ex_log st0).1 !! "a" = Some (KV [] 0 "" 1 3 5).
Proof.
  split; [reflexivity|]. split; [intros Heq; apply (f_equal lockdelay) in Heq; cbn in Heq; set_solver|].
  split; [eapply bool_decide_eq_true_1; vm_compute; reflexivity|].
  split; [eapply bool_decide_eq_true_1; vm_compute; reflexivity|].
  split; vm_compute; reflexivity.
Qed.
