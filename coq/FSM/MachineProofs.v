(* Property C01 over the machine of coq/FSM/Machine.v: two replicas that apply the same log under
   arbitrary, different environments (iteration order of every map, wall clock at every entry) and from
   states that agree on the replicated part, end with the same replicated part and return the same
   result for every entry. *)
From stdpp Require Import gmap strings sorting.
From RecordUpdate Require Import RecordSet.
From Coq Require Import NArith.
From Verif Require Import Store.Model FSM.Model FSM.Sorting FSM.NonInterference FSM.Proofs FSM.Machine.
Import RecordSetNotations.
Local Open Scope N_scope.

Lemma ordered_items_keyed {A} e (m : gmap string A) : keyed (ordered_items e m).
Proof.
  assert (Hm : forall x, x ∈ ordered_items e m -> m !! x.1 = Some x.2).
  { intros x (k & _ & Hk)%elem_of_list_omap. destruct (m !! k) eqn:E; [|discriminate]. injection Hk as <-. exact E. }
  intros [k1 v1] [k2 v2] H1%Hm H2%Hm. cbn in *.
  destruct (decide (k1 = k2)) as [->|Hne]; [right; congruence|left; exact Hne].
Qed.

Lemma ordered_items_perm {A} e1 e2 (m : gmap string A) : Permutation (ordered_items e1 m) (ordered_items e2 m).
Proof. unfold ordered_items. apply omap_Permutation. rewrite !order_perm. reflexivity. Qed.

Lemma usage_step_order e1 e2 idx deltas u :
  write_usage_deltas idx (ordered_items e1 deltas) u = write_usage_deltas idx (ordered_items e2 deltas) u.
Proof. apply write_usage_deltas_order; [apply ordered_items_perm|apply ordered_items_keyed]. Qed.

Lemma topology_step_order e1 e2 idx ds news old t :
  update_mesh_topology e1 idx ds news old t = update_mesh_topology e2 idx ds news old t.
Proof. unfold update_mesh_topology. apply prune_old_upstreams_order. rewrite !order_perm. reflexivity. Qed.

Lemma ensure_tagged_order e1 e2 addrs m : ensure_tagged e1 addrs m = ensure_tagged e2 addrs m.
Proof. apply merge_tagged_order; [apply ordered_items_perm|apply ordered_items_keyed]. Qed.

Lemma update_tgw_tagged_order e1 e2 e1' e2' addrs existing :
  update_tgw_tagged e1 e2 addrs existing = update_tgw_tagged e1' e2' addrs existing.
Proof.
  unfold update_tgw_tagged.
  rewrite (merge_tagged_order _ (ordered_items e2' addrs)) by first [apply ordered_items_perm|apply ordered_items_keyed].
  f_equal. apply merge_tagged_order; [apply filter_Permutation, ordered_items_perm|].
  intros x y [_ Hx]%elem_of_list_filter [_ Hy]%elem_of_list_filter. exact (ordered_items_keyed _ _ x y Hx Hy).
Qed.

Lemma intentions_step_order e1 e2 known (refs : gset string) :
  missing_providers known (order e1 (elements refs)) = missing_providers known (order e2 (elements refs)).
Proof. apply missing_providers_order. rewrite !order_perm. reflexivity. Qed.

Definition MInv (s : mst) : Prop := Uniq (vips (m_vips s)).
Definition msim (a b : mst) : Prop := mrepl a = mrepl b.

Lemma msim_iff a b :
  msim a b <->
  sim (m_core a) (m_core b) /\ m_vips a = m_vips b /\ m_usage a = m_usage b /\ m_topo a = m_topo b /\
  m_tagged a = m_tagged b /\ m_jwt a = m_jwt b.
Proof.
  destruct a as [c ? ? ? ? ? ?], b as [c' ? ? ? ? ? ?]. unfold msim, mrepl, sim, set; cbn.
  generalize (repl c) (repl c'). intros rc rc'. split.
  - intros [= ? ? ? ? ? ?]. repeat split; assumption.
  - intros (? & ? & ? & ? & ? & ?). congruence.
Qed.

Lemma MInv_msim a b : msim a b -> MInv a -> MInv b.
Proof. intros H. apply msim_iff in H as (_ & Hv & _). unfold MInv. rewrite Hv. auto. Qed.

Theorem mapply_sim e1 e2 idx c s1 s2 :
  MInv s1 -> msim s1 s2 ->
  msim (mapply e1 idx c s1).1 (mapply e2 idx c s2).1 /\ (mapply e1 idx c s1).2 = (mapply e2 idx c s2).2.
Proof.
  intros Hinv H. pose proof (proj1 (msim_iff _ _) H) as (Hc & Hv & Hu & Ht & Hg & Hj).
  destruct s1 as [c1 x1 v1 u1 t1 g1 j1], s2 as [c2 x2 v u t g j]. cbn in Hinv, Hc, Hv, Hu, Ht, Hg, Hj.
  subst v1 u1 t1 g1 j1.
  rewrite msim_iff.
  destruct c as [c|c|deltas|ds news old|inst req addrs|addrs|bad meta|name|refs]; cbn.
  - pose proof (apply_sim idx c _ _ Hc) as [Hs Hr].
    destruct (apply idx c c1) as [a1 r1], (apply idx c c2) as [a2 r2]; cbn in *. subst r2.
    repeat split; assumption || reflexivity.
  - rewrite (vapply_order e2 e2 e1 e1 idx c v Hinv).
    destruct (vapply e1 e1 idx c v) as [v' r]; cbn. repeat split; assumption || reflexivity.
  - repeat split; try (assumption || reflexivity). apply usage_step_order.
  - repeat split; try (assumption || reflexivity). apply topology_step_order.
  - repeat split; try (assumption || reflexivity). f_equal. apply ensure_tagged_order.
  - repeat split; try (assumption || reflexivity). apply map_fmap_ext. intros k x _. apply update_tgw_tagged_order.
  - rewrite (validate_meta_order e1 e2).
    destruct (validate_meta e2 _ meta); cbn; repeat split; assumption || reflexivity.
  - repeat split; assumption || reflexivity.
  - rewrite (intentions_step_order e1 e2).
    destruct (missing_providers j _); cbn; repeat split; assumption || reflexivity.
Qed.

Lemma mapply_MInv e idx c s : MInv s -> MInv (mapply e idx c s).1.
Proof.
  intros Hinv. destruct c as [c|c|deltas|ds news old|inst req addrs|addrs|bad meta|name|refs]; cbn; try exact Hinv.
  - destruct (apply idx c (m_core s)); exact Hinv.
  - pose proof (vapply_Uniq e e idx c (m_vips s) Hinv) as Hx.
    destruct (vapply e e idx c (m_vips s)); exact Hx.
  - destruct (validate_meta e _ meta); exact Hinv.
  - destruct (missing_providers (m_jwt s) _); exact Hinv.
Qed.

Theorem mrun_sim log : forall es1 es2 s1 s2,
  MInv s1 -> msim s1 s2 ->
  msim (mrun es1 log s1).1 (mrun es2 log s2).1 /\ (mrun es1 log s1).2 = (mrun es2 log s2).2.
Proof.
  induction log as [|[idx c] log IH]; intros es1 es2 s1 s2 Hinv H; cbn; [split; [exact H|reflexivity]|].
  pose proof (mapply_sim (default env_id (head es1)) (default env_id (head es2)) idx c s1 s2 Hinv H) as [Hs Hr].
  pose proof (mapply_MInv (default env_id (head es1)) idx c s1 Hinv) as Hinv'.
  destruct (mapply (default env_id (head es1)) idx c s1) as [a1 r1], (mapply (default env_id (head es2)) idx c s2) as [a2 r2].
  cbn in *. subst r2. specialize (IH (tail es1) (tail es2) a1 a2 Hinv' Hs).
  destruct (mrun (tail es1) log a1) as [x1 y1], (mrun (tail es2) log a2) as [x2 y2]. cbn in *.
  destruct IH as [Hx ->]. split; [exact Hx|reflexivity].
Qed.

Theorem machine_run_env_independent log es1 es2 s :
  MInv s -> mrepl (mrun es1 log s).1 = mrepl (mrun es2 log s).1 /\ (mrun es1 log s).2 = (mrun es2 log s).2.
Proof. intros Hinv. apply mrun_sim; [exact Hinv|reflexivity]. Qed.

(* a concrete run: every kind of step, three replicas with different orders and clocks *)
Definition ex_mlog : list (N * mcmd) :=
  [ (1, MCore (Register "n1" "" 1 false None [CheckReq "n1" "c1" 0 "" false "" 0 0]));
    (2, MCore (SessionCreate "s1" (Sess "n1" "" false ["c1"] true 0)));
    (3, MCore (KVS VLock (KVReq "a" [] 0 "s1" 0 0)));
    (4, MVip (VCreate "web" 1)); (5, MVip (VCreate "db" 2)); (6, MVip (VCreate "cache" 3));
    (7, MVip (VAssign "web" ["240.0.0.1"])); (8, MVip (VAssign "db" ["240.0.0.2"]));
    (9, MVip (VAssign "cache" ["240.0.0.2"; "240.0.0.1"]));
    (10, MUsage (<["nodes" := 1%Z]> (<["services" := 2%Z]> (<["kvs" := (-1)%Z]> ∅))));
    (11, MProxy "web" ["db"; "api"] ∅);
    (12, MProxy "web" ["api"] {["db"; "api"; "cache"]});
    (13, MGatewayRegister "tgw1" (<["lan" := ("10.0.0.9", 8443)]> ∅)
           (<["consul-virtual:db" := ("240.0.0.7", 0)]> (<["consul-virtual:web" := ("240.0.0.6", 0)]> ∅)));
    (14, MGatewayConfig (<["consul-virtual:api" := ("240.0.0.8", 0)]> (<["consul-virtual:web" := ("240.0.0.6", 0)]> ∅)));
    (15, MRegisterMeta {["bad key!"; "also bad?"]} (<["bad key!" := "x"]> (<["ok" := "v"]> (<["also bad?" := "y"]> ∅))));
    (16, MJwtProvider "okta");
    (17, MIntentions {["okta"; "auth0"; "keycloak"]});
    (18, MCore (Register "n1" "" 1 false None [CheckReq "n1" "c1" 2 "" false "" 0 0])) ].

Definition ex_es_a : list Env := replicate 18 env_id.
Definition ex_es_b : list Env := replicate 18 env_rev.
Definition ex_es_c : list Env := [env_rot; env_rev; env_id; env_rot; env_rev; env_id; env_rot; env_rev; env_rot; env_rev; env_id;
                                  env_rot; env_rev; env_rot; env_rev; env_id; env_rot; env_rev].

Example machine_example_results :
  (mrun ex_es_a ex_mlog mst0).2 =
  [RCore CNil; RCore (CStr "s1"); RCore (CBool true); RVip None; RVip None; RVip None;
   RVip (Some (VRes true [])); RVip (Some (VRes true []));
   RVip (Some (VRes true ["db"; "web"])); RDone; RDone; RDone; RDone; RDone;
   RMetaError ("also bad?", "y"); RDone; RJwtError ["auth0"; "keycloak"]; RCore CNil] /\
  (mrun ex_es_b ex_mlog mst0).2 = (mrun ex_es_a ex_mlog mst0).2 /\
  (mrun ex_es_c ex_mlog mst0).2 = (mrun ex_es_a ex_mlog mst0).2.
Proof.
  eassert (Ha : (mrun ex_es_a ex_mlog mst0).2 = _) by (vm_compute; reflexivity).
  rewrite Ha. split; [reflexivity|]. split; vm_compute; reflexivity.
Qed.

Example machine_example_local_differs :
  m_expiry (mrun ex_es_a ex_mlog mst0).1 !! "a" = Some 115 /\
  m_expiry (mrun ex_es_b ex_mlog mst0).1 !! "a" = Some 7792.
Proof. split; vm_compute; reflexivity. Qed.

Example usage_two_orders :
  write_usage_deltas 7 [("nodes", 1%Z); ("services", (-3)%Z)] (<["services" := (2, 4)]> ∅) =
  write_usage_deltas 7 [("services", (-3)%Z); ("nodes", 1%Z)] (<["services" := (2, 4)]> ∅).
Proof. eapply bool_decide_eq_true_1. vm_compute. reflexivity. Qed.

Definition ex_topo : topo :=
  Topo (<[tkey "db" "web" := ("db", "web")]> (<[tkey "cache" "web" := ("cache", "web")]> (<[tkey "api" "web" := ("api", "web")]> ∅))) 5.
Example topology_two_orders :
  t_rows (update_mesh_topology env_id 9 "web" ["api"] {["db"; "api"; "cache"]} ex_topo) =
  t_rows (update_mesh_topology env_rev 9 "web" ["api"] {["db"; "api"; "cache"]} ex_topo) /\
  t_rows (update_mesh_topology env_id 9 "web" ["api"] {["db"; "api"; "cache"]} ex_topo) = <[tkey "api" "web" := ("api", "web")]> ∅ /\
  t_index (update_mesh_topology env_rev 9 "web" ["api"] {["db"; "api"; "cache"]} ex_topo) = 9.
Proof.
  split; [|split]; [eapply bool_decide_eq_true_1; vm_compute; reflexivity..|vm_compute; reflexivity].
Qed.

Example tagged_two_orders :
  let addrs : gmap string (string * N) := <["consul-virtual:db" := ("240.0.0.7", 0)]> (<["consul-virtual:web" := ("240.0.0.6", 0)]> ∅) in
  let existing : gmap string (string * N) := <["lan" := ("10.0.0.9", 8443)]> (<["consul-virtual:old" := ("240.0.0.1", 0)]> ∅) in
  update_tgw_tagged env_id env_rev addrs existing = update_tgw_tagged env_rev env_id addrs existing /\
  update_tgw_tagged env_id env_id addrs existing =
    <["lan" := ("10.0.0.9", 8443)]> (<["consul-virtual:db" := ("240.0.0.7", 0)]> (<["consul-virtual:web" := ("240.0.0.6", 0)]> ∅)).
Proof. cbv zeta. split; eapply bool_decide_eq_true_1; vm_compute; reflexivity. Qed.
