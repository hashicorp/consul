(* Property C01: the insertion sort [ssort] of coq/Store/Model.v (Go's sort.Strings / sort.Slice on
   names: byte-wise lexicographic order) returns the same list for every permutation of its input.
   This is what makes "collect the keys of a map, then sort" independent of the iteration order. *)
From stdpp Require Import list strings sorting.
From Coq Require Import NArith.
From Verif Require Import Base.Sorting Store.Model Store.Facts.

Definition sle (a b : string) : Prop := String.leb a b = true.

Lemma ascii_compare_trans_gt a b c :
  Ascii.compare a b ≠ Gt -> Ascii.compare b c ≠ Gt ->
  Ascii.compare a c ≠ Gt /\
  (Ascii.compare a c = Eq -> Ascii.compare a b = Eq /\ Ascii.compare b c = Eq).
Proof.
  unfold Ascii.compare. rewrite !N.compare_le_iff, !N.compare_eq_iff. lia.
Qed.

Lemma compare_trans_gt : forall s1 s2 s3,
  String.compare s1 s2 ≠ Gt -> String.compare s2 s3 ≠ Gt -> String.compare s1 s3 ≠ Gt.
Proof.
  induction s1 as [|a s1 IH]; intros [|b s2] [|c s3]; cbn; try congruence.
  intros H1 H2. destruct (ascii_compare_trans_gt a b c) as [Hac Heq].
  - intros E. rewrite E in H1. congruence.
  - intros E. rewrite E in H2. congruence.
  - (* equal first characters all along: the tails decide; otherwise the first characters do *)
    destruct (Ascii.compare a c); [|congruence|congruence].
    destruct (Heq eq_refl) as [Eab Ebc]. rewrite Eab in H1. rewrite Ebc in H2. exact (IH _ _ H1 H2).
Qed.

Lemma leb_gt a b : String.leb a b = true <-> String.compare a b ≠ Gt.
Proof. unfold String.leb. destruct (String.compare a b); split; congruence. Qed.

#[global] Instance sle_trans : Transitive sle.
Proof. intros a b c. unfold sle. rewrite !leb_gt. apply compare_trans_gt. Qed.
#[global] Instance sle_antisym : AntiSymm (=) sle.
Proof. intros a b H1 H2. apply String.leb_antisym; assumption. Qed.

Lemma ssort_sorted l : StronglySorted sle (ssort l).
Proof.
  apply (isort_sorted ssort_isort); [exact sle_trans|auto|exact (total_leb_false _ String.leb_total)].
Qed.

Theorem ssort_order l1 l2 : Permutation l1 l2 -> ssort l1 = ssort l2.
Proof.
  intros Hp. apply (StronglySorted_unique sle); [apply ssort_sorted|apply ssort_sorted|].
  rewrite !ssort_perm. exact Hp.
Qed.
