(* C06: basic facts about the index table operations and keys, the bound invariant, the "changed row"
   predicate of the watch model, [mmax], prefixes, and the lookup of a filtered table. *)
From stdpp Require Import gmap strings.
From Coq Require Import NArith Lia.
From Verif Require Import Blocking.Model.
Local Open Scope N_scope.

Lemma st_eta s : St (dt s) (index s) = s.
Proof. destruct s; reflexivity. Qed.

Lemma st_ext s s' : dt s = dt s' -> index s = index s' -> s = s'.
Proof. destruct s, s'; cbn; intros -> ->; reflexivity. Qed.

Lemma dt_idel k s : dt (idel k s) = dt s.
Proof. reflexivity. Qed.
Lemma dt_ibump k i s : dt (ibump k i s) = dt s.
Proof. unfold ibump. destruct (index s !! k); [destruct (bool_decide _)|]; reflexivity. Qed.
Lemma dt_bump_names l i s : dt (bump_names l i s) = dt s.
Proof. induction l as [|x l IH]; cbn; [reflexivity|]. rewrite dt_ibump. exact IH. Qed.

Lemma index_iset k i s : index (iset k i s) = <[k := i]> (index s).
Proof. reflexivity. Qed.
Lemma index_idel k s : index (idel k s) = delete k (index s).
Proof. reflexivity. Qed.

(* every stamp of the index table is at most i; [Bnd] adds the stamps the KV listings read (entries and
   tombstones).  The catalog lemmas need the first only. *)
Definition IdxBnd (i : N) (s : st) : Prop := forall k v, index s !! k = Some v -> v <= i.
Record Bnd (i : N) (s : st) : Prop := {
  bnd_index : IdxBnd i s;
  bnd_kv : forall k e, kvs s !! k = Some e -> kv_modify e <= i;
  bnd_tomb : forall k v, tombs s !! k = Some v -> v <= i
}.

Lemma Bnd_mono i j s : i <= j -> Bnd i s -> Bnd j s.
Proof.
  intros Hij [H1 H2 H3]. split.
  - intros k v Hk. specialize (H1 k v Hk). lia.
  - intros k e Hk. specialize (H2 k e Hk). lia.
  - intros k v Hk. specialize (H3 k v Hk). lia.
Qed.

Lemma iget_le i k s : IdxBnd i s -> iget k s <= i.
Proof.
  intros H. unfold iget. destruct (index s !! k) as [v|] eqn:E; cbn; [exact (H _ _ E)|lia].
Qed.

(* under the bound, indexUpdateMaxTxn is a plain insert *)
Lemma ibump_iset i k s : IdxBnd i s -> ibump k i s = iset k i s.
Proof.
  intros H. unfold ibump. destruct (index s !! k) as [c|] eqn:E; [|reflexivity].
  case_bool_decide as Hc; [|reflexivity].
  assert (c = i) as -> by (specialize (H _ _ E); lia).
  apply st_ext; [reflexivity|]. rewrite index_iset, insert_id; [reflexivity|exact E].
Qed.

Lemma IdxBnd_iset i k s : IdxBnd i s -> IdxBnd i (iset k i s).
Proof.
  intros H k' v. rewrite index_iset. intros Hk.
  apply lookup_insert_Some in Hk as [[_ <-]|[_ Hk]]; [lia|exact (H _ _ Hk)].
Qed.
Lemma IdxBnd_ibump i k s : IdxBnd i s -> IdxBnd i (ibump k i s).
Proof. intros H. rewrite ibump_iset by exact H. apply IdxBnd_iset, H. Qed.

Lemma bd_cons (k a : string) l : bool_decide (k ∈ a :: l) = bool_decide (k = a) || bool_decide (k ∈ l).
Proof. rewrite <- bool_decide_or. apply bool_decide_ext, elem_of_cons. Qed.

Lemma index_isets i l s k :
  index (foldr (fun nm a => iset (k_svc nm) i a) s l) !! k =
  if bool_decide (k ∈ (k_svc <$> l)) then Some i else index s !! k.
Proof.
  induction l as [|x l IH]; [reflexivity|]. cbn [foldr fmap list_fmap]. rewrite index_iset, bd_cons.
  destruct (decide (k = k_svc x)) as [->|E].
  - rewrite lookup_insert, bool_decide_eq_true_2 by reflexivity. reflexivity.
  - rewrite lookup_insert_ne, (bool_decide_eq_false_2 _ E) by congruence. exact IH.
Qed.

Lemma k_svc_inj a b : k_svc a = k_svc b -> a = b.
Proof. unfold k_svc. intros H. cbn in H. repeat (injection H as H). exact H. Qed.
Lemma k_node_inj a b : k_node a = k_node b -> a = b.
Proof. unfold k_node. intros H. cbn in H. repeat (injection H as H). exact H. Qed.

(* the rows that exist once per table, as opposed to service.<name> and node.<n> *)
Definition fixed_keys : list string :=
  [k_kvs; k_tombs; k_sessions; k_nodes; k_services; k_checks; k_sext; k_next; k_coords; k_cfg; k_pq; k_roots].

(* membership in a literal list, by position *)
Ltac inl := repeat first [apply elem_of_list_here | apply elem_of_list_further].

Lemma k_svc_fixed a k : k ∈ fixed_keys -> k_svc a <> k.
Proof.
  intros Hin. repeat (apply elem_of_cons in Hin as [->|Hin]); [..|inversion Hin];
    unfold k_svc; cbn; intros H; repeat (injection H as H); try discriminate.
Qed.
Lemma k_node_fixed a k : k ∈ fixed_keys -> k_node a <> k.
Proof.
  intros Hin. repeat (apply elem_of_cons in Hin as [->|Hin]); [..|inversion Hin];
    unfold k_node; cbn; intros H; repeat (injection H as H); try discriminate.
Qed.
Lemma k_svc_node a b : k_svc a <> k_node b.
Proof. unfold k_svc, k_node; cbn; intros H; repeat (injection H as H); discriminate. Qed.

Section chg.
  Context {K A : Type} `{Countable K} `{EqDecision A}.
  Lemma chg_true (m m' : gmap K A) f :
    chg m m' f = true <->
    exists k, m !! k <> m' !! k /\
              ((exists x, m !! k = Some x /\ f k x = true) \/ (exists x, m' !! k = Some x /\ f k x = true)).
  Proof.
    unfold chg. rewrite existsb_exists. split.
    - intros (k & _ & Hk). apply andb_true_iff in Hk as [Hne Hf].
      apply negb_true_iff, bool_decide_eq_false in Hne.
      exists k. split; [exact Hne|]. apply orb_true_iff in Hf as [Hf|Hf].
      + left. destruct (m !! k) as [x|]; [|discriminate]. exists x. split; [reflexivity|exact Hf].
      + right. destruct (m' !! k) as [x|]; [|discriminate]. exists x. split; [reflexivity|exact Hf].
    - intros (k & Hne & Hf). exists k. split.
      + apply elem_of_list_In, elem_of_elements, elem_of_union.
        destruct Hf as [(x & Hx & _)|(x & Hx & _)]; [left|right]; apply elem_of_dom; eexists; exact Hx.
      + apply andb_true_iff. split; [apply negb_true_iff, bool_decide_eq_false; exact Hne|].
        apply orb_true_iff. destruct Hf as [(x & -> & Hx)|(x & -> & Hx)]; [left|right]; exact Hx.
  Qed.

  Lemma map_neq_witness (m m' : gmap K A) : m <> m' -> exists k, m !! k <> m' !! k.
  Proof.
    intros Hne.
    destruct (decide (Forall (fun k => m !! k = m' !! k) (elements (dom m ∪ dom m')))) as [Hall|Hn].
    - exfalso. apply Hne, map_eq. intros k.
      destruct (decide (k ∈ dom m ∪ dom m')) as [Hin|Hnin].
      + rewrite Forall_forall in Hall. apply Hall, elem_of_elements, Hin.
      + apply not_elem_of_union in Hnin as [H1 H2]. apply not_elem_of_dom in H1, H2. congruence.
    - apply not_Forall_Exists in Hn; [|intros k; apply _]. apply Exists_exists in Hn as (k & _ & Hk). eauto.
  Qed.

  Lemma chg_at (m m' : gmap K A) f k :
    m !! k <> m' !! k ->
    (forall x, m !! k = Some x \/ m' !! k = Some x -> f k x = true) ->
    chg m m' f = true.
  Proof.
    intros Hne Hf. apply chg_true. exists k. split; [exact Hne|].
    destruct (m !! k) as [x|] eqn:E1.
    - left. exists x. split; [reflexivity|]. apply Hf. left; reflexivity.
    - destruct (m' !! k) as [x|] eqn:E2; [|congruence].
      right. exists x. split; [reflexivity|]. apply Hf. right; reflexivity.
  Qed.

End chg.

Lemma filter_lookup_if {K A} `{Countable K} (P : K * A -> Prop) `{!forall x, Decision (P x)} (m : gmap K A) k :
  filter P m !! k = match m !! k with Some x => if bool_decide (P (k, x)) then Some x else None | None => None end.
Proof.
  rewrite map_filter_lookup. destruct (m !! k) as [x|]; [|reflexivity]. cbn.
  case_bool_decide; [rewrite option_guard_True|rewrite option_guard_False]; trivial.
Qed.

Lemma filter_lookup_neq {A} (P : string * A -> Prop) `{!forall x, Decision (P x)} (m : gmap string A) k :
  filter P m !! k <> m !! k -> filter P m !! k = None /\ exists e, m !! k = Some e /\ ~ P (k, e).
Proof.
  rewrite filter_lookup_if. destruct (m !! k) as [e|]; [|intros Hne; contradiction Hne; reflexivity].
  case_bool_decide as HP; intros Hne; [contradiction Hne; reflexivity|eauto].
Qed.

Lemma remove_dups_const {A} `{EqDecision A} (a : A) l :
  (forall x, x ∈ l -> x = a) -> l <> [] -> remove_dups l = [a].
Proof.
  induction l as [|x l IH]; intros Hall Hne; [congruence|].
  assert (x = a) as -> by (apply Hall; left).
  cbn. destruct (decide_rel elem_of a l) as [Hin|Hnin].
  - apply IH; [intros y Hy; apply Hall; right; exact Hy|]. intros ->. inversion Hin.
  - destruct l as [|y l]; [reflexivity|]. exfalso. apply Hnin.
    assert (y = a) as -> by (apply Hall; right; left). left.
Qed.

Section mmax.
  Context {K A : Type} `{Countable K}.
  Lemma mmax_spec (f : A -> N) (m : gmap K A) :
    (forall k x, m !! k = Some x -> f x <= mmax f m) /\
    (mmax f m = 0 \/ exists k x, m !! k = Some x /\ f x = mmax f m).
  Proof.
    unfold mmax. apply (map_fold_ind (fun r m => (forall k x, m !! k = Some x -> f x <= r) /\
                                                 (r = 0 \/ exists k x, m !! k = Some x /\ f x = r))).
    - split; [intros k x Hk; rewrite lookup_empty in Hk; discriminate|left; reflexivity].
    - intros k x m' r Hk [IH1 IH2]. split.
      + intros k' x' Hk'. apply lookup_insert_Some in Hk' as [[-> ->]|[_ Hk']]; [lia|].
        specialize (IH1 _ _ Hk'). lia.
      + destruct (N.max_spec (f x) r) as [[Hlt ->]|[Hle ->]].
        * destruct IH2 as [->|(k' & x' & Hk' & Hx')]; [lia|].
          right. exists k', x'. split; [|exact Hx'].
          rewrite lookup_insert_ne; [exact Hk'|]. intros ->. congruence.
        * right. exists k, x. split; [apply lookup_insert|reflexivity].
  Qed.
  Lemma mmax_empty (f : A -> N) : mmax f (∅ : gmap K A) = 0.
  Proof. apply map_fold_empty. Qed.
  Lemma mmax_ub (f : A -> N) (m : gmap K A) k x : m !! k = Some x -> f x <= mmax f m.
  Proof. apply mmax_spec. Qed.
  Lemma mmax_le (f : A -> N) (m : gmap K A) b : (forall k x, m !! k = Some x -> f x <= b) -> mmax f m <= b.
  Proof.
    intros Hb. destruct (mmax_spec f m) as [_ [->|(k & x & Hk & <-)]]; [lia|exact (Hb _ _ Hk)].
  Qed.
End mmax.

Lemma has_prefix_nil k : has_prefix "" k = true.
Proof. destruct k; reflexivity. Qed.
Lemma has_prefix_of_nil p : has_prefix p "" = true -> p = "".
Proof. destruct p; [reflexivity|discriminate]. Qed.
Lemma has_prefix_comparable p p' k :
  has_prefix p k = true -> has_prefix p' k = true -> has_prefix p p' = true \/ has_prefix p' p = true.
Proof.
  unfold has_prefix. revert p p'. induction k as [|c k IH]; intros p p' H1 H2.
  - destruct p; [|discriminate]. left. destruct p'; reflexivity.
  - destruct p as [|a p]; [left; destruct p'; reflexivity|].
    destruct p' as [|b p']; [right; reflexivity|].
    cbn in H1, H2. destruct (Ascii.ascii_dec a c) as [->|]; [|discriminate].
    destruct (Ascii.ascii_dec b c) as [->|]; [|discriminate].
    cbn. destruct (Ascii.ascii_dec c c); [|congruence]. apply IH; assumption.
Qed.
Lemma has_prefix_trans a b c : has_prefix a b = true -> has_prefix b c = true -> has_prefix a c = true.
Proof.
  unfold has_prefix. revert b c. induction a as [|x a IH]; intros b c H1 H2; [destruct c; reflexivity|].
  destruct b as [|y b]; [discriminate|]. destruct c as [|z c]; [discriminate|].
  cbn in *. destruct (Ascii.ascii_dec x y) as [->|]; [|discriminate].
  destruct (Ascii.ascii_dec y z) as [->|]; [|discriminate]. eapply IH; eassumption.
Qed.
