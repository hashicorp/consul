(* C06: the KV queries whose index is not a plain table maximum: KVS.Get (ModifyIndex of the entry)
   and the prefix listings (sub-index over the entries and tombstones under the prefix). *)
From stdpp Require Import gmap strings.
From Coq Require Import NArith Lia.
From Verif Require Import Blocking.Model Blocking.Lemmas Blocking.Prims Blocking.Valid Blocking.Index.
Local Open Scope N_scope.

Definition under {A} (p : string) (m : gmap string A) : gmap string A :=
  filter (fun kv => has_prefix p kv.1 = true) m.

Lemma under_lookup {A} p0 (m : gmap string A) k :
  under p0 m !! k = if has_prefix p0 k then m !! k else None.
Proof.
  unfold under. rewrite filter_lookup_if. cbn [fst]. destruct (m !! k), (has_prefix p0 k); reflexivity.
Qed.
Lemma under_neq p0 (m m' : gmap string kvent) :
  under p0 m' <> under p0 m -> exists k, has_prefix p0 k = true /\ m' !! k <> m !! k.
Proof.
  intros Hne. destruct (map_neq_witness _ _ Hne) as [k Hk]. rewrite !under_lookup in Hk.
  destruct (has_prefix p0 k) eqn:Ep; [|contradiction Hk; reflexivity].
  exists k. split; [exact Ep|exact Hk].
Qed.

Lemma mmax_under_ub {A} (f : A -> N) p (m : gmap string A) k x :
  m !! k = Some x -> has_prefix p k = true -> f x <= mmax f (under p m).
Proof. intros Hk Hp. apply (mmax_ub f _ k), map_filter_lookup_Some. split; assumption. Qed.
Lemma mmax_under_le {A} (f : A -> N) p (m : gmap string A) b :
  (forall k x, m !! k = Some x -> f x <= b) -> mmax f (under p m) <= b.
Proof.
  intros Hb. apply mmax_le. intros k x Hk. apply map_filter_lookup_Some in Hk as [Hk _]. exact (Hb _ _ Hk).
Qed.

Lemma kv_table_max_le i s : IdxBnd i s -> kv_table_max s <= i.
Proof. apply imax_le. Qed.
Lemma kv_table_max_mono i p s : IdxBnd i s -> kv_table_max s <= kv_table_max (papply i p s).
Proof. intros HB. apply imax_mono; [exact HB|]. repeat constructor; unfold fixed_keys; inl. Qed.
Lemma kv_table_max_set i p s : IdxBnd i s -> k_kvs ∈ set_keys p s -> kv_table_max (papply i p s) = i.
Proof. intros HB. apply imax_set; [exact HB|left]. Qed.
Lemma kvs_changed i p s : kvs (papply i p s) <> kvs s -> k_kvs ∈ set_keys p s.
Proof. intros H. apply (tbl_written i p s TKv). intros E. apply H. symmetry. exact E. Qed.

Lemma kv_list_index_eq p s :
  kv_list_index p s =
  let t := kv_table_max s in
  let l' := if bool_decide (p = "") then t
            else N.max (mmax kv_modify (under p (kvs s))) (mmax id (under p (tombs s))) in
  if bool_decide (l' = 0) then t else l'.
Proof. reflexivity. Qed.

Lemma kv_list_index_le i p s : Bnd i s -> kv_list_index p s <= i.
Proof.
  intros [HB Hkv Htb]. rewrite kv_list_index_eq. cbv zeta.
  pose proof (kv_table_max_le i s HB) as HT.
  pose proof (mmax_under_le kv_modify p (kvs s) i Hkv) as HL.
  pose proof (mmax_under_le id p (tombs s) i Htb) as HG.
  repeat case_bool_decide; lia.
Qed.

Lemma kv_list_index_ge i p s :
  kv_table_max s = i ->
  ((exists k e, kvs s !! k = Some e /\ has_prefix p k = true /\ kv_modify e = i) \/
   (exists k, tombs s !! k = Some i /\ has_prefix p k = true) \/ p = "") ->
  i <= kv_list_index p s.
Proof.
  intros HT Hw. rewrite kv_list_index_eq, HT. cbv zeta.
  destruct (decide (p = "")) as [Hp|Hp].
  { rewrite (bool_decide_eq_true_2 _ Hp). case_bool_decide; lia. }
  rewrite (bool_decide_eq_false_2 _ Hp).
  assert (Hm : i <= N.max (mmax kv_modify (under p (kvs s))) (mmax id (under p (tombs s)))).
  { destruct Hw as [(k & e & Hk & Hpk & He)|[(k & Hk & Hpk)|Hw]]; [| |contradiction].
    - pose proof (mmax_under_ub kv_modify p _ k e Hk Hpk). lia.
    - pose proof (mmax_under_ub id p _ k i Hk Hpk) as H. change (id i) with i in H. lia. }
  case_bool_decide; lia.
Qed.

Lemma tombs_grow i p (s : st) k v :
  (forall u, p <> PReap u) -> (forall p', p <> PKvDelTree p') -> tombs s !! k = Some v ->
  tombs (papply i p s) !! k = Some v \/ tombs (papply i p s) !! k = Some i.
Proof.
  intros Hr Ht Hk. rewrite tombs_papply. destruct p; cbn [tombs_after]; try (left; exact Hk).
  - destruct (decide (k = k0)) as [->|]; [right; apply lookup_insert|left; rewrite lookup_insert_ne by congruence; exact Hk].
  - exfalso. eapply Ht. reflexivity.
  - destruct (((fun _ => i) <$> filter (fun kv => kv_sess kv.2 = sid) (kvs s)) !! k) as [w|] eqn:E.
    + right. apply lookup_union_Some_l. rewrite E. apply lookup_fmap_Some in E as (e & <- & _). reflexivity.
    + left. rewrite lookup_union_r by exact E. exact Hk.
  - exfalso. eapply Hr. reflexivity.
Qed.
Lemma tombs_new i p (s : st) k v :
  tombs (papply i p s) !! k = Some v -> tombs s !! k = Some v \/ v = i.
Proof.
  rewrite tombs_papply. destruct p; cbn [tombs_after]; try (left; assumption).
  - intros Hk. apply lookup_insert_Some in Hk as [[_ <-]|[_ Hk]]; [right; reflexivity|left; exact Hk].
  - case_bool_decide.
    + intros Hk. apply map_filter_lookup_Some in Hk as [Hk _]. left; exact Hk.
    + intros Hk. apply lookup_insert_Some in Hk as [[_ <-]|[_ Hk]]; [right; reflexivity|].
      apply map_filter_lookup_Some in Hk as [Hk _]. left; exact Hk.
  - intros Hk. apply lookup_union_Some_raw in Hk as [Hk|[_ Hk]]; [|left; exact Hk].
    apply lookup_fmap_Some in Hk as (e & <- & _). right; reflexivity.
  - intros Hk. apply map_filter_lookup_Some in Hk as [Hk _]. left; exact Hk.
Qed.

Lemma kv_list_index_unchanged i p0 p s :
  Bnd i s -> pvalid i p s -> (forall p', p <> PKvDelTree p') ->
  under p0 (kvs (papply i p s)) = under p0 (kvs s) ->
  kv_list_index p0 s <= kv_list_index p0 (papply i p s).
Proof.
  intros [HB Hkv Htb] Hv Hnt Hsame.
  assert (Hr : forall u, p <> PReap u) by (intros u ->; exact Hv).
  rewrite !kv_list_index_eq. cbv zeta. rewrite Hsame.
  set (L := mmax kv_modify (under p0 (kvs s))).
  set (G := mmax id (under p0 (tombs s))). set (G' := mmax id (under p0 (tombs (papply i p s)))).
  pose proof (kv_table_max_mono i p s HB) as HT. pose proof (kv_table_max_le i s HB) as HTi.
  pose proof (kv_table_max_le i _ (IdxBnd_papply i p s HB)) as HTi'.
  pose proof (mmax_under_le kv_modify p0 (kvs s) i Hkv : L <= i) as HL.
  assert (HG : G <= G').
  { apply mmax_le. intros k v Hk. apply map_filter_lookup_Some in Hk as [Hk Hp].
    destruct (tombs_grow i p s k v Hr Hnt Hk) as [H|H].
    - exact (mmax_under_ub id p0 _ k v H Hp).
    - pose proof (mmax_under_ub id p0 _ k i H Hp : i <= G'). pose proof (Htb _ _ Hk). change (v <= G'). lia. }
  assert (HG' : G' = G \/ G' = i).
  { destruct (mmax_spec id (under p0 (tombs (papply i p s)))) as [_ [Hz|(k & v & Hk & Hm)]].
    - left. fold G' in Hz. lia.
    - apply map_filter_lookup_Some in Hk as [Hk Hp]. change (v = G') in Hm. subst v.
      destruct (tombs_new i p s k G' Hk) as [Hold|Hi]; [|right; exact Hi].
      left. pose proof (mmax_under_ub id p0 _ k G' Hold Hp : G' <= G). lia. }
  repeat case_bool_decide; destruct HG' as [HG'|HG']; lia.
Qed.

Lemma kv_row_changed i p s k :
  pvalid i p s -> kvs (papply i p s) !! k <> kvs s !! k ->
  match kvs (papply i p s) !! k with
  | Some e' => kv_modify e' = i
  | None => exists e, kvs s !! k = Some e /\
                      (tombs (papply i p s) !! k = Some i \/
                       exists p', p = PKvDelTree p' /\ has_prefix p' k = true)
  end.
Proof.
  intros Hv. rewrite kvs_papply, tombs_papply.
  destruct p; cbn [kvs_after tombs_after]; try (intros H; contradiction H; reflexivity).
  - (* PKvPut *) destruct (decide (k = k0)) as [->|Hne].
    + rewrite lookup_insert. intros _. exact Hv.
    + rewrite lookup_insert_ne by congruence. intros H; contradiction H; reflexivity.
  - (* PKvDel *) destruct (decide (k = k0)) as [->|Hne].
    + rewrite lookup_delete. intros H. destruct (kvs s !! k0) as [e|]; [|contradiction H; reflexivity].
      exists e. split; [reflexivity|]. left. apply lookup_insert.
    + rewrite lookup_delete_ne by congruence. intros H; contradiction H; reflexivity.
  - (* PKvDelTree *) intros H. apply filter_lookup_neq in H as [-> (e & -> & Hp)]. cbn [fst] in Hp.
    exists e. split; [reflexivity|]. right. exists p. split; [reflexivity|].
    destruct (has_prefix p k); [reflexivity|contradiction Hp; reflexivity].
  - (* PKvRelease *) rewrite lookup_fmap. destruct (kvs s !! k) as [e|] eqn:E; cbn; [|intros H0; contradiction H0; reflexivity].
    case_bool_decide; [reflexivity|intros H0; contradiction H0; reflexivity].
  - (* PKvDelSess *) intros H. apply filter_lookup_neq in H as [-> (e & E2 & Hp)]. cbn [snd] in Hp.
    exists e. split; [exact E2|]. left.
      apply lookup_union_Some_l. rewrite lookup_fmap.
      assert (filter (fun kv : string * kvent => kv_sess kv.2 = sid) (kvs s) !! k = Some e) as ->; [|reflexivity].
      apply map_filter_lookup_Some. split; [exact E2|]. cbn.
      destruct (decide (kv_sess e = sid)); [assumption|contradiction].
Qed.

Lemma kv_get_changed i p s k :
  Bnd i s -> pvalid i p s -> kvs (papply i p s) !! k <> kvs s !! k ->
  i <= match kvs (papply i p s) !! k with Some e => kv_modify e | None => kv_table_max (papply i p s) end.
Proof.
  intros HBnd Hv Hk. pose proof (kv_row_changed i p s k Hv Hk) as Hrow.
  assert (Hkk : k_kvs ∈ set_keys p s).
  { apply (kvs_changed i). intros Heq. apply Hk. rewrite Heq. reflexivity. }
  destruct (kvs (papply i p s) !! k) as [e'|]; [lia|].
  rewrite kv_table_max_set; [lia|apply HBnd|exact Hkk].
Qed.

Lemma kv_list_changed i p0 p s :
  Bnd i s -> pvalid i p s -> (forall p', p <> PKvDelTree p') ->
  under p0 (kvs (papply i p s)) <> under p0 (kvs s) ->
  i <= kv_list_index p0 (papply i p s).
Proof.
  intros HBnd Hv Hnt Hne.
  assert (Hkv : k_kvs ∈ set_keys p s).
  { apply (kvs_changed i). intros Heq. apply Hne. rewrite Heq. reflexivity. }
  apply kv_list_index_ge; [apply kv_table_max_set; [apply HBnd|exact Hkv]|].
  destruct (under_neq _ _ _ Hne) as (k & Hpk & Hk).
  pose proof (kv_row_changed i p s k Hv Hk) as Hrow.
  destruct (kvs (papply i p s) !! k) as [e'|] eqn:E'.
  - left. exists k, e'. repeat split; assumption.
  - destruct Hrow as (e & He & [Ht|(p' & -> & Hp')]).
    + right. left. exists k. split; assumption.
    + exfalso. eapply Hnt. reflexivity.
Qed.

Lemma under_filter_unrelated {A} p0 p' (m : gmap string A) :
  has_prefix p0 p' = false -> has_prefix p' p0 = false ->
  under p0 (filter (fun kv => has_prefix p' kv.1 = false) m) = under p0 m.
Proof.
  intros E1 E2. apply map_filter_filter_l. intros k x _ Hk. cbn [fst] in *.
  destruct (has_prefix p' k) eqn:Ek'; [|reflexivity].
  destruct (has_prefix_comparable _ _ _ Hk Ek'); congruence.
Qed.
Lemma under_filter_covered {A} p0 p' (m : gmap string A) :
  has_prefix p' p0 = true -> under p0 (filter (fun kv => has_prefix p' kv.1 = false) m) = ∅.
Proof.
  intros E. apply map_filter_empty_iff. intros k x Hk Hp. cbn [fst] in Hp.
  apply map_filter_lookup_Some in Hk as [_ Hk]. cbn [fst] in Hk.
  rewrite (has_prefix_trans _ _ _ E Hp) in Hk. discriminate.
Qed.
Lemma under_tombs_deltree i p0 p' s :
  has_prefix p0 p' = false ->
  under p0 (tombs (papply i (PKvDelTree p') s)) =
  under p0 (filter (fun kt => has_prefix p' kt.1 = false) (tombs s)).
Proof.
  intros E. rewrite tombs_papply. cbn [tombs_after]. case_bool_decide; [reflexivity|].
  apply map_filter_insert_not. intros v. cbn [fst]. congruence.
Qed.

(* the delete-tree: it drops the tombstones under its prefix, so a listing on a longer prefix
   falls back to the table index (which it has just written); a listing it lies under sees the
   tree's tombstone; an unrelated listing is untouched *)
Lemma kv_list_deltree i p0 p' s :
  Bnd i s ->
  let s' := papply i (PKvDelTree p') s in
  i <= kv_list_index p0 s' \/
  (under p0 (kvs s') = under p0 (kvs s) /\ kv_list_index p0 s <= kv_list_index p0 s').
Proof.
  intros HBnd s'.
  assert (HT : kv_table_max s' = i).
  { apply kv_table_max_set; [apply HBnd|]. cbn. case_bool_decide; inl. }
  destruct (decide (p0 = "")) as [->|Hp0].
  { left. apply kv_list_index_ge; [exact HT|right; right; reflexivity]. }
  destruct (has_prefix p0 p') eqn:E1.
  - (* the tree's prefix lies under the listed one: its tombstone counts *)
    left. apply kv_list_index_ge; [exact HT|].
    right. left. exists p'. split; [|exact E1].
    unfold s'. rewrite tombs_papply. cbn [tombs_after]. rewrite bool_decide_eq_false_2.
    + apply lookup_insert.
    + intros ->. apply has_prefix_of_nil in E1. contradiction.
  - assert (Hkv : under p0 (kvs s') = under p0 (filter (fun kv => has_prefix p' kv.1 = false) (kvs s)))
      by (unfold s'; rewrite kvs_papply; reflexivity).
    pose proof (under_tombs_deltree i p0 p' s E1) as Htb. fold s' in Htb.
    rewrite !kv_list_index_eq. cbv zeta. rewrite HT, !(bool_decide_eq_false_2 _ Hp0), Hkv, Htb.
    destruct (has_prefix p' p0) eqn:E2.
    + (* the listed prefix lies strictly under the tree's: nothing is left below it *)
      left. rewrite !under_filter_covered, !mmax_empty by exact E2. case_bool_decide; lia.
    + (* unrelated prefixes: the listing and its tombstones are untouched *)
      rewrite !under_filter_unrelated by assumption.
      case_bool_decide; [left; lia|right; split; reflexivity].
Qed.

Inductive kvq : query -> Prop :=
| kq1 k : kvq (QKVGetEP k) | kq2 p : kvq (QKVList p) | kq3 p sep : kvq (QKVKeys p sep).

Lemma kv_idx_le i s q : Bnd i s -> kvq q -> idx q s <= i.
Proof.
  intros HBnd Hq. destruct Hq; cbn [idx]; try (apply kv_list_index_le, HBnd).
  destruct (kvs s !! k) as [e|] eqn:E; [exact (bnd_kv _ _ HBnd _ _ E)|apply kv_table_max_le, HBnd].
Qed.

Lemma tree_dec p : {p' | p = PKvDelTree p'} + {forall p', p <> PKvDelTree p'}.
Proof. destruct p; try (right; intros p'; discriminate). left. eexists; reflexivity. Qed.

Lemma kv_list_step i p0 p s :
  Bnd i s -> pvalid i p s ->
  i <= kv_list_index p0 (papply i p s) \/
  (under p0 (kvs (papply i p s)) = under p0 (kvs s) /\
   kv_list_index p0 s <= kv_list_index p0 (papply i p s)).
Proof.
  intros HBnd Hv. destruct (tree_dec p) as [[p' ->]|Hnt].
  - exact (kv_list_deltree i p0 p' s HBnd).
  - destruct (decide (under p0 (kvs (papply i p s)) = under p0 (kvs s))) as [Heq|Hne].
    + right. split; [exact Heq|]. apply kv_list_index_unchanged; assumption.
    + left. apply kv_list_changed; assumption.
Qed.

Lemma kvq_cases q : kvq q ->
  (exists k, q = QKVGetEP k) \/
  (exists p0 (g : gmap string kvent -> rval), forall s, idx q s = kv_list_index p0 s /\ res q s = g (under p0 (kvs s))).
Proof.
  intros [k|p0|p0 sep]; [left; eauto|right..].
  - exists p0, RKV. intros s. split; reflexivity.
  - exists p0, (fun m => RKeys (list_to_set ((fun kv => cut_key p0 sep kv.1) <$> map_to_list m))). intros s. split; reflexivity.
Qed.

Lemma kv_changed i p s q :
  Bnd i s -> pvalid i p s -> kvq q ->
  res q s <> res q (papply i p s) -> i <= idx q (papply i p s).
Proof.
  intros HBnd Hv Hq Hc. destruct (kvq_cases q Hq) as [[k ->]|(p0 & g & Hg)].
  - cbn [idx res] in *. apply kv_get_changed; try assumption. intros Heq. apply Hc. rewrite Heq. reflexivity.
  - rewrite (proj1 (Hg _)). rewrite !(proj2 (Hg _)) in Hc.
    destruct (kv_list_step i p0 p s HBnd Hv) as [H|[Heq _]]; [exact H|]. contradiction Hc. rewrite Heq. reflexivity.
Qed.

Lemma kv_mono i p s q :
  Bnd i s -> pvalid i p s -> kvq q -> idx q s <= idx q (papply i p s).
Proof.
  intros HBnd Hv Hq. pose proof (kv_idx_le i s q HBnd Hq) as Hle.
  destruct (kvq_cases q Hq) as [[k ->]|(p0 & g & Hg)].
  - cbn [idx] in *. destruct (decide (kvs (papply i p s) !! k = kvs s !! k)) as [Heq|Hne].
    + rewrite Heq. destruct (kvs s !! k); [lia|apply kv_table_max_mono, HBnd].
    + pose proof (kv_get_changed i p s k HBnd Hv Hne). lia.
  - rewrite !(proj1 (Hg _)) in *. destruct (kv_list_step i p0 p s HBnd Hv) as [H|[_ H]]; [lia|exact H].
Qed.
