(* C06: the catalog queries with per-entity index rows: NodeServices (node.<n> / node extinction)
   and the service-name family ServiceNodes / ServiceTagNodes / CheckServiceNodes /
   CheckServiceTagNodes (service.<name> / service extinction / catalog maximum). *)
From stdpp Require Import gmap strings.
From Coq Require Import NArith Lia.
From Verif Require Import Blocking.Model Blocking.Lemmas Blocking.Prims Blocking.Valid Blocking.Index.
Local Open Scope N_scope.


Lemma svcs_of_node_lookup n (s : st) k :
  svcs_of_node n s !! k = if bool_decide (k.1 = n) then services s !! k else None.
Proof.
  unfold svcs_of_node. rewrite filter_lookup_if. destruct (services s !! k); [reflexivity|case_bool_decide; reflexivity].
Qed.

Lemma services_at i p s k :
  services (papply i p s) !! k <> services s !! k -> p = PSvcDel k.1 k.2 \/ exists x, p = PSvcPut k.1 k.2 x.
Proof.
  rewrite services_papply. destruct k as [n' sid'], p; intros H; try (contradiction H; reflexivity);
    (destruct (decide ((n', sid') = (n, sid))) as [[= -> ->]|Hne]; [eauto|]).
  - rewrite lookup_insert_ne in H by congruence. contradiction H; reflexivity.
  - rewrite lookup_delete_ne in H by congruence. contradiction H; reflexivity.
Qed.
Lemma nodes_at i p s n : nodes (papply i p s) !! n <> nodes s !! n -> p = PNodeDel n \/ exists x, p = PNodePut n x.
Proof.
  rewrite nodes_papply. destruct p; intros H; try (contradiction H; reflexivity);
    (destruct (decide (n = n0)) as [->|Hne]; [eauto|]).
  - rewrite lookup_insert_ne in H by congruence. contradiction H; reflexivity.
  - rewrite lookup_delete_ne in H by congruence. contradiction H; reflexivity.
Qed.
Lemma checks_at i p s k :
  checks (papply i p s) !! k <> checks s !! k -> p = PChkDel k.1 k.2 \/ exists x, p = PChkPut k.1 k.2 x.
Proof.
  rewrite checks_papply. destruct k as [n' cid'], p; intros H; try (contradiction H; reflexivity);
    (destruct (decide ((n', cid') = (n, cid))) as [[= -> ->]|Hne]; [eauto|]).
  - rewrite lookup_insert_ne in H by congruence. contradiction H; reflexivity.
  - rewrite lookup_delete_ne in H by congruence. contradiction H; reflexivity.
Qed.

Lemma node_services_changed i p s n :
  IdxBnd i s ->
  res (QNodeServices n) s <> res (QNodeServices n) (papply i p s) ->
  idx (QNodeServices n) (papply i p s) = i.
Proof.
  intros HB Hc. cbn [res idx] in *.
  destruct (decide (nodes (papply i p s) !! n = nodes s !! n)) as [Hn|Hn].
  - (* the node row is the same: a service of the node changed *)
    rewrite Hn in *. destruct (nodes s !! n) as [x|] eqn:En; [|contradiction Hc; reflexivity].
    assert (Hs : svcs_of_node n (papply i p s) <> svcs_of_node n s) by (intros Heq; apply Hc; rewrite Heq; reflexivity).
    destruct (map_neq_witness _ _ Hs) as [[n' sid] Hk]. rewrite !svcs_of_node_lookup in Hk.
    case_bool_decide as Ek; [|contradiction Hk; reflexivity]. cbn in Ek. subst n'.
    apply set_key_iget; [exact HB|].
    destruct (services_at i p s _ Hk) as [->|[y ->]]; cbn [fst snd set_keys] in *; [|apply elem_of_app; left; inl].
    destruct (services s !! (n, sid)) eqn:E; [apply elem_of_app; left; inl|].
    rewrite services_papply, lookup_delete in Hk. contradiction Hk; reflexivity.
  - destruct (nodes_at i p s n Hn) as [->|[y ->]]; rewrite nodes_papply.
    + rewrite lookup_delete. apply set_key_iget; [exact HB|]. cbn [set_keys]. inl.
    + rewrite lookup_insert. apply set_key_iget; [exact HB|]. cbn [set_keys]. inl.
Qed.

Lemma node_services_mono i p s n :
  IdxBnd i s -> idx (QNodeServices n) s <= idx (QNodeServices n) (papply i p s).
Proof.
  intros HB.
  assert (Hle : idx (QNodeServices n) s <= i) by (cbn [idx]; destruct (nodes s !! n); apply iget_le, HB).
  destruct (decide (res (QNodeServices n) s = res (QNodeServices n) (papply i p s))) as [Heq|Hne].
  2: { rewrite (node_services_changed i p s n HB Hne). exact Hle. }
  (* the result is the same, so the node row is there before and after, or neither time *)
  cbn [idx res] in *.
  destruct (nodes s !! n) as [x|] eqn:En, (nodes (papply i p s) !! n) as [x'|] eqn:En'; try discriminate.
  - rewrite iget_papply by exact HB. case_bool_decide; [apply iget_le, HB|].
    case_bool_decide as Hd; [|lia].
    (* node.<n> is only deleted together with the node row *)
    exfalso. destruct (del_keys_shape i p s _ Hd) as [(n0 & -> & E)|(nm & E & _)].
    + apply k_node_inj in E. subst. rewrite nodes_papply, lookup_delete in En'. discriminate.
    + symmetry in E. revert E. apply k_svc_node.
  - apply fixed_mono; [exact HB|]. unfold fixed_keys. inl.
Qed.


(* the richest join over the instances of one service name; the four queries are projections *)
Definition J (name : string) (s : st) := join_csn s (svcs_named name s).

Lemma svcs_named_lookup name (s : st) k :
  svcs_named name s !! k = match services s !! k with
                           | Some sv => if bool_decide (sv_name sv = name) then Some sv else None
                           | None => None
                           end.
Proof. apply filter_lookup_if. Qed.

Lemma join_node_lookup (s : st) (m : gmap (string * string) svc) k :
  join_node s m !! k = (fun sv => (nodes s !! k.1, sv)) <$> m !! k.
Proof. unfold join_node. rewrite map_lookup_imap. destruct (m !! k); reflexivity. Qed.
Lemma join_csn_lookup (s : st) (m : gmap (string * string) svc) k :
  join_csn s m !! k = (fun sv => (nodes s !! k.1, sv, checks_for s k.1 k.2)) <$> m !! k.
Proof. unfold join_csn. rewrite map_lookup_imap. destruct (m !! k); reflexivity. Qed.
Lemma J_lookup name s k :
  J name s !! k = (fun sv => (nodes s !! k.1, sv, checks_for s k.1 k.2)) <$> svcs_named name s !! k.
Proof. apply join_csn_lookup. Qed.

Lemma join_node_of_csn (s : st) (m : gmap (string * string) svc) :
  join_node s m = (fun x => (x.1.1, x.1.2)) <$> join_csn s m.
Proof.
  apply map_eq. intros k. rewrite lookup_fmap, join_node_lookup, join_csn_lookup. destruct (m !! k); reflexivity.
Qed.
Lemma join_csn_tag (s : st) (tag : string) (m : gmap (string * string) svc) :
  join_csn s (filter (fun kv => has_tag tag kv.2 = true) m) =
  filter (fun kv => has_tag tag kv.2.1.2 = true) (join_csn s m).
Proof.
  apply map_eq. intros k. rewrite join_csn_lookup, !map_filter_lookup, join_csn_lookup.
  destruct (m !! k) as [sv|]; [|reflexivity]. cbn. destruct (has_tag tag sv); reflexivity.
Qed.

Inductive svcq : string -> bool -> query -> Prop :=
| sq1 name : svcq name false (QSvcNodes name)
| sq2 name tag : svcq name false (QSvcTagNodes name tag)
| sq3 name : svcq name true (QCSN name)
| sq4 name tag : svcq name true (QCSNTag name tag).

Lemma svcq_res name wc q s s' : svcq name wc q -> J name s = J name s' -> res q s = res q s'.
Proof.
  unfold J. intros Hq HJ. destruct Hq; cbn [res]; rewrite ?join_node_of_csn, ?join_csn_tag, HJ; reflexivity.
Qed.

Definition sidx (name : string) (wc : bool) (s : st) : N :=
  (svc_index name (nonempty (svcs_named name s)) wc s).1.

Lemma names_of_named name s : svcs_named name s <> ∅ -> names_of (svcs_named name s) = [name].
Proof.
  intros Hne. unfold names_of. apply remove_dups_const.
  - intros x Hx. apply elem_of_list_fmap in Hx as (kv & -> & Hkv).
    destruct kv as [k sv]. apply elem_of_map_to_list in Hkv.
    apply map_filter_lookup_Some in Hkv as [_ Hn]. exact Hn.
  - intros Hnil. apply Hne. apply fmap_nil_inv in Hnil. apply map_to_list_empty_iff in Hnil. exact Hnil.
Qed.

Lemma svcq_idx name wc q s : svcq name wc q -> idx q s = sidx name wc s.
Proof.
  intros Hq. destruct Hq; cbn [idx]; try reflexivity.
  unfold csn_index, sidx, nonempty.
  case_bool_decide as E; cbn [negb]; [reflexivity|].
  rewrite names_of_named by exact E. cbn [foldr]. lia.
Qed.

Lemma catalog_max_le i wc s : IdxBnd i s -> catalog_max wc s <= i.
Proof. destruct wc; apply imax_le. Qed.
Lemma catalog_max_mono i p wc s : IdxBnd i s -> catalog_max wc s <= catalog_max wc (papply i p s).
Proof. intros HB. destruct wc; (apply imax_mono; [exact HB|repeat constructor; unfold fixed_keys; inl]). Qed.

Lemma sidx_le i name wc s : IdxBnd i s -> sidx name wc s <= i.
Proof.
  intros HB. unfold sidx, svc_index.
  destruct (nonempty (svcs_named name s)).
  - destruct (index s !! k_svc name) as [v|] eqn:E; cbn; [exact (HB _ _ E)|apply catalog_max_le, HB].
  - destruct (index s !! k_sext) as [e|] eqn:Ee; cbn; [exact (HB _ _ Ee)|].
    destruct (index s !! k_svc name) as [v|] eqn:E; cbn; [exact (HB _ _ E)|apply catalog_max_le, HB].
Qed.

(* what the index rows look like once the family's join changed *)
Definition Post (name : string) (i : N) (s : st) : Prop :=
  (index s !! k_svc name = Some i /\ svcs_named name s <> ∅) \/
  (svcs_named name s = ∅ /\ index s !! k_sext = Some i /\ index s !! k_svc name = None).

Lemma Post_sidx name i wc s : Post name i s -> sidx name wc s = i.
Proof.
  unfold sidx, svc_index, nonempty. intros [[Hi Hne]|(He & Hx & Hn)].
  - rewrite bool_decide_eq_false_2 by exact Hne. cbn. rewrite Hi. reflexivity.
  - rewrite bool_decide_eq_true_2 by exact He. cbn. rewrite Hx. reflexivity.
Qed.

Lemma checks_for_lookup (s : st) n sid k :
  checks_for s n sid !! k =
  match checks s !! k with
  | Some c => if bool_decide (k.1 = n /\ (c_svc c = "" \/ c_svc c = sid)) then Some c else None
  | None => None
  end.
Proof. apply filter_lookup_if. Qed.

Lemma name_in_node_names n sid sv (s : st) :
  services s !! (n, sid) = Some sv -> sv_name sv ∈ node_names n s.
Proof.
  intros Hs. unfold node_names, names_of. apply elem_of_remove_dups, elem_of_list_fmap.
  exists ((n, sid), sv). split; [reflexivity|]. apply elem_of_map_to_list.
  rewrite svcs_of_node_lookup. cbn. rewrite bool_decide_eq_true_2 by reflexivity. exact Hs.
Qed.

Lemma leave_name_Post nm i s : IdxBnd i s -> Post nm i (leave_name nm i s).
Proof.
  intros HB. pose proof (Rows_leave_name i s HB nm [] [] s (Rows_start i s) (not_elem_of_nil _)) as H. cbv zeta in H.
  unfold Post. rewrite (svcs_named_dt nm (leave_name nm i s) s (dt_leave_name nm i s)), !H.
  case_bool_decide as He; [right|left]; (split; [|try split]); try assumption.
  - rewrite bool_decide_eq_true_2 by left. reflexivity.
  - rewrite bool_decide_eq_false_2, bool_decide_eq_true_2; [reflexivity|left|].
    rewrite elem_of_list_singleton. apply k_svc_fixed. unfold fixed_keys. inl.
  - rewrite bool_decide_eq_true_2 by left. reflexivity.
Qed.

Lemma chk_svc_keys_current n o sv (s : st) :
  services s !! (n, c_svc o) = Some sv -> k_svc (sv_name sv) ∈ chk_svc_keys n o s.
Proof. intros E. unfold chk_svc_keys. rewrite E. case_bool_decide as En; [rewrite En; left|right; left]. Qed.

Lemma chk_row_keys i p s n sid sv :
  pvalid i p s -> services s !! (n, sid) = Some sv ->
  checks_for (papply i p s) n sid <> checks_for s n sid -> k_svc (sv_name sv) ∈ set_keys p s.
Proof.
  intros Hv Esv Hcf. pose proof (elem_of_list_fmap_1 k_svc _ _ (name_in_node_names _ _ _ _ Esv)) as Hnode.
  destruct (map_neq_witness _ _ Hcf) as [[n' cid] Hck]. rewrite !checks_for_lookup in Hck. cbn [fst] in Hck.
  assert (Hat : checks (papply i p s) !! (n', cid) <> checks s !! (n', cid)) by (intros E; apply Hck; rewrite E; reflexivity).
  destruct (checks_at i p s (n', cid) Hat) as [->|[x ->]]; cbn [fst snd pvalid set_keys] in *; rewrite checks_papply in Hck.
  - (* the removed row was a check of the instance *)
    rewrite lookup_delete in Hck. destruct (checks s !! (n', cid)) as [o|]; [|contradiction Hck; reflexivity].
    case_bool_decide as Hb; [|contradiction Hck; reflexivity]. destruct Hb as [-> Hb]. apply elem_of_list_further.
    case_bool_decide as He; [apply elem_of_list_further, Hnode|].
    destruct Hb as [|<-]; [contradiction|]. apply chk_svc_keys_current, Esv.
  - rewrite lookup_insert in Hck. apply elem_of_list_further, elem_of_app.
    destruct (decide (n' = n /\ (c_svc x = "" \/ c_svc x = sid))) as [[-> Hx]|Hx].
    + (* the written row is a check of the instance: its own bump *)
      left. destruct (decide (c_svc x = "")) as [He|He];
        [rewrite (bool_decide_eq_true_2 _ He); apply Hnode|rewrite (bool_decide_eq_false_2 _ He)].
      destruct Hx as [|<-]; [contradiction|].
      destruct (Hv He) as (sv' & Esv' & <-). rewrite Esv in Esv'. injection Esv' as <-. left.
    + (* only the replaced row was: the check leaves the instance *)
      right. rewrite (bool_decide_eq_false_2 _ Hx) in Hck.
      destruct (checks s !! (n', cid)) as [o|]; [|contradiction Hck; reflexivity].
      case_bool_decide as Ho; [|contradiction Hck; reflexivity]. destruct Ho as [-> Ho].
      rewrite bool_decide_eq_false_2 by (intros E; apply Hx; rewrite <- E; tauto).
      case_bool_decide as He; [apply Hnode|]. destruct Ho as [|<-]; [contradiction|]. apply chk_svc_keys_current, Esv.
Qed.

Lemma J_changed i p s name :
  IdxBnd i s -> pvalid i p s -> psafe p s ->
  J name s <> J name (papply i p s) -> Post name i (papply i p s).
Proof.
  intros HB Hv _ Hne. destruct (map_neq_witness _ _ Hne) as [[n sid] Hk].
  rewrite !J_lookup, !svcs_named_lookup in Hk. cbn [fst snd] in Hk.
  (* a written service.<name> row while an instance remains *)
  assert (Hleft : forall sv, services (papply i p s) !! (n, sid) = Some sv -> sv_name sv = name ->
                             k_svc name ∈ set_keys p s -> Post name i (papply i p s)).
  { intros sv Esv En Hin. left. split.
    - rewrite index_papply by exact HB. unfold papply_idx. rewrite bool_decide_eq_true_2 by exact Hin. reflexivity.
    - intros He. apply (f_equal (fun m => m !! (n, sid))) in He.
      rewrite svcs_named_lookup, Esv, bool_decide_eq_true_2, lookup_empty in He by exact En. discriminate. }
  destruct (decide (services (papply i p s) !! (n, sid) = services s !! (n, sid))) as [Es|Es].
  - (* the instance's own row is as before: its node row or one of its checks changed *)
    rewrite Es in Hk, Hleft. destruct (services s !! (n, sid)) as [sv|] eqn:Esv; [|contradiction Hk; reflexivity].
    case_bool_decide as En; [|contradiction Hk; reflexivity]. apply (Hleft sv eq_refl En). subst name. cbn in Hk.
    destruct (decide (nodes (papply i p s) !! n = nodes s !! n)) as [Enn|Enn].
    + apply (chk_row_keys i p s n sid sv Hv Esv). intros E. apply Hk. rewrite Enn, E. reflexivity.
    + destruct (nodes_at i p s n Enn) as [->|[x ->]]; cbn [pvalid set_keys] in *.
      * (* the node row goes only after the node's last service *)
        exfalso. assert (Hin : svcs_of_node n s !! (n, sid) = Some sv)
          by (rewrite svcs_of_node_lookup, bool_decide_eq_true_2 by reflexivity; exact Esv).
        rewrite Hv, lookup_empty in Hin. discriminate.
      * do 2 apply elem_of_list_further. apply elem_of_list_fmap_1, (name_in_node_names _ _ _ _ Esv).
  - destruct (services_at i p s (n, sid) Es) as [->|[x ->]]; cbn [fst snd] in *;
      rewrite services_papply in Hk, Hleft.
    + (* the instance is removed: its name is left *)
      rewrite lookup_delete in Hk. destruct (services s !! (n, sid)) as [x|] eqn:Ex; [|contradiction Hk; reflexivity].
      case_bool_decide as Hnm; [|contradiction Hk; reflexivity]. subst name.
      rewrite papply_svcdel, Ex. apply leave_name_Post. unfold svc_del_rows. repeat apply IdxBnd_ibump. exact HB.
    + (* the id is registered under the name, or leaves it for another *)
      rewrite lookup_insert in Hk, Hleft. destruct (decide (sv_name x = name)) as [Hnm|Hnm].
      { apply (Hleft x eq_refl Hnm). cbn [set_keys]. rewrite Hnm. apply elem_of_app. left. inl. }
      rewrite (bool_decide_eq_false_2 _ Hnm) in Hk.
      destruct (services s !! (n, sid)) as [o|] eqn:Eo; [|contradiction Hk; reflexivity].
      case_bool_decide as Hon; [|contradiction Hk; reflexivity]. subst name.
      rewrite papply_svcput, Eo, bool_decide_eq_false_2 by congruence.
      apply leave_name_Post. unfold svc_put_rows. repeat apply IdxBnd_ibump. exact HB.
Qed.

Lemma J_same_named name s s' : J name s = J name s' -> svcs_named name s = svcs_named name s'.
Proof.
  intros HJ. apply map_eq. intros k.
  pose proof (f_equal (fun m => m !! k) HJ) as Hk. cbn beta in Hk. rewrite !J_lookup in Hk.
  destruct (svcs_named name s !! k), (svcs_named name s' !! k); cbn in Hk; congruence.
Qed.

Lemma sidx_unchanged i p s name wc :
  IdxBnd i s -> J name s = J name (papply i p s) -> sidx name wc s <= sidx name wc (papply i p s).
Proof.
  intros HB HJ. pose proof (J_same_named _ _ _ HJ) as Hsame.
  pose proof (sidx_le i name wc s HB) as Hle.
  (* the name's row is deleted only with the last instance of the name, which would change J *)
  assert (Hnd : k_svc name ∉ del_keys p s).
  { intros Hin. destruct (del_keys_shape i p s _ Hin) as [(n0 & _ & E)|(nm & E & H1 & H2)].
    - revert E. apply k_svc_node.
    - apply k_svc_inj in E. subst nm. rewrite <- Hsame in H2. contradiction. }
  unfold sidx in *. rewrite <- Hsame. unfold svc_index in *.
  (* every row that is not deleted keeps its stamp or is written at i *)
  assert (Hrow : forall k, k ∉ del_keys p s ->
            index (papply i p s) !! k = Some i \/ index (papply i p s) !! k = index s !! k).
  { intros k Hk. rewrite index_papply by exact HB. unfold papply_idx.
    case_bool_decide; [left; reflexivity|]. rewrite bool_decide_eq_false_2 by exact Hk. right; reflexivity. }
  assert (Hsext : k_sext ∉ del_keys p s) by (apply del_keys_not_fixed; unfold fixed_keys; inl).
  pose proof (catalog_max_mono i p wc s HB) as Hcm.
  pose proof (catalog_max_le i wc s HB) as Hcl.
  assert (Hsv : (match index s !! k_svc name with Some v => (v, Some (k_svc name)) | None => (catalog_max wc s, None) end).1
                <= (match index (papply i p s) !! k_svc name with Some v => (v, Some (k_svc name))
                    | None => (catalog_max wc (papply i p s), None) end).1).
  { destruct (Hrow _ Hnd) as [-> | ->].
    - cbn. destruct (index s !! k_svc name) as [v|] eqn:E; cbn; [exact (HB _ _ E)|exact Hcl].
    - destruct (index s !! k_svc name); cbn; [lia|exact Hcm]. }
  destruct (nonempty (svcs_named name s)); [exact Hsv|].
  destruct (Hrow _ Hsext) as [-> | ->]; [cbn; exact Hle|].
  destruct (index s !! k_sext); [cbn; lia|exact Hsv].
Qed.

Lemma svc_changed i p s name wc q :
  IdxBnd i s -> pvalid i p s -> svcq name wc q ->
  res q s <> res q (papply i p s) -> idx q (papply i p s) = i.
Proof.
  intros HB Hv Hq Hc. rewrite (svcq_idx _ _ _ _ Hq). apply Post_sidx.
  apply J_changed; try assumption; [exact I|]. intros HJ. apply Hc. eapply svcq_res; eassumption.
Qed.

Lemma svc_mono i p s name wc q :
  IdxBnd i s -> pvalid i p s -> svcq name wc q ->
  idx q s <= idx q (papply i p s).
Proof.
  intros HB Hv Hq. rewrite !(svcq_idx _ _ _ _ Hq).
  destruct (decide (J name s = J name (papply i p s))) as [HJ|HJ].
  - apply sidx_unchanged; assumption.
  - rewrite (Post_sidx _ _ _ _ (J_changed i p s name HB Hv I HJ)). apply sidx_le, HB.
Qed.
