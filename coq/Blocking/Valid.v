(* C06: the side conditions under which the primitives of a trace run (they hold of every trace a
   verb produces: trace_valid), the bound a valid trace preserves, and the shape of the traces of the
   verbs.  Beside it a fact about the data that no contract theorem consumes: coherence of the check
   rows ([Coherent], [pkeep], [Keep], [rename_free], the second half of [trace_valid]). *)
From stdpp Require Import gmap strings sorting.
From Coq Require Import NArith Lia.
From Verif Require Import Blocking.Model Blocking.Lemmas Blocking.Prims.
Local Open Scope N_scope.

(* [pvalid]: holds of every primitive a verb emits, in the state it is emitted in *)
Definition pvalid (i : N) (p : prim) (s : st) : Prop :=
  match p with
  | PKvPut _ e => kv_modify e = i
  | PNodeDel n => svcs_of_node n s = ∅
  | PSvcPut n _ _ => is_Some (nodes s !! n)
  | PChkPut n _ x =>
    c_svc x <> "" -> exists sv, services s !! (n, c_svc x) = Some sv /\ sv_name sv = c_svcname x
  | PReap _ => False                       (* only the Reap command runs it; never inside a write *)
  | _ => True
  end.

(* [psafe]: no primitive needs a side condition for the health views (a check that leaves its service
   bumps both the name its row carries and the service's current name, /repo 77429de) *)
Definition psafe (p : prim) (s : st) : Prop := True.

(* [pkeep]: the primitive keeps the checks' stored service names current: a registration does not
   rename a service id in place (its checks would keep the old name) *)
Definition pkeep (p : prim) (s : st) : Prop :=
  match p with
  | PSvcPut n sid x =>
    (forall o, services s !! (n, sid) = Some o -> sv_name o = sv_name x) /\
    (forall cid c, checks s !! (n, cid) = Some c -> c_svc c = sid -> c_svcname c = sv_name x)
  | _ => True
  end.

Fixpoint Valid (i : N) (ps : list prim) (s : st) : Prop :=
  match ps with
  | [] => True
  | p :: ps' => pvalid i p s /\ Valid i ps' (papply i p s)
  end.
Fixpoint Safe (i : N) (ps : list prim) (s : st) : Prop :=
  match ps with
  | [] => True
  | p :: ps' => psafe p s /\ Safe i ps' (papply i p s)
  end.
Lemma Safe_all i ps s : Safe i ps s.
Proof. revert s. induction ps as [|p ps IH]; intros s; [exact I|split; [exact I|apply IH]]. Qed.
Fixpoint Keep (i : N) (ps : list prim) (s : st) : Prop :=
  match ps with
  | [] => True
  | p :: ps' => pkeep p s /\ Keep i ps' (papply i p s)
  end.

Lemma prun_app i a b s : prun i (a ++ b) s = prun i b (prun i a s).
Proof. unfold prun. apply foldl_app. Qed.
Lemma prun_cons i p ps s : prun i (p :: ps) s = prun i ps (papply i p s).
Proof. reflexivity. Qed.

(* [Valid i], [Safe i] and [Keep i] are one recursion over different conditions [P] on a primitive
   and the state it runs in.  What they share is proved of any [C] that unfolds like them. *)
Section chain.
  Context (i : N) (P : prim -> st -> Prop) (C : list prim -> st -> Prop).
  Context (C_nil : forall s, C [] s)
          (C_cons : forall p ps s, C (p :: ps) s <-> P p s /\ C ps (papply i p s)).

  Lemma chain_app a b s : C (a ++ b) s <-> C a s /\ C b (prun i a s).
  Proof.
    revert s. induction a as [|p a IH]; intros s; cbn [app].
    - pose proof (C_nil s). cbn. tauto.
    - rewrite !C_cons, IH, prun_cons. tauto.
  Qed.

  Lemma chain_Forall ps s : Forall (fun p => forall t, P p t) ps -> C ps s.
  Proof.
    revert s. induction ps as [|p ps IH]; intros s HF; [apply C_nil|].
    apply Forall_cons in HF as [Hp HF]. apply C_cons. split; [apply Hp|apply IH, HF].
  Qed.

  Lemma chain_inv (Inv : st -> Prop) :
    (forall p s, Inv s -> P p s -> Inv (papply i p s)) -> forall ps s, Inv s -> C ps s -> Inv (prun i ps s).
  Proof.
    intros Hstep ps. induction ps as [|p ps IH]; intros s HI HC; [exact HI|].
    apply C_cons in HC as [Hp HC]. rewrite prun_cons. apply IH; [apply Hstep; assumption|exact HC].
  Qed.
End chain.

Lemma Valid_app i a b s : Valid i (a ++ b) s <-> Valid i a s /\ Valid i b (prun i a s).
Proof. apply (chain_app i (pvalid i)); [intros; exact I|reflexivity]. Qed.
Lemma Keep_app i a b s : Keep i (a ++ b) s <-> Keep i a s /\ Keep i b (prun i a s).
Proof. apply (chain_app i pkeep); [intros; exact I|reflexivity]. Qed.
Lemma Valid_Forall i ps s : Forall (fun p => forall t, pvalid i p t) ps -> Valid i ps s.
Proof. apply (chain_Forall i (pvalid i)); [intros; exact I|reflexivity]. Qed.
Lemma Keep_Forall i ps s : Forall (fun p => forall t, pkeep p t) ps -> Keep i ps s.
Proof. apply (chain_Forall i pkeep); [intros; exact I|reflexivity]. Qed.
Lemma Valid_inv (Inv : st -> Prop) i :
  (forall p s, Inv s -> pvalid i p s -> Inv (papply i p s)) -> forall ps s, Inv s -> Valid i ps s -> Inv (prun i ps s).
Proof. apply (chain_inv i (pvalid i)). reflexivity. Qed.

(* a check attached to a service carries the name under which that service is registered *)
Definition Coherent (s : st) : Prop :=
  forall n cid x sv, checks s !! (n, cid) = Some x -> c_svc x <> "" ->
                     services s !! (n, c_svc x) = Some sv -> sv_name sv = c_svcname x.

Lemma Coherent_st0 : Coherent st0.
Proof. intros n cid x sv H. cbn in H. rewrite lookup_empty in H. discriminate. Qed.

Lemma Coherent_papply i p s :
  Coherent s -> pvalid i p s -> pkeep p s -> Coherent (papply i p s).
Proof.
  intros HC Hv Hs n cid x sv. rewrite checks_papply, services_papply.
  destruct p; try (apply HC).
  - (* PSvcPut *) intros Hx Hne Hsv. destruct Hs as [Hs1 Hs2].
    apply lookup_insert_Some in Hsv as [[Heq <-]|[Hneq Hsv]].
    + injection Heq as -> Heq. symmetry. eapply Hs2; [exact Hx|symmetry; exact Heq].
    + eapply HC; eassumption.
  - (* PSvcDel *) intros Hx Hne Hsv. apply lookup_delete_Some in Hsv as [_ Hsv]. eapply HC; eassumption.
  - (* PChkPut *) intros Hx Hne Hsv.
    apply lookup_insert_Some in Hx as [[Heq <-]|[Hneq Hx]].
    + injection Heq as -> ->. destruct (Hv Hne) as (sv' & Hsv' & Hnm). congruence.
    + eapply HC; eassumption.
  - (* PChkDel *) intros Hx Hne Hsv. apply lookup_delete_Some in Hx as [_ Hx]. eapply HC; eassumption.
Qed.

Lemma Coherent_prun i ps s : Coherent s -> Valid i ps s -> Keep i ps s -> Coherent (prun i ps s).
Proof.
  intros HC HV HK.
  apply (chain_inv i (fun p s => pvalid i p s /\ pkeep p s) (fun ps s => Valid i ps s /\ Keep i ps s)).
  - intros. cbn [Valid Keep]. tauto.
  - intros p t HC' [Hv Hk]. apply Coherent_papply; assumption.
  - exact HC.
  - split; assumption.
Qed.

(* [Safe] holds of every trace ([Safe_all]); none of the three hypotheses is needed *)
Lemma Safe_of_Coherent i ps s : Coherent s -> Valid i ps s -> Keep i ps s -> Safe i ps s.
Proof. intros _ _ _. apply Safe_all. Qed.

Lemma map_Forall_filter `{Countable K} {A} (P : K -> A -> Prop) (Q : K * A -> Prop) `{forall x, Decision (Q x)}
    (m : gmap K A) : map_Forall P m -> map_Forall P (filter Q m).
Proof. intros Hm k x [Hk _]%map_filter_lookup_Some. exact (Hm k x Hk). Qed.

Lemma Bnd_papply' i p s :
  Bnd i s -> (forall k e, p = PKvPut k e -> kv_modify e = i) -> Bnd i (papply i p s).
Proof.
  intros [H1 H2 H3] Hv. split.
  - apply IdxBnd_papply, H1.
  - change (map_Forall (fun _ e => kv_modify e <= i) (kvs (papply i p s))). rewrite kvs_papply.
    destruct p; cbn [kvs_after]; try exact H2.
    + apply map_Forall_insert_2; [rewrite (Hv _ _ eq_refl); lia|exact H2].
    + apply map_Forall_delete; exact H2.
    + apply map_Forall_filter; exact H2.
    + intros k e (e0 & <- & Hk)%lookup_fmap_Some. case_bool_decide; cbn; [lia|exact (H2 _ _ Hk)].
    + apply map_Forall_filter; exact H2.
  - change (map_Forall (fun _ v => v <= i) (tombs (papply i p s))). rewrite tombs_papply.
    destruct p; cbn [tombs_after]; try exact H3.
    + apply map_Forall_insert_2; [lia|exact H3].
    + case_bool_decide; [|apply map_Forall_insert_2; [lia|]]; apply map_Forall_filter; exact H3.
    + apply map_Forall_union_2; [|exact H3]. intros k v (e0 & <- & _)%lookup_fmap_Some. lia.
    + apply map_Forall_filter; exact H3.
Qed.

Lemma Bnd_papply i p s : Bnd i s -> pvalid i p s -> Bnd i (papply i p s).
Proof. intros HB Hv. apply Bnd_papply'; [exact HB|]. intros k e ->. exact Hv. Qed.

Lemma Bnd_prun i ps s : Bnd i s -> Valid i ps s -> Bnd i (prun i ps s).
Proof. apply Valid_inv, Bnd_papply. Qed.

Lemma prun_frame {A} (f : st -> A) (P : prim -> Prop) i :
  (forall p s, P p -> f (papply i p s) = f s) -> forall ps s, Forall P ps -> f (prun i ps s) = f s.
Proof.
  intros Hf ps. induction ps as [|p ps IH]; intros s HF; [reflexivity|].
  apply Forall_cons in HF as [Hp HF]. rewrite prun_cons, IH, Hf by assumption. reflexivity.
Qed.

Definition keeps {A} (f : st -> A) (i : N) (p : prim) : Prop := forall s, f (papply i p s) = f s.
Lemma prun_keeps {A} (f : st -> A) i ps s : Forall (keeps f i) ps -> f (prun i ps s) = f s.
Proof. apply prun_frame. intros p t Hp. apply Hp. Qed.

Definition chk_other (n cid : string) (p : prim) : Prop :=
  match p with
  | PChkPut n' c' _ | PChkDel n' c' => (n', c') <> (n, cid)
  | _ => True
  end.
Lemma checks_prun_other i n cid ps s :
  Forall (chk_other n cid) ps -> checks (prun i ps s) !! (n, cid) = checks s !! (n, cid).
Proof.
  apply (prun_frame (fun s => checks s !! (n, cid))). intros p t Hp. rewrite checks_papply.
  destruct p; try reflexivity; [apply lookup_insert_ne|apply lookup_delete_ne]; exact Hp.
Qed.

(* primitives that are valid and keep the stored names current in every state *)
Definition easy (p : prim) : Prop :=
  match p with
  | PKvPut _ _ | PNodeDel _ | PSvcPut _ _ _ | PChkPut _ _ _ | PReap _ => False
  | _ => True
  end.
Lemma easy_static i p t : easy p -> pvalid i p t /\ pkeep p t.
Proof. destruct p; cbn; tauto. Qed.
Lemma easy_Valid i ps s : Forall easy ps -> Valid i ps s.
Proof. intros HF. apply Valid_Forall. eapply Forall_impl; [exact HF|]. intros p Hp t. apply easy_static, Hp. Qed.
Lemma easy_weaken (P : prim -> Prop) ps : (forall p, easy p -> P p) -> Forall easy ps -> Forall P ps.
Proof. intros HP HF. eapply Forall_impl; [exact HF|exact HP]. Qed.

(* primitives that change no catalog data (index rows, sessions, keys, prepared queries) *)
Definition light (p : prim) : Prop :=
  match p with
  | PSessDel _ | PKvDelSess _ | PKvRelease _ | PPqDel _ | PBumpSvc _ | PBumpNodeSvcs _ | PCoordDel _ => True
  | _ => False
  end.
Lemma light_easy p : light p -> easy p. Proof. destruct p; cbn; tauto. Qed.
Lemma light_services i p : light p -> keeps services i p.
Proof. intros H s. rewrite services_papply. destruct p; try reflexivity; contradiction. Qed.
Lemma light_nodes i p : light p -> keeps nodes i p.
Proof. intros H s. rewrite nodes_papply. destruct p; try reflexivity; contradiction. Qed.

(* Each verb with the primitives it may run: a class [Q] that has them has the verb's trace. *)
Section shapes.
  Context (i : N).

  Lemma seq_all_Forall {A} (P : prim -> Prop) (f : A -> st -> steps) l s :
    (forall x s', Forall P (f x s')) -> Forall P (seq_all i f l s).
  Proof.
    intros Hf. revert s. induction l as [|x l IH]; intros s; cbn [seq_all]; [constructor|].
    unfold seq. apply Forall_app. split; [apply Hf|apply IH].
  Qed.

  (* [R] may look at the state a piece starts from, as [Valid i] does *)
  Lemma oseq_all_each {A} (R : steps -> st -> Prop) (f : A -> st -> option steps) :
    (forall s, R [] s) -> (forall a b s, R a s -> R b (prun i a s) -> R (a ++ b) s) ->
    (forall x s ps, f x s = Some ps -> R ps s) ->
    forall l s ps, oseq_all i f l s = Some ps -> R ps s.
  Proof.
    intros R0 Rapp Rf l. induction l as [|x l IH]; intros s ps; cbn [oseq_all]; [intros [= <-]; apply R0|].
    unfold oseq. destruct (f x s) as [pa|] eqn:Ea; [|discriminate].
    destruct (oseq_all i f l (prun i pa s)) as [pb|] eqn:Eb; [|discriminate].
    intros [= <-]. apply Rapp; [eapply Rf, Ea|eapply IH, Eb].
  Qed.

  Lemma delete_session_light sid s : Forall light (delete_session i sid s).
  Proof.
    unfold delete_session. destruct (sessions s !! sid) as [x|]; [|constructor].
    apply Forall_app. split; [repeat constructor|]. apply Forall_app. split.
    - destruct (bool_decide _); [constructor|]. destruct (ss_del x); repeat constructor.
    - apply Forall_fmap, Forall_forall. intros; exact I.
  Qed.

  Lemma kvs_set_shape (Q : prim -> Prop) k v f se lk upd s :
    (forall e, kv_modify e = i -> Q (PKvPut k e)) -> Forall Q (kvs_set i k v f se lk upd s).
  Proof.
    intros HQ. unfold kvs_set. destruct (kvs s !! k); [destruct (kv_same _ _)|];
      repeat constructor; apply HQ; reflexivity.
  Qed.
  Lemma ensure_node_shape (Q : prim -> Prop) n addr s :
    (forall x, Q (PNodePut n x)) -> Forall Q (ensure_node i n addr s).
  Proof.
    intros HQ. unfold ensure_node. destruct (nodes s !! n); [destruct (bool_decide _)|];
      repeat constructor; apply HQ.
  Qed.

  Context (Q : prim -> Prop) (HL : forall p, light p -> Q p).

  Lemma delete_sessions_shape {A} (g : A -> string) (l : list A) s :
    Forall Q (seq_all i (fun x => delete_session i (g x)) l s).
  Proof. apply seq_all_Forall. intros. eapply Forall_impl; [apply delete_session_light|exact HL]. Qed.

  Lemma delete_check_shape n cid s : Q (PChkDel n cid) -> Forall Q (delete_check i n cid s).
  Proof.
    intros HQ. unfold delete_check. destruct (checks s !! (n, cid)); [|constructor].
    unfold seq. apply Forall_app. split; [repeat constructor; exact HQ|].
    apply (delete_sessions_shape (fun x => x)).
  Qed.
  Lemma delete_service_shape n sid s :
    (forall cid, Q (PChkDel n cid)) -> Q (PSvcDel n sid) -> Forall Q (delete_service i n sid s).
  Proof.
    intros HC HS. unfold delete_service. destruct (services s !! (n, sid)); [|constructor].
    unfold seq. apply Forall_app. split; [|repeat constructor; exact HS].
    apply seq_all_Forall. intros. apply delete_check_shape, HC.
  Qed.
End shapes.

Definition svc_safe (n : string) (sp : svcspec) (s : st) : Prop :=
  (forall o, services s !! (n, sp_id sp) = Some o -> sv_name o = sp_name sp) /\
  (forall cid c, checks s !! (n, cid) = Some c -> c_svc c = sp_id sp -> c_svcname c = sp_name sp).
(* a registration that does not both rename its service id and carry checks; a hypothesis of no
   theorem, met by the update of C06_safe_update_met *)
Definition safe_cmd (c : cmd) (s : st) : Prop :=
  match c with
  | Register n _ (Some sp) cks => cks = [] \/ svc_safe n sp s
  | _ => True
  end.
Definition rename_free (c : cmd) (s : st) : Prop :=
  match c with
  | EnsureSvc n sp | Register n _ (Some sp) _ => svc_safe n sp s
  | _ => True
  end.

Definition notree (p : prim) : Prop := match p with PKvDelTree _ => False | _ => True end.

(* the kinds of primitive a command may run besides the light ones *)
Definition own (i : N) (c : cmd) (p : prim) : Prop :=
  match c, p with
  | (KVSet _ _ _ | KVCas _ _ _ _ | KVLock _ _ _ _ | KVUnlock _ _ _ _), PKvPut _ e => kv_modify e = i
  | (KVDelete _ | KVDeleteCas _ _), PKvDel _
  | KVDeleteTree _, PKvDelTree _
  | Reap _, PReap _
  | SessCreate _ _ _ _, PSessPut _ _
  | (EnsureNode _ _ | Register _ _ _ _), PNodePut _ _
  | (EnsureSvc _ _ | Register _ _ _ _), PSvcPut _ _ _
  | (EnsureCheck _ _ | Register _ _ _ _), PChkPut _ _ _
  | (DelCheck _ _ | DelSvc _ _ | DelNode _), PChkDel _ _
  | (DelSvc _ _ | DelNode _), PSvcDel _ _
  | DelNode _, PNodeDel _
  | CoordSet _ _, PCoordPut _ _
  | CfgSet _ _ _, PCfgPut _ _ _
  | CfgDel _ _, PCfgDel _ _
  | PQSet _ _ _, PPqPut _ _
  | CASet _ _, PRootsSet _ => True
  | _, _ => False
  end.

Section traces.
  Context (i : N).

  Lemma services_delete_service n sid s :
    services (prun i (delete_service i n sid s) s) = delete (n, sid) (services s).
  Proof.
    unfold delete_service. destruct (services s !! (n, sid)) eqn:E; [|symmetry; apply delete_notin, E].
    unfold seq. rewrite prun_app. cbn [prun foldl]. rewrite services_papply, (prun_keeps services); [reflexivity|].
    apply seq_all_Forall. intros. apply delete_check_shape; [apply light_services|intros t; apply services_papply].
  Qed.
  Lemma nodes_delete_service n sid s : nodes (prun i (delete_service i n sid s) s) = nodes s.
  Proof.
    apply (prun_keeps nodes), delete_service_shape; [apply light_nodes|intros cid t|intros t]; apply nodes_papply.
  Qed.

  Lemma services_delete_loop n (l : list (string * string * svc)) s key :
    services (prun i (seq_all i (fun kv => delete_service i n kv.1.2) l s) s) !! key =
    if bool_decide (key ∈ (fun kv : string * string * svc => (n, kv.1.2)) <$> l) then None else services s !! key.
  Proof.
    revert s. induction l as [|kv l IH]; intros s; cbn [seq_all].
    - cbn. rewrite bool_decide_eq_false_2; [reflexivity|]. intros H; inversion H.
    - unfold seq. rewrite prun_app, IH, services_delete_service, fmap_cons.
      rewrite (bool_decide_ext _ _ (elem_of_cons _ key _)), bool_decide_or.
      destruct (decide (key = (n, kv.1.2))) as [->|E].
      + rewrite (bool_decide_eq_true_2 (_ = _)), lookup_delete by reflexivity. destruct (bool_decide _); reflexivity.
      + rewrite (bool_decide_eq_false_2 _ E), lookup_delete_ne by congruence. reflexivity.
  Qed.

  Lemma Valid_seq a b s : Valid i a s -> Valid i (b (prun i a s)) (prun i a s) -> Valid i (seq i a b s) s.
  Proof. intros Ha Hb. unfold seq. apply Valid_app. split; assumption. Qed.
  Lemma Safe_seq a b s : Safe i a s -> Safe i (b (prun i a s)) (prun i a s) -> Safe i (seq i a b s) s.
  Proof. intros _ _. apply Safe_all. Qed.

  Lemma delete_services_none n s :
    svcs_of_node n (prun i (seq_all i (fun kv => delete_service i n kv.1.2) (svcs_in_id_order n s) s) s) = ∅.
  Proof.
    apply map_eq. intros key. rewrite lookup_empty. unfold svcs_of_node at 1.
    apply map_filter_lookup_None. right. intros sv Hsv Hkn.
    rewrite services_delete_loop in Hsv. case_bool_decide as Hin; [discriminate|]. apply Hin.
    apply elem_of_list_fmap. exists (key, sv). split.
    - destruct key as [kn ks]. cbn in Hkn. subst kn. reflexivity.
    - unfold svcs_in_id_order. rewrite merge_sort_Permutation.
      apply elem_of_map_to_list, map_filter_lookup_Some. split; [exact Hsv|exact Hkn].
  Qed.

  Lemma delete_node_valid n s : Valid i (delete_node i n s) s.
  Proof.
    unfold delete_node. destruct (nodes s !! n); [|exact I].
    apply Valid_seq. { apply easy_Valid, Forall_fmap, Forall_forall. intros; exact I. }
    apply Valid_seq.
    { apply easy_Valid, seq_all_Forall. intros. apply delete_service_shape; [apply light_easy|intros; exact I|exact I]. }
    apply Valid_seq. { apply easy_Valid, seq_all_Forall. intros. apply delete_check_shape; [apply light_easy|exact I]. }
    apply Valid_seq. { apply easy_Valid. destruct (coords _ !! n); repeat constructor. }
    apply Valid_seq; [|apply easy_Valid, (delete_sessions_shape i easy light_easy (fun kv : string * sess => kv.1))].
    (* the node row goes only after its last service: the checks and the coordinate deleted since
       the loop over the services leave the services alone *)
    split; [|exact I]. cbn [pvalid]. unfold svcs_of_node at 1. rewrite 2!(prun_keeps services).
    - apply delete_services_none.
    - apply seq_all_Forall. intros. apply delete_check_shape; [apply light_services|intros t; apply services_papply].
    - destruct (coords _ !! n); repeat constructor. intros t. apply services_papply.
  Qed.

  Lemma ensure_check_shape n cs s ps :
    ensure_check i n cs s = Some ps ->
    exists a b hc, ps = a ++ b /\ Forall light a /\
                   (b = [] \/ (b = [PChkPut n (cs_id cs) hc] /\ c_svc hc = cs_svc cs /\
                               (cs_svc cs <> "" -> exists sv, services s !! (n, cs_svc cs) = Some sv /\ sv_name sv = c_svcname hc))).
  Proof.
    unfold ensure_check. destruct (nodes s !! n); [|discriminate].
    (* node-level or attached to a service, the two kinds of check differ only in the row [hc] *)
    set (ohc := if bool_decide (cs_svc cs = "") then _ else _).
    assert (Hhc : forall hc, ohc = Some hc -> c_svc hc = cs_svc cs /\
              (cs_svc cs <> "" -> exists sv, services s !! (n, cs_svc cs) = Some sv /\ sv_name sv = c_svcname hc)).
    { subst ohc. case_bool_decide as Esvc; [|destruct (services s !! (n, cs_svc cs)) as [sv|]; [|discriminate]];
        intros hc [= <-]; (split; [reflexivity|]); [intros; contradiction|intros _; exists sv; split; reflexivity]. }
    destruct ohc as [hc|]; [|discriminate]. intros [= <-]. unfold seq.
    eexists _, _, hc. split; [rewrite app_assoc; reflexivity|]. split.
    - apply Forall_app. split.
      + destruct (match checks s !! _ with Some _ => _ | None => true end); [destruct (bool_decide _)|]; repeat constructor.
      + destruct (bool_decide (cs_status cs = 2)); [apply (delete_sessions_shape i light (fun _ H => H) (fun x => x))|constructor].
    - destruct (match checks s !! _ with Some _ => _ | None => true end); [right|left; reflexivity].
      split; [reflexivity|]. apply Hhc. reflexivity.
  Qed.

  Lemma ensure_check_Forall (Q : prim -> Prop) n cs s ps :
    (forall p, light p -> Q p) -> (forall x, Q (PChkPut n (cs_id cs) x)) ->
    ensure_check i n cs s = Some ps -> Forall Q ps.
  Proof.
    intros HL HQ H. destruct (ensure_check_shape _ _ _ _ H) as (a & b & hc & -> & Ha & Hb).
    apply Forall_app. split; [eapply Forall_impl; [exact Ha|exact HL]|].
    destruct Hb as [->|(-> & _)]; repeat constructor. apply HQ.
  Qed.
  Lemma ensure_check_valid n cs s ps : ensure_check i n cs s = Some ps -> Valid i ps s.
  Proof.
    intros H. destruct (ensure_check_shape _ _ _ _ H) as (a & b & hc & -> & Ha & Hb).
    apply Valid_app. split; [apply easy_Valid; eapply Forall_impl; [exact Ha|apply light_easy]|].
    destruct Hb as [->|(-> & Hc & Hs)]; [exact I|]. split; [|exact I].
    cbn [pvalid]. rewrite (prun_keeps services), Hc; [exact Hs|].
    eapply Forall_impl; [exact Ha|apply light_services].
  Qed.

  Lemma checks_loop_ok n cks s ps :
    oseq_all i (fun cs => ensure_check i n cs) cks s = Some ps -> Valid i ps s /\ Keep i ps s.
  Proof.
    apply (oseq_all_each i (fun ps s => Valid i ps s /\ Keep i ps s)).
    - intros; split; exact I.
    - intros a b t [Va Ka] [Vb Kb]. split; [apply Valid_app|apply Keep_app]; split; assumption.
    - intros cs t pa Ea. split; [eapply ensure_check_valid, Ea|].
      apply Keep_Forall. eapply ensure_check_Forall; [| |exact Ea].
      + intros p Hp t'. apply (easy_static i), light_easy, Hp.
      + intros x t'. exact I.
  Qed.

  Lemma ensure_service_shape n sp s ps :
    ensure_service i n sp s = Some ps ->
    is_Some (nodes s !! n) /\ (ps = [] \/ exists x, ps = [PSvcPut n (sp_id sp) x] /\ sv_name x = sp_name sp).
  Proof.
    unfold ensure_service. destruct (nodes s !! n); [|discriminate].
    destruct (services s !! (n, sp_id sp)) as [o|]; [destruct (same_service o sp)|];
      intros [= <-]; (split; [eexists; reflexivity|]); [left; reflexivity|right; eexists; split; reflexivity..].
  Qed.
  Lemma ensure_service_ok n sp s ps :
    ensure_service i n sp s = Some ps -> Valid i ps s /\ (svc_safe n sp s -> Keep i ps s).
  Proof.
    intros H. destruct (ensure_service_shape _ _ _ _ H) as [Hn [->|(x & -> & Hx)]].
    - split; [exact I|intros _; exact I].
    - split; [split; [exact Hn|exact I]|]. intros Hs. split; [|exact I]. cbn [pkeep]. rewrite Hx. exact Hs.
  Qed.

  Lemma trace_shape c s ps : trace i c s = Some ps -> Forall (fun p => light p \/ own i c p) ps.
  Proof.
    intros Ht.
    assert (HL : forall p, light p -> light p \/ own i c p) by (intros p H; left; exact H).
    assert (one : forall p, own i c p -> Forall (fun p => light p \/ own i c p) [p])
      by (intros p H; apply Forall_singleton; right; exact H).
    destruct c; cbn [trace] in Ht.
    - (* KVSet *) injection Ht as <-. apply kvs_set_shape. intros e He; right; exact He.
    - (* KVDelete *) injection Ht as <-. unfold kvs_delete. destruct (kvs s !! k); [apply one, I|constructor].
    - (* KVDeleteTree *) injection Ht as <-. unfold kvs_delete_tree. destruct (bool_decide _); [constructor|apply one, I].
    - (* KVCas *) injection Ht as <-. unfold kvs_set_cas.
      destruct (kvs s !! k); repeat (destruct (bool_decide _)); try constructor;
        apply kvs_set_shape; intros e He; right; exact He.
    - (* KVDeleteCas *) injection Ht as <-. unfold kvs_delete_cas.
      destruct (kvs s !! k); [destruct (bool_decide _); [apply one, I|constructor]|constructor].
    - (* KVLock *) injection Ht as <-. unfold kvs_lock. destruct (bool_decide (sid = "")); [constructor|].
      destruct (sessions s !! sid); [|constructor].
      destruct (kvs s !! k); repeat (destruct (bool_decide _)); try constructor;
        apply kvs_set_shape; intros e He; right; exact He.
    - (* KVUnlock *) injection Ht as <-. unfold kvs_unlock. destruct (bool_decide (sid = "")); [constructor|].
      destruct (kvs s !! k); repeat (destruct (bool_decide _)); try constructor;
        apply kvs_set_shape; intros e He; right; exact He.
    - (* Reap *) injection Ht as <-. apply one, I.
    - (* SessCreate *) unfold session_create in Ht. destruct (nodes s !! n); [|discriminate].
      destruct (forallb _ _); [|discriminate]. injection Ht as <-. apply one, I.
    - (* SessDestroy *) injection Ht as <-. eapply Forall_impl; [apply delete_session_light|exact HL].
    - (* EnsureNode *) injection Ht as <-. apply ensure_node_shape. intros x; right; exact I.
    - (* EnsureSvc *) destruct (ensure_service_shape _ _ _ _ Ht) as [_ [->|(x & -> & _)]]; [constructor|apply one, I].
    - (* EnsureCheck *) eapply ensure_check_Forall; [exact HL| |exact Ht]. intros x; right; exact I.
    - (* Register *) unfold oseq in Ht.
      destruct (match sp with Some sp0 => ensure_service i n sp0 _ | None => Some [] end) as [pb|] eqn:Eb; [|discriminate].
      destruct (oseq_all i _ cks _) as [pc|] eqn:Ec; [|discriminate]. injection Ht as <-.
      apply Forall_app. split; [apply ensure_node_shape; intros x; right; exact I|]. apply Forall_app. split.
      + destruct sp as [sp0|]; [|injection Eb as <-; constructor].
        destruct (ensure_service_shape _ _ _ _ Eb) as [_ [->|(x & -> & _)]]; [constructor|apply one, I].
      + revert Ec. apply (oseq_all_each i (fun ps _ => Forall _ ps)); [constructor|intros; apply Forall_app_2; assumption|].
        intros cs t pa Ea. eapply ensure_check_Forall; [exact HL| |exact Ea]. intros x; right; exact I.
    - (* DelNode *) injection Ht as <-. unfold delete_node. destruct (nodes s !! n); [|constructor]. unfold seq.
      repeat (apply Forall_app; split).
      + apply Forall_fmap, Forall_forall. intros; left; exact I.
      + apply seq_all_Forall. intros. apply delete_service_shape; [exact HL|intros; right; exact I|right; exact I].
      + apply seq_all_Forall. intros. apply delete_check_shape; [exact HL|right; exact I].
      + destruct (coords _ !! n); [apply Forall_singleton, HL; exact I|constructor].
      + apply one, I.
      + apply delete_sessions_shape, HL.
    - (* DelSvc *) injection Ht as <-. apply delete_service_shape; [exact HL|intros; right; exact I|right; exact I].
    - (* DelCheck *) injection Ht as <-. apply delete_check_shape; [exact HL|right; exact I].
    - (* CoordSet *) destruct (nodes s !! n); injection Ht as <-; [apply one, I|constructor].
    - (* CfgSet *) injection Ht as <-. apply one, I.
    - (* CfgDel *) destruct (cfgs s !! (kind, name)); injection Ht as <-; [apply one, I|constructor].
    - (* PQSet *) destruct (_ || _); [|discriminate]. injection Ht as <-. apply one, I.
    - (* PQDel *) destruct (pqs s !! id); injection Ht as <-; [apply Forall_singleton, HL; exact I|constructor].
    - (* CASet *) destruct (bool_decide _); [|injection Ht as <-; constructor].
      destruct rs; [discriminate|]. injection Ht as <-. apply one, I.
  Qed.

  Lemma trace_notree c s ps :
    trace i c s = Some ps -> (forall p', c <> KVDeleteTree p') -> Forall notree ps.
  Proof.
    intros Ht Hc. eapply Forall_impl; [exact (trace_shape _ _ _ Ht)|].
    intros p H. destruct p; try exact I. destruct H as [[]|H].
    destruct c; try contradiction. exact (Hc _ eq_refl).
  Qed.

  Lemma trace_valid c s ps :
    trace i c s = Some ps -> (forall u, c <> Reap u) -> Valid i ps s /\ (rename_free c s -> Keep i ps s).
  Proof.
    intros Ht Hreap. pose proof (trace_shape _ _ _ Ht) as HS.
    assert (HV : (forall p, own i c p -> forall t, pvalid i p t) -> Valid i ps s).
    { intros Hown. apply Valid_Forall. eapply Forall_impl; [exact HS|].
      intros p [H|H] t; [apply (easy_static i), light_easy, H|apply Hown, H]. }
    assert (HK : (forall n sid x, ~ own i c (PSvcPut n sid x)) -> Keep i ps s).
    { intros Hno. apply Keep_Forall. eapply Forall_impl; [exact HS|].
      intros p [H|H] t; [apply (easy_static i), light_easy, H|]. destruct p; try exact I. destruct (Hno _ _ _ H). }
    (* the own primitives of most commands are valid in every state, and none is a PSvcPut; the
       five other commands one by one *)
    destruct c; cbn [trace] in Ht;
      try (split; [apply HV; intros q H t; destruct q; try contradiction; try exact I; exact H
                  |intros _; apply HK; intros ? ? ? []]).
    - destruct (Hreap _ eq_refl).
    - exact (ensure_service_ok _ _ _ _ Ht).
    - split; [eapply ensure_check_valid, Ht|intros _; apply HK; intros ? ? ? []].
    - (* Register: the node step leaves services and checks alone, so [svc_safe] still holds
         where the service is written *)
      unfold oseq in Ht. set (s1 := prun i (ensure_node i n addr s) s) in *.
      destruct (match sp with Some sp0 => ensure_service i n sp0 s1 | None => Some [] end) as [pb|] eqn:Eb; [|discriminate].
      destruct (oseq_all i _ cks _) as [pc|] eqn:Ec; [|discriminate]. injection Ht as <-.
      destruct (checks_loop_ok _ _ _ _ Ec) as [Vc Kc].
      assert (Hs1 : services s1 = services s)
        by (apply (prun_keeps services), ensure_node_shape; intros x t; apply services_papply).
      assert (Hc1 : checks s1 = checks s)
        by (apply (prun_keeps checks), ensure_node_shape; intros x t; apply checks_papply).
      assert (Hb : Valid i pb s1 /\ (rename_free (Register n addr sp cks) s -> Keep i pb s1)).
      { destruct sp as [sp0|]; [|injection Eb as <-; split; [exact I|intros _; exact I]].
        destruct (ensure_service_ok _ _ _ _ Eb) as [V K]. split; [exact V|].
        intros H. apply K. unfold rename_free, svc_safe in *. rewrite Hs1, Hc1. exact H. }
      destruct Hb as [Vb Kb]. split.
      + apply Valid_app. split; [apply easy_Valid, ensure_node_shape; intros x; exact I|].
        apply Valid_app. split; assumption.
      + intros Hr. apply Keep_app. split; [apply Keep_Forall, ensure_node_shape; intros x t; exact I|].
        apply Keep_app. split; [apply Kb, Hr|exact Kc].
    - injection Ht as <-. split; [apply delete_node_valid|intros _; apply HK; intros ? ? ? []].
  Qed.
End traces.
