(* C06: the contract over whole writes and over reachable states; the blocking loop. *)
From stdpp Require Import gmap strings.
From Coq Require Import NArith Lia.
From Verif Require Import Blocking.Model Blocking.Lemmas Blocking.Prims Blocking.Valid Blocking.Index
     Blocking.IndexKV Blocking.IndexCat Blocking.Fires.
Local Open Scope N_scope.


Lemma okq_idx_le i s q : Bnd i s -> okq q -> idx q s <= i.
Proof.
  intros HBnd Hq. pose proof (bnd_index _ _ HBnd) as HB. destruct Hq as [q Hq|q Hq|n|name wc q Hq].
  - apply tab_idx_le; assumption.
  - apply kv_idx_le; assumption.
  - cbn [idx]. destruct (nodes s !! n); apply iget_le, HB.
  - rewrite (svcq_idx _ _ _ _ Hq). apply sidx_le, HB.
Qed.

Lemma prim_mono i p s q : Bnd i s -> pvalid i p s -> okq q -> idx q s <= idx q (papply i p s).
Proof.
  intros HBnd Hv Hq. pose proof (bnd_index _ _ HBnd) as HB. destruct Hq as [q Hq|q Hq|n|name wc q Hq].
  - apply tab_mono; assumption.
  - apply kv_mono; assumption.
  - apply node_services_mono; assumption.
  - eapply svc_mono; eassumption.
Qed.

Lemma prim_changed i p s q :
  Bnd i s -> pvalid i p s -> okq q -> res q s <> res q (papply i p s) -> i <= idx q (papply i p s).
Proof.
  intros HBnd Hv Hq Hc. pose proof (bnd_index _ _ HBnd) as HB. destruct Hq as [q Hq|q Hq|n|name wc q Hq].
  - rewrite (tab_changed i p s q HB Hq Hc). lia.
  - apply kv_changed; assumption.
  - rewrite (node_services_changed i p s n HB Hc). lia.
  - rewrite (svc_changed i p s name wc q HB Hv Hq Hc). lia.
Qed.


Lemma run_mono i ps s q : Bnd i s -> Valid i ps s -> okq q -> idx q s <= idx q (prun i ps s).
Proof.
  revert s. induction ps as [|p ps IH]; intros s HBnd HV Hq; [reflexivity|]. destruct HV as [Hv HV]. rewrite prun_cons.
  etransitivity; [apply (prim_mono i p s q); assumption|].
  apply IH; try assumption. apply Bnd_papply; assumption.
Qed.

(* a property Q that a step establishes whenever it changes the observation [obs], and that every
   step keeps, holds after a trace that changes [obs]: some step of the trace was the first to change it *)
Lemma run_establishes {O} `{EqDecision O} (obs : st -> O) (Q : st -> Prop) i :
  (forall p s, Bnd i s -> pvalid i p s -> Q s -> Q (papply i p s)) ->
  (forall p s, Bnd i s -> pvalid i p s -> obs s <> obs (papply i p s) -> Q (papply i p s)) ->
  forall ps s, Bnd i s -> Valid i ps s -> obs s <> obs (prun i ps s) -> Q (prun i ps s).
Proof.
  intros Hkeep Hest.
  assert (Hrun : forall ps s, Bnd i s -> Valid i ps s -> Q s -> Q (prun i ps s)).
  { intros ps s HBnd HV HQ. refine (proj2 (Valid_inv (fun t => Bnd i t /\ Q t) i _ ps s (conj HBnd HQ) HV)).
    intros p t [HB Ht] Hv. split; [apply Bnd_papply|apply Hkeep]; assumption. }
  induction ps as [|p ps IH]; intros s HBnd HV Hc; [contradiction Hc; reflexivity|].
  destruct HV as [Hv HV]. rewrite prun_cons in *. assert (HBnd1 : Bnd i (papply i p s)) by (apply Bnd_papply; assumption).
  destruct (decide (obs s = obs (papply i p s))) as [Heq|Hne].
  - apply IH; try assumption. rewrite <- Heq. exact Hc.
  - apply Hrun; try assumption. apply Hest; assumption.
Qed.

Lemma run_changed i ps s q :
  Bnd i s -> Valid i ps s -> okq q -> res q s <> res q (prun i ps s) -> i <= idx q (prun i ps s).
Proof.
  intros HBnd HV Hq. revert ps s HBnd HV. apply (run_establishes (res q) (fun s => i <= idx q s)).
  - intros p s HBnd Hv Hi. etransitivity; [exact Hi|apply prim_mono; assumption].
  - intros p s HBnd Hv Hc. apply prim_changed; assumption.
Qed.

Definition FreshRow (i : N) (k : string) (s : st) : Prop := index s !! k = Some i \/ index s !! k = None.

Lemma run_fresh i ps s name :
  Bnd i s -> Valid i ps s -> J name s <> J name (prun i ps s) -> FreshRow i (k_svc name) (prun i ps s).
Proof.
  revert ps s. apply (run_establishes (J name) (FreshRow i (k_svc name))).
  - intros p s HBnd _ HF. unfold FreshRow. rewrite index_papply by apply HBnd. unfold papply_idx.
    repeat case_bool_decide; [left; reflexivity|right; reflexivity|exact HF].
  - intros p s HBnd Hv Hne.
    destruct (J_changed i p s name (bnd_index _ _ HBnd) Hv I Hne) as [[Hi _]|(_ & _ & Hn)]; [left|right]; assumption.
Qed.

Lemma run_fires hi i ps s q :
  Bnd hi s -> hi < i -> Valid i ps s -> okq q ->
  res q s <> res q (prun i ps s) -> fires (ws q s) (Delta s (prun i ps s)) = true.
Proof.
  intros HBhi Hlt HV Hq Hc.
  destruct (decide (csn_optimised q s)) as [Hopt|Hopt]; [|apply fires_pure; assumption].
  (* the optimised CheckServiceNodes watch: only the service.<name> row, which the trace rewrote at i
     or deleted, while it held a stamp of at most hi before *)
  destruct q; try contradiction. destruct Hopt as [Hne [v Hv]].
  rewrite (csn_ws_optimised name s Hne (ex_intro _ v Hv)).
  unfold fires. cbn [existsb fire1 before after]. rewrite orb_false_r.
  apply negb_true_iff, bool_decide_eq_false. rewrite Hv.
  assert (HJ : J name s <> J name (prun i ps s)).
  { intros HJ. apply Hc. eapply (svcq_res name true); [constructor|exact HJ]. }
  pose proof (bnd_index _ _ HBhi _ _ Hv) as Hvle.
  destruct (run_fresh i ps s name (Bnd_mono hi i s ltac:(lia) HBhi) HV HJ) as [Hf|Hf]; rewrite Hf; [|discriminate].
  intros [= ->]. lia.
Qed.

Lemma reap_dec c : {u | c = Reap u} + {forall u, c <> Reap u}.
Proof. destruct c; try (right; intros u; discriminate). left. eexists; reflexivity. Qed.
Lemma deltree_dec c : {p | c = KVDeleteTree p} + {forall p, c <> KVDeleteTree p}.
Proof. destruct c; try (right; intros u; discriminate). left. eexists; reflexivity. Qed.


Lemma apply_cases i c s :
  (exists u, c = Reap u /\ apply i c s = papply i (PReap u) s) \/
  ((forall u, c <> Reap u) /\
   exists ps, apply i c s = prun i ps s /\ Valid i ps s /\ (rename_free c s -> Keep i ps s)).
Proof.
  destruct (reap_dec c) as [[u ->]|Hr]; [left; eauto|right; split; [exact Hr|]].
  unfold apply. destruct (trace i c s) as [ps|] eqn:Et; [|exists []; repeat split].
  exists ps. split; [reflexivity|exact (trace_valid i c s ps Et Hr)].
Qed.

Lemma res_reap i u s q : res q (papply i (PReap u) s) = res q s.
Proof. destruct q; reflexivity. Qed.

Definition safe_query (q : query) : Prop := okq q.

Lemma Bnd_apply hi s i c : Bnd hi s -> hi < i -> Bnd i (apply i c s).
Proof.
  intros HBhi Hlt. assert (HBnd : Bnd i s) by (eapply Bnd_mono; [|exact HBhi]; lia).
  destruct (apply_cases i c s) as [(u & -> & ->)|(_ & ps & -> & HV & _)];
    [apply Bnd_papply'; [exact HBnd|discriminate]|apply Bnd_prun; assumption].
Qed.

(* Everything a write at an index above every stamp of the state guarantees to a query of the proved
   families: the old index is one of the old stamps, the new state is stamped by at most i, the index
   does not fall (but for the reap), and a changed result is reported at i or above and wakes the watch. *)
Theorem write_contract hi s i c q :
  Bnd hi s -> hi < i -> okq q ->
  idx q s <= hi /\ Bnd i (apply i c s) /\
  ((forall u, c <> Reap u) -> idx q s <= idx q (apply i c s)) /\
  (res q (apply i c s) <> res q s ->
   i <= idx q (apply i c s) /\ fires (ws q s) (touched i c s) = true).
Proof.
  intros HBhi Hlt Hq. assert (HBnd : Bnd i s) by (eapply Bnd_mono; [|exact HBhi]; lia).
  split; [apply okq_idx_le; assumption|]. split; [apply (Bnd_apply hi); assumption|]. unfold touched.
  destruct (apply_cases i c s) as [(u & -> & ->)|(Hr & ps & -> & HV & _)].
  - split; [intros Hr; contradiction (Hr u); reflexivity|]. rewrite res_reap. intros Hc. contradiction Hc; reflexivity.
  - split; [intros _; apply run_mono; assumption|].
    intros Hc. assert (Hc' : res q s <> res q (prun i ps s)) by (intros E; apply Hc; symmetry; exact E).
    split; [apply run_changed; assumption|apply (run_fires hi); assumption].
Qed.


Inductive Reach : N -> st -> Prop :=
| Reach0 : Reach 0 st0
| ReachS hi s i c : Reach hi s -> hi < i -> Reach i (apply i c s).

Lemma Bnd_st0 : Bnd 0 st0.
Proof. split; intros k v H; cbn in H; rewrite lookup_empty in H; discriminate. Qed.

Lemma Reach_Bnd hi s : Reach hi s -> Bnd hi s.
Proof.
  induction 1 as [|hi s i c HR IH Hlt]; [exact Bnd_st0|exact (Bnd_apply hi s i c IH Hlt)].
Qed.

Lemma Coherent_apply i c s : Coherent s -> rename_free c s -> Coherent (apply i c s).
Proof.
  intros HC Hs. destruct (apply_cases i c s) as [(u & -> & ->)|(_ & ps & -> & HV & HK)].
  - intros n cid x sv. rewrite checks_papply, services_papply. apply HC.
  - apply Coherent_prun; [exact HC|exact HV|apply HK, Hs].
Qed.

(* 21 of the 25 proved query kinds: their index rule does not go through a service name *)
Inductive plainq : query -> Prop :=
| pq_tab q : tabq q -> plainq q
| pq_kv q : kvq q -> plainq q
| pq_ns n : plainq (QNodeServices n).

Lemma plainq_okq q : plainq q -> okq q.
Proof. intros [q' H|q' H|n]; [apply ok_tab|apply ok_kv|apply ok_ns]; assumption. Qed.


(* the effective minimum is the requested one or the floored index of an earlier round that
   answered with a sentinel error *)
Inductive min_source (min : N) (rounds : list (N * qerr * wake)) : N -> Prop :=
| ms_req : min_source min rounds min
| ms_round j raw e w : rounds !! j = Some (raw, e, w) -> e <> ENone -> min_source min rounds (N.max 1 raw).

Lemma loop_not_nonblocking ls rounds x : loop ls rounds <> XNonBlocking x.
Proof.
  revert ls. induction rounds as [|[[raw e] w] rounds IH]; intros ls; cbn [loop]; [discriminate|].
  destruct (round_step ls raw e) as [ls' j]. case_bool_decide; [discriminate|]. destruct w; [apply IH|discriminate..].
Qed.

Lemma loop_two_rounds m a b w rest :
  N.max 1 a <= m -> m < N.max 1 b ->
  loop (LS m false false) ((a, ENone, Fired) :: (b, ENone, w) :: rest) = XIndex (N.max 1 b).
Proof.
  intros Ha Hb. cbn [loop round_step l_min l_notfound l_ranonce orb].
  rewrite bool_decide_eq_false_2, bool_decide_eq_true_2 by lia. reflexivity.
Qed.
Lemma loop_timeout m a rest :
  N.max 1 a <= m -> loop (LS m false false) ((a, ENone, Timeout) :: rest) = XTimeout (N.max 1 a).
Proof. intros Ha. cbn [loop round_step l_min]. rewrite bool_decide_eq_false_2 by lia. reflexivity. Qed.

Definition is_nf (r : N * qerr * wake) : bool := match r.1.2 with ENotFound => true | _ => false end.
Definition fired (r : N * qerr * wake) : bool := match r.2 with Fired => true | _ => false end.

(* round j of the script replaced the minimum: it answered not-found after an earlier not-found
   round, or not-changed after any earlier round *)
Definition replaces (rounds : list (N * qerr * wake)) (j : nat) : Prop :=
  exists raw e w, rounds !! j = Some (raw, e, w) /\
    ((e = ENotFound /\ existsb is_nf (take j rounds) = true) \/ (e = ENotChanged /\ j <> 0%nat)).

Definition from_round (rounds : list (N * qerr * wake)) (n : nat) (m : N) : Prop :=
  exists j rj ej wj, (j <= n)%nat /\ replaces rounds j /\ rounds !! j = Some (rj, ej, wj) /\ m = N.max 1 rj.
Lemma from_round_le rounds n n' m : (n <= n')%nat -> from_round rounds n m -> from_round rounds n' m.
Proof. intros Hle (j & rj & ej & wj & Hj & H). exists j, rj, ej, wj. split; [lia|exact H]. Qed.

(* [pre] is the part of the script already consumed (every round of it was woken); the loop state
   summarises it *)
Lemma loop_tight pre rest ls min :
  forallb fired pre = true ->
  l_notfound ls = existsb is_nf pre -> l_ranonce ls = negb (bool_decide (pre = [])) ->
  (l_min ls = min \/ exists n, (n < length pre)%nat /\ from_round (pre ++ rest) n (l_min ls)) ->
  match loop ls rest with
  | XIndex i =>
    exists n raw e w, (pre ++ rest) !! n = Some (raw, e, w) /\ i = N.max 1 raw /\
      forallb fired (take n (pre ++ rest)) = true /\
      exists m, m < i /\ (m = min \/ from_round (pre ++ rest) n m)
  | _ => True
  end.
Proof.
  revert pre ls. induction rest as [|[[raw e] w] rest IH]; intros pre ls Hf Hnf Hro Hmin; cbn [loop]; [exact I|].
  unfold round_step. set (i := N.max 1 raw).
  set (min' := match e with ENotFound => if l_notfound ls then i else l_min ls
                       | ENotChanged => if l_ranonce ls then i else l_min ls | ENone => l_min ls end).
  cbn [l_min]. set (R := pre ++ (raw, e, w) :: rest) in *.
  assert (Hhere : R !! length pre = Some (raw, e, w)).
  { unfold R. rewrite lookup_app_r by lia. rewrite Nat.sub_diag. reflexivity. }
  assert (Hmin' : min' = min \/ from_round R (length pre) min').
  { assert (Hold : l_min ls = min \/ from_round R (length pre) (l_min ls)).
    { destruct Hmin as [H|(n & Hn & H)]; [left; exact H|right]. apply (from_round_le R n); [lia|exact H]. }
    (* this round replaces the minimum by its own floored index *)
    assert (Hnew : (e = ENotFound /\ l_notfound ls = true) \/ (e = ENotChanged /\ l_ranonce ls = true) ->
                   from_round R (length pre) i).
    { intros He. exists (length pre), raw, e, w. split; [lia|]. split; [|split; [exact Hhere|reflexivity]].
      exists raw, e, w. split; [exact Hhere|]. unfold R. rewrite take_app.
      destruct He as [[-> Hl]|[-> Hl]]; [left|right]; (split; [reflexivity|]).
      - rewrite <- Hnf. exact Hl.
      - rewrite Hro in Hl. intros Hz. apply length_zero_iff_nil in Hz. subst pre. discriminate. }
    subst min'. destruct e; [exact Hold| |].
    - destruct (l_notfound ls) eqn:El; [right; apply Hnew; left; split; reflexivity|exact Hold].
    - destruct (l_ranonce ls) eqn:El; [right; apply Hnew; right; split; reflexivity|exact Hold]. }
  destruct (decide (min' < i)) as [Hlt|Hlt];
    [rewrite (bool_decide_eq_true_2 _ Hlt)|rewrite (bool_decide_eq_false_2 _ Hlt)].
  - cbv beta iota zeta. exists (length pre), raw, e, w. split; [exact Hhere|]. split; [reflexivity|].
    split; [unfold R; rewrite take_app; exact Hf|]. exists min'. split; [exact Hlt|exact Hmin'].
  - destruct w; cbv beta iota zeta; try exact I.
    specialize (IH (pre ++ [(raw, e, Fired)])
                   (LS min' (l_notfound ls || match e with ENotFound => true | _ => false end) true)).
    rewrite <- app_assoc in IH. cbn [app] in IH. apply IH.
    + rewrite forallb_app, Hf. reflexivity.
    + cbn [l_notfound]. rewrite existsb_app, Hnf. cbn. unfold is_nf at 2. cbn. rewrite orb_false_r. reflexivity.
    + cbn [l_ranonce]. rewrite bool_decide_eq_false_2; [reflexivity|]. intros H. destruct pre; discriminate.
    + cbn [l_min]. destruct Hmin' as [H|H]; [left; exact H|right].
      exists (length pre). split; [rewrite app_length; cbn; lia|exact H].
Qed.

Theorem loop_contract_tight min rounds i :
  min <> 0 -> blocking_query min rounds = XIndex i ->
  exists n raw e w, rounds !! n = Some (raw, e, w) /\ i = N.max 1 raw /\
    forallb fired (take n rounds) = true /\
    exists m, m < i /\ (m = min \/ from_round rounds n m).
Proof.
  intros Hmin. unfold blocking_query. rewrite bool_decide_eq_false_2 by exact Hmin. intros Hl.
  pose proof (loop_tight [] rounds (LS min false false) min eq_refl eq_refl eq_refl (or_introl eq_refl)) as H.
  cbn [app] in H. rewrite Hl in H. exact H.
Qed.

Lemma replaces_source min rounds j raw e w :
  replaces rounds j -> rounds !! j = Some (raw, e, w) -> min_source min rounds (N.max 1 raw).
Proof.
  intros (raw' & e' & w' & Hj & He) Hj'. rewrite Hj in Hj'. injection Hj' as -> -> ->.
  apply (ms_round min rounds j raw e w Hj). destruct He as [[-> _]|[-> _]]; discriminate.
Qed.
