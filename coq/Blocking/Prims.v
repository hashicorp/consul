(* C06: one primitive step is a data update [pdata] followed by index-row writes and deletions.
   Under the bound every indexUpdateMaxTxn is a plain insert, so the index after the step is the
   old one with the rows [set_keys] at i and the rows [del_keys] gone. *)
From stdpp Require Import gmap strings.
From RecordUpdate Require Import RecordSet.
From Coq Require Import NArith.
From Verif Require Import Blocking.Model Blocking.Lemmas.
Import RecordSetNotations.
Local Open Scope N_scope.

Definition node_names (n : string) (s : st) : list string := names_of (svcs_of_node n s).

Definition set_keys (p : prim) (s : st) : list string :=
  match p with
  | PKvPut _ _ | PKvRelease _ => [k_kvs]
  | PKvDel _ | PKvDelSess _ => [k_kvs; k_tombs]
  | PKvDelTree p => if bool_decide (p = "") then [k_kvs] else [k_kvs; k_tombs]
  | PReap _ => []
  | PSessPut _ _ | PSessDel _ => [k_sessions]
  | PPqPut _ _ | PPqDel _ => [k_pq]
  | PNodePut n _ => k_nodes :: k_node n :: (k_svc <$> node_names n s)
  | PNodeDel n => [k_nodes; k_next]
  | PSvcPut n sid x =>
    [k_services; k_svc (sv_name x); k_nodes; k_node n] ++
    match services s !! (n, sid) with
    | Some o =>
      if bool_decide (sv_name o = sv_name x) then []
      else if bool_decide (svcs_named (sv_name o) (s <| dt; services ::= <[(n, sid) := x]> |>) = ∅)
           then [k_sext] else [k_svc (sv_name o)]
    | None => []
    end
  | PSvcDel n sid =>
    match services s !! (n, sid) with
    | None => []
    | Some x =>
      [k_checks; k_services; k_nodes; k_node n] ++
      (if bool_decide (svcs_named (sv_name x) (s <| dt; services ::= delete (n, sid) |>) = ∅)
       then [k_sext] else [k_svc (sv_name x)])
    end
  | PChkPut n cid x =>
    k_checks :: (if bool_decide (c_svc x = "") then k_svc <$> node_names n s else [k_svc (c_svcname x)]) ++
    match checks s !! (n, cid) with
    | Some o =>
      if bool_decide (c_svc o = c_svc x) then []
      else if bool_decide (c_svc o = "") then k_svc <$> node_names n s
           else k_svc (c_svcname o) ::
                match services s !! (n, c_svc o) with
                | Some sv => if bool_decide (sv_name sv = c_svcname o) then [] else [k_svc (sv_name sv)]
                | None => []
                end
    | None => []
    end
  | PChkDel n cid =>
    match checks s !! (n, cid) with
    | None => []
    | Some x =>
      k_checks :: (if bool_decide (c_svc x = "") then k_services :: (k_svc <$> node_names n s)
                   else k_svc (c_svcname x) ::
                        match services s !! (n, c_svc x) with
                        | Some sv => if bool_decide (sv_name sv = c_svcname x) then [] else [k_svc (sv_name sv)]
                        | None => []
                        end)
    end
  | PBumpSvc name => [k_svc name]
  | PBumpNodeSvcs n => k_svc <$> node_names n s
  | PCoordPut _ _ | PCoordDel _ => [k_coords]
  | PCfgPut _ _ _ | PCfgDel _ _ => [k_cfg]
  | PRootsSet _ => [k_roots]
  end.

Definition del_keys (p : prim) (s : st) : list string :=
  match p with
  | PNodeDel n => [k_node n]
  | PSvcPut n sid x =>
    match services s !! (n, sid) with
    | Some o =>
      if bool_decide (sv_name o = sv_name x) then []
      else if bool_decide (svcs_named (sv_name o) (s <| dt; services ::= <[(n, sid) := x]> |>) = ∅)
           then [k_svc (sv_name o)] else []
    | None => []
    end
  | PSvcDel n sid =>
    match services s !! (n, sid) with
    | None => []
    | Some x =>
      if bool_decide (svcs_named (sv_name x) (s <| dt; services ::= delete (n, sid) |>) = ∅)
      then [k_svc (sv_name x)] else []
    end
  | _ => []
  end.

Definition isets (l : list string) (i : N) (s : st) : st := foldr (fun k a => iset k i a) s l.

Lemma dt_isets l i s : dt (isets l i s) = dt s.
Proof. unfold isets. induction l; cbn; [reflexivity|assumption]. Qed.
Lemma isets_app a b i s : isets (a ++ b) i s = isets a i (isets b i s).
Proof. unfold isets. apply foldr_app. Qed.

Definition papply_idx (i : N) (p : prim) (s : st) (k : string) : option N :=
  if bool_decide (k ∈ set_keys p s) then Some i
  else if bool_decide (k ∈ del_keys p s) then None else index s !! k.

Lemma elem_of_2 {A} (x a b : A) : x ∈ [a; b] <-> x = a \/ x = b.
Proof. rewrite !elem_of_cons, elem_of_nil. tauto. Qed.

Definition leave_name (nm : string) (i : N) (s : st) : st :=
  if bool_decide (svcs_named nm s = ∅) then ibump k_sext i (idel (k_svc nm) s) else ibump (k_svc nm) i s.

(* the rows a service-level check bumps: the name its row carries and its service's current name *)
Definition bump_chk_svc (n : string) (o : chk) (i : N) (s : st) : st :=
  let s2 := ibump (k_svc (c_svcname o)) i s in
  match services s !! (n, c_svc o) with
  | Some sv => if bool_decide (sv_name sv = c_svcname o) then s2 else ibump (k_svc (sv_name sv)) i s2
  | None => s2
  end.
Definition chk_svc_keys (n : string) (o : chk) (s : st) : list string :=
  k_svc (c_svcname o) ::
  match services s !! (n, c_svc o) with
  | Some sv => if bool_decide (sv_name sv = c_svcname o) then [] else [k_svc (sv_name sv)]
  | None => []
  end.

(* what ensureCheckTxn bumps for the service the row it replaces was attached to *)
Definition chk_leave (n cid : string) (x : chk) (i : N) (s : st) : st :=
  match checks s !! (n, cid) with
  | Some o => if bool_decide (c_svc o = c_svc x) then s
              else if bool_decide (c_svc o = "") then bump_names (node_names n s) i s
                   else bump_chk_svc n o i s
  | None => s
  end.
Definition chk_leave_keys (n cid : string) (x : chk) (s : st) : list string :=
  match checks s !! (n, cid) with
  | Some o => if bool_decide (c_svc o = c_svc x) then []
              else if bool_decide (c_svc o = "") then k_svc <$> node_names n s else chk_svc_keys n o s
  | None => []
  end.

Definition svc_put_rows (n sid : string) (x : svc) (i : N) (s : st) : st :=
  ibump (k_node n) i (ibump k_nodes i (ibump (k_svc (sv_name x)) i (ibump k_services i
    (s <| dt; services ::= <[(n, sid) := x]> |>)))).
Definition svc_del_rows (n sid : string) (i : N) (s : st) : st :=
  ibump (k_node n) i (ibump k_nodes i (ibump k_services i (ibump k_checks i
    (s <| dt; services ::= delete (n, sid) |>)))).

Lemma papply_svcput i n sid x s :
  papply i (PSvcPut n sid x) s =
  match services s !! (n, sid) with
  | Some o => if bool_decide (sv_name o = sv_name x) then svc_put_rows n sid x i s
              else leave_name (sv_name o) i (svc_put_rows n sid x i s)
  | None => svc_put_rows n sid x i s
  end.
Proof. unfold leave_name, svc_put_rows. cbn [papply]. reflexivity. Qed.   (* unfolded first: [reflexivity] on the folded right-hand side takes a second *)
Lemma papply_svcdel i n sid s :
  papply i (PSvcDel n sid) s =
  match services s !! (n, sid) with
  | Some x => leave_name (sv_name x) i (svc_del_rows n sid i s)
  | None => s
  end.
Proof. unfold leave_name, svc_del_rows. cbn [papply]. reflexivity. Qed.
Lemma papply_chkput i n cid x s :
  papply i (PChkPut n cid x) s =
  let s0 := chk_leave n cid x i s in
  ibump k_checks i
    ((if bool_decide (c_svc x = "") then bump_names (node_names n s0) i s0 else ibump (k_svc (c_svcname x)) i s0)
       <| dt; checks ::= <[(n, cid) := x]> |>).
Proof. reflexivity. Qed.
Lemma papply_chkdel i n cid s :
  papply i (PChkDel n cid) s =
  match checks s !! (n, cid) with
  | Some x =>
    ibump k_checks i
      ((if bool_decide (c_svc x = "") then ibump k_services i (bump_names (node_names n s) i s)
        else bump_chk_svc n x i s) <| dt; checks ::= delete (n, cid) |>)
  | None => s
  end.
Proof. reflexivity. Qed.

Lemma dt_leave_name nm i s : dt (leave_name nm i s) = dt s.
Proof. unfold leave_name. destruct (bool_decide _); rewrite dt_ibump; reflexivity. Qed.
Lemma dt_bump_chk_svc n o i s : dt (bump_chk_svc n o i s) = dt s.
Proof.
  unfold bump_chk_svc. destruct (services s !! (n, c_svc o)) as [sv|]; [destruct (bool_decide _)|];
    rewrite !dt_ibump; reflexivity.
Qed.
Lemma dt_chk_leave n cid x i s : dt (chk_leave n cid x i s) = dt s.
Proof.
  unfold chk_leave. destruct (checks s !! (n, cid)) as [o|]; [|reflexivity].
  destruct (bool_decide _); [reflexivity|].
  destruct (bool_decide _); [apply dt_bump_names|apply dt_bump_chk_svc].
Qed.

Lemma svcs_named_dt nm (s s' : st) : dt s = dt s' -> svcs_named nm s = svcs_named nm s'.
Proof. unfold svcs_named. intros ->. reflexivity. Qed.
Lemma node_names_dt n (s s' : st) : dt s = dt s' -> node_names n s = node_names n s'.
Proof. unfold node_names, svcs_of_node. intros ->. reflexivity. Qed.

Definition kvs_after (i : N) (p : prim) (m : gmap string kvent) : gmap string kvent :=
  match p with
  | PKvPut k e => <[k := e]> m
  | PKvDel k => delete k m
  | PKvDelTree p => filter (fun kv => has_prefix p kv.1 = false) m
  | PKvRelease sid => (fun e => if bool_decide (kv_sess e = sid) then e <| kv_sess := "" |> <| kv_modify := i |> else e) <$> m
  | PKvDelSess sid => filter (fun kv => kv_sess kv.2 ≠ sid) m
  | _ => m
  end.
Definition tombs_after (i : N) (p : prim) (s : st) : gmap string N :=
  match p with
  | PKvDel k => <[k := i]> (tombs s)
  | PKvDelTree p =>
    let t := filter (fun kt : string * N => has_prefix p kt.1 = false) (tombs s) in
    if bool_decide (p = "") then t else <[p := i]> t
  | PKvDelSess sid => ((fun _ => i) <$> filter (fun kv => kv_sess kv.2 = sid) (kvs s)) ∪ tombs s
  | PReap upto => filter (fun kt => upto < kt.2) (tombs s)
  | _ => tombs s
  end.

Definition pdata (i : N) (p : prim) (s : st) : dat :=
  match p with
  | PKvPut _ _ | PKvDel _ | PKvDelTree _ | PKvRelease _ | PKvDelSess _ | PReap _ =>
    dt s <| tombs := tombs_after i p s |> <| kvs := kvs_after i p (kvs s) |>
  | PSessPut sid x =>
    dt s <| sessions ::= <[sid := x]> |>
         <| schecks ::= fun m => list_to_set ((fun cid => (ss_node x, cid, sid)) <$> ss_checks x) ∪ m |>
  | PSessDel sid => dt s <| sessions ::= delete sid |> <| schecks ::= filter (fun m => m.2 ≠ sid) |>
  | PPqPut id g => dt s <| pqs ::= <[id := g]> |>
  | PPqDel id => dt s <| pqs ::= delete id |>
  | PNodePut n x => dt s <| nodes ::= <[n := x]> |>
  | PNodeDel n => dt s <| nodes ::= delete n |>
  | PSvcPut n sid x => dt s <| services ::= <[(n, sid) := x]> |>
  | PSvcDel n sid => dt s <| services ::= delete (n, sid) |>
  | PChkPut n cid x => dt s <| checks ::= <[(n, cid) := x]> |>
  | PChkDel n cid => dt s <| checks ::= delete (n, cid) |>
  | PBumpSvc _ | PBumpNodeSvcs _ => dt s
  | PCoordPut n c => dt s <| coords ::= <[n := c]> |>
  | PCoordDel n => dt s <| coords ::= delete n |>
  | PCfgPut kind name g => dt s <| cfgs ::= <[(kind, name) := g]> |>
  | PCfgDel kind name => dt s <| cfgs ::= delete (kind, name) |>
  | PRootsSet m => dt s <| roots := m |>
  end.

Lemma dt_papply i p s : dt (papply i p s) = pdata i p s.
Proof.
  destruct p; cbn [pdata]; try reflexivity.
  - (* PKvDelTree *) cbn [papply tombs_after]. destruct (bool_decide _); reflexivity.
  - (* PNodePut *) cbn [papply]. rewrite dt_bump_names, !dt_ibump. reflexivity.
  - (* PNodeDel *) cbn [papply]. rewrite dt_ibump, dt_idel, dt_ibump. reflexivity.
  - (* PSvcPut *) rewrite papply_svcput. unfold svc_put_rows.
    destruct (services s !! (n, sid)) as [o|]; [destruct (bool_decide _)|];
      rewrite ?dt_leave_name, !dt_ibump; reflexivity.
  - (* PSvcDel *) rewrite papply_svcdel. unfold svc_del_rows. destruct (services s !! (n, sid)) as [x|] eqn:E.
    + rewrite dt_leave_name, !dt_ibump. reflexivity.
    + destruct s as [[] ?]; unfold set; cbn in *. rewrite delete_notin by exact E. reflexivity.
  - (* PChkPut *) rewrite papply_chkput. cbv zeta. rewrite dt_ibump. cbn.
    destruct (bool_decide _); rewrite ?dt_bump_names, ?dt_ibump, dt_chk_leave; reflexivity.
  - (* PChkDel *) rewrite papply_chkdel. destruct (checks s !! (n, cid)) as [x|] eqn:E.
    + rewrite dt_ibump. cbn. destruct (bool_decide _); rewrite ?dt_ibump, ?dt_bump_names, ?dt_bump_chk_svc; reflexivity.
    + destruct s as [[] ?]; unfold set; cbn in *. rewrite delete_notin by exact E. reflexivity.
  - (* PBumpSvc *) cbn [papply]. apply dt_ibump.
  - (* PBumpNodeSvcs *) cbn [papply]. apply dt_bump_names.
  - (* PCoordPut *) cbn [papply]. rewrite dt_ibump. reflexivity.
  - (* PCoordDel *) cbn [papply]. rewrite dt_ibump. reflexivity.
  - (* PCfgPut *) cbn [papply]. rewrite dt_ibump. reflexivity.
Qed.

Lemma services_papply i p s :
  services (papply i p s) =
  match p with
  | PSvcPut n sid x => <[(n, sid) := x]> (services s)
  | PSvcDel n sid => delete (n, sid) (services s)
  | _ => services s
  end.
Proof. rewrite dt_papply. destruct p; reflexivity. Qed.

Lemma nodes_papply i p s :
  nodes (papply i p s) =
  match p with
  | PNodePut n x => <[n := x]> (nodes s)
  | PNodeDel n => delete n (nodes s)
  | _ => nodes s
  end.
Proof. rewrite dt_papply. destruct p; reflexivity. Qed.

Lemma checks_papply i p s :
  checks (papply i p s) =
  match p with
  | PChkPut n cid x => <[(n, cid) := x]> (checks s)
  | PChkDel n cid => delete (n, cid) (checks s)
  | _ => checks s
  end.
Proof. rewrite dt_papply. destruct p; reflexivity. Qed.

Lemma kvs_papply i p s : kvs (papply i p s) = kvs_after i p (kvs s).
Proof. rewrite dt_papply. destruct p; reflexivity. Qed.
Lemma tombs_papply i p s : tombs (papply i p s) = tombs_after i p s.
Proof. rewrite dt_papply. destruct p; reflexivity. Qed.

(* two literal lists have the same elements *)
Ltac same_elems := intros ?; rewrite ?elem_of_app, ?elem_of_cons, ?elem_of_nil; tauto.

Section step.
  Context (i : N) (s : st) (HB : IdxBnd i s).

  Definition Rows (W D : list string) (s' : st) : Prop :=
    forall k, index s' !! k =
              if bool_decide (k ∈ W) then Some i else if bool_decide (k ∈ D) then None else index s !! k.

  Lemma Rows_start : Rows [] [] s.
  Proof. intros k. reflexivity. Qed.
  (* a data update leaves the index alone; stated for the hint database below *)
  Lemma Rows_dt f W D s' : Rows W D s' -> Rows W D (s' <| dt ::= f |>).
  Proof. intros H. exact H. Qed.
  Lemma Rows_ext W D W' D' s' :
    Rows W D s' -> (forall k, k ∈ W' <-> k ∈ W) -> (forall k, k ∈ D' <-> k ∈ D) -> Rows W' D' s'.
  Proof. intros H HW HD k. rewrite H, (bool_decide_ext _ _ (HW k)), (bool_decide_ext _ _ (HD k)). reflexivity. Qed.
  Lemma Rows_bnd W D s' : Rows W D s' -> IdxBnd i s'.
  Proof.
    intros H k v. rewrite H. repeat case_bool_decide; intros Hk;
      [injection Hk as <-; reflexivity|discriminate|exact (HB _ _ Hk)].
  Qed.

  Lemma Rows_iset k0 W D s' : Rows W D s' -> Rows (k0 :: W) D (iset k0 i s').
  Proof.
    intros H k. rewrite index_iset, bd_cons. case_bool_decide as E; cbn [orb]; [subst; apply lookup_insert|].
    rewrite lookup_insert_ne by congruence. apply H.
  Qed.
  Lemma Rows_ibump k0 W D s' : Rows W D s' -> Rows (k0 :: W) D (ibump k0 i s').
  Proof. intros H. rewrite ibump_iset by (eapply Rows_bnd, H). apply Rows_iset, H. Qed.
  Lemma Rows_idel k0 W D s' : Rows W D s' -> k0 ∉ W -> Rows W (k0 :: D) (idel k0 s').
  Proof.
    intros H Hn k. rewrite index_idel, (bd_cons k k0 D). destruct (decide (k = k0)) as [->|E].
    - rewrite lookup_delete, (bool_decide_eq_false_2 _ Hn), bool_decide_eq_true_2 by reflexivity. reflexivity.
    - rewrite lookup_delete_ne, (bool_decide_eq_false_2 (k = k0)) by congruence. apply H.
  Qed.
  Lemma Rows_bump_names l W D s' : Rows W D s' -> Rows ((k_svc <$> l) ++ W) D (bump_names l i s').
  Proof. intros H. induction l as [|x l IH]; [exact H|]. apply (Rows_ibump (k_svc x)), IH. Qed.

  Lemma Rows_leave_name nm W D s' :
    Rows W D s' -> k_svc nm ∉ W ->
    let b := bool_decide (svcs_named nm s' = ∅) in
    Rows ((if b then k_sext else k_svc nm) :: W) (if b then k_svc nm :: D else D) (leave_name nm i s').
  Proof.
    intros H Hn b. unfold leave_name. fold b. destruct b; [apply Rows_ibump, Rows_idel|apply Rows_ibump]; assumption.
  Qed.
  Lemma Rows_bump_chk_svc n o W D s' :
    Rows W D s' -> Rows (chk_svc_keys n o s' ++ W) D (bump_chk_svc n o i s').
  Proof.
    intros H. unfold chk_svc_keys, bump_chk_svc.
    destruct (services s' !! (n, c_svc o)) as [sv|]; [case_bool_decide|]; try (apply Rows_ibump, H).
    eapply Rows_ext; [apply Rows_ibump, Rows_ibump, H|same_elems|reflexivity].
  Qed.
  Lemma Rows_chk_leave n cid x : Rows (chk_leave_keys n cid x s) [] (chk_leave n cid x i s).
  Proof.
    unfold chk_leave_keys, chk_leave. destruct (checks s !! (n, cid)) as [o|]; [|apply Rows_start].
    case_bool_decide; [apply Rows_start|]. case_bool_decide.
    - rewrite <- (app_nil_r (k_svc <$> _)). apply Rows_bump_names, Rows_start.
    - rewrite <- (app_nil_r (chk_svc_keys _ _ _)). apply Rows_bump_chk_svc, Rows_start.
  Qed.

  Local Hint Resolve Rows_start Rows_dt Rows_iset Rows_ibump : rows.

  Lemma Rows_papply p : Rows (set_keys p s) (del_keys p s) (papply i p s).
  Proof.
    (* most primitives are a literal chain of iset / ibump over one data update, in the order of set_keys *)
    destruct p; cbn [set_keys del_keys]; try (cbn [papply]; auto 8 with rows; fail).
    - (* PKvDelTree *) cbn [papply]. case_bool_decide; auto 8 with rows.
    - (* PNodePut *)
      cbn [papply]. change (names_of (svcs_of_node n _)) with (node_names n s). generalize (node_names n s) as l. intros l.
      eapply Rows_ext.
      { apply Rows_bump_names, Rows_ibump, Rows_ibump, Rows_dt, Rows_start. }
      { same_elems. }
      reflexivity.
    - (* PNodeDel *)
      cbn [papply]. eapply Rows_ext.
      { apply Rows_ibump, Rows_idel; [apply Rows_ibump, Rows_dt, Rows_start|].
        rewrite elem_of_list_singleton. apply k_node_fixed. inl. }
      { same_elems. }
      reflexivity.
    - (* PSvcPut *)
      rewrite papply_svcput. set (s1 := svc_put_rows n sid x i s).
      assert (H1 : Rows [k_node n; k_nodes; k_svc (sv_name x); k_services] [] s1) by (unfold s1, svc_put_rows; auto 8 with rows).
      destruct (services s !! (n, sid)) as [o|]; [case_bool_decide as En|];
        try (eapply Rows_ext; [exact H1|same_elems|reflexivity]).
      rewrite <- (svcs_named_dt (sv_name o) s1 (s <| dt; services ::= <[(n, sid) := x]> |>))
        by (unfold s1, svc_put_rows; rewrite !dt_ibump; reflexivity).
      assert (Hn : k_svc (sv_name o) ∉ [k_node n; k_nodes; k_svc (sv_name x); k_services]).
      { rewrite !not_elem_of_cons. repeat split; [apply k_svc_node|apply k_svc_fixed; inl| |apply k_svc_fixed; inl|apply not_elem_of_nil].
        intros E. apply En, k_svc_inj, E. }
      pose proof (Rows_leave_name (sv_name o) _ _ _ H1 Hn) as HL. cbv zeta in HL.
      destruct (bool_decide _); (eapply Rows_ext; [exact HL|same_elems|same_elems]).
    - (* PSvcDel *)
      rewrite papply_svcdel. destruct (services s !! (n, sid)) as [x|]; [|exact Rows_start].
      set (s1 := svc_del_rows n sid i s).
      assert (H1 : Rows [k_node n; k_nodes; k_services; k_checks] [] s1) by (unfold s1, svc_del_rows; auto 8 with rows).
      rewrite <- (svcs_named_dt (sv_name x) s1 (s <| dt; services ::= delete (n, sid) |>))
        by (unfold s1, svc_del_rows; rewrite !dt_ibump; reflexivity).
      assert (Hn : k_svc (sv_name x) ∉ [k_node n; k_nodes; k_services; k_checks]).
      { rewrite !not_elem_of_cons. repeat split; [apply k_svc_node|apply k_svc_fixed; inl..|apply not_elem_of_nil]. }
      pose proof (Rows_leave_name (sv_name x) _ _ _ H1 Hn) as HL. cbv zeta in HL.
      destruct (bool_decide _); (eapply Rows_ext; [exact HL|same_elems|same_elems]).
    - (* PChkPut *)
      rewrite papply_chkput. cbv zeta. rewrite (node_names_dt n (chk_leave n cid x i s) s) by apply dt_chk_leave.
      pose proof (Rows_chk_leave n cid x) as HL.
      apply Rows_ibump, Rows_dt. case_bool_decide; [apply Rows_bump_names, HL|apply (Rows_ibump _ _ _ _ HL)].
    - (* PChkDel *)
      rewrite papply_chkdel. destruct (checks s !! (n, cid)) as [x|]; [|exact Rows_start].
      apply Rows_ibump, Rows_dt. case_bool_decide.
      + apply Rows_ibump. rewrite <- (app_nil_r (k_svc <$> _)). apply Rows_bump_names, Rows_start.
      + rewrite <- (app_nil_r (_ :: _)). apply (Rows_bump_chk_svc n x), Rows_start.
    - (* PBumpNodeSvcs *)
      cbn [papply]. rewrite <- (app_nil_r (k_svc <$> _)). apply Rows_bump_names, Rows_start.
  Qed.
End step.

Lemma index_papply i p s k :
  IdxBnd i s -> index (papply i p s) !! k = papply_idx i p s k.
Proof. intros HB. apply (Rows_papply i s HB p). Qed.
Lemma IdxBnd_papply i p s : IdxBnd i s -> IdxBnd i (papply i p s).
Proof. intros HB. exact (Rows_bnd i s HB _ _ _ (Rows_papply i s HB p)). Qed.

(* a row is deleted only with its last referent: node.<n> with the node, service.<name> with the
   last instance of the name *)
Lemma del_keys_shape i p s k :
  k ∈ del_keys p s ->
  (exists n, p = PNodeDel n /\ k = k_node n) \/
  (exists nm, k = k_svc nm /\ svcs_named nm s <> ∅ /\ svcs_named nm (papply i p s) = ∅).
Proof.
  assert (Hne : forall n sid x, services s !! (n, sid) = Some x -> svcs_named (sv_name x) s <> ∅).
  { intros n sid x Hx He. apply (map_filter_empty_not_lookup _ _ (n, sid) x) in He; [congruence|reflexivity]. }
  destruct p; cbn [del_keys]; try (intros H; inversion H; fail).
  - intros ->%elem_of_list_singleton. left. eauto.
  - destruct (services s !! (n, sid)) as [o|] eqn:Eo; [|intros H; inversion H].
    case_bool_decide as Hd; [intros H; inversion H|]. case_bool_decide as He; [|intros H; inversion H].
    intros ->%elem_of_list_singleton. right. exists (sv_name o). split; [reflexivity|]. split; [eapply Hne, Eo|].
    rewrite <- He. apply svcs_named_dt, dt_papply.
  - destruct (services s !! (n, sid)) as [x|] eqn:Ex; [|intros H; inversion H].
    case_bool_decide as He; [|intros H; inversion H].
    intros ->%elem_of_list_singleton. right. exists (sv_name x). split; [reflexivity|]. split; [eapply Hne, Ex|].
    rewrite <- He. apply svcs_named_dt, dt_papply.
Qed.
