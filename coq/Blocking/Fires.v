(* C06: a changed result is seen by the watch set the query registered.  For every query except
   the "optimised" CheckServiceNodes watch this is a fact about any two states (the watched radix
   nodes cover every row the result is computed from); the optimised watch is handled in Proofs.v
   through the index rows. *)
From stdpp Require Import gmap strings.
From Coq Require Import NArith.
From Verif Require Import Blocking.Model Blocking.Lemmas Blocking.Prims Blocking.Valid Blocking.Index
     Blocking.IndexKV Blocking.IndexCat.
Local Open Scope N_scope.

Lemma fires_intro W d w : w ∈ W -> fire1 d w = true -> fires W d = true.
Proof. intros Hin Hf. unfold fires. apply existsb_exists. exists w. split; [apply elem_of_list_In, Hin|exact Hf]. Qed.
Lemma fires_hd d w W : fire1 d w = true -> fires (w :: W) d = true.
Proof. apply fires_intro. left. Qed.

Section generic.
  Context {K A : Type} `{Countable K} `{EqDecision A}.

  (* A view g of the table differs between m and m': then a row the watch covers differs.  The three
     shapes of watch: the whole table, one key, the rows a filter selects. *)
  Lemma chg_all_of {B} (g : gmap K A -> B) (m m' : gmap K A) : g m <> g m' -> chg m m' (fun _ _ => true) = true.
  Proof.
    intros Hg. assert (Hne : m <> m') by (intros ->; apply Hg; reflexivity).
    destruct (map_neq_witness m m' Hne) as [k Hk]. apply (chg_at m m' _ k Hk). reflexivity.
  Qed.
  Lemma chg_key_of {B} (g : option A -> B) k (m m' : gmap K A) :
    g (m !! k) <> g (m' !! k) -> chg m m' (fun k' _ => bool_decide (k' = k)) = true.
  Proof.
    intros Hg. apply (chg_at m m' _ k); [intros E; apply Hg; rewrite E; reflexivity|].
    intros x _. apply bool_decide_eq_true_2. reflexivity.
  Qed.
  Lemma chg_filter_of {B} (g : gmap K A -> B) (P : K * A -> Prop) `{!forall x, Decision (P x)} f (m m' : gmap K A) :
    (forall k x, P (k, x) -> f k x = true) -> g (filter P m) <> g (filter P m') -> chg m m' f = true.
  Proof.
    intros Hf Hg. assert (Hne : filter P m <> filter P m') by (intros E; apply Hg; rewrite E; reflexivity).
    destruct (map_neq_witness _ _ Hne) as [k Hk]. rewrite !filter_lookup_if in Hk.
    apply chg_true. exists k. split; [intros E; apply Hk; rewrite E; reflexivity|].
    destruct (m !! k) as [x|]; [case_bool_decide as Hx; [left; eauto|]|];
      (destruct (m' !! k) as [y|]; [case_bool_decide as Hy; [right; eauto|]|]); contradiction Hk; reflexivity.
  Qed.

  Lemma chg_or (f1 f2 : K -> A -> bool) (m m' : gmap K A) :
    chg m m' (fun k x => f1 k x || f2 k x) = true -> chg m m' f1 = true \/ chg m m' f2 = true.
  Proof.
    rewrite !chg_true. intros (k & Hne & [(x & Hx & Hf)|(x & Hx & Hf)]); apply orb_true_iff in Hf as [Hf|Hf];
      [left|right|left|right]; exists k; (split; [exact Hne|]); eauto.
  Qed.
End generic.

Lemma RKV_neq a b : RKV a <> RKV b -> a <> b. Proof. intros H ->. apply H. reflexivity. Qed.

Lemma node_watch_in {A} (m : gmap (string * string) A) n sid x :
  m !! (n, sid) = Some x -> WNodeKey n ∈ node_watches m.
Proof.
  intros Hm. unfold node_watches. apply elem_of_list_fmap. exists ((n, sid), x). split; [reflexivity|].
  apply elem_of_map_to_list. exact Hm.
Qed.
Lemma csn_row_watch_in {A} (m : gmap (string * string) A) n sid x w :
  m !! (n, sid) = Some x -> w ∈ [WNodeKey n; WChkNodeSvc n ""; WChkNodeSvc n sid] -> w ∈ csn_row_watches m.
Proof.
  intros Hm Hw. unfold csn_row_watches. apply elem_of_list_join.
  exists [WNodeKey n; WChkNodeSvc n ""; WChkNodeSvc n sid]. split; [exact Hw|].
  apply elem_of_list_fmap. exists ((n, sid), x). split; [reflexivity|].
  apply elem_of_map_to_list. exact Hm.
Qed.

Lemma checks_for_neq_fire (s s' : st) n sid :
  checks_for s n sid <> checks_for s' n sid ->
  fire1 (Delta s s') (WChkNodeSvc n "") = true \/ fire1 (Delta s s') (WChkNodeSvc n sid) = true.
Proof.
  intros Hne. cbn [fire1 before after]. apply chg_or. unfold checks_for in Hne.
  apply (chg_filter_of id (fun kv => kv.1.1 = n /\ (c_svc kv.2 = "" \/ c_svc kv.2 = sid))); [|exact Hne].
  intros k x [Hk Hc]. cbn [fst snd] in *. rewrite (bool_decide_eq_true_2 _ Hk). cbn [andb].
  destruct Hc as [Hc|Hc]; rewrite (bool_decide_eq_true_2 _ Hc); [reflexivity|apply orb_true_r].
Qed.


(* CheckServiceNodes on a name with instances whose service.<name> row exists: checkServiceNodesTxn
   then watches that row only *)
Definition csn_optimised (q : query) (s : st) : Prop :=
  match q with
  | QCSN name => svcs_named name s <> ∅ /\ is_Some (index s !! k_svc name)
  | _ => False
  end.

#[global] Instance csn_optimised_dec q s : Decision (csn_optimised q s).
Proof. destruct q; cbn; apply _. Defined.

Lemma csn_ws_optimised name s :
  svcs_named name s <> ∅ -> is_Some (index s !! k_svc name) -> ws (QCSN name) s = [WIdx (k_svc name)].
Proof.
  intros Hne [v Hv]. cbn [ws]. unfold csn_ws, nonempty. rewrite bool_decide_eq_false_2 by exact Hne. cbn [negb].
  rewrite names_of_named by exact Hne. cbn [omap forallb andb fmap list_fmap].
  unfold svc_index. cbn. rewrite Hv. reflexivity.
Qed.

(* the query kinds the contract is proved for: everything but the two Connect queries *)
Inductive okq : query -> Prop :=
| ok_tab q : tabq q -> okq q
| ok_kv q : kvq q -> okq q
| ok_ns n : okq (QNodeServices n)
| ok_svc name wc q : svcq name wc q -> okq q.

Definition selq (name : string) (tag : option string) (s : st) : gmap (string * string) svc :=
  match tag with
  | None => svcs_named name s
  | Some t => filter (fun kv : string * string * svc => has_tag t kv.2 = true) (svcs_named name s)
  end.
Lemma selq_fire name tag (s s' : st) k :
  selq name tag s !! k <> selq name tag s' !! k -> fire1 (Delta s s') (WSvcName name) = true.
Proof.
  intros Hne. cbn [fire1 before after]. destruct tag as [t|]; cbn [selq] in Hne; unfold svcs_named in Hne.
  - apply (chg_filter_of (fun m => filter (fun kv : string * string * svc => has_tag t kv.2 = true) m !! k)
                         (fun kv => sv_name kv.2 = name)); [intros k0 x0; apply bool_decide_eq_true_2|exact Hne].
  - apply (chg_filter_of (fun m => m !! k) (fun kv => sv_name kv.2 = name));
      [intros k0 x0; apply bool_decide_eq_true_2|exact Hne].
Qed.

Lemma fmap_neq_cases {A B} `{EqDecision A} (g g' : A -> B) (o o' : option A) :
  g <$> o <> g' <$> o' -> o <> o' \/ exists x, o = Some x /\ g x <> g' x.
Proof.
  intros H. destruct (decide (o = o')) as [<-|Hd]; [right|left; exact Hd].
  destruct o as [x|]; [|contradiction H; reflexivity]. exists x. split; [reflexivity|]. intros E. apply H. cbn. rewrite E. reflexivity.
Qed.

Lemma join_node_fire name tag (s s' : st) :
  RSvcNodes (join_node s (selq name tag s)) <> RSvcNodes (join_node s' (selq name tag s')) ->
  fires (WSvcName name :: node_watches (selq name tag s)) (Delta s s') = true.
Proof.
  intros Hr. assert (Hne : join_node s (selq name tag s) <> join_node s' (selq name tag s')) by congruence.
  destruct (map_neq_witness _ _ Hne) as [[n sid] Hk]. rewrite !join_node_lookup in Hk. cbn [fst] in Hk.
  destruct (fmap_neq_cases _ _ _ _ Hk) as [Hd|(sv & E & Hg)].
  - apply (fires_intro _ _ (WSvcName name)); [left|eapply selq_fire, Hd].
  - apply (fires_intro _ _ (WNodeKey n)); [right; eapply node_watch_in, E|].
    cbn [fire1 before after]. apply (chg_key_of id). intros Hn. apply Hg. cbn in Hn. rewrite Hn. reflexivity.
Qed.

Lemma join_csn_fire name tag (s s' : st) :
  RCSN (join_csn s (selq name tag s)) <> RCSN (join_csn s' (selq name tag s')) ->
  fires (WSvcName name :: csn_row_watches (selq name tag s)) (Delta s s') = true.
Proof.
  intros Hr. assert (Hne : join_csn s (selq name tag s) <> join_csn s' (selq name tag s')) by congruence.
  destruct (map_neq_witness _ _ Hne) as [[n sid] Hk]. rewrite !join_csn_lookup in Hk. cbn [fst snd] in Hk.
  destruct (fmap_neq_cases _ _ _ _ Hk) as [Hd|(sv & E & Hg)].
  - apply (fires_intro _ _ (WSvcName name)); [left|eapply selq_fire, Hd].
  - (* the node row of the instance, or one of its checks *)
    destruct (decide (nodes s !! n = nodes s' !! n)) as [Hn|Hn].
    + assert (Hc : checks_for s n sid <> checks_for s' n sid) by (intros Hc; apply Hg; rewrite Hn, Hc; reflexivity).
      destruct (checks_for_neq_fire _ _ _ _ Hc) as [Hf|Hf].
      * apply (fires_intro _ _ (WChkNodeSvc n "")); [right; eapply csn_row_watch_in; [exact E|inl]|exact Hf].
      * apply (fires_intro _ _ (WChkNodeSvc n sid)); [right; eapply csn_row_watch_in; [exact E|inl]|exact Hf].
    + apply (fires_intro _ _ (WNodeKey n)); [right; eapply csn_row_watch_in; [exact E|inl]|].
      cbn [fire1 before after]. apply (chg_key_of id), Hn.
Qed.

Theorem fires_pure q (s s' : st) :
  okq q -> ~ csn_optimised q s -> res q s <> res q s' -> fires (ws q s) (Delta s s') = true.
Proof.
  intros Hq Hopt Hc. destruct Hq as [q Hq|q Hq|n|name wc q Hq].
  - (* table queries: the watch is the whole table, the key, or the filter the result is made with *)
    destruct Hq as [k|id| |n| | | |n|nm|[stt|]| |n|a b|a| |id|]; cbn [res ws] in *.
    15: { (* QCfgKind, the fifteenth kind: ConfigEntriesByKind also watches the index row; the table watch is the second *)
      case_bool_decide; (eapply fires_intro; [right; left|]); cbn [fire1 before after].
      - apply (chg_all_of RGen), Hc.
      - apply (chg_filter_of RGen (fun kv => kv.1.1 = a)); [intros k0 x0; apply bool_decide_eq_true_2|exact Hc]. }
    all: apply fires_hd; cbn [fire1 before after].
    + (* QKVGet *) apply (chg_key_of (fun o => RKV (single k o))), Hc.
    + (* QSessGet *) apply (chg_key_of (fun o => RSess (single id o))), Hc.
    + (* QSessList *) apply (chg_all_of RSess), Hc.
    + (* QNodeSess *) apply (chg_filter_of RSess (fun kv => ss_node kv.2 = n)); [intros k0 x0; apply bool_decide_eq_true_2|exact Hc].
    + (* QNodes *) apply (chg_all_of RNodes), Hc.
    + (* QServices *) eapply (chg_all_of (fun m => RTags (map_fold _ ∅ m))), Hc.
    + (* QServiceList *) eapply (chg_all_of (fun m => RKeys (list_to_set (_ <$> map_to_list m)))), Hc.
    + (* QNodeChecks *) apply (chg_filter_of RChecks (fun kv => kv.1.1 = n)); [intros k0 x0; apply bool_decide_eq_true_2|exact Hc].
    + (* QSvcChecks *) apply (chg_filter_of RChecks (fun kv => c_svcname kv.2 = nm)); [intros k0 x0; apply bool_decide_eq_true_2|exact Hc].
    + (* QChecksState status *) apply (chg_filter_of RChecks (fun kv => c_status kv.2 = stt)); [intros k0 x0; apply bool_decide_eq_true_2|exact Hc].
    + (* QChecksState any *) apply (chg_all_of RChecks), Hc.
    + (* QCoords *) apply (chg_all_of RCoords), Hc.
    + (* QCoord *) apply (chg_key_of (fun o => RCoords (single n o))), Hc.
    + (* QCfgGet *) apply (chg_key_of (fun o => RGen (single (a, b) o))), Hc.
    + (* QCARoots *) apply (chg_all_of RRoots), Hc.
    + (* QPQGet *) apply (chg_key_of (fun o => RPQ (single id o))), Hc.
    + (* QPQList *) apply (chg_all_of RPQ), Hc.
  - (* KV *)
    destruct Hq; cbn [res ws] in *; apply fires_hd; cbn [fire1 before after].
    + apply (chg_key_of (fun o => RKV (single k o))), Hc.
    + apply (chg_filter_of RKV (fun kv => has_prefix p kv.1 = true)), Hc. intros k x Hx. exact Hx.
    + eapply (chg_filter_of (fun m => RKeys (list_to_set (_ <$> map_to_list m))) (fun kv => has_prefix p kv.1 = true)), Hc.
      intros k x Hx. exact Hx.
  - (* NodeServices: the node row, and while it stays the services of the node *)
    cbn [res ws] in *.
    destruct (decide (nodes s !! n = nodes s' !! n)) as [Hn|Hn].
    + rewrite <- Hn in Hc. destruct (nodes s !! n) as [x|] eqn:En; [|contradiction Hc; reflexivity].
      apply (fires_intro _ _ (WSvcNode n)); [right; left|]. cbn [fire1 before after].
      apply (chg_filter_of (fun m => RNodeSvcs (Some (x, m))) (fun kv => kv.1.1 = n)); [intros k0 x0; apply bool_decide_eq_true_2|exact Hc].
    + apply (fires_intro _ _ (WNodeKey n)); [destruct (nodes s !! n); left|].
      cbn [fire1 before after]. apply (chg_key_of id), Hn.
  - (* the service-name family *)
    destruct Hq; cbn [res ws] in *.
    + exact (join_node_fire name None s s' Hc).
    + exact (join_node_fire name (Some tag) s s' Hc).
    + (* CheckServiceNodes, not optimised *)
      cbn [csn_optimised] in Hopt. unfold csn_ws, nonempty.
      assert (HJ : join_csn s (selq name None s) <> join_csn s' (selq name None s')) by (cbn [selq]; congruence).
      case_bool_decide as He; cbn [negb].
      * (* empty result: the scan of the service index *)
        destruct (map_neq_witness _ _ HJ) as [k Hk]. rewrite !join_csn_lookup in Hk. cbn [selq] in Hk.
        rewrite He, lookup_empty in Hk. cbn in Hk.
        apply (fires_intro _ _ (WSvcName name)); [left|]. apply (selq_fire name None _ _ k). cbn [selq].
        rewrite He, lookup_empty. destruct (svcs_named name s' !! k); [discriminate|contradiction Hk; reflexivity].
      * rewrite names_of_named by exact He. cbn [omap forallb andb fmap list_fmap].
        unfold svc_index. cbn [fst snd].
        destruct (index s !! k_svc name) as [v|] eqn:Ei.
        { exfalso. apply Hopt. split; [exact He|eexists; reflexivity]. }
        cbn. rewrite ?Ei. cbn. exact (join_csn_fire name None s s' Hc).
    + exact (join_csn_fire name (Some tag) s s' Hc).
Qed.
