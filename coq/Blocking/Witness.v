(* C06: concrete histories.  Two of them reach states in which the faithful model (and, replayed,
   the real store) breaks the contract; the others are the former witnesses of classes repaired in
   /repo, kept as regression facts, and the states that show the hypotheses of the theorems can be met. *)
From stdpp Require Import gmap strings.
From Coq Require Import NArith Lia.
From Verif Require Import Blocking.Model Blocking.Lemmas Blocking.Prims Blocking.Valid Blocking.Index
     Blocking.IndexKV Blocking.IndexCat Blocking.Fires Blocking.Proofs.
Local Open Scope N_scope.

Fixpoint increasing (hi : N) (log : list (N * cmd)) : bool :=
  match log with
  | [] => true
  | (i, _) :: rest => bool_decide (hi < i) && increasing i rest
  end.
Definition last_index (hi : N) (log : list (N * cmd)) : N := foldl (fun _ ic => ic.1) hi log.

Lemma Reach_run log : forall hi s, Reach hi s -> increasing hi log = true -> Reach (last_index hi log) (run log s).
Proof.
  induction log as [|[i c] log IH]; intros hi s HR Hinc; [exact HR|].
  cbn in Hinc. apply andb_true_iff in Hinc as [Hlt Hinc]. apply bool_decide_eq_true in Hlt.
  cbn [run last_index foldl]. apply IH; [|exact Hinc]. econstructor; eassumption.
Qed.
Lemma Reach_log log : increasing 0 log = true -> Reach (last_index 0 log) (run log st0).
Proof. apply Reach_run. constructor. Qed.

Definition spec (id name : string) : svcspec := SvcSpec id name false "" false [] 80.
Definition proxy (id name dest : string) : svcspec := SvcSpec id name true dest false [] 80.

Definition contract_holds (s : st) (i : N) (c : cmd) (q : query) : Prop :=
  res q (apply i c s) <> res q s ->
  idx q s < idx q (apply i c s) /\ fires (ws q s) (touched i c s) = true.

(* a history, the write after it and the query observed: a candidate; [violates] says it breaks the
   contract.  The repaired classes below use the record for their histories too. *)
Record violation := Violation { v_log : list (N * cmd); v_i : N; v_c : cmd; v_q : query }.
Definition violates (v : violation) : Prop :=
  let s := run (v_log v) st0 in
  Reach (last_index 0 (v_log v)) s /\ last_index 0 (v_log v) < v_i v /\
  res (v_q v) (apply (v_i v) (v_c v) s) <> res (v_q v) s /\
  ~ (idx (v_q v) s < idx (v_q v) (apply (v_i v) (v_c v) s)).

(* What one evaluation of a history records about a query: whether the write left the result
   unchanged, the index before and after, whether the registered watch fired.  Each history below is
   evaluated once, into such small values; the facts about it are read off them. *)
Definition obs (s s' : st) (q : query) : bool * N * N * bool :=
  (bool_decide (res q s' = res q s), idx q s, idx q s', fires (ws q s) (Delta s s')).
Definition wobs (w : violation) (q : query) : bool * N * N * bool :=
  let s := run (v_log w) st0 in obs s (apply (v_i w) (v_c w) s) q.

Lemma obs_spec s s' q a b f :
  obs s s' q = (false, a, b, f) ->
  res q s' <> res q s /\ idx q s = a /\ idx q s' = b /\ fires (ws q s) (Delta s s') = f.
Proof. intros [= Hc <- <- <-]. apply bool_decide_eq_false in Hc. repeat split. exact Hc. Qed.

Lemma violates_by_obs w a b f :
  increasing 0 (v_log w) = true -> last_index 0 (v_log w) < v_i w ->
  wobs w (v_q w) = (false, a, b, f) -> b <= a -> violates w.
Proof.
  intros Hinc Hlt Ho Hle. destruct (obs_spec _ _ _ _ _ _ Ho) as (Hc & <- & <- & _).
  split; [apply Reach_log, Hinc|]. split; [exact Hlt|]. split; [exact Hc|lia].
Qed.

(* (repaired in /repo by d2fdf7c) a delete-tree on a shorter prefix with an older tombstone left
      under the listed prefix: the delete now drops the tombstones it subsumes, and the history that
      used to lose the update (26 -> 23) reports the write's index *)
Definition w_kvlist : violation :=
  Violation [(6, KVSet "a/b" 1 0); (23, KVDelete "a/b"); (26, KVSet "a/b" 2 0)] 27 (KVDeleteTree "a/") (QKVList "a/b").
Lemma w_kvlist_obs : wobs w_kvlist (QKVList "a/b") = (false, 26, 27, true).
Proof. vm_compute. reflexivity. Qed.

(* (repaired in /repo by 2c57fbe) a service id registered again under another name: the old name's
      row is now bumped / replaced by the extinction index; both former witnesses report the write's
      index and the optimised watch fires *)
Definition w_rename : violation :=
  Violation [(2, EnsureNode "n1" 1); (3, EnsureSvc "n1" (spec "s1" "web"))] 5 (EnsureSvc "n1" (spec "s1" "api")) (QSvcNodes "web").
Lemma w_rename_obs :
  let s := run (v_log w_rename) st0 in let s' := apply 5 (v_c w_rename) s in
  obs s s' (QCSN "web") = (false, 3, 5, true) /\ obs s s' (QSvcNodes "web") = (false, 3, 5, true).
Proof. vm_compute. split; reflexivity. Qed.
Definition w_rename_back : violation :=
  Violation [(2, EnsureNode "n1" 1); (3, EnsureSvc "n1" (spec "s2" "db")); (4, DelSvc "n1" "s2");
             (6, EnsureSvc "n1" (spec "s1" "web"))] 8 (EnsureSvc "n1" (spec "s1" "api")) (QSvcNodes "web").
Lemma w_rename_back_obs : wobs w_rename_back (QSvcNodes "web") = (false, 6, 8, true).
Proof. vm_compute. reflexivity. Qed.

(* ConnectServiceNodes reports the index of the destination service, not of its proxies *)
Definition w_connect : violation :=
  Violation [(2, EnsureNode "n1" 1); (3, EnsureSvc "n1" (spec "s1" "web"))] 5
            (EnsureSvc "n1" (proxy "p1" "web-proxy" "web")) (QConnectNodes "web").
Lemma w_connect_obs : wobs w_connect (QConnectNodes "web") = (false, 3, 3, true).
Proof. vm_compute. reflexivity. Qed.
Lemma w_connect_violates : violates w_connect.
Proof. apply (violates_by_obs w_connect _ _ _ eq_refl eq_refl w_connect_obs). discriminate. Qed.

(* (repaired in /repo by e956cb5) a check registered again against another service of the node: the
      service it leaves is bumped *)
Definition w_check_moved : violation :=
  Violation [(2, EnsureNode "n1" 1); (3, EnsureSvc "n1" (spec "s1" "api")); (4, EnsureSvc "n1" (spec "s2" "web"));
             (5, EnsureCheck "n1" (ChkSpec "c2" 0 "s1" 0))] 7 (EnsureCheck "n1" (ChkSpec "c2" 0 "s2" 0)) (QCSN "api").
Lemma w_check_moved_obs : wobs w_check_moved (QCSN "api") = (false, 5, 7, true).
Proof. vm_compute. reflexivity. Qed.

(* the residue of that repair, repaired by 77429de: the bump went only to the name STORED in the
      check row; after a rename of the service that name is stale, and moving the check away was missed
      by the service's current name ("api": 7 -> 7, no wake).  Now the current name is bumped too.
      The state before the move is not Coherent (the check row still carries "web"). *)
Definition w_move_stale : violation :=
  Violation [(2, EnsureNode "n1" 1); (3, EnsureSvc "n1" (spec "s1" "web")); (4, EnsureSvc "n1" (spec "s2" "db"));
             (5, EnsureCheck "n1" (ChkSpec "c2" 0 "s1" 0)); (7, EnsureSvc "n1" (spec "s1" "api"))]
            9 (EnsureCheck "n1" (ChkSpec "c2" 0 "s2" 0)) (QCSN "api").
Lemma w_move_stale_obs :
  let s := run (v_log w_move_stale) st0 in
  obs s (apply 9 (v_c w_move_stale) s) (QCSN "api") = (false, 7, 9, true) /\
  checks s !! ("n1", "c2") = Some (Chk 0 "s1" "web" [] 0 5 5) /\
  services s !! ("n1", "s1") = Some (Svc "api" false "" false [] 80 3 7).
Proof. vm_compute. repeat split. Qed.
Lemma w_move_stale_incoherent : ~ Coherent (run (v_log w_move_stale) st0).
Proof.
  destruct w_move_stale_obs as (_ & Hc & Hs). intros HC.
  specialize (HC "n1" "c2" _ _ Hc ltac:(discriminate) Hs). discriminate.
Qed.

(* CheckConnectServiceNodes: the index is the maximum over the service names that are in the
      result NOW; when the instances of one name leave, the index falls *)
Definition w_csn_connect : violation :=
  Violation [(2, EnsureNode "n2" 1); (4, EnsureSvc "n2" (proxy "p1" "web-proxy" "web")); (5, EnsureNode "n1" 1);
             (21, EnsureSvc "n1" (SvcSpec "s1" "web" false "" true [] 80))] 27 (DelNode "n1") (QCSNConnect "web").
Lemma w_csn_connect_obs : wobs w_csn_connect (QCSNConnect "web") = (false, 21, 4, true).
Proof. vm_compute. reflexivity. Qed.
Lemma w_csn_connect_violates : violates w_csn_connect.
Proof. apply (violates_by_obs w_csn_connect _ _ _ eq_refl eq_refl w_csn_connect_obs). discriminate. Qed.

Lemma connect_not_okq q : (exists n, q = QConnectNodes n) \/ (exists n, q = QCSNConnect n) -> ~ okq q.
Proof. intros [[n ->]|[n ->]] H; inversion H as [q Hq|q Hq| |nm wc q Hq]; subst; inversion Hq. Qed.

(* non-vacuity: a non-trivial reachable coherent state (locked key, tombstone, session bound to a
   check, a proxy and its service) and two writes that change the health view of "web": deleting
   the node, and a service update (same id and name, new port) that re-registers its checks *)
Definition ex_log : list (N * cmd) :=
  [(2, Register "n1" 1 (Some (spec "s1" "web")) [ChkSpec "serfHealth" 0 "" 0; ChkSpec "c2" 0 "s1" 0]);
   (3, EnsureSvc "n1" (proxy "p1" "web-proxy" "web"));
   (4, SessCreate "00000000-0000-0000-0000-000000000001" "n1" true ["serfHealth"]);
   (5, KVLock "a/b" 1 0 "00000000-0000-0000-0000-000000000001");
   (6, KVSet "a/c" 1 0); (7, KVDelete "a/c");
   (8, Register "n2" 2 (Some (spec "s1" "web")) [])].
Definition ex_state : st := run ex_log st0.
Definition ex_cmd : cmd := DelNode "n1".
Definition ex_update : cmd :=
  Register "n1" 1 (Some (SvcSpec "s1" "web" false "" false [] 81)) [ChkSpec "c2" 1 "s1" 1; ChkSpec "serfHealth" 0 "" 0].

Lemma ex_reach : Reach 8 ex_state.
Proof. apply (Reach_log ex_log). reflexivity. Qed.

Lemma Coherent_run log : forall s, Coherent s -> (forall pre ic post, log = pre ++ ic :: post -> rename_free ic.2 (run pre s)) ->
                                   Coherent (run log s).
Proof.
  induction log as [|[i c] log IH]; intros s HC Hsafe; [exact HC|].
  cbn [run]. apply IH.
  - apply Coherent_apply; [exact HC|]. apply (Hsafe [] (i, c) log). reflexivity.
  - intros pre ic post Heq. specialize (Hsafe ((i, c) :: pre) ic post). cbn in Hsafe. apply Hsafe. rewrite Heq. reflexivity.
Qed.

Definition coherent_row (s : st) (k : string * string) (x : chk) : Prop :=
  c_svc x = "" \/ from_option (fun sv => sv_name sv = c_svcname x) True (services s !! (k.1, c_svc x)).
#[global] Instance coherent_row_dec s k x : Decision (coherent_row s k x).
Proof. unfold coherent_row. destruct (services s !! (k.1, c_svc x)); cbn; apply _. Defined.
Lemma coherent_by_compute s : bool_decide (map_Forall (coherent_row s) (checks s)) = true -> Coherent s.
Proof.
  intros H. apply bool_decide_eq_true in H. intros n cid x sv Hx Hne Hsv.
  destruct (H (n, cid) x Hx) as [He|Hc]; [contradiction|]. cbn in Hc. rewrite Hsv in Hc. exact Hc.
Qed.

Lemma ex_obs :
  let s := ex_state in
  bool_decide (map_Forall (coherent_row s) (checks s)) = true /\
  services s !! ("n1", "s1") = Some (Svc "web" false "" false [] 80 2 2) /\
  obs s (apply 9 ex_cmd s) (QCSN "web") = (false, 8, 9, true) /\
  obs s (apply 9 ex_update s) (QCSN "web") = (false, 8, 9, true).
Proof. vm_compute. repeat split. Qed.

Lemma ex_coherent : Coherent ex_state.
Proof. apply coherent_by_compute. exact (proj1 ex_obs). Qed.
Lemma ex_changes : res (QCSN "web") (apply 9 ex_cmd ex_state) <> res (QCSN "web") ex_state.
Proof. destruct ex_obs as (_ & _ & H & _). apply (obs_spec _ _ _ _ _ _ H). Qed.
Lemma ex_update_changes : res (QCSN "web") (apply 9 ex_update ex_state) <> res (QCSN "web") ex_state.
Proof. destruct ex_obs as (_ & _ & _ & H). apply (obs_spec _ _ _ _ _ _ H). Qed.
(* the update meets svc_safe on EXISTING rows: the service row keeps its name, and by coherence so do its checks *)
Lemma ex_update_safe : safe_cmd ex_update ex_state.
Proof.
  destruct ex_obs as (_ & Hsv & _). pose proof ex_coherent as HC. right. split; cbn [sp_id sp_name].
  - intros o Ho. rewrite Hsv in Ho. injection Ho as <-. reflexivity.
  - intros cid c Hc Hid. symmetry. apply (HC "n1" cid c (Svc "web" false "" false [] 80 2 2) Hc); rewrite Hid; [discriminate|exact Hsv].
Qed.

(* the wake of the blocked round, read off the model's [fires] *)
Definition wake_of (b : bool) : wake := if b then Fired else Timeout.
