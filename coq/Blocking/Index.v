(* C06: the index rows a step writes ([iget_papply], [imax_*]) and the 17 table queries [tabq], whose
   index is a maximum of rows that are never deleted: a step never lowers it, and a changed result
   puts it at the write's index.  IndexKV.v and IndexCat.v do the same for the other query kinds. *)
From stdpp Require Import gmap strings.
From Coq Require Import NArith Lia.
From Verif Require Import Blocking.Model Blocking.Lemmas Blocking.Prims Blocking.Valid.
Local Open Scope N_scope.

Lemma iget_papply i p s k :
  IdxBnd i s ->
  iget k (papply i p s) =
  if bool_decide (k ∈ set_keys p s) then i else if bool_decide (k ∈ del_keys p s) then 0 else iget k s.
Proof.
  intros HB. unfold iget at 1. rewrite index_papply by exact HB. unfold papply_idx.
  repeat case_bool_decide; reflexivity.
Qed.

Lemma del_keys_not_fixed p s k : k ∈ fixed_keys -> k ∉ del_keys p s.
Proof.
  intros Hf Hin. destruct (del_keys_shape 0 p s k Hin) as [(n & _ & ->)|(nm & -> & _)].
  - exact (k_node_fixed n _ Hf eq_refl).
  - exact (k_svc_fixed nm _ Hf eq_refl).
Qed.

Lemma fixed_mono i p s k : IdxBnd i s -> k ∈ fixed_keys -> iget k s <= iget k (papply i p s).
Proof.
  intros HB Hf. rewrite iget_papply by exact HB.
  case_bool_decide; [apply iget_le, HB|].
  rewrite bool_decide_eq_false_2 by (apply del_keys_not_fixed, Hf). lia.
Qed.

Lemma set_key_iget i p s k : IdxBnd i s -> k ∈ set_keys p s -> iget k (papply i p s) = i.
Proof. intros HB Hin. rewrite iget_papply by exact HB. rewrite bool_decide_eq_true_2 by exact Hin. reflexivity. Qed.

Lemma imax_cons k ks s : imax (k :: ks) s = N.max (iget k s) (imax ks s).
Proof. reflexivity. Qed.
Lemma imax_le i ks s : IdxBnd i s -> imax ks s <= i.
Proof.
  intros HB. induction ks as [|k ks IH]; [apply N.le_0_l|].
  rewrite imax_cons. pose proof (iget_le i k s HB). lia.
Qed.
(* maxIndexTxn over rows that are never deleted *)
Lemma imax_mono i p s ks : IdxBnd i s -> Forall (.∈ fixed_keys) ks -> imax ks s <= imax ks (papply i p s).
Proof.
  intros HB. induction 1 as [|k ks Hk _ IH]; [reflexivity|].
  rewrite !imax_cons. pose proof (fixed_mono i p s k HB Hk). lia.
Qed.
Lemma iget_le_imax k ks s : k ∈ ks -> iget k s <= imax ks s.
Proof. induction 1; rewrite imax_cons; lia. Qed.
Lemma imax_set i p s ks k : IdxBnd i s -> k ∈ ks -> k ∈ set_keys p s -> imax ks (papply i p s) = i.
Proof.
  intros HB Hin Hk. pose proof (imax_le i ks _ (IdxBnd_papply i p s HB)) as Hle.
  pose proof (iget_le_imax k ks (papply i p s) Hin) as Hge.
  rewrite (set_key_iget i p s k HB Hk) in Hge. lia.
Qed.


Inductive tbl := TKv | TSess | TNode | TSvc | TChk | TCoord | TCfg | TPq | TRoot.
Definition tbl_key (t : tbl) : string :=
  match t with
  | TKv => k_kvs | TSess => k_sessions | TNode => k_nodes | TSvc => k_services | TChk => k_checks
  | TCoord => k_coords | TCfg => k_cfg | TPq => k_pq | TRoot => k_roots
  end.
Definition tbl_same (t : tbl) (d d' : dat) : Prop :=
  match t with
  | TKv => kvs d = kvs d' | TSess => sessions d = sessions d' | TNode => nodes d = nodes d'
  | TSvc => services d = services d' | TChk => checks d = checks d' | TCoord => coords d = coords d'
  | TCfg => cfgs d = cfgs d' | TPq => pqs d = pqs d' | TRoot => roots d = roots d'
  end.

Lemma tbl_key_fixed t : tbl_key t ∈ fixed_keys.
Proof. destruct t; unfold fixed_keys; inl. Qed.

Lemma tbl_written i p (s : st) t : ~ tbl_same t s (papply i p s) -> tbl_key t ∈ set_keys p s.
Proof.
  rewrite dt_papply. intros H.
  destruct p, t; cbn in H; try (contradiction H; reflexivity); cbn [set_keys tbl_key app]; try (inl; fail).
  - case_bool_decide; inl.
  - destruct (services s !! (n, sid)) eqn:E; [inl|]. contradiction H. symmetry. apply delete_notin, E.
  - destruct (checks s !! (n, cid)) eqn:E; [inl|]. contradiction H. symmetry. apply delete_notin, E.
Qed.


(* the queries whose index is the maximum of fixed rows of one table *)
Inductive tabq : query -> Prop :=
| tq1 k : tabq (QKVGet k) | tq2 id : tabq (QSessGet id) | tq3 : tabq QSessList | tq4 n : tabq (QNodeSess n)
| tq5 : tabq QNodes | tq6 : tabq QServices | tq7 : tabq QServiceList
| tq8 n : tabq (QNodeChecks n) | tq9 nm : tabq (QSvcChecks nm) | tq10 o : tabq (QChecksState o)
| tq11 : tabq QCoords | tq12 n : tabq (QCoord n) | tq13 a b : tabq (QCfgGet a b) | tq14 a : tabq (QCfgKind a)
| tq15 : tabq QCARoots | tq16 id : tabq (QPQGet id) | tq17 : tabq QPQList.


(* the table a table query reads, and the index rows it takes the maximum of (the catch-all of [qtbl]
   is meant for the KV query only: every use is under [tabq]) *)
Definition qtbl (q : query) : tbl :=
  match q with
  | QSessGet _ | QSessList | QNodeSess _ => TSess
  | QNodes => TNode
  | QServices | QServiceList => TSvc
  | QNodeChecks _ | QSvcChecks _ | QChecksState _ => TChk
  | QCoords | QCoord _ => TCoord
  | QCfgGet _ _ | QCfgKind _ => TCfg
  | QCARoots => TRoot
  | QPQGet _ | QPQList => TPq
  | _ => TKv
  end.
Definition tab_keys (q : query) : list string :=
  match q with QKVGet _ => [k_kvs; k_tombs] | _ => [tbl_key (qtbl q)] end.

Lemma tabq_res q (s s' : st) : tabq q -> tbl_same (qtbl q) s s' -> res q s = res q s'.
Proof.
  intros Hq. destruct Hq; cbn [qtbl tbl_same res]; unfold sessions_of_node, checks_of_node; intros ->; reflexivity.
Qed.
Lemma tabq_idx q s : tabq q -> idx q s = imax (tab_keys q) s.
Proof. intros Hq. destruct Hq; cbn; lia. Qed.
Lemma tab_keys_fixed q : Forall (.∈ fixed_keys) (tab_keys q).
Proof. destruct q; repeat constructor; first [apply tbl_key_fixed|unfold fixed_keys; inl]. Qed.
Lemma tab_keys_hd q : tbl_key (qtbl q) ∈ tab_keys q.
Proof. destruct q; left. Qed.

Lemma tab_idx_le i q s : IdxBnd i s -> tabq q -> idx q s <= i.
Proof. intros HB Hq. rewrite (tabq_idx q s Hq). apply imax_le, HB. Qed.

Lemma tab_mono i p s q : IdxBnd i s -> tabq q -> idx q s <= idx q (papply i p s).
Proof. intros HB Hq. rewrite !(tabq_idx q _ Hq). apply imax_mono; [exact HB|apply tab_keys_fixed]. Qed.

Lemma tab_changed i p s q :
  IdxBnd i s -> tabq q -> res q s <> res q (papply i p s) -> idx q (papply i p s) = i.
Proof.
  intros HB Hq Hc. rewrite (tabq_idx q _ Hq).
  apply (imax_set i p s _ _ HB (tab_keys_hd q)), (tbl_written i).
  intros Hsame. apply Hc, tabq_res; assumption.
Qed.
