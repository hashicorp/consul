(* C15 — when splitters are chained at most two deep, flattenAdjacentSplitterNodes computes the same
   table whatever the order in which it meets the nodes.  (The compiler itself sorts the ids,
   Final.compile_map_order, and needs no such hypothesis.) *)
From Verif Require Import Base.Prelude.
From Verif Require Import Chain.Model.
From Verif Require Import Chain.Lemmas.
From Verif Require Import Chain.Passes.
From Verif Require Import Chain.Resolve.
From Verif Require Import Chain.Assemble.
From Verif Require Import Chain.Proofs.
From Verif Require Import Chain.Complete.
From Verif Require Import Chain.Cycles.
Local Open Scope string_scope.
Local Open Scope list_scope.

Section Shallow.
  Variable ns : nodes.

  Definition shallow : Prop := forall a b, schild ns a b -> forall c, ~ schild ns b c.

  Definition Tn (nd : node) : node :=
    match nd with SplitterN e => SplitterN (fst (inline ns e)) | _ => nd end.

  Definition target_table : nodes := map (fun p => (fst p, Tn (snd p))) ns.

  Lemma lookup_target_table k : lookup k target_table = option_map Tn (lookup k ns).
  Proof.
    unfold target_table. induction ns as [|[k0 n0] l IH]; cbn [map assoc fst snd option_map]; [reflexivity|].
    destruct (nid_eqb k k0); [reflexivity | exact IH].
  Qed.

  Definition Part (cur : nodes) : Prop :=
    forall k, lookup k cur = lookup k ns \/ lookup k cur = option_map Tn (lookup k ns).

  Lemma inline_id (tb : nodes) l : (forall e, In e l -> is_splitter tb (snd e) = false) -> inline tb l = (l, false).
  Proof.
    intros H. assert (Hs : snd (inline tb l) = false).
    { rewrite inline_snd. destruct (existsb _ l) eqn:E; [|reflexivity].
      apply existsb_exists in E as (e & He & Hs). rewrite (H e He) in Hs. discriminate. }
    rewrite (surjective_pairing (inline tb l)), Hs. f_equal. apply inline_unchanged. exact Hs.
  Qed.

  Lemma inline_ext (tb : nodes) l :
    (forall e, In e l -> lookup (snd e) tb = lookup (snd e) ns) -> inline tb l = inline ns l.
  Proof.
    induction l as [|e l IH]; intros H; cbn [inline]; [reflexivity|].
    rewrite IH by (intros x Hx; apply H; right; auto).
    unfold inline1. rewrite (H e (or_introl eq_refl)). reflexivity.
  Qed.

  Hypothesis Hsh : shallow.

  Lemma Tn_stable k nd : lookup k ns = Some nd -> (forall c, ~ schild ns k c) -> Tn nd = nd.
  Proof.
    intros Hl Hno. destruct nd as [l|e|d fo]; cbn [Tn]; try reflexivity.
    rewrite inline_id; [reflexivity|]. intros x Hx.
    destruct (is_splitter ns (snd x)) eqn:Es; [|reflexivity].
    exfalso. apply (Hno (snd x)). exists e. split; auto. split; [apply in_map; auto | exact Es].
  Qed.

  Lemma leg_stable k e b nd : lookup k ns = Some (SplitterN e) -> In b (map snd e) -> lookup b ns = Some nd -> Tn nd = nd.
  Proof.
    intros Hk Hb Hl. destruct (is_splitter ns b) eqn:Es.
    - eapply Tn_stable; eauto. apply (Hsh k b). exists e. auto.
    - unfold is_splitter in Es. rewrite Hl in Es. destruct nd; [reflexivity | discriminate | reflexivity].
  Qed.

  Lemma leg_lookup cur k e b :
    Part cur -> lookup k ns = Some (SplitterN e) -> In b (map snd e) -> lookup b cur = lookup b ns.
  Proof.
    intros HP Hk Hb. destruct (HP b) as [H|H]; [exact H|]. rewrite H.
    destruct (lookup b ns) as [nd|] eqn:El; [|reflexivity]. cbn [option_map]. f_equal. eapply leg_stable; eauto.
  Qed.

  Lemma flattened_legs k e x : lookup k ns = Some (SplitterN e) -> In x (fst (inline ns e)) -> is_splitter ns (snd x) = false.
  Proof.
    intros Hk Hx. apply inline_In in Hx as [[_ H]|(e0 & inner & e2 & H1 & H2 & H3 & ->)]; [exact H|].
    cbn [snd]. destruct (is_splitter ns (snd e2)) eqn:Es; [|reflexivity]. exfalso.
    apply (Hsh k (snd e0)) with (c := snd e2).
    - exists e. split; auto. split; [apply in_map; auto|]. unfold is_splitter. rewrite H2. reflexivity.
    - exists inner. split; auto. split; [apply in_map; auto | exact Es].
  Qed.

  Lemma is_splitter_Part cur b : Part cur -> is_splitter cur b = is_splitter ns b.
  Proof.
    intros HP. unfold is_splitter. destruct (HP b) as [-> | ->]; [reflexivity|].
    destruct (lookup b ns) as [[?|?|? ?]|]; reflexivity.
  Qed.

  Definition visited (cur : nodes) (k : nid) (order : list nid) (cur1 : nodes) : Prop :=
    fst (flatten_pass cur (k :: order)) = fst (flatten_pass cur1 order) /\ Part cur1 /\
    (forall x, lookup x cur = option_map Tn (lookup x ns) -> lookup x cur1 = option_map Tn (lookup x ns)) /\
    lookup k cur1 = option_map Tn (lookup k ns).

  Lemma visited_same cur k order :
    Part cur -> lookup k cur = option_map Tn (lookup k ns) ->
    (forall e, lookup k cur = Some (SplitterN e) -> snd (inline cur e) = false) -> visited cur k order cur.
  Proof. intros HP Hk Hno. unfold visited. rewrite (flatten_pass_skip cur k order Hno). auto. Qed.

  Lemma visit cur k order : Part cur -> exists cur1, visited cur k order cur1.
  Proof.
    intros HP. destruct (lookup k ns) as [[l|e0|d fo]|] eqn:El.
    2:{ destruct (HP k) as [Hc|Hc]; rewrite El in Hc; cbn [option_map Tn] in Hc.
        - (* not yet flattened: inlining in [cur] is inlining in [ns] *)
          assert (Hi : inline cur e0 = inline ns e0)
            by (apply inline_ext; intros x Hx; eapply leg_lookup; eauto; apply in_map; exact Hx).
          destruct (snd (inline ns e0)) eqn:Ech.
          + exists (upsert nid_eqb k (SplitterN (fst (inline ns e0))) cur). unfold visited.
            rewrite flatten_pass_cons, Hc, Hi, Ech. split; [reflexivity|]. split; [|split].
            * intros x. rewrite lookup_upsert. destruct (nid_eqb x k) eqn:E; [|apply HP].
              apply nid_eqb_eq in E; subst. right. rewrite El. reflexivity.
            * intros x Hx. rewrite lookup_upsert. destruct (nid_eqb x k) eqn:E; [|exact Hx].
              apply nid_eqb_eq in E; subst. rewrite El. reflexivity.
            * rewrite lookup_upsert, nid_eqb_refl, El. reflexivity.
          + pose proof (inline_unchanged ns e0 Ech) as [Eid _]. exists cur.
            apply visited_same; [exact HP | rewrite El; cbn [option_map Tn]; rewrite Eid; exact Hc|].
            intros e He. rewrite Hc in He. injection He as <-. rewrite Hi. exact Ech.
        - (* already flattened: nothing left to inline *)
          exists cur. apply visited_same; [exact HP | rewrite El; exact Hc|].
          intros e He. rewrite Hc in He. injection He as <-.
          rewrite inline_id; [reflexivity|]. intros x Hx. rewrite (is_splitter_Part cur (snd x) HP).
          eapply flattened_legs; eauto. }
    (* a node that is not a splitter is never touched *)
    all: exists cur; apply visited_same; [exact HP | destruct (HP k) as [H|H]; rewrite H, El; reflexivity|];
      intros e He; destruct (HP k) as [H|H]; rewrite H, El in He; discriminate.
  Qed.

  Lemma pass_Part : forall order cur,
    Part cur ->
    Part (fst (flatten_pass cur order)) /\
    (forall k, In k order \/ lookup k cur = option_map Tn (lookup k ns) ->
               lookup k (fst (flatten_pass cur order)) = option_map Tn (lookup k ns)).
  Proof.
    induction order as [|k order IH]; intros cur HP.
    - cbn [flatten_pass fst]. split; [exact HP|]. intros k [[]|H]; exact H.
    - destruct (visit cur k order HP) as (cur1 & -> & HP1 & Hkeep & Hdone).
      destruct (IH cur1 HP1) as [A B]. split; [exact A|].
      intros x [[<-|Hi]|Hc]; apply B; auto.
  Qed.

  Hypothesis Hnd : NoDup (map fst ns).

  Lemma pass_shallow ord : fst (flatten_pass ns (eff_order ord ns)) = target_table.
  Proof.
    assert (HP0 : Part ns) by (intros k; left; reflexivity).
    destruct (pass_Part (eff_order ord ns) ns HP0) as [_ B].
    pose proof (flatten_pass_pres _ (Pres_keys ns) (eff_order ord ns) ns eq_refl) as Hk. cbn beta in Hk.
    apply (assoc_ext nid_eqb nid_eqb_eq).
    - rewrite Hk. unfold target_table. rewrite map_map. reflexivity.
    - rewrite Hk. exact Hnd.
    - intros k Hi. rewrite lookup_target_table. apply B. left. apply eff_order_In. rewrite <- Hk. exact Hi.
  Qed.


  Lemma target_table_no_schild a b : ~ schild target_table a b.
  Proof.
    intros (e & Hl & Hb & Hs). rewrite lookup_target_table in Hl. unfold is_splitter in Hs. rewrite lookup_target_table in Hs.
    destruct (lookup a ns) as [nda|] eqn:Ea; [|discriminate]. cbn [option_map] in Hl. injection Hl as Hl.
    destruct nda as [l|e0|d fo]; cbn [Tn] in Hl; try discriminate. injection Hl as <-.
    apply in_map_iff in Hb as (x & <- & Hx). pose proof (flattened_legs _ _ _ Ea Hx) as Hf.
    unfold is_splitter in Hf. destruct (lookup (snd x) ns) as [[?|?|? ?]|]; cbn in Hs; try discriminate.
  Qed.

  Lemma flatten_shallow fuel ords : flatten (S (S fuel)) ords ns = Some target_table.
  Proof.
    rewrite flatten_S. cbn zeta. rewrite pass_shallow.
    destruct (snd (flatten_pass ns (eff_order (hd [] ords) ns))); [|reflexivity].
    rewrite flatten_S, pass_no_schild by exact target_table_no_schild. reflexivity.
  Qed.
End Shallow.

Section Keys.
  Variable es : list entry.
  Variable cx : ctx.
  Variable svc : string.

  Theorem compile_order_shallow o1 o2 :
    (forall a b c, splits_to es cx a b -> splits_to es cx b c -> False) ->
    compile_ord es cx svc o1 = compile_ord es cx svc o2.
  Proof.
    intros Hno. unfold compile_ord. destruct (assemble es cx svc) as [[[st start] router]|e] eqn:Ea; [|reflexivity].
    destruct (detect _ _ [] start); try reflexivity.
    set (ns := to_nodes svc st router).
    assert (Hsch : forall a b, schild ns a b -> exists x y, a = NSplitter x /\ b = NSplitter y /\ splits_to es cx x y).
    { intros a b (e & Hl & Hb & Hs).
      assert (Hed : edge ns a b) by (exists (SplitterN e); auto).
      unfold ns in Hl. rewrite lookup_to_nodes in Hl. destruct a as [x|x|x].
      - destruct router; [|discriminate]. destruct (x =? svc); discriminate.
      - unfold is_splitter, ns in Hs. rewrite lookup_to_nodes in Hs. destruct b as [y|y|y].
        + destruct router; [|discriminate]. destruct (y =? svc); discriminate.
        + exists x, y. split; auto. split; auto. eapply splitter_edge_from_entries; eauto.
        + destruct (assoc target_eqb y (s_resolvers st)); discriminate.
      - destruct (assoc target_eqb x (s_resolvers st)); discriminate. }
    assert (Hsh : shallow ns).
    { intros a b Hab c Hbc. destruct (Hsch _ _ Hab) as (x & y & -> & -> & H1).
      destruct (Hsch _ _ Hbc) as (y' & z & Hy & -> & H2). injection Hy as <-. eauto. }
    assert (Hnd : NoDup (map fst ns)) by (apply to_nodes_NoDup; eapply asm_keys, assemble_spec; eauto).
    unfold flatten_fuel. cbn [Nat.add]. rewrite !(flatten_shallow ns Hsh Hnd). reflexivity.
  Qed.
End Keys.
