(* C15 — the model identifies a discovery target with the triple (service, subset, datacenter), the
   Go code with the string structs.ChainID builds from them: not injective (finding
   C15-target-id-collision), injective on names without dots. *)
From Verif Require Import Base.Prelude.
From Verif Require Import Chain.Model.
From Verif Require Import Chain.Lemmas.
Local Open Scope string_scope.

(* structs.ChainID for a target without peer in the default namespace and partition *)
Definition chain_id (t : target) : string :=
  (if t_sub t =? "" then "" else t_sub t ++ ".") ++ t_svc t ++ ".default.default." ++ t_dc t.

Fixpoint no_dot (s : string) : bool :=
  match s with
  | EmptyString => true
  | String c s' => negb (Ascii.eqb c ".") && no_dot s'
  end.

Definition dot_free (t : target) : Prop := no_dot (t_svc t) = true /\ no_dot (t_sub t) = true /\ no_dot (t_dc t) = true.

Lemma split_first_dot a : forall a' r r',
  no_dot a = true -> no_dot a' = true -> (a ++ String "." r) = (a' ++ String "." r') -> a = a' /\ r = r'.
Proof.
  induction a as [|c a IH]; intros [|c' a'] r r' Ha Ha'; cbn [String.append no_dot] in *.
  - intros H; injection H as ->. auto.
  - intros H; injection H as <- _. apply andb_true_iff in Ha' as [Hc _]. rewrite Ascii.eqb_refl in Hc. discriminate.
  - intros H; injection H as -> _. apply andb_true_iff in Ha as [Hc _]. rewrite Ascii.eqb_refl in Hc. discriminate.
  - apply andb_true_iff in Ha as [_ Ha]. apply andb_true_iff in Ha' as [_ Ha'].
    intros H; injection H as -> H. destruct (IH _ _ _ Ha Ha' H) as [-> ->]. auto.
Qed.

Lemma no_dot_app_dot a r : no_dot (a ++ String "." r) = false.
Proof. induction a as [|c a IH]; cbn [String.append no_dot]; [reflexivity|]. rewrite IH. apply andb_false_r. Qed.

Lemma append_assoc' a b c : ((a ++ b) ++ c)%string = (a ++ (b ++ c))%string.
Proof. induction a as [|x a IH]; cbn [String.append]; [reflexivity | rewrite IH; reflexivity]. Qed.

Fixpoint join (l : list string) (last : string) : string :=
  match l with nil => last | cons c l' => c ++ String "." (join l' last) end.

Lemma join_inj l : forall l' x x',
  Forall (fun c => no_dot c = true) l -> Forall (fun c => no_dot c = true) l' ->
  no_dot x = true -> no_dot x' = true -> join l x = join l' x' -> l = l' /\ x = x'.
Proof.
  induction l as [|c l IH]; intros [|c' l'] x x' Hl Hl' Hx Hx'; cbn [join].
  - auto.
  - intros H. rewrite H, no_dot_app_dot in Hx. discriminate.
  - intros H. rewrite <- H, no_dot_app_dot in Hx'. discriminate.
  - inversion Hl as [|? ? Hc Hl0]; subst. inversion Hl' as [|? ? Hc' Hl0']; subst. intros H.
    apply split_first_dot in H as [-> H]; auto. destruct (IH _ _ _ Hl0 Hl0' Hx Hx' H) as [-> ->]. auto.
Qed.

Lemma chain_id_join t :
  chain_id t = join ((if t_sub t =? "" then nil else cons (t_sub t) nil) ++ cons (t_svc t) (cons "default" (cons "default" nil)))%list (t_dc t).
Proof.
  unfold chain_id. destruct (t_sub t =? ""); cbn [app join]; rewrite ?append_assoc'; reflexivity.
Qed.

Lemma chain_id_injective t1 t2 : dot_free t1 -> dot_free t2 -> chain_id t1 = chain_id t2 -> t1 = t2.
Proof.
  intros (Hs1 & Hb1 & Hd1) (Hs2 & Hb2 & Hd2). rewrite !chain_id_join. intros H.
  apply join_inj in H; auto.
  - destruct H as [Hl Hd]. destruct t1 as [s1 b1 d1], t2 as [s2 b2 d2]; cbn [t_svc t_sub t_dc] in *. subst d2.
    destruct (b1 =? "") eqn:E1, (b2 =? "") eqn:E2; cbn [app] in Hl; try discriminate.
    + apply String.eqb_eq in E1, E2. subst. injection Hl as ->. reflexivity.
    + injection Hl as -> ->. reflexivity.
  - destruct (t_sub t1 =? ""); cbn [app]; repeat constructor; auto.
  - destruct (t_sub t2 =? ""); cbn [app]; repeat constructor; auto.
Qed.
