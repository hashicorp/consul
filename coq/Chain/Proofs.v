(* C15 — the compiler as a whole: termination (no loop bound exhausted, no Go panic), closure
   of the compiled graph, cycles reported; what does not depend on the visiting orders of the
   flatten passes. *)
From Verif Require Import Base.Prelude.
From Verif Require Import Chain.Model.
From Verif Require Import Chain.Lemmas.
From Verif Require Import Chain.Passes.
From Verif Require Import Chain.Resolve.
From Verif Require Import Chain.Assemble.
Local Open Scope string_scope.
Local Open Scope list_scope.

Definition well_kinded (ns : nodes) : Prop :=
  forall k nd, lookup k ns = Some nd ->
    match k, nd with
    | NRouter _, RouterN _ | NSplitter _, SplitterN _ | NResolver _, ResolverN _ _ => True
    | _, _ => False
    end.

Lemma to_nodes_well_kinded svc st r : well_kinded (to_nodes svc st r).
Proof.
  intros k nd Hl. rewrite lookup_to_nodes in Hl. destruct k as [x|x|x].
  - destruct r; [|discriminate]. destruct (x =? svc); [|discriminate]. injection Hl as <-. exact I.
  - destruct (assoc String.eqb x (s_splitters st)); [|discriminate]. injection Hl as <-. exact I.
  - destruct (assoc target_eqb x (s_resolvers st)); [|discriminate]. injection Hl as <-. exact I.
Qed.

Lemma Pres_well_kinded : Pres well_kinded.
Proof.
  intros ns k edges H Hl x nd Hx. rewrite lookup_upsert in Hx. destruct (nid_eqb x k) eqn:E; [|eapply H; eauto].
  apply nid_eqb_eq in E; subst. injection Hx as <-. specialize (H k _ Hl). destruct k; auto.
Qed.

Definition targets_ok (ts : list target) (ns : nodes) : Prop :=
  forall t d fo, lookup (NResolver t) ns = Some (ResolverN d fo) -> In t ts /\ incl fo ts.

Lemma Pres_targets_ok ts : Pres (targets_ok ts).
Proof.
  intros ns k edges H Hl t d fo Hx. rewrite lookup_upsert in Hx.
  destruct (nid_eqb (NResolver t) k); [discriminate | eapply H; eauto].
Qed.

Lemma Pres_present start : Pres (fun ns => lookup start ns <> None).
Proof.
  intros ns k edges H Hl. cbn beta. rewrite lookup_upsert. destruct (nid_eqb start k); [discriminate | exact H].
Qed.

Section Compile.
  Variable es : list entry.
  Variable cx : ctx.
  Variable svc : string.

  Lemma passes_spec st start router ords :
    Assembled es cx svc st start router ->
    let ns := to_nodes svc st router in
    detect (detect_fuel ns) ns [] start = DCycle \/
    (detect (detect_fuel ns) ns [] start = DOk /\
     exists ns1 ns2 r,
       flatten (flatten_fuel ns) ords ns = Some ns1 /\ remove_unused ns1 start = Ok ns2 /\
       lookup start ns2 <> None /\ closed ns2 /\ Ranked r ns2 /\ well_kinded ns2 /\
       targets_ok (s_retained st) ns2 /\
       (nonempty_nodes ns -> nonempty_nodes ns2)).
  Proof.
    intros [Hcl Hst Hreach (_ & C2 & _) _ _ _ _ _] ns. fold ns in Hcl, Hst, Hreach.
    destruct (detect (detect_fuel ns) ns [] start) eqn:Ed.
    - right. split; [reflexivity|].
      set (F := detect_fuel ns) in *. set (r := height F ns).
      assert (HR : Ranked r ns).
      { intros a b He. unfold r. eapply detect_ranked; [exact Ed | | exact He].
        apply Hreach. destruct He as (nd & Hl & _). congruence. }
      assert (HB : forall a, BndAt r (2 + List.length ns) ns a).
      { intros a b _. unfold r. pose proof (height_le F ns b). unfold F, detect_fuel in *. lia. }
      pose proof (flatten_terminates r _ ords ns HR HB) as Hfl.
      change (S (2 + List.length ns)) with (flatten_fuel ns) in Hfl.
      destruct (flatten (flatten_fuel ns) ords ns) as [ns1|] eqn:Ef; [|congruence].
      assert (Hto : targets_ok (s_retained st) ns).
      { intros t d fo Hl. unfold ns in Hl. rewrite lookup_to_nodes in Hl.
        destruct (assoc target_eqb t (s_resolvers st)) as [n|] eqn:E; [|discriminate].
        injection Hl as <- <-. eapply C2; eauto. }
      assert (Hcl1 : closed ns1) by (eapply (flatten_pres closed); eauto using Pres_closed).
      assert (Hst1 : lookup start ns1 <> None) by (eapply (flatten_pres _ (Pres_present start)); eauto).
      destruct (remove_unused_spec ns1 start Hcl1 Hst1) as (ns2 & Er & Hst2 & Hcl2 & Hsub).
      exists ns1, ns2, r. split; [reflexivity|]. split; [exact Er|]. split; [exact Hst2|]. split; [exact Hcl2|].
      (* the remaining facts hold of the flattened table and pass to the sub-table *)
      split; [|split; [|split]].
      + assert (HR1 : Ranked r ns1) by (eapply (flatten_pres (Ranked r)); eauto using Pres_Ranked).
        intros a b (nd & Hl & Hc). apply HR1. exists nd. auto.
      + assert (Hwk1 : well_kinded ns1)
          by (eapply (flatten_pres well_kinded); eauto using Pres_well_kinded, to_nodes_well_kinded).
        intros k nd Hl. apply (Hwk1 k nd). auto.
      + assert (Hto1 : targets_ok (s_retained st) ns1) by (eapply (flatten_pres _ (Pres_targets_ok _)); eauto).
        intros t d fo Hl. eapply Hto1; eauto.
      + intros Hne. assert (Hne1 : nonempty_nodes ns1) by (eapply (flatten_pres nonempty_nodes); eauto using Pres_nonempty).
        intros k nd Hl. apply (Hne1 k nd). auto.
    - left; reflexivity.
    - exfalso. revert Ed. apply detect_no_fuel; [constructor | intros ? [] |].
      unfold detect_fuel. cbn [List.length]. lia.
    - exfalso. revert Ed. apply detect_no_missing; auto.
  Qed.

  Definition splitters_nonempty : Prop := forall s l, get_splitter es s = Some l -> l <> [].

  Lemma to_nodes_nonempty st start router :
    Assembled es cx svc st start router -> splitters_nonempty -> nonempty_nodes (to_nodes svc st router).
  Proof.
    intros HA Hne k nd Hl. rewrite lookup_to_nodes in Hl. destruct k as [x|x|x].
    - pose proof (asm_ids _ _ _ _ _ _ HA) as Hr. destruct router as [l|]; [|discriminate].
      destruct (x =? svc); [|discriminate]. injection Hl as <-. cbn [children]. apply Hr.
    - destruct (assoc String.eqb x (s_splitters st)) as [edges|] eqn:E; [|discriminate]. injection Hl as <-.
      cbn [children]. destruct (Legs_Counted es cx _ _ (asm_legs _ _ _ _ _ _ HA) _ _ E) as [[]|(l & Hg & Hlen)].
      apply Hne in Hg. destruct edges; [destruct l; [congruence | discriminate] | discriminate].
    - destruct (assoc target_eqb x (s_resolvers st)); [|discriminate]. injection Hl as <-. exact I.
  Qed.

  Definition graph_ok (g : graph) : Prop :=
    lookup (g_start g) (g_nodes g) <> None /\ closed (g_nodes g) /\ well_kinded (g_nodes g) /\
    targets_ok (g_targets g) (g_nodes g) /\ (exists r, Ranked r (g_nodes g)) /\
    (splitters_nonempty -> nonempty_nodes (g_nodes g)).

  Theorem compile_ord_spec ords :
    match compile_ord es cx svc ords with
    | Ok g => graph_ok g
    | Err e =>
        (assemble es cx svc = Err e /\ user_err e) \/
        exists st start router, assemble es cx svc = Ok (st, start, router) /\
          let ns := to_nodes svc st router in
          (e = ECircularReference /\ detect (detect_fuel ns) ns [] start = DCycle) \/
          (e = ENoAdvanced /\ negb (http_like (s_proto st)) && s_adv st = true)
    end.
  Proof.
    unfold compile_ord. destruct (assemble es cx svc) as [[[st start] router]|e] eqn:Ea;
      [|left; split; [reflexivity | apply (assemble_user_err es cx svc); exact Ea]].
    pose proof (assemble_spec es cx svc _ _ _ Ea) as HA.
    destruct (passes_spec _ _ _ ords HA) as [Hd|(Hd & ns1 & ns2 & r & Hf & Hr & H1 & H2 & H3 & H4 & H5 & H6)]; cbn zeta in *.
    - rewrite Hd. right. exists st, start, router. auto.
    - rewrite Hd, Hf, Hr. destruct (negb (http_like (s_proto st)) && s_adv st) eqn:Eadv.
      + right. exists st, start, router. auto.
      + cbn [g_start g_nodes g_targets]. split; [exact H1|]. split; [exact H2|]. split; [exact H4|]. split; [exact H5|].
        split; [exists r; exact H3|]. intros Hne. apply H6. eapply to_nodes_nonempty; eauto.
  Qed.

  Theorem compile_total ords :
    (exists g, compile_ord es cx svc ords = Ok g) \/
    (exists e, compile_ord es cx svc ords = Err e /\ e <> EOutOfFuel /\ e <> EInternal).
  Proof.
    pose proof (compile_ord_spec ords) as H. destruct (compile_ord es cx svc ords) as [g|e]; [left; eauto|].
    right. exists e. split; [reflexivity|].
    destruct H as [[_ Hu]|(st & start & router & _ & [[-> _]|[-> _]])]; [|split; discriminate ..].
    destruct e; try contradiction; split; discriminate.
  Qed.

  Theorem compile_terminates ords : compile_ord es cx svc ords <> Err EOutOfFuel.
  Proof. destruct (compile_total ords) as [(g & ->)|(e & -> & H & _)]; congruence. Qed.

  Theorem compile_no_internal ords : compile_ord es cx svc ords <> Err EInternal.
  Proof. destruct (compile_total ords) as [(g & ->)|(e & -> & _ & H)]; congruence. Qed.

  Theorem compile_closed ords g : compile_ord es cx svc ords = Ok g -> graph_ok g.
  Proof. intros H. pose proof (compile_ord_spec ords) as S. rewrite H in S. exact S. Qed.

  Theorem compile_reference_cycle ords st start router a b :
    assemble es cx svc = Ok (st, start, router) ->
    let ns := to_nodes svc st router in
    reachN ns start a -> edge ns a b -> reachN ns b a ->
    compile_ord es cx svc ords = Err ECircularReference.
  Proof.
    intros Ea ns H1 H2 H3. unfold compile_ord. rewrite Ea.
    destruct (passes_spec _ _ _ ords (assemble_spec es cx svc _ _ _ Ea)) as [Hd|(Hd & _)]; cbn zeta in *.
    - rewrite Hd. reflexivity.
    - exfalso. exact (detect_cycle _ _ _ _ _ _ H1 H2 H3 Hd).
  Qed.

  (* a redirect cycle starting at the chain's own resolver is reported (when no router or splitter
     sits in front of it), with the exact error; Cycles.redirect_cycle_reported is the general fact
     (some error, for every requested target) *)
  Theorem compile_redirect_cycle ords :
    (disable_adv cx = true \/ (get_router es svc = None /\ get_splitter es svc = None)) ->
    cyclic es cx (new_target cx svc "") ->
    compile_ord es cx svc ords = Err ECircularRedirect \/ compile_ord es cx svc ords = Err EProtocolMismatch.
  Proof.
    intros Hno Hc.
    assert (Hr : (if disable_adv cx then None else get_router es svc) = None)
      by (destruct Hno as [-> | [-> _]]; [reflexivity | destruct (disable_adv cx); reflexivity]).
    assert (Hs : (if disable_adv cx then None else get_splitter es svc) = None)
      by (destruct Hno as [-> | [_ ->]]; [reflexivity | destruct (disable_adv cx); reflexivity]).
    assert (HF : Final_memo es cx st0) by (intros t Ht; discriminate).
    unfold compile_ord, assemble. rewrite Hr. unfold get_split_or_resolve.
    cbn [t_svc new_target].
    assert (Hg : get_splitter_node es cx (splitter_fuel es) st0 svc = Ok (st0, None)).
    { unfold splitter_fuel. cbn [get_splitter_node]. unfold mem_splitter; cbn [st0 s_splitters assoc]. rewrite Hs. reflexivity. }
    rewrite Hg. unfold get_resolver_node.
    destruct (resolve_loop_cycle es cx st0 (new_target cx svc "") HF Hc) as [-> | ->]; auto.
  Qed.

  Theorem compile_error_order o1 o2 e : compile_ord es cx svc o1 = Err e -> compile_ord es cx svc o2 = Err e.
  Proof.
    unfold compile_ord. destruct (assemble es cx svc) as [[[st start] router]|e0] eqn:Ea; [|auto].
    pose proof (assemble_spec es cx svc _ _ _ Ea) as HA.
    destruct (passes_spec _ _ _ o1 HA) as [Hd|(Hd & a1 & a2 & r1 & Hf1 & Hr1 & _)];
      destruct (passes_spec _ _ _ o2 HA) as [Hd'|(Hd' & b1 & b2 & r2 & Hf2 & Hr2 & _)]; cbn zeta in *;
      rewrite ?Hd; try (rewrite Hd in Hd'; discriminate); auto.
    rewrite Hf1, Hr1, Hf2, Hr2. destruct (negb (http_like (s_proto st)) && s_adv st); [auto | discriminate].
  Qed.
End Compile.

Section Paths.
  Variable ns : nodes.
  Variable ts : list target.
  Hypothesis Hclosed : closed ns.
  Hypothesis Hkind : well_kinded ns.
  Hypothesis Htargets : targets_ok ts ns.
  Hypothesis Hne : nonempty_nodes ns.

  Lemma reach_present s a : reachN ns s a -> lookup s ns <> None -> lookup a ns <> None.
  Proof. induction 1 as [|a b c He Hr IH]; auto. intros H. apply IH. eapply Hclosed; eauto. Qed.

  Lemma dead_end_is_resolver a :
    lookup a ns <> None -> (forall b, ~ edge ns a b) -> exists t, a = NResolver t /\ In t ts.
  Proof.
    intros Hp Hno. destruct (lookup a ns) as [nd|] eqn:El; [|congruence].
    pose proof (Hne _ _ El) as Hn. pose proof (Hkind _ _ El) as Hk.
    destruct nd as [l|l|d fo].
    - exfalso. destruct (children (RouterN l)) as [|b ?] eqn:Ec; [congruence|].
      apply (Hno b). exists (RouterN l). rewrite Ec. split; auto. left; auto.
    - exfalso. destruct (children (SplitterN l)) as [|b ?] eqn:Ec; [congruence|].
      apply (Hno b). exists (SplitterN l). rewrite Ec. split; auto. left; auto.
    - destruct a as [x|x|x]; try contradiction. exists x. split; auto. destruct (Htargets _ _ _ El) as [H _]; exact H.
  Qed.

  (* every walk can be continued to a resolver; with the rank (no walk is infinite) this is
     "every path from the start node ends at a resolver that has a target" *)
  Lemma reaches_resolver r : Ranked r ns -> forall a,
    lookup a ns <> None -> exists t, reachN ns a (NResolver t) /\ In t ts.
  Proof.
    intros HR a. remember (r a) as n eqn:En. revert a En.
    induction n as [n IH] using lt_wf_ind. intros a En Hp.
    destruct (lookup a ns) as [nd|] eqn:El; [|congruence].
    destruct (children nd) as [|b cs] eqn:Ec.
    - destruct (dead_end_is_resolver a) as (t & -> & Ht); [congruence | |exists t; split; [constructor | exact Ht]].
      intros b (nd' & Hl & Hb). rewrite El in Hl. injection Hl as <-. rewrite Ec in Hb. destruct Hb.
    - assert (He : edge ns a b) by (exists nd; rewrite Ec; split; [exact El | left; reflexivity]).
      destruct (IH (r b) ltac:(subst; apply HR; exact He) b eq_refl (Hclosed _ _ He)) as (t & Hr & Ht).
      exists t. split; [eapply reach_step; eauto | exact Ht].
  Qed.
End Paths.

Lemma flatten_no_chain fuel ords ns : (forall a b, ~ schild ns a b) -> flatten (S fuel) ords ns = Some ns.
Proof. intros Hno. rewrite flatten_S, pass_no_schild by exact Hno. reflexivity. Qed.

Theorem compile_order_no_chain es cx svc ords ords' :
  (forall st start router, assemble es cx svc = Ok (st, start, router) ->
                           forall a b, ~ schild (to_nodes svc st router) a b) ->
  compile_ord es cx svc ords = compile_ord es cx svc ords'.
Proof.
  intros H. unfold compile_ord. destruct (assemble es cx svc) as [[[st start] router]|e] eqn:Ea; [|reflexivity].
  specialize (H _ _ _ eq_refl). destruct (detect _ _ [] start); try reflexivity.
  unfold flatten_fuel. cbn [Nat.add]. rewrite !flatten_no_chain; auto.
Qed.
