(* C15 — concrete inputs: the entry sets on which Properties/C15.v shows that the hypotheses of its
   theorems can be met, and two regression witnesses about the order of the flatten passes. *)
From Verif Require Import Base.Prelude.
From Verif Require Import Chain.Model.
From Verif Require Import Chain.Lemmas.
From Verif Require Import Chain.Passes.
From Verif Require Import Chain.Resolve.
From Verif Require Import Chain.Complete.
From Verif Require Import Chain.Assemble.
From Verif Require Import Chain.Proofs.
From Verif Require Import Chain.Store.
From Verif Require Import Chain.Cycles.
Local Open Scope string_scope.
Local Open Scope list_scope.

(* the loop run with two different visiting orders disagrees on three chained splitters — the reason
   the ids are sorted; the compiler itself gives one result *)
Lemma loop_order_would_matter :
  exists es cx svc o1 o2, compile_ord es cx svc o1 <> compile_ord es cx svc o2.
Proof.
  exists deep_entries, test_ctx, "a", order_parents_first, order_children_first.
  intros H. pose proof flatten_order_would_matter as [H1 H2]. rewrite H in H1. rewrite H1 in H2. discriminate.
Qed.

(* a chain that compiles to a router, a splitter and three resolvers *)
Definition ex_entries : list entry :=
  [ EProxy "http";
    ERouter "a" [Route "b" "v1"; Route "c" ""];
    ESplitter "c" [Split 5000 "b" ""; Split 5000 "c" "v1"]%N;
    EResolver "b" (Resolver "v1" ["v1"; "v2"] None [("*", Failover "c" "" [] [])] false);
    EResolver "c" (Resolver "" ["v1"] None [] true) ].

Definition cyc_entries : list entry :=
  [ EResolver "a" (Resolver "" [] (Some (Redirect "b" "" "")) [] false);
    EResolver "b" (Resolver "" [] (Some (Redirect "a" "" "")) [] false) ].

Definition two_deep : list entry :=
  [ EProxy "http";
    ESplitter "a" [Split 3333 "b" ""; Split 6667 "a" ""]%N;
    ESplitter "b" [Split 5000 "c" ""; Split 5000 "b" "v1"]%N;
    EResolver "b" (Resolver "" ["v1"] None [] false) ].

Lemma two_deep_splits x y : splits_to two_deep test_ctx x y -> x = "a" /\ y = "b".
Proof.
  intros (legs & sp & Hg & Hi & Hc & ->). unfold get_splitter in Hg.
  cbn [two_deep lookup_entry ekey key_eqb ekind_eqb fst snd andb] in Hg.
  destruct ("a" =? x) eqn:Ea.
  - apply String.eqb_eq in Ea; subst x. injection Hg as <-.
    destruct Hi as [<-|[<-|[]]]; vm_compute in Hc; try discriminate. split; reflexivity.
  - destruct ("b" =? x) eqn:Eb; [|discriminate].
    apply String.eqb_eq in Eb; subst x. injection Hg as <-.
    destruct Hi as [<-|[<-|[]]]; vm_compute in Hc; discriminate.
Qed.

Lemma example_two_deep :
  (forall a b c, splits_to two_deep test_ctx a b -> splits_to two_deep test_ctx b c -> False) /\
  exists g, compile two_deep test_ctx "a" [] = Ok g /\ List.length (g_nodes g) = 4.
Proof.
  split.
  - intros a b c H1 H2. apply two_deep_splits in H1 as [-> ->]. apply two_deep_splits in H2 as [H _]. discriminate.
  - eexists. split; [vm_compute; reflexivity | reflexivity].
Qed.

(* a redirect cycle b -> c -> b behind a failover target of a *)
Definition fail_cycle : list entry :=
  [ EResolver "a" (Resolver "" [] None [("*", Failover "b" "" [] [])] false);
    EResolver "b" (Resolver "" [] (Some (Redirect "c" "" "")) [] false);
    EResolver "c" (Resolver "" [] (Some (Redirect "b" "" "")) [] false) ].

Definition split_cycle : list entry :=
  [ EProxy "http"; ESplitter "a" [Split 10000 "b" ""]%N; ESplitter "b" [Split 10000 "a" ""]%N ].

(* chain "a" has a splitter in front of its resolver; the resolver redirects to a subset that does
   not exist.  The guard (dc1, no override) never resolves it and accepts every write; a proxy that
   asks for the chain with OverrideProtocol = tcp gets an error (finding C15-guard-context). *)
Definition ctx_w1 : wop := WPut (EProxy "http").
Definition ctx_w2 : wop := WPut (ESplitter "a" [Split 5000 "b" ""; Split 5000 "c" ""]%N).
Definition ctx_w3 : wop := WPut (EResolver "a" (Resolver "" [] (Some (Redirect "b" "v9" "")) [] false)).
Definition ctx_store : list entry := fst (write (fst (write (fst (write [] ctx_w1)) ctx_w2)) ctx_w3).

(* a and b fail over to each other: no cycle arises, because a failover target is only resolved
   (redirects, default subset) and listed; its own failover is not looked at *)
Definition mutual_failover : list entry :=
  [ EResolver "a" (Resolver "" [] None [("*", Failover "b" "" [] [])] false);
    EResolver "b" (Resolver "" [] None [("*", Failover "a" "" [] [])] false) ].
