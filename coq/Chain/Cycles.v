(* C15 — cycles, stated on the entries: [Req] is the set of requests the entries make the compiler
   issue; when assembleChain succeeds every request was served, hence a redirect cycle under a
   requested target, or a cycle of splits under a requested splitter, makes compile_ord fail. *)
From Verif Require Import Base.Prelude.
From Verif Require Import Base.Lists.
From Verif Require Import Chain.Model.
From Verif Require Import Chain.Lemmas.
From Verif Require Import Chain.Passes.
From Verif Require Import Chain.Resolve.
From Verif Require Import Chain.Complete.
From Verif Require Import Chain.Assemble.
From Verif Require Import Chain.Proofs.
Local Open Scope string_scope.
Local Open Scope list_scope.

(* a splitter node; a target handed to getResolverNode by a route, a split or the chain itself (its
   node is recorded); a failover target (only resolved: its walk must end, no node is recorded) *)
Inductive req := QSplit (s : string) | QTarget (t : target) | QFail (t : target).

Section Cycles.
  Variable es : list entry.
  Variable cx : ctx.
  Variable svc : string.

  Notation Orb := (Orbit es cx).
  Notation has_sp := (has_sp es cx).
  Notation router_of := (if disable_adv cx then None else get_router es svc).

  (* getSplitterOrResolverNode for service s *)
  Definition sos_req (s : string) : req := if has_sp s then QSplit s else QTarget (new_target cx s "").

  Definition route_req (r : route) : req :=
    let s := default_if_empty (rt_svc r) svc in
    if rt_sub r =? "" then sos_req s else QTarget (new_target cx s (rt_sub r)).

  Definition leg_req (self : string) (sp : split) : req :=
    if leg_eligible self sp && has_sp (leg_target self sp) then QSplit (leg_target self sp)
    else QTarget (new_target cx (leg_target self sp) (sp_sub sp)).

  Inductive Req : req -> Prop :=
  | req_root_plain : router_of = None -> Req (sos_req svc)
  | req_root_route routes r : router_of = Some routes -> In r routes -> Req (route_req r)
  | req_root_default routes : router_of = Some routes -> Req (sos_req svc)
  | req_leg s legs sp : Req (QSplit s) -> get_splitter es s = Some legs -> In sp legs -> Req (leg_req s sp)
  | req_failover t t' ft :
      Req (QTarget t) -> Orb t t' -> In ft (failover_targets cx (resolver_of es (t_svc t')) t') -> Req (QFail ft).

  Definition served (st : cstate) (q : req) : Prop :=
    match q with
    | QSplit s => mem_splitter st s = true
    | QTarget t => exists t', Orb t t' /\ mem_resolver st t' = true
    | QFail t => exists t', Orb t t'
    end.

  Lemma key_in_served_sos st s id : key_in st id -> sos_id es cx s id -> served st (sos_req s).
  Proof.
    unfold sos_id, sos_req. destruct (has_sp s).
    - intros Hk ->. exact Hk.
    - intros Hk (t' & -> & Ho). exists t'. split; auto.
  Qed.

  Lemma served_resolved st s sub id :
    key_in st id -> resolved_id es cx s sub id -> served st (QTarget (new_target cx s sub)).
  Proof. intros Hk (t' & -> & Ho). exists t'. split; auto. Qed.

  Theorem requests_served st start router :
    assemble es cx svc = Ok (st, start, router) -> forall q, Req q -> served st q.
  Proof.
    intros Ha. destruct (assemble_spec es cx svc _ _ _ Ha) as [_ _ _ (C1 & _) HL HF _ Hroot Hids].
    unfold root_ok in Hroot.
    induction 1 as [Hr | routes r Hr Hi | routes Hr | s legs sp Hq IH Hg Hi | t t' ft Hq IH Ho Hi].
    - rewrite Hr in Hroot. destruct router as [l|]; [contradiction|]. eapply key_in_served_sos; eauto.
    - rewrite Hr in Hroot. destruct router as [l|]; [|contradiction].
      destruct Hroot as (ids & d & -> & Hf & Hd & _). destruct Hids as (_ & _ & Hids).
      destruct (Forall2_In_l _ _ _ _ Hf Hi) as (id & Hid & Hri).
      assert (Hk : key_in st id) by (apply Hids, in_or_app; auto).
      unfold route_id in Hri. unfold route_req. cbn zeta in *. destruct (rt_sub r =? "").
      + eapply key_in_served_sos; eauto.
      + eapply served_resolved; eauto.
    - rewrite Hr in Hroot. destruct router as [l|]; [|contradiction].
      destruct Hroot as (ids & d & -> & Hf & Hd & _). destruct Hids as (_ & _ & Hids).
      eapply key_in_served_sos; [|exact Hd]. apply Hids, in_or_app. right; left; reflexivity.
    - cbn [served] in IH. apply mem_splitter_iff in IH as (edges & Ea).
      destruct (HL _ _ Ea) as [_ [[]|(legs' & Hg' & Hf)]]. rewrite Hg in Hg'. injection Hg' as <-.
      destruct (Forall2_In_l _ _ _ _ Hf Hi) as (e & He & [_ Hle]).
      assert (Hk : key_in st (snd e)) by (eapply C1; eauto).
      unfold leg_req. destruct (leg_eligible s sp && has_sp (leg_target s sp)).
      + rewrite Hle in Hk. exact Hk.
      + eapply served_resolved; eauto.
    - destruct IH as (t1 & Ho1 & Hm1). assert (t1 = t') by (eapply Orbit_det; eauto). subst t1.
      apply (HF t' Hm1 ft Hi).
  Qed.

  Theorem redirect_cycle_reported ords t :
    Req (QTarget t) \/ Req (QFail t) -> cyclic es cx t -> exists e, compile_ord es cx svc ords = Err e.
  Proof.
    intros Hq Hc. destruct (compile_ord es cx svc ords) as [g|e] eqn:E; [|eauto]. exfalso.
    unfold compile_ord in E. destruct (assemble es cx svc) as [[[st start] router]|e] eqn:Ea; [|discriminate].
    assert (Ho : exists t', Orb t t').
    { destruct Hq as [Hq|Hq]; apply (requests_served _ _ _ Ea) in Hq; cbn [served] in Hq.
      - destruct Hq as (t' & Ho & _). eauto.
      - exact Hq. }
    destruct Ho as (t' & Ho). eapply Orbit_not_cyclic; eauto.
  Qed.

  Definition splits_to (a b : string) : Prop :=
    exists legs sp, get_splitter es a = Some legs /\ In sp legs /\
                    leg_eligible a sp && has_sp (leg_target a sp) = true /\ b = leg_target a sp.

  Inductive SplitPath : string -> string -> Prop :=
  | sp_one a b : splits_to a b -> SplitPath a b
  | sp_step a b c : splits_to a b -> SplitPath b c -> SplitPath a c.

  Lemma splits_to_req a b : Req (QSplit a) -> splits_to a b -> Req (QSplit b).
  Proof.
    intros Hq (legs & sp & Hg & Hi & Hc & ->). pose proof (req_leg _ _ _ Hq Hg Hi) as H.
    unfold leg_req in H. rewrite Hc in H. exact H.
  Qed.

  Lemma splits_to_edge st start router a b :
    assemble es cx svc = Ok (st, start, router) -> Req (QSplit a) -> splits_to a b ->
    edge (to_nodes svc st router) (NSplitter a) (NSplitter b).
  Proof.
    intros Ha Hq (legs & sp & Hg & Hi & Hc & ->).
    pose proof (requests_served _ _ _ Ha _ Hq) as Hm. apply mem_splitter_iff in Hm as (edges & Ea).
    destruct (asm_legs _ _ _ _ _ _ (assemble_spec es cx svc _ _ _ Ha) _ _ Ea) as [_ [[]|(legs' & Hg' & Hf)]].
    rewrite Hg in Hg'. injection Hg' as <-.
    destruct (Forall2_In_l _ _ _ _ Hf Hi) as (e & He & [_ Hle]). rewrite Hc in Hle.
    exists (SplitterN edges). rewrite lookup_to_nodes, Ea. split; [reflexivity|].
    cbn [children]. rewrite <- Hle. apply in_map. exact He.
  Qed.

  Lemma split_path_reach st start router a b :
    assemble es cx svc = Ok (st, start, router) -> Req (QSplit a) -> SplitPath a b ->
    reachN (to_nodes svc st router) (NSplitter a) (NSplitter b) /\ Req (QSplit b).
  Proof.
    intros Ha Hq Hp. induction Hp as [a b Hab | a b c Hab Hbc IH].
    - split; [apply reachN_edge; eapply splits_to_edge; eauto | eapply splits_to_req; eauto].
    - assert (Hqb : Req (QSplit b)) by (eapply splits_to_req; eauto).
      destruct (IH Hqb) as [Hr Hqc]. split; auto.
      eapply reach_step; [eapply splits_to_edge; eauto | exact Hr].
  Qed.

  Theorem reference_cycle_reported ords a :
    Req (QSplit a) -> SplitPath a a ->
    (exists e, assemble es cx svc = Err e /\ compile_ord es cx svc ords = Err e) \/
    compile_ord es cx svc ords = Err ECircularReference.
  Proof.
    intros Hq Hp. destruct (assemble es cx svc) as [[[st start] router]|e] eqn:Ea.
    - right. pose proof (asm_reach _ _ _ _ _ _ (assemble_spec es cx svc _ _ _ Ea)) as Hreach.
      assert (Hm : lookup (NSplitter a) (to_nodes svc st router) <> None).
      { apply key_in_present. exact (requests_served _ _ _ Ea _ Hq). }
      inversion Hp as [x b Hab | x b c Hab Hbc]; subst.
      + (* a splits to itself: impossible, a leg to the splitter's own service is not eligible *)
        destruct Hab as (legs & sp & _ & _ & Hc & He). unfold leg_eligible in Hc. rewrite <- He, String.eqb_refl in Hc.
        discriminate.
      + assert (Hqb : Req (QSplit b)) by (eapply splits_to_req; eauto).
        destruct (split_path_reach _ _ _ _ _ Ea Hqb Hbc) as [Hr _].
        eapply compile_reference_cycle; [exact Ea | apply Hreach; exact Hm | eapply splits_to_edge; eauto | exact Hr].
    - left. exists e. split; [reflexivity|]. unfold compile_ord. rewrite Ea. reflexivity.
  Qed.

  Lemma splitter_edge_from_entries st start router a b :
    assemble es cx svc = Ok (st, start, router) ->
    edge (to_nodes svc st router) (NSplitter a) (NSplitter b) -> splits_to a b.
  Proof.
    intros Ha (nd & Hl & Hb). rewrite lookup_to_nodes in Hl.
    destruct (assoc String.eqb a (s_splitters st)) as [edges|] eqn:Ea; [|discriminate]. injection Hl as <-.
    destruct (asm_legs _ _ _ _ _ _ (assemble_spec es cx svc _ _ _ Ha) _ _ Ea) as [_ [[]|(legs & Hg & Hf)]].
    cbn [children] in Hb. apply in_map_iff in Hb as (e & Hse & He).
    destruct (Forall2_In_r _ _ _ _ Hf He) as (sp & Hi & [_ Hle]). exists legs, sp. split; [exact Hg|]. split; [exact Hi|].
    destruct (leg_eligible a sp && has_sp (leg_target a sp)) eqn:Ec.
    - split; [reflexivity|]. rewrite Hse in Hle. congruence.
    - destruct Hle as (t' & Ht & _). congruence.
  Qed.
End Cycles.
