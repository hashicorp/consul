(* C15 — the compiler as it is at /repo HEAD: flattenAdjacentSplitterNodes visits the sorted node
   ids.  [compile es cx svc mo] is [compile_ord] run with that order, so every theorem proved for
   arbitrary visiting orders carries over; and the result does not depend on the iteration
   order [mo] of the Go map the ids are collected from. *)
From Verif Require Import Base.Prelude.
From Verif Require Import Base.Lists.
From Verif Require Import Base.Sorting.
From Verif Require Import Chain.Model.
From Verif Require Import Chain.Lemmas.
From Verif Require Import Chain.Passes.
From Verif Require Import Chain.Assemble.
From Coq Require Import Permutation.
Local Open Scope string_scope.
Local Open Scope list_scope.

Definition ords_of (es : list entry) (cx : ctx) (svc : string) (mo : list nid) : list (list nid) :=
  match assemble es cx svc with
  | Ok (st, _, router) => go_order mo (to_nodes svc st router)
  | Err _ => []
  end.

Lemma compile_eq es cx svc mo : compile es cx svc mo = compile_ord es cx svc (ords_of es cx svc mo).
Proof.
  unfold compile, ords_of, compile_ord. destruct (assemble es cx svc) as [[[st start] router]|e]; reflexivity.
Qed.

Lemma isort_isort {A} (leb : A -> A -> bool) : insertion_sort leb (insert_sorted leb) (isort leb).
Proof. split; reflexivity. Qed.

Lemma lex_leb_total a : forall b, lex_leb a b = true \/ lex_leb b a = true.
Proof.
  induction a as [|x a IH]; intros [|y b]; cbn [lex_leb]; auto.
  destruct (N.ltb x y) eqn:E1; auto. destruct (N.ltb y x) eqn:E2; auto.
  apply N.ltb_ge in E1, E2. assert (x = y) by lia. subst. rewrite N.eqb_refl. apply IH.
Qed.

Lemma lex_leb_trans a : forall b c, lex_leb a b = true -> lex_leb b c = true -> lex_leb a c = true.
Proof.
  induction a as [|x a IH]; intros [|y b] [|z c]; cbn [lex_leb]; auto; try discriminate.
  destruct (N.ltb x y) eqn:E1.
  - apply N.ltb_lt in E1. destruct (N.ltb y z) eqn:E2.
    + apply N.ltb_lt in E2. intros _ _. assert (H : N.ltb x z = true) by (apply N.ltb_lt; lia). rewrite H. reflexivity.
    + destruct (N.eqb y z) eqn:E3; [|discriminate]. apply N.eqb_eq in E3. subst. intros _ _.
      assert (H : N.ltb x z = true) by (apply N.ltb_lt; lia). rewrite H. reflexivity.
  - destruct (N.eqb x y) eqn:E3; [|discriminate]. apply N.eqb_eq in E3. subst y.
    destruct (N.ltb x z); auto. destruct (N.eqb x z); [|discriminate]. apply IH.
Qed.

Lemma lex_leb_antisym a : forall b, lex_leb a b = true -> lex_leb b a = true -> a = b.
Proof.
  induction a as [|x a IH]; intros [|y b]; cbn [lex_leb]; auto; try discriminate.
  destruct (N.ltb x y) eqn:E1.
  - apply N.ltb_lt in E1. assert (H : N.ltb y x = false) by (apply N.ltb_ge; lia). rewrite H.
    assert (H2 : N.eqb y x = false) by (apply N.eqb_neq; lia). rewrite H2. discriminate.
  - destruct (N.eqb x y) eqn:E3; [|discriminate]. apply N.eqb_eq in E3. subst y.
    rewrite N.ltb_irrefl, N.eqb_refl. intros H1 H2. f_equal. apply IH; auto.
Qed.

Lemma bytes_of_string_app a b : bytes_of_string (a ++ b)%string = bytes_of_string a ++ bytes_of_string b.
Proof. induction a as [|c a IH]; cbn [String.append bytes_of_string app]; [reflexivity | rewrite IH; reflexivity]. Qed.

Lemma name_key_inj a b : name_key a = name_key b -> a = b.
Proof.
  unfold name_key. rewrite !bytes_of_string_app. intros H. apply app_inv_tail in H. apply bytes_of_string_inj; exact H.
Qed.

Lemma name_leb_total x y : name_leb x y = true \/ name_leb y x = true.
Proof. apply lex_leb_total. Qed.

Lemma name_leb_trans x y z : name_leb x y = true -> name_leb y z = true -> name_leb x z = true.
Proof. apply lex_leb_trans. Qed.

Lemma name_leb_antisym x y : name_leb x y = true -> name_leb y x = true -> x = y.
Proof. intros H1 H2. apply name_key_inj. apply lex_leb_antisym; auto. Qed.

Lemma eff_order_NoDup ord (ns : nodes) : NoDup (map fst ns) -> NoDup (eff_order ord ns).
Proof.
  intros Hn. unfold eff_order. apply NoDup_app_intro'.
  - apply (dedup_NoDup nid_eqb nid_eqb_eq).
  - apply NoDup_filter. exact Hn.
  - intros x H1 H2. apply filter_In in H2 as [_ H2]. apply negb_true_iff in H2.
    apply (memb_not_In nid_eqb nid_eqb_eq) in H2. contradiction.
Qed.

Lemma sorted_order_indep mo1 mo2 (ns : nodes) :
  NoDup (map fst ns) -> sorted_order mo1 ns = sorted_order mo2 ns.
Proof.
  intros Hn. unfold sorted_order. f_equal.
  apply (isort_perm_eq (isort_isort name_leb) (fun x y => name_leb x y = true)).
  - exact name_leb_trans.
  - auto.
  - apply total_leb_false. exact name_leb_total.
  - unfold splitter_names. apply Permutation_flat_map. apply NoDup_Permutation.
    + apply eff_order_NoDup; auto.
    + apply eff_order_NoDup; auto.
    + intros k. rewrite !eff_order_In. tauto.
  - intros x y _ _. apply name_leb_antisym.
Qed.

Theorem compile_map_order es cx svc mo1 mo2 : compile es cx svc mo1 = compile es cx svc mo2.
Proof.
  unfold compile. destruct (assemble es cx svc) as [[[st start] router]|e] eqn:Ea; [|reflexivity].
  unfold go_order. rewrite (sorted_order_indep mo1 mo2); [reflexivity|].
  apply to_nodes_NoDup. eapply asm_keys, assemble_spec; eauto.
Qed.
