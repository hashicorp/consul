(* C15 — an accepted write breaks no chain: every chain that compiled over the stored entries
   still compiles after EnsureConfigEntry / DeleteConfigEntry accepted the write.  The chains that
   can reach the written name are re-validated by the guard (the walk over the link index is
   complete: link_closure_closed); all other chains read none of the changed entries (Frame). *)
From Verif Require Import Base.Prelude.
From Verif Require Import Chain.Model.
From Verif Require Import Chain.Lemmas.
From Verif Require Import Chain.Passes.
From Verif Require Import Chain.Resolve.
From Verif Require Import Chain.Assemble.
From Verif Require Import Chain.Proofs.
From Verif Require Import Chain.Store.
From Verif Require Import Chain.Final.
From Verif Require Import Chain.Frame.
Local Open Scope string_scope.
Local Open Scope list_scope.

Section Closure.
  Variable store : list entry.

  Definition universe (n : string) : list string := n :: map ename store.

  Lemma linkers_universe n x y : In x (linkers store y) -> In x (universe n).
  Proof.
    unfold linkers. intros H. apply in_map_iff in H as (e & <- & He). apply filter_In in He as [He _].
    right. apply in_map. exact He.
  Qed.

  Definition walk_inv (n : string) (queue seen : list string) : Prop :=
    NoDup seen /\ incl seen (universe n) /\ incl queue seen /\
    forall x, In x seen -> In x queue \/ incl (linkers store x) seen.

  Lemma link_closure_seen : forall fuel queue seen, incl seen (link_closure fuel store queue seen).
  Proof.
    induction fuel as [|f IH]; intros queue seen; cbn [link_closure]; [apply incl_refl|].
    destruct queue as [|q queue]; [apply incl_refl|].
    eapply incl_tran; [|apply IH]. apply incl_appl, incl_refl.
  Qed.

  Lemma universe_bound n seen : NoDup seen -> incl seen (universe n) -> List.length seen <= S (List.length store).
  Proof.
    intros Hn Hi. apply NoDup_incl_length in Hi; auto. unfold universe in Hi. cbn [List.length] in Hi.
    rewrite map_length in Hi. exact Hi.
  Qed.

  Lemma link_closure_closed n : forall fuel queue seen,
    walk_inv n queue seen ->
    List.length queue + S (List.length store) < fuel + List.length seen ->
    let C := link_closure fuel store queue seen in
    forall x, In x C -> incl (linkers store x) C.
  Proof.
    induction fuel as [|f IH]; intros queue seen (Hnd & Hu & Hq & Hcl) Hlen; cbn [link_closure].
    - pose proof (universe_bound n seen Hnd Hu). cbn [Nat.add] in Hlen. lia.
    - destruct queue as [|q queue].
      + intros x Hx. destruct (Hcl x Hx) as [[]|H]; exact H.
      + set (fresh := dedup String.eqb (filter (fun x => negb (memb String.eqb x seen)) (linkers store q))).
        assert (Hfresh : forall x, In x fresh <-> In x (linkers store q) /\ ~ In x seen).
        { intros x. unfold fresh. rewrite (dedup_In String.eqb String.eqb_eq), filter_In, negb_true_iff.
          rewrite (memb_not_In String.eqb String.eqb_eq). tauto. }
        apply IH.
        * split; [|split; [|split]].
          -- apply NoDup_app_intro'; auto; [apply (dedup_NoDup String.eqb String.eqb_eq)|].
             intros x H1 H2. apply Hfresh in H2 as [_ H2]. contradiction.
          -- intros x Hx. apply in_app_or in Hx as [Hx|Hx]; auto.
             apply Hfresh in Hx as [Hx _]. eapply linkers_universe; eauto.
          -- intros x Hx. apply in_or_app. apply in_app_or in Hx as [Hx|Hx]; auto.
             left. apply Hq. right; auto.
          -- intros x Hx. apply in_app_or in Hx as [Hx|Hx].
             ++ destruct (Hcl x Hx) as [[<-|H]|H].
                ** right. intros y Hy. apply in_or_app.
                   destruct (in_dec string_dec y seen) as [Hs|Hs]; auto. right. apply Hfresh. auto.
                ** left. apply in_or_app; auto.
                ** right. intros y Hy. apply in_or_app. left; auto.
             ++ left. apply in_or_app; auto.
        * rewrite !app_length. cbn [List.length] in Hlen. lia.
  Qed.

  Lemma affected_closed kind n :
    kind <> KProxy ->
    let C := affected store (kind, n) in
    In n C /\ forall x, In x C -> incl (linkers store x) C.
  Proof.
    intros Hk. cbn zeta.
    assert (E : affected store (kind, n) = link_closure (2 + List.length store) store [n] [n])
      by (destruct kind; [reflexivity .. | congruence]).
    rewrite E. split; [apply link_closure_seen; left; reflexivity|].
    apply (link_closure_closed n); [|cbn [List.length]; lia].
    split; [constructor; [intros [] | constructor]|]. split; [intros x [<-|[]]; left; reflexivity|].
    split; [apply incl_refl | intros x [<-|[]]; left; left; reflexivity].
  Qed.
End Closure.

Lemma lookup_entry_app l1 l2 k :
  lookup_entry (l1 ++ l2) k = match lookup_entry l1 k with Some e => Some e | None => lookup_entry l2 k end.
Proof.
  induction l1 as [|e l1 IH]; cbn [app lookup_entry]; [reflexivity|]. destruct (key_eqb (ekey e) k); auto.
Qed.

Lemma lookup_remove_key store k k' :
  lookup_entry (remove_key store k) k' = if key_eqb k k' then None else lookup_entry store k'.
Proof.
  induction store as [|e s IH]; cbn [remove_key lookup_entry]; [destruct (key_eqb k k'); reflexivity|].
  destruct (key_eqb (ekey e) k) eqn:E1.
  - apply key_eqb_eq in E1. rewrite IH, E1. destruct (key_eqb k k'); reflexivity.
  - cbn [lookup_entry]. rewrite IH. destruct (key_eqb (ekey e) k') eqn:E2; [|reflexivity].
    apply key_eqb_eq in E2. subst k'. destruct (key_eqb k (ekey e)) eqn:E3; [|reflexivity].
    apply key_eqb_eq in E3. subst k. rewrite key_eqb_refl in E1. discriminate.
Qed.

Lemma lookup_proposed store op k' :
  k' <> op_key op -> lookup_entry (proposed store op) k' = lookup_entry store k'.
Proof.
  intros Hne. assert (Hf : key_eqb (op_key op) k' = false).
  { destruct (key_eqb (op_key op) k') eqn:E; [apply key_eqb_eq in E; congruence | reflexivity]. }
  destruct op as [e|k]; cbn [proposed op_key] in *.
  - unfold put_entry. rewrite lookup_entry_app, lookup_remove_key, Hf.
    destruct (lookup_entry store k'); [reflexivity|]. cbn [lookup_entry]. rewrite Hf. reflexivity.
  - rewrite lookup_remove_key, Hf. reflexivity.
Qed.

Definition failover_wf (store : list entry) : Prop :=
  forall n r key f, get_resolver store n = Some r -> In (key, f) (rs_failover r) -> fo_dcs f = [] \/ fo_targets f = [].

Lemma linkers_intro store e m : In e store -> is_graph_kind e = true -> In m (related e) -> In (ename e) (linkers store m).
Proof.
  intros Hi Hg Hm. unfold linkers. apply in_map. apply filter_In. split; auto.
  rewrite Hg. cbn [andb]. apply (memb_In String.eqb String.eqb_eq). exact Hm.
Qed.

Lemma failover_targets_related cx n r t ft :
  t_svc t = n ->
  (forall key f, In (key, f) (rs_failover r) -> fo_dcs f = [] \/ fo_targets f = []) ->
  In ft (failover_targets cx r t) -> t_svc ft = n \/ In (t_svc ft) (related (EResolver n r)).
Proof.
  intros Hn Hwf. unfold failover_targets. destruct (rs_failover r) as [|p fos'] eqn:Efo; [intros []|].
  rewrite <- Efo in *.
  destruct (match assoc String.eqb (t_sub t) (rs_failover r) with Some f => Some f | None => assoc String.eqb "*" (rs_failover r) end)
    as [f|] eqn:Ea; [|intros []].
  assert (Hin : exists key, In (key, f) (rs_failover r)).
  { destruct (assoc String.eqb (t_sub t) (rs_failover r)) as [f0|] eqn:E1.
    - injection Ea as ->. eexists. eapply (assoc_In String.eqb String.eqb_eq); eauto.
    - eexists. eapply (assoc_In String.eqb String.eqb_eq); eauto. }
  destruct Hin as (key & Hin). specialize (Hwf key f Hin).
  intros Hft. apply filter_In in Hft as [Hft _].
  assert (Hrel : forall s, s <> "" ->
             (fo_targets f = [] /\ s = fo_svc f) \/ (exists x, In x (fo_targets f) /\ s = ft_svc x) ->
             In s (related (EResolver n r))).
  { intros s Hs Hc. cbn [related]. apply in_or_app. right. apply in_flat_map. exists (key, f). split; auto. cbn [snd].
    assert (Hd : default_if_empty s n = s) by (unfold default_if_empty; apply String.eqb_neq in Hs; rewrite Hs; reflexivity).
    destruct Hc as [[Ht ->]|(x & Hx & ->)].
    - rewrite Ht. left. exact Hd.
    - destruct (fo_targets f) as [|y ys] eqn:Et; [destruct Hx|]. rewrite <- Hd. apply in_map with (f := fun x => default_if_empty (ft_svc x) n). exact Hx. }
  assert (Hsvc : forall s sub dc, ft = rewrite_target cx t s sub dc ->
             (fo_targets f = [] /\ s = fo_svc f) \/ (exists x, In x (fo_targets f) /\ s = ft_svc x) ->
             t_svc ft = n \/ In (t_svc ft) (related (EResolver n r))).
  { intros s sub dc -> Hc. destruct (rewrite_target_svc cx t s sub dc) as [-> | [Hne ->]]; [left; exact Hn|].
    right. apply Hrel; auto. }
  destruct (fo_dcs f) as [|d ds] eqn:Ed.
  - destruct (fo_targets f) as [|x xs] eqn:Et.
    + destruct Hft as [<-|[]]. eapply Hsvc; [reflexivity|]. left. auto.
    + apply in_map_iff in Hft as (y & <- & Hy). eapply Hsvc; [reflexivity|]. right. exists y. auto.
  - destruct Hwf as [Hw|Hw]; [discriminate|].
    apply in_map_iff in Hft as (y & <- & Hy). eapply Hsvc; [reflexivity|]. left. auto.
Qed.

Lemma plain_resolve es x f : get_resolver es x = None ->
  resolve_loop es test_ctx f st0 [] (new_target test_ctx x "") =
  Ok (set_proto st0 (norm_proto (raw_protocol es x)), LFinal (new_target test_ctx x "") default_resolver).
Proof.
  intros Hv.
  assert (Hs : step test_ctx (resolver_of es x) (new_target test_ctx x "") = SFinal).
  { unfold resolver_of. rewrite Hv. reflexivity. }
  assert (Hr : resolver_of es x = default_resolver) by (unfold resolver_of; rewrite Hv; reflexivity).
  destruct f; cbn [resolve_loop]; unfold mem_resolver; cbn [st0 s_resolvers assoc new_target t_svc];
    unfold record_protocol; cbn [st0 s_proto String.eqb memb]; cbn [new_target] in Hs; rewrite Hs, Hr; reflexivity.
Qed.

(* a name without router, splitter and resolver entry: its chain is the single default resolver node *)
Lemma plain_chain_compiles es x mo :
  get_router es x = None -> get_splitter es x = None -> get_resolver es x = None ->
  exists g, compile es test_ctx x mo = Ok g.
Proof.
  intros Hr Hs Hv.
  set (t := new_target test_ctx x "").
  set (st1 := set_proto st0 (norm_proto (raw_protocol es x))).
  set (stf := record_resolver (retain st1 t) t (RNode true [])).
  assert (Hg : get_resolver_node es test_ctx st0 t = Ok (stf, t)).
  { unfold get_resolver_node. unfold t at 1. rewrite (plain_resolve es x _ Hv). fold t st1.
    assert (He : external_check es default_resolver t = None).
    { unfold external_check. destruct (get_defaults es (t_svc t)) as [[? [|]]|]; reflexivity. }
    rewrite He. reflexivity. }
  assert (Ha : assemble es test_ctx x = Ok (stf, NResolver t, None)).
  { unfold assemble. change (disable_adv test_ctx) with false. cbn iota. rewrite Hr.
    unfold get_split_or_resolve. fold t. change (t_svc t) with x.
    assert (Hsp : get_splitter_node es test_ctx (splitter_fuel es) st0 x = Ok (st0, None)).
    { unfold splitter_fuel. cbn [get_splitter_node]. change (mem_splitter st0 x) with false. cbn iota.
      change (disable_adv test_ctx) with false. cbn iota. rewrite Hs. reflexivity. }
    rewrite Hsp, Hg. reflexivity. }
  rewrite compile_eq. pose proof (compile_ord_spec es test_ctx x (ords_of es test_ctx x mo)) as S.
  destruct (compile_ord es test_ctx x (ords_of es test_ctx x mo)) as [g|e]; [eauto|]. exfalso.
  destruct S as [[Hae _]|(st & start & router & Hae & [[_ Hd]|[_ Hadv]])]; rewrite Ha in Hae; [discriminate| |];
    injection Hae as <- <- <-.
  - (* the table is the single resolver node *)
    revert Hd. unfold to_nodes, stf, record_resolver, retain, st1, set_proto.
    cbn [s_splitters s_resolvers st0 upsert map app fst snd rn_default rn_failover].
    unfold detect_fuel. cbn [List.length detect memb assoc]. rewrite nid_eqb_refl.
    cbn [children first_bad]. discriminate.
  - change (s_adv stf) with false in Hadv. rewrite andb_false_r in Hadv. discriminate.
Qed.

(* a write of any kind but proxy-defaults leaves the chain of every name outside [affected] as it
   was, in every context: that chain reads none of the changed entries *)
Lemma compile_unaffected store op cx x mo :
  failover_wf store -> fst (op_key op) <> KProxy -> ~ In x (affected store (op_key op)) ->
  compile (proposed store op) cx x mo = compile store cx x mo.
Proof.
  intros Hwf Hkp Hn. destruct (op_key op) as [kind n] eqn:Ek. cbn [fst] in Hkp.
  destruct (affected_closed store kind n Hkp) as [HnC Hcl]. set (C := affected store (kind, n)) in *.
  (* the complement of C is closed under "mentions": a name that mentions one of C is in C *)
  assert (Hrel : forall e m, In e store -> is_graph_kind e = true -> In m (related e) -> ~ In (ename e) C -> ~ In m C).
  { intros e m Hi Hg Hm Hy Hin. apply Hy. apply (Hcl _ Hin). apply linkers_intro; auto. }
  apply (compile_frame store (proposed store op) cx cx (fun y => ~ In y C)); auto.
  - intros k Hk. apply lookup_proposed. rewrite Ek. intros ->. cbn [fst snd] in Hk.
    destruct Hk as [Hk|Hk]; [congruence | contradiction].
  - intros y routes r Hy Hg Hr. apply (Hrel (ERouter y routes)); [apply get_router_In; exact Hg | reflexivity | | exact Hy].
    cbn [related]. right. apply in_map with (f := fun r => default_if_empty (rt_svc r) y). exact Hr.
  - intros y legs sp Hy Hg Hs. apply (Hrel (ESplitter y legs)); [apply get_splitter_In; exact Hg | reflexivity | | exact Hy].
    cbn [related]. apply in_map with (f := fun s => default_if_empty (sp_svc s) y). exact Hs.
  - intros y r rd Hy Hg Hrd. apply (Hrel (EResolver y r)); [apply get_resolver_In; exact Hg | reflexivity | | exact Hy].
    cbn [related]. rewrite Hrd. apply in_or_app. left. left. reflexivity.
  - intros r t ft Hy Hg Hft.
    destruct (failover_targets_related cx (t_svc t) r t ft eq_refl (fun key f => Hwf _ _ key f Hg) Hft) as [He|Hr].
    + rewrite He. exact Hy.
    + apply (Hrel (EResolver (t_svc t) r)); [apply get_resolver_In; exact Hg | reflexivity | exact Hr | exact Hy].
Qed.

Theorem write_preserves_validity store op store' mo :
  failover_wf store ->
  write store op = (store', true) ->
  forall x, (exists g, compile store test_ctx x mo = Ok g) -> exists g, compile store' test_ctx x mo = Ok g.
Proof.
  intros Hwf Hw x Hx.
  destruct (write_cases store op) as [[_ Hc]|[_ [[Hall Hc]|[_ Hc]]]]; rewrite Hc in Hw;
    [injection Hw as <-; exact Hx | injection Hw as <- | discriminate].
  (* a validated write: the affected chains were compiled by the guard *)
  destruct (in_dec string_dec x (affected store (op_key op))) as [Hi|Hn].
  { destruct (Hall x Hi) as (g & Hg). rewrite (compile_map_order _ _ _ mo []). eauto. }
  destruct (ekind_eqb (fst (op_key op)) KProxy) eqn:Ekp.
  - (* proxy-defaults: a name that is not affected has no graph entry, so its chain is the default resolver *)
    apply ekind_eqb_eq in Ekp. unfold affected in Hn. rewrite Ekp in Hn.
    assert (Hnone : forall K, K <> KProxy -> K <> KDefaults -> lookup_entry (proposed store op) (K, x) = None).
    { intros K H1 H2. rewrite lookup_proposed by (intros E; rewrite <- E in Ekp; cbn [fst] in Ekp; congruence).
      destruct (lookup_entry store (K, x)) as [e|] eqn:E; [|reflexivity]. exfalso.
      apply lookup_entry_In in E as [Hi Hk]. apply Hn. apply in_map_iff. exists e. split.
      - unfold ename. rewrite Hk. reflexivity.
      - apply filter_In. split; auto. destruct e; cbn [ekey] in Hk; injection Hk as <- _; try reflexivity; congruence. }
    apply plain_chain_compiles; [unfold get_router | unfold get_splitter | unfold get_resolver];
      rewrite Hnone by discriminate; reflexivity.
  - rewrite compile_unaffected; auto. intros E. rewrite E in Ekp. discriminate.
Qed.

(* what ServiceResolverConfigEntry.Validate guarantees of a written entry, as far as the link index
   needs it: no failover section with both Datacenters and Targets *)
Definition entry_wf (e : entry) : Prop :=
  match e with
  | EResolver _ r => forall key f, In (key, f) (rs_failover r) -> fo_dcs f = [] \/ fo_targets f = []
  | _ => True
  end.

Definition op_wf (op : wop) : Prop := match op with WPut e => entry_wf e | WDelete _ => True end.

(* the stores that arise from the empty store by EnsureConfigEntry / DeleteConfigEntry calls (accepted
   or not) with entries an endpoint can emit *)
Inductive Reachable : list entry -> Prop :=
| reach_empty : Reachable []
| reach_write store op store' acc : Reachable store -> op_wf op -> write store op = (store', acc) -> Reachable store'.

Lemma lookup_put_same store e : lookup_entry (put_entry store e) (ekey e) = Some e.
Proof.
  unfold put_entry. rewrite lookup_entry_app, lookup_remove_key, key_eqb_refl. cbn [lookup_entry].
  rewrite key_eqb_refl. reflexivity.
Qed.

Lemma failover_wf_proposed store op : failover_wf store -> op_wf op -> failover_wf (proposed store op).
Proof.
  intros Hwf Hop n r key f Hg Hin. unfold get_resolver in Hg.
  destruct (key_eqb (op_key op) (KResolver, n)) eqn:E.
  - apply key_eqb_eq in E. destruct op as [e|k]; cbn [op_key proposed] in *.
    + rewrite <- E, lookup_put_same in Hg. destruct e; try discriminate. injection Hg as ->.
      cbn [entry_wf op_wf] in Hop. eapply Hop; eauto.
    + subst k. rewrite lookup_remove_key, key_eqb_refl in Hg. discriminate.
  - rewrite lookup_proposed in Hg.
    + eapply (Hwf n r key f); eauto.
    + intros H. rewrite H, key_eqb_refl in E. discriminate.
Qed.

(* the history-level invariant: in every reachable store every chain compiles, and no failover
   section sets both Datacenters and Targets (which is what makes the link index list every service
   a chain can read: failover_targets_related) *)
Theorem reachable_valid store :
  Reachable store -> failover_wf store /\ forall x mo, exists g, compile store test_ctx x mo = Ok g.
Proof.
  induction 1 as [|store op store' acc Hr [IHw IHv] Hop Hw].
  - split; [intros n r key f Hg; discriminate|]. intros x mo. apply plain_chain_compiles; reflexivity.
  - destruct (write_cases store op) as [[_ Hc]|[_ [[_ Hc]|[_ Hc]]]]; rewrite Hc in Hw; injection Hw as <- <-; auto.
    split; [apply failover_wf_proposed; auto|]. intros x mo. eapply write_preserves_validity; eauto.
Qed.
