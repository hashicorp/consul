(* C15 — the predicates that say, in terms of the entries alone, what assembleChain has done when it
   succeeds; Assemble.v carries them through the compiler. *)
From Verif Require Import Base.Prelude.
From Verif Require Import Chain.Model.
From Verif Require Import Chain.Lemmas.
From Verif Require Import Chain.Resolve.
Local Open Scope string_scope.
Local Open Scope list_scope.

Section Complete.
  Variable es : list entry.
  Variable cx : ctx.
  Variable svc : string.

  Notation Orb := (Orbit es cx).

  Definition has_sp (s : string) : bool :=
    match (if disable_adv cx then None else get_splitter es s) with Some _ => true | None => false end.

  Lemma has_sp_cases s :
    match (if disable_adv cx then None else get_splitter es s) with
    | Some l => has_sp s = true /\ get_splitter es s = Some l
    | None => has_sp s = false
    end.
  Proof. unfold has_sp. destruct (disable_adv cx); [reflexivity|]. destruct (get_splitter es s); auto. Qed.

  Definition leg_target (self : string) (sp : split) : string := default_if_empty (sp_svc sp) self.
  Definition leg_eligible (self : string) (sp : split) : bool :=
    negb (leg_target self sp =? self) && (sp_sub sp =? "").

  Definition resolved_id (s sub : string) (id : nid) : Prop :=
    exists t', id = NResolver t' /\ Orb (new_target cx s sub) t'.

  Definition leg_edge (self : string) (sp : split) (e : sedge) : Prop :=
    fst e = sp_weight sp /\
    if leg_eligible self sp && has_sp (leg_target self sp)
    then snd e = NSplitter (leg_target self sp)
    else resolved_id (leg_target self sp) (sp_sub sp) (snd e).

  (* [ip]: the splitters whose legs are still being built *)
  Definition Legs (ip : list string) (st : cstate) : Prop :=
    forall s edges, assoc String.eqb s (s_splitters st) = Some edges ->
      has_sp s = true /\
      (In s ip \/ exists legs, get_splitter es s = Some legs /\ Forall2 (leg_edge s) legs edges).

  Definition fail_ok (t : target) : Prop :=
    forall ft, In ft (failover_targets cx (resolver_of es (t_svc t)) t) -> exists t', Orb ft t'.

  Definition FailsAll (st : cstate) : Prop := forall t, mem_resolver st t = true -> fail_ok t.

  Lemma Forall2_length' {A B} (R : A -> B -> Prop) l l' : Forall2 R l l' -> List.length l = List.length l'.
  Proof. induction 1; cbn; congruence. Qed.

  (* "getSplitterOrResolverNode(s)": the node handed back for service [s] *)
  Definition sos_id (s : string) (id : nid) : Prop :=
    if has_sp s then id = NSplitter s else resolved_id s "" id.

  Definition route_id (r : route) (id : nid) : Prop :=
    let s := default_if_empty (rt_svc r) svc in
    if rt_sub r =? "" then sos_id s id else resolved_id s (rt_sub r) id.

  Definition root_ok (start : nid) (router : option (list nid)) : Prop :=
    match (if disable_adv cx then None else get_router es svc), router with
    | None, None => sos_id svc start
    | Some routes, Some l => exists ids d, l = ids ++ [d] /\ Forall2 route_id routes ids /\ sos_id svc d /\ start = NRouter svc
    | _, _ => False
    end.
End Complete.
