(* C15 — what the compiler reads: the entries only through lookup_entry at the names the chain can
   reach, the context only through its datacenter and through whether it disables routers and
   splitters.  Stated for two entry sets that agree on a set D of names closed under "mentioned by". *)
From Verif Require Import Base.Prelude.
From Verif Require Import Chain.Model.
From Verif Require Import Chain.Lemmas.
From Verif Require Import Chain.Passes.
From Verif Require Import Chain.Resolve.
From Verif Require Import Chain.Assemble.
Local Open Scope string_scope.
Local Open Scope list_scope.

(* "if neither side ran out of fuel they agree" — the two entry sets may have different sizes,
   hence different loop bounds; both bounds are sufficient (Assemble.assemble_no_fuel) *)
Definition agree {A} (x y : cres A) : Prop := x <> Err EOutOfFuel -> y <> Err EOutOfFuel -> y = x.

Lemma agree_refl {A} (x : cres A) : agree x x.
Proof. intros _ _. reflexivity. Qed.

Lemma agree_bind {A B} (x y : cres A) (k k' : A -> cres B) :
  agree x y -> (forall a, agree (k a) (k' a)) ->
  agree (match x with Err e => Err e | Ok a => k a end) (match y with Err e => Err e | Ok a => k' a end).
Proof.
  intros Hxy Hk HL HR.
  assert (E : y = x) by (apply Hxy; intros E; [apply HL | apply HR]; rewrite E; reflexivity).
  subst y. destruct x as [a|e]; [apply Hk; assumption | reflexivity].
Qed.

(* the context enters target arithmetic only through its datacenter *)
Section Dc.
  Variables cx cx' : ctx.
  Hypothesis Hdc : c_dc cx = c_dc cx'.

  Lemma new_target_dc : new_target cx' = new_target cx.
  Proof. unfold new_target. rewrite Hdc. reflexivity. Qed.

  Lemma rewrite_target_dc : rewrite_target cx' = rewrite_target cx.
  Proof. unfold rewrite_target. rewrite Hdc. reflexivity. Qed.

  Lemma step_dc : step cx' = step cx.
  Proof. unfold step. rewrite rewrite_target_dc. reflexivity. Qed.

  Lemma failover_targets_dc : failover_targets cx' = failover_targets cx.
  Proof. unfold failover_targets. rewrite rewrite_target_dc. reflexivity. Qed.
End Dc.

Section Frame.
  Variables es es' : list entry.
  Variables cx cx' : ctx.
  Variable D : string -> Prop.
  Hypothesis Hdc : c_dc cx = c_dc cx'.
  Hypothesis Hdis : disable_adv cx = disable_adv cx'.
  Hypothesis Hl : forall k, fst k = KProxy \/ D (snd k) -> lookup_entry es' k = lookup_entry es k.
  Hypothesis Cr : forall n routes r, D n -> get_router es n = Some routes -> In r routes -> D (default_if_empty (rt_svc r) n).
  Hypothesis Cs : forall n legs sp, D n -> get_splitter es n = Some legs -> In sp legs -> D (default_if_empty (sp_svc sp) n).
  Hypothesis Cv : forall n r rd, D n -> get_resolver es n = Some r -> rs_redirect r = Some rd -> D (default_if_empty (rd_svc rd) n).
  (* failover targets are rewritten from the target at hand (rewrite_target), hence stated on
     targets; Validity.failover_targets_related reduces it to the entries *)
  Hypothesis Cf : forall r t ft, D (t_svc t) -> get_resolver es (t_svc t) = Some r ->
                                 In ft (failover_targets cx r t) -> D (t_svc ft).

  Lemma get_router_frame n : D n -> get_router es' n = get_router es n.
  Proof. intros H. unfold get_router. rewrite Hl by (right; exact H). reflexivity. Qed.

  Lemma get_splitter_frame n : D n -> get_splitter es' n = get_splitter es n.
  Proof. intros H. unfold get_splitter. rewrite Hl by (right; exact H). reflexivity. Qed.

  Lemma get_defaults_frame n : D n -> get_defaults es' n = get_defaults es n.
  Proof. intros H. unfold get_defaults. rewrite Hl by (right; exact H). reflexivity. Qed.

  Lemma resolver_of_frame s : D s -> resolver_of es' s = resolver_of es s.
  Proof. intros H. unfold resolver_of, get_resolver. rewrite Hl by (right; exact H). reflexivity. Qed.

  Lemma record_protocol_frame st s : D s -> record_protocol es' st s = record_protocol es st s.
  Proof.
    intros H. unfold record_protocol, raw_protocol, get_proxy. rewrite (get_defaults_frame s H), Hl by (left; reflexivity).
    reflexivity.
  Qed.

  Lemma step_D t t' : D (t_svc t) -> step cx (resolver_of es (t_svc t)) t = SMoved t' -> D (t_svc t').
  Proof.
    intros HD Hs. apply step_moved in Hs as [(rd & Erd & ->)| ->].
    - destruct (rewrite_target_svc cx t (rd_svc rd) (rd_sub rd) (rd_dc rd)) as [-> | [Hne ->]]; [exact HD|].
      unfold resolver_of in Erd. destruct (get_resolver es (t_svc t)) as [r0|] eqn:Eg; [|discriminate].
      pose proof (Cv _ _ _ HD Eg Erd) as H. unfold default_if_empty in H.
      apply String.eqb_neq in Hne. rewrite Hne in H. exact H.
    - destruct (rewrite_target_svc cx t "" (rs_default_subset (resolver_of es (t_svc t))) "") as [-> | [H _]]; [exact HD | congruence].
  Qed.

  Lemma resolve_loop_frame : forall f f' st h t, D (t_svc t) ->
    agree (resolve_loop es cx f st h t) (resolve_loop es' cx' f' st h t).
  Proof.
    induction f as [f IH] using lt_wf_ind. intros f' st h t HD. rewrite !resolve_loop_unfold.
    rewrite (record_protocol_frame st _ HD), (resolver_of_frame _ HD), (step_dc _ _ Hdc).
    destruct (mem_resolver st t); [apply agree_refl|].
    destruct (record_protocol es st (t_svc t)) as [st1|e]; [|apply agree_refl].
    destruct (memb target_eqb t h); [apply agree_refl|].
    destruct (step cx (resolver_of es (t_svc t)) t) as [t1| |] eqn:Es; try apply agree_refl.
    destruct f as [|f]; [intros H; exfalso; apply H; reflexivity|].
    destruct f' as [|f']; [intros _ H; exfalso; apply H; reflexivity|].
    apply IH; [apply Nat.lt_succ_diag_r | eapply step_D; eauto].
  Qed.

  Lemma resolve_loop_D : forall f st h t st' res, D (t_svc t) ->
    resolve_loop es cx f st h t = Ok (st', res) ->
    D (t_svc (match res with LHit x => x | LFinal x _ => x end)).
  Proof.
    induction f as [f IH] using lt_wf_ind. intros st h t st' res HD. rewrite resolve_loop_unfold.
    destruct (mem_resolver st t); [intros E; injection E as <- <-; exact HD|].
    destruct (record_protocol es st (t_svc t)) as [st1|e]; [|discriminate].
    destruct (memb target_eqb t h); [discriminate|].
    destruct (step cx (resolver_of es (t_svc t)) t) as [t1| |] eqn:Es; [|discriminate|].
    2:{ intros E; injection E as <- <-. exact HD. }
    destruct f as [|f]; [discriminate|]. intros E.
    eapply (IH f (Nat.lt_succ_diag_r f)); [|exact E]. eapply step_D; eauto.
  Qed.

  Lemma resolve_loop_top st t : D (t_svc t) ->
    resolve_loop es' cx' (redirect_fuel es') st [] t = resolve_loop es cx (redirect_fuel es) st [] t.
  Proof.
    intros HD. apply (resolve_loop_frame _ _ _ _ _ HD); apply resolve_loop_terminates.
  Qed.

  Lemma external_check_frame r t : D (t_svc t) -> external_check es' r t = external_check es r t.
  Proof. intros HD. unfold external_check. rewrite (get_defaults_frame _ HD). reflexivity. Qed.

  Lemma resolve_ff_frame st t : D (t_svc t) -> resolve_ff es' cx' st t = resolve_ff es cx st t.
  Proof.
    intros HD. unfold resolve_ff. rewrite (resolve_loop_top st t HD).
    destruct (resolve_loop es cx (redirect_fuel es) st [] t) as [[st1 [x|x r]]|e] eqn:E; try reflexivity.
    pose proof (resolve_loop_D _ _ _ _ _ _ HD E) as HDx. cbn in HDx.
    rewrite (external_check_frame r x HDx). reflexivity.
  Qed.

  Lemma resolve_failovers_frame : forall l st, (forall ft, In ft l -> D (t_svc ft)) ->
    resolve_failovers es' cx' st l = resolve_failovers es cx st l.
  Proof.
    induction l as [|ft l IH]; intros st HD; cbn [resolve_failovers]; [reflexivity|].
    rewrite (resolve_ff_frame st ft) by (apply HD; left; auto).
    destruct (resolve_ff es cx st ft) as [[st1 t1]|e]; [|reflexivity].
    rewrite IH by (intros x Hx; apply HD; right; auto). reflexivity.
  Qed.

  Lemma get_resolver_node_frame st t : D (t_svc t) -> get_resolver_node es' cx' st t = get_resolver_node es cx st t.
  Proof.
    intros HD. unfold get_resolver_node. rewrite (resolve_loop_top st t HD), (failover_targets_dc _ _ Hdc).
    destruct (resolve_loop es cx (redirect_fuel es) st [] t) as [[st1 [x|x r]]|e] eqn:E; try reflexivity.
    pose proof (resolve_loop_D _ _ _ _ _ _ HD E) as HDx. cbn in HDx.
    rewrite (external_check_frame r x HDx). destruct (external_check es r x); [reflexivity|].
    rewrite resolve_failovers_frame; [reflexivity|].
    intros ft Hft. apply resolve_loop_spec in E as (_ & _ & Hrr & _). subst r.
    unfold resolver_of in Hft. destruct (get_resolver es (t_svc x)) as [r0|] eqn:Eg.
    - eapply Cf; eauto.
    - cbn in Hft. destruct Hft.
  Qed.

  Definition rec_agree (rec rec' : cstate -> string -> cres (cstate * option nid)) : Prop :=
    forall st s, D s -> agree (rec st s) (rec' st s).

  Lemma do_legs_frame rec rec' self : rec_agree rec rec' -> forall l st,
    (forall sp, In sp l -> D (default_if_empty (sp_svc sp) self)) ->
    agree (do_legs es cx rec self st l) (do_legs es' cx' rec' self st l).
  Proof.
    intros Hrec. induction l as [|sp l IH]; intros st HD; cbn [do_legs]; [apply agree_refl|].
    set (s := default_if_empty (sp_svc sp) self).
    assert (HDs : D s) by (apply HD; left; auto).
    assert (HDl : forall x, In x l -> D (default_if_empty (sp_svc x) self)) by (intros x Hx; apply HD; right; auto).
    rewrite (new_target_dc _ _ Hdc).
    apply agree_bind; [destruct (negb (s =? self) && (sp_sub sp =? "")); [apply Hrec; exact HDs | apply agree_refl]|].
    intros [st1 [id|]].
    - apply agree_bind; [apply IH; exact HDl | intros [st2 edges]; apply agree_refl].
    - rewrite (get_resolver_node_frame st1 (new_target cx s (sp_sub sp)) HDs).
      apply agree_bind; [apply agree_refl|]. intros [st2 t'].
      apply agree_bind; [apply IH; exact HDl | intros [st3 edges]; apply agree_refl].
  Qed.

  Lemma get_splitter_node_frame : forall f f', rec_agree (get_splitter_node es cx f) (get_splitter_node es' cx' f').
  Proof.
    induction f as [f IH] using lt_wf_ind. intros f' st s HD. rewrite !get_splitter_node_unfold.
    rewrite <- Hdis, (get_splitter_frame s HD).
    destruct (mem_splitter st s); [apply agree_refl|].
    destruct (if disable_adv cx then None else get_splitter es s) as [splits|] eqn:Eg; [|apply agree_refl].
    destruct f as [|f]; [intros H; exfalso; apply H; reflexivity|].
    destruct f' as [|f']; [intros _ H; exfalso; apply H; reflexivity|].
    assert (Eg' : get_splitter es s = Some splits) by (destruct (disable_adv cx); [discriminate | exact Eg]).
    apply agree_bind; [|intros [st2 edges]; apply agree_refl].
    apply (do_legs_frame _ _ s (IH f (Nat.lt_succ_diag_r f) f')). intros sp Hsp. eapply Cs; eauto.
  Qed.

  Lemma get_split_or_resolve_frame st t : D (t_svc t) ->
    agree (get_split_or_resolve es cx st t) (get_split_or_resolve es' cx' st t).
  Proof.
    intros HD. unfold get_split_or_resolve. apply agree_bind; [apply get_splitter_node_frame; exact HD|].
    intros [st1 [id|]]; [apply agree_refl|]. rewrite (get_resolver_node_frame st1 t HD). apply agree_refl.
  Qed.

  Lemma do_routes_frame svc : D svc -> forall l st,
    (forall r, In r l -> D (default_if_empty (rt_svc r) svc)) ->
    agree (do_routes es cx svc st l) (do_routes es' cx' svc st l).
  Proof.
    intros HDsvc. induction l as [|r l IH]; intros st HD; cbn [do_routes]; [apply agree_refl|].
    set (s := default_if_empty (rt_svc r) svc).
    assert (HDs : D s) by (apply HD; left; auto).
    assert (HDl : forall x, In x l -> D (default_if_empty (rt_svc x) svc)) by (intros x Hx; apply HD; right; auto).
    rewrite (new_target_dc _ _ Hdc). apply agree_bind.
    - destruct (rt_sub r =? ""); [apply get_split_or_resolve_frame; exact HDs|].
      rewrite (get_resolver_node_frame st (new_target cx s (rt_sub r)) HDs). apply agree_refl.
    - intros [st1 id]. apply agree_bind; [apply IH; exact HDl | intros [st2 ids]; apply agree_refl].
  Qed.

  Theorem assemble_frame svc : D svc -> assemble es' cx' svc = assemble es cx svc.
  Proof.
    intros HD.
    assert (HA : agree (assemble es cx svc) (assemble es' cx' svc)); [|apply HA; apply assemble_no_fuel].
    unfold assemble. rewrite <- Hdis, (get_router_frame svc HD), (new_target_dc _ _ Hdc).
    destruct (if disable_adv cx then None else get_router es svc) as [routes|] eqn:Er.
    - assert (Er' : get_router es svc = Some routes) by (destruct (disable_adv cx); [discriminate | exact Er]).
      rewrite (record_protocol_frame _ svc HD).
      destruct (record_protocol es (set_adv st0) svc) as [st1|e]; [|apply agree_refl].
      apply agree_bind; [apply (do_routes_frame svc HD); intros r Hi; eapply Cr; eauto|]. intros [st2 ids].
      apply agree_bind; [apply get_split_or_resolve_frame; exact HD | intros [st3 d]; apply agree_refl].
    - apply agree_bind; [apply get_split_or_resolve_frame; exact HD | intros [st1 id]; apply agree_refl].
  Qed.

  Theorem compile_frame svc mo : D svc -> c_override cx' = c_override cx -> compile es' cx' svc mo = compile es cx svc mo.
  Proof.
    intros HD Ho. unfold compile, compile_ord. rewrite (assemble_frame svc HD), Ho. reflexivity.
  Qed.

  Theorem compile_frame_graph svc mo g :
    D svc -> compile es cx svc mo = Ok g ->
    exists g', compile es' cx' svc mo = Ok g' /\
               g_start g' = g_start g /\ g_nodes g' = g_nodes g /\ g_targets g' = g_targets g.
  Proof.
    intros HD. unfold compile, compile_ord. rewrite (assemble_frame svc HD).
    destruct (assemble es cx svc) as [[[st start] router]|e]; [|discriminate].
    destruct (detect _ _ [] start); try discriminate.
    destruct (flatten _ _ _) as [ns1|]; [|discriminate].
    destruct (remove_unused ns1 start) as [ns2|e]; [|discriminate].
    destruct (negb (http_like (s_proto st)) && s_adv st); [discriminate|].
    intros H; injection H as <-. eexists. split; [reflexivity|]. auto.
  Qed.
End Frame.

(* with D all names the closure conditions are void: the compiler reads the entries only through
   lookup_entry *)
Corollary compile_ext es es' cx svc mo :
  (forall k, lookup_entry es' k = lookup_entry es k) -> compile es' cx svc mo = compile es cx svc mo.
Proof. intros Hl. apply (compile_frame es es' cx cx (fun _ => True)); auto. Qed.

Corollary compile_ctx es cx cx' svc mo g :
  c_dc cx = c_dc cx' -> disable_adv cx = disable_adv cx' -> compile es cx svc mo = Ok g ->
  exists g', compile es cx' svc mo = Ok g' /\
             g_start g' = g_start g /\ g_nodes g' = g_nodes g /\ g_targets g' = g_targets g.
Proof. intros Hdc Hdis. apply (compile_frame_graph es es cx cx' (fun _ => True)); auto. Qed.
