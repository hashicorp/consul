(* C15 — generic facts about the list-based maps of Chain/Model.v, a few list lemmas, and the
   postcondition [Post] in which the calls of the compiler are specified *)
From Verif Require Import Base.Prelude.
From Verif Require Import Base.Lists.
From Verif Require Import Chain.Model.
Local Open Scope string_scope.
Local Open Scope list_scope.

Lemma target_eqb_eq a b : target_eqb a b = true <-> a = b.
Proof.
  destruct a as [a1 a2 a3], b as [b1 b2 b3]; unfold target_eqb; cbn [t_svc t_sub t_dc].
  rewrite !andb_true_iff, !String.eqb_eq. split.
  - intros [[-> ->] ->]; reflexivity.
  - intros H; injection H as -> -> ->; auto.
Qed.

Lemma nid_eqb_eq a b : nid_eqb a b = true <-> a = b.
Proof.
  destruct a, b; cbn [nid_eqb]; try (split; congruence).
  - rewrite String.eqb_eq. split; congruence.
  - rewrite String.eqb_eq. split; congruence.
  - rewrite target_eqb_eq. split; congruence.
Qed.

Lemma ekind_eqb_eq a b : ekind_eqb a b = true <-> a = b.
Proof. destruct a, b; cbn; split; congruence. Qed.

Lemma key_eqb_eq a b : key_eqb a b = true <-> a = b.
Proof.
  destruct a as [k n], b as [k' n']; unfold key_eqb; cbn [fst snd].
  rewrite andb_true_iff, ekind_eqb_eq, String.eqb_eq. split.
  - intros [-> ->]; reflexivity.
  - intros H; injection H as -> ->; auto.
Qed.

Lemma string_eqb_neq a b : (a =? b) = false <-> a <> b.
Proof. apply String.eqb_neq. Qed.

Lemma lookup_entry_In es k e : lookup_entry es k = Some e -> In e es /\ ekey e = k.
Proof.
  induction es as [|e0 l IH]; cbn [lookup_entry]; [discriminate|].
  destruct (key_eqb (ekey e0) k) eqn:E.
  - intros H; injection H as ->. apply key_eqb_eq in E. split; [left|]; auto.
  - intros H. destruct (IH H). split; [right|]; auto.
Qed.

Lemma get_router_In es n l : get_router es n = Some l -> In (ERouter n l) es.
Proof.
  unfold get_router. destruct (lookup_entry es (KRouter, n)) as [[n' l'| | | |]|] eqn:E; try discriminate.
  intros H; injection H as <-. apply lookup_entry_In in E as [Hi Hk]. injection Hk as ->. exact Hi.
Qed.

Lemma get_splitter_In es n l : get_splitter es n = Some l -> In (ESplitter n l) es.
Proof.
  unfold get_splitter. destruct (lookup_entry es (KSplitter, n)) as [[|n' l'| | |]|] eqn:E; try discriminate.
  intros H; injection H as <-. apply lookup_entry_In in E as [Hi Hk]. injection Hk as ->. exact Hi.
Qed.

Lemma get_resolver_In es n r : get_resolver es n = Some r -> In (EResolver n r) es.
Proof.
  unfold get_resolver. destruct (lookup_entry es (KResolver, n)) as [[| |n' l'| |]|] eqn:E; try discriminate.
  intros H; injection H as <-. apply lookup_entry_In in E as [Hi Hk]. injection Hk as ->. exact Hi.
Qed.

Section Maps.
  Context {A : Type} (eqb : A -> A -> bool).
  Hypothesis eqb_eq : forall a b, eqb a b = true <-> a = b.

  Lemma memb_In x l : memb eqb x l = true <-> In x l.
  Proof.
    induction l as [|y l IH]; cbn [memb In]; [split; [discriminate | tauto]|].
    rewrite orb_true_iff, IH, eqb_eq. split; intros [H|H]; auto.
  Qed.

  Lemma memb_not_In x l : memb eqb x l = false <-> ~ In x l.
  Proof.
    split.
    - intros H HI. apply memb_In in HI. congruence.
    - intros H. destruct (memb eqb x l) eqn:E; [apply memb_In in E; contradiction | reflexivity].
  Qed.

  Context {B : Type}.

  Lemma assoc_In k (v : B) l : assoc eqb k l = Some v -> In (k, v) l.
  Proof.
    induction l as [|[k' v'] l IH]; cbn [assoc]; [discriminate|].
    destruct (eqb k k') eqn:E.
    - intros H; injection H as ->. apply eqb_eq in E; subst. left; reflexivity.
    - intros H; right; auto.
  Qed.

  Lemma assoc_Some_key k (v : B) l : assoc eqb k l = Some v -> In k (map fst l).
  Proof. intros H. apply assoc_In in H. apply in_map_iff. exists (k, v); auto. Qed.

  Lemma assoc_upsert k k' (v : B) l :
    assoc eqb k' (upsert eqb k v l) = if eqb k' k then Some v else assoc eqb k' l.
  Proof.
    induction l as [|[k0 v0] l IH]; cbn [upsert assoc].
    - reflexivity.
    - destruct (eqb k k0) eqn:E.
      + apply eqb_eq in E; subst k0. cbn [assoc]. destruct (eqb k' k); reflexivity.
      + cbn [assoc]. destruct (eqb k' k0) eqn:E0.
        * apply eqb_eq in E0; subst k0.
          destruct (eqb k' k) eqn:E1; [|reflexivity].
          apply eqb_eq in E1; subst. rewrite (eqb_refl' _ eqb_eq) in E. discriminate.
        * apply IH.
  Qed.

  Lemma upsert_keys_notin k (v : B) l : ~ In k (map fst l) -> map fst (upsert eqb k v l) = map fst l ++ [k].
  Proof.
    induction l as [|[k0 v0] l IH]; cbn [upsert map fst In app]; [reflexivity|].
    intros H. destruct (eqb k k0) eqn:E.
    - apply eqb_eq in E; subst. exfalso; apply H; auto.
    - cbn [map fst]. f_equal. apply IH. tauto.
  Qed.

  Lemma upsert_keys_in k (v v0 : B) l : assoc eqb k l = Some v0 -> map fst (upsert eqb k v l) = map fst l.
  Proof.
    induction l as [|[k0 v1] l IH]; cbn [assoc upsert map fst]; [discriminate|].
    destruct (eqb k k0) eqn:E; cbn [map fst].
    - intros _. apply eqb_eq in E. subst. reflexivity.
    - intros H. f_equal. apply IH. exact H.
  Qed.

  Lemma assoc_ext (l : list (A * B)) : forall l',
    map fst l = map fst l' -> NoDup (map fst l) ->
    (forall k, In k (map fst l) -> assoc eqb k l = assoc eqb k l') -> l = l'.
  Proof.
    induction l as [|[k0 v0] l IH]; intros [|[k1 v1] l'] Hk Hn Ha; try discriminate; [reflexivity|].
    cbn [map fst] in Hk. injection Hk as <- Hk. inversion Hn as [|? ? Hni Hn']; subst.
    pose proof (Ha k0 (or_introl eq_refl)) as H0. cbn [assoc] in H0. rewrite (eqb_refl' _ eqb_eq) in H0. injection H0 as <-.
    f_equal. apply IH; auto. intros k Hi. specialize (Ha k (or_intror Hi)). cbn [assoc] in Ha.
    destruct (eqb k k0) eqn:E; [|exact Ha]. apply eqb_eq in E; subst. contradiction.
  Qed.

  Lemma upsert_length_le k (v : B) l : List.length (upsert eqb k v l) <= S (List.length l).
  Proof.
    induction l as [|[k0 v0] l IH]; cbn [upsert List.length]; [lia|].
    destruct (eqb k k0); cbn [List.length]; lia.
  Qed.

  Lemma upsert_In k (v : B) l x : In x (upsert eqb k v l) -> x = (k, v) \/ In x l.
  Proof.
    induction l as [|[k0 v0] l IH]; cbn [upsert In].
    - intros [H|[]]; auto.
    - destruct (eqb k k0); cbn [In]; intros [H|H]; auto. destruct (IH H); auto.
  Qed.
  Lemma upsert_key_In k (v : B) l x : In x (map fst (upsert eqb k v l)) -> x = k \/ In x (map fst l).
  Proof.
    intros H. apply in_map_iff in H as ([k1 v1] & Hk & Hi). cbn [fst] in Hk. subst k1.
    apply upsert_In in Hi as [Hi|Hi].
    - injection Hi as -> _. auto.
    - right. apply in_map_iff. exists (x, v1); auto.
  Qed.

  Lemma upsert_NoDup k (v : B) l : NoDup (map fst l) -> NoDup (map fst (upsert eqb k v l)).
  Proof.
    induction l as [|[k0 v0] l IH]; cbn [upsert map fst]; intros H.
    - constructor; [intros [] | constructor].
    - inversion H as [|? ? Hn Hl]; subst. destruct (eqb k k0) eqn:E.
      + apply eqb_eq in E; subst. cbn [map fst]. constructor; auto.
      + cbn [map fst]. constructor; [|auto].
        intros Hi. apply upsert_key_In in Hi as [Hi|Hi]; [|contradiction].
        subst. rewrite (eqb_refl' _ eqb_eq) in E. discriminate.
  Qed.
End Maps.

Lemma target_eqb_refl a : target_eqb a a = true.
Proof. apply (eqb_refl' _ target_eqb_eq). Qed.

Lemma target_eqb_neq a b : target_eqb a b = false <-> a <> b.
Proof. apply (eqb_neq _ target_eqb_eq). Qed.

Lemma nid_eqb_refl a : nid_eqb a a = true.
Proof. apply (eqb_refl' _ nid_eqb_eq). Qed.

Lemma nid_eqb_neq a b : nid_eqb a b = false <-> a <> b.
Proof. apply (eqb_neq _ nid_eqb_eq). Qed.

Lemma key_eqb_refl a : key_eqb a a = true.
Proof. apply (eqb_refl' _ key_eqb_eq). Qed.

Section Dedup.
  Context {A : Type} (eqb : A -> A -> bool).
  Hypothesis eqb_eq : forall a b, eqb a b = true <-> a = b.

  Lemma dedup_In x l : In x (dedup eqb l) <-> In x l.
  Proof.
    induction l as [|y l IH]; cbn [dedup In]; [tauto|].
    destruct (memb eqb y l) eqn:E.
    - rewrite IH. split; [auto|]. intros [H|H]; [subst; apply (memb_In eqb eqb_eq); exact E | exact H].
    - cbn [In]. rewrite IH. tauto.
  Qed.

  Lemma dedup_NoDup l : NoDup (dedup eqb l).
  Proof.
    induction l as [|y l IH]; cbn [dedup]; [constructor|].
    destruct (memb eqb y l) eqn:E; [exact IH|].
    constructor; [|exact IH]. rewrite dedup_In. apply (memb_not_In eqb eqb_eq). exact E.
  Qed.

  Lemma dedup_length l : List.length (dedup eqb l) <= List.length l.
  Proof.
    induction l as [|y l IH]; cbn [dedup List.length]; [lia|].
    destruct (memb eqb y l); cbn [List.length]; lia.
  Qed.
End Dedup.

Lemma flat_map_length_le {A B} (f : A -> list B) k l :
  (forall x, List.length (f x) <= k) -> List.length (flat_map f l) <= k * List.length l.
Proof.
  intros H. induction l as [|x l IH]; cbn [flat_map List.length]; [lia|].
  rewrite app_length. specialize (H x). lia.
Qed.

Lemma NoDup_incl_length' {A} (l l' : list A) : NoDup l -> incl l l' -> List.length l <= List.length l'.
Proof. apply NoDup_incl_length. Qed.

Lemma forallb_In {A} (f : A -> bool) l x : forallb f l = true -> In x l -> f x = true.
Proof. intros H Hi. rewrite forallb_forall in H. auto. Qed.

Lemma filter_length_le {A} (f g : A -> bool) l :
  (forall x, f x = true -> g x = true) -> List.length (filter f l) <= List.length (filter g l).
Proof.
  intros H. induction l as [|x l IH]; cbn [filter]; [lia|].
  destruct (f x) eqn:E; [rewrite (H x E); cbn [List.length]; lia|].
  destruct (g x); cbn [List.length]; lia.
Qed.

Lemma filter_length_lt {A} (f g : A -> bool) l x :
  In x l -> g x = true -> f x = false -> (forall y, f y = true -> g y = true) ->
  List.length (filter f l) < List.length (filter g l).
Proof.
  intros Hi Hg Hf H. induction l as [|y l IH]; [destruct Hi|]. cbn [filter]. destruct Hi as [->|Hi].
  - rewrite Hg, Hf. cbn [List.length]. pose proof (filter_length_le f g l H). lia.
  - specialize (IH Hi). destruct (f y) eqn:E; [rewrite (H y E); cbn [List.length]; lia|].
    destruct (g y); cbn [List.length]; lia.
Qed.

Lemma incl_mid {A} (a : A) l R : incl (l ++ a :: R) (a :: l ++ R).
Proof.
  intros x H. apply in_app_or in H as [H|[<-|H]]; [right; apply in_or_app; left; exact H | left; reflexivity|].
  right. apply in_or_app. right. exact H.
Qed.

Lemma NoDup_app_intro' {A} (l l' : list A) :
  NoDup l -> NoDup l' -> (forall x, In x l -> In x l' -> False) -> NoDup (l ++ l').
Proof.
  induction 1 as [|x l Hx Hl IH]; intros Hl' Hd; cbn [app]; [exact Hl'|].
  constructor.
  - intros Hi. apply in_app_or in Hi as [Hi|Hi]; [contradiction|]. apply (Hd x); [left|]; auto.
  - apply IH; auto. intros y Hy. apply Hd. right; auto.
Qed.

Lemma assoc_app {A B} (eqb : A -> A -> bool) k (l1 l2 : list (A * B)) :
  assoc eqb k (l1 ++ l2) = match assoc eqb k l1 with Some v => Some v | None => assoc eqb k l2 end.
Proof.
  induction l1 as [|[k0 v0] l1 IH]; cbn [app assoc]; [reflexivity|]. destruct (eqb k k0); auto.
Qed.

(* the errors assembleChain can return (all of them caused by the entries); the others are the model's own (an exhausted bound, a failed
   "impossible" lookup) or come from the passes after assembleChain *)
Definition user_err (e : cerr) : Prop :=
  match e with EOutOfFuel | EInternal | ECircularReference | ENoAdvanced => False | _ => True end.

(* for results that are pairs (state, value), which is what every call of the compiler returns;
   assemble returns a triple and is read as ((state, start), router) *)
Definition Post {A B} (Q : A -> B -> Prop) (c : cres (A * B)) : Prop :=
  match c with Ok (a, b) => Q a b | Err e => user_err e end.

Lemma Post_bind {A B A' B'} (c : cres (A * B)) (k : A -> B -> cres (A' * B')) (P : A -> B -> Prop) (Q : A' -> B' -> Prop) :
  Post P c -> (forall a b, P a b -> Post Q (k a b)) ->
  Post Q (match c with Err e => Err e | Ok (a, b) => k a b end).
Proof. destruct c as [[a b]|e]; cbn; auto. Qed.

Lemma Post_weaken {A B} (P Q : A -> B -> Prop) c : (forall a b, P a b -> Q a b) -> Post P c -> Post Q c.
Proof. destruct c as [[a b]|e]; cbn; auto. Qed.
