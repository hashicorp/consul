(* C15 — assembleChain.  One invariant of the compiler state ([Inv]) is carried once through the
   call tree getResolverNode / getSplitterNode / assembleChain; each call is specified totally: it
   returns a state satisfying the invariant or one of the errors assembleChain can return, never
   an exhausted loop bound. *)
From Coq Require Import FinFun.
From Verif Require Import Base.Prelude.
From Verif Require Import Base.Lists.
From Verif Require Import Chain.Model.
From Verif Require Import Chain.Lemmas.
From Verif Require Import Chain.Passes.
From Verif Require Import Chain.Resolve.
From Verif Require Import Chain.Complete.
Local Open Scope string_scope.
Local Open Scope list_scope.

Lemma splitters_record st s e x :
  assoc String.eqb x (s_splitters (record_splitter st s e)) = if x =? s then Some e else assoc String.eqb x (s_splitters st).
Proof. apply (assoc_upsert String.eqb String.eqb_eq). Qed.

Lemma resolvers_record st t n x :
  assoc target_eqb x (s_resolvers (record_resolver st t n)) = if target_eqb x t then Some n else assoc target_eqb x (s_resolvers st).
Proof. apply (assoc_upsert target_eqb target_eqb_eq). Qed.

Lemma mem_splitter_iff st s : mem_splitter st s = true <-> exists e, assoc String.eqb s (s_splitters st) = Some e.
Proof.
  unfold mem_splitter. destruct (assoc String.eqb s (s_splitters st)) as [e|].
  - split; eauto.
  - split; [discriminate | intros [e H]; discriminate].
Qed.

Lemma mem_resolver_iff st t : mem_resolver st t = true <-> exists n, assoc target_eqb t (s_resolvers st) = Some n.
Proof.
  unfold mem_resolver. destruct (assoc target_eqb t (s_resolvers st)) as [n|].
  - split; eauto.
  - split; [discriminate | intros [n H]; discriminate].
Qed.

Lemma retain_In st t : In t (s_retained (retain st t)).
Proof.
  unfold retain; cbn [s_retained]. destruct (memb target_eqb t (s_retained st)) eqn:E.
  - apply (memb_In target_eqb target_eqb_eq). exact E.
  - apply in_or_app. right. left. reflexivity.
Qed.

Definition NDK (st : cstate) : Prop := NoDup (map fst (s_splitters st)) /\ NoDup (map fst (s_resolvers st)).

Lemma NDK_record_resolver st t n : NDK st -> NDK (record_resolver st t n).
Proof. intros [A B]. split; [exact A|]. apply (upsert_NoDup target_eqb target_eqb_eq). exact B. Qed.

Lemma NDK_record_splitter st s e : NDK st -> NDK (record_splitter st s e).
Proof. intros [A B]. split; [|exact B]. apply (upsert_NoDup String.eqb String.eqb_eq). exact A. Qed.

Lemma lookup_map_splitters (l : list (string * list sedge)) k :
  lookup k (map (fun p => (NSplitter (fst p), SplitterN (snd p))) l) =
  match k with NSplitter s => option_map SplitterN (assoc String.eqb s l) | _ => None end.
Proof.
  induction l as [|[s0 e0] l IH]; cbn [map assoc fst snd]; [destruct k; reflexivity|].
  destruct k as [x|x|x]; cbn [nid_eqb]; try exact IH.
  destruct (x =? s0); [reflexivity | exact IH].
Qed.

Lemma lookup_map_resolvers (l : list (target * rnode)) k :
  lookup k (map (fun p => (NResolver (fst p), ResolverN (rn_default (snd p)) (rn_failover (snd p)))) l) =
  match k with
  | NResolver t => option_map (fun n => ResolverN (rn_default n) (rn_failover n)) (assoc target_eqb t l)
  | _ => None
  end.
Proof.
  induction l as [|[t0 n0] l IH]; cbn [map assoc fst snd]; [destruct k; reflexivity|].
  destruct k as [x|x|x]; cbn [nid_eqb]; try exact IH.
  destruct (target_eqb x t0); [reflexivity | exact IH].
Qed.

Lemma lookup_to_nodes svc st router k :
  lookup k (to_nodes svc st router) =
  match k with
  | NRouter x => match router with Some l => if x =? svc then Some (RouterN l) else None | None => None end
  | NSplitter s => option_map SplitterN (assoc String.eqb s (s_splitters st))
  | NResolver t => option_map (fun n => ResolverN (rn_default n) (rn_failover n)) (assoc target_eqb t (s_resolvers st))
  end.
Proof.
  unfold to_nodes. rewrite !assoc_app, lookup_map_splitters, lookup_map_resolvers.
  destruct router as [l|]; cbn [assoc]; destruct k as [x|x|x]; cbn [nid_eqb]; try reflexivity.
  - destruct (x =? svc); reflexivity.
  - destruct (option_map SplitterN (assoc String.eqb x (s_splitters st))); reflexivity.
  - destruct (option_map SplitterN (assoc String.eqb x (s_splitters st))); reflexivity.
Qed.

Lemma to_nodes_NoDup svc st router : NDK st -> NoDup (map fst (to_nodes svc st router)).
Proof.
  intros [A B]. unfold to_nodes. rewrite !map_app, !map_map. cbn [fst].
  assert (HS : NoDup (map (fun p : string * list sedge => NSplitter (fst p)) (s_splitters st))).
  { rewrite <- (map_map fst NSplitter). apply Injective_map_NoDup; auto. intros x y H; injection H; auto. }
  assert (HR : NoDup (map (fun p : target * rnode => NResolver (fst p)) (s_resolvers st))).
  { rewrite <- (map_map fst NResolver). apply Injective_map_NoDup; auto. intros x y H; injection H; auto. }
  assert (HSR : NoDup (map (fun p : string * list sedge => NSplitter (fst p)) (s_splitters st) ++
                       map (fun p : target * rnode => NResolver (fst p)) (s_resolvers st))).
  { apply NoDup_app_intro'; auto. intros x H1 H2.
    apply in_map_iff in H1 as (? & <- & _). apply in_map_iff in H2 as (? & H2 & _). discriminate. }
  destruct router as [l|]; cbn [map app fst]; [|exact HSR].
  constructor; [|exact HSR]. intros Hi. apply in_app_or in Hi as [Hi|Hi];
    apply in_map_iff in Hi as (? & Hi & _); discriminate.
Qed.

Definition key_in (st : cstate) (k : nid) : Prop :=
  match k with
  | NRouter _ => False
  | NSplitter s => mem_splitter st s = true
  | NResolver t => mem_resolver st t = true
  end.

Lemma key_in_lookup svc st k : key_in st k <-> lookup k (to_nodes svc st None) <> None.
Proof.
  rewrite lookup_to_nodes. destruct k as [x|x|x]; cbn [key_in]; unfold mem_splitter, mem_resolver.
  - tauto.
  - destruct (assoc String.eqb x (s_splitters st)); cbn; split; congruence.
  - destruct (assoc target_eqb x (s_resolvers st)); cbn; split; congruence.
Qed.

Lemma key_in_present svc st r k : key_in st k -> lookup k (to_nodes svc st r) <> None.
Proof.
  intros Hk. apply (key_in_lookup svc) in Hk. rewrite lookup_to_nodes in *.
  destruct k; [contradiction Hk; reflexivity | exact Hk | exact Hk].
Qed.

Lemma present_cases svc st l k : lookup k (to_nodes svc st (Some l)) <> None -> k = NRouter svc \/ key_in st k.
Proof.
  intros H. destruct k as [x|x|x]; [left | right; apply (key_in_lookup svc); rewrite lookup_to_nodes in *; exact H ..].
  rewrite lookup_to_nodes in H. destruct (x =? svc) eqn:E; [apply String.eqb_eq in E; subst; reflexivity | congruence].
Qed.

Lemma key_in_record_resolver st t n k : key_in (record_resolver st t n) k <-> key_in st k \/ k = NResolver t.
Proof.
  destruct k as [x|x|x]; cbn [key_in].
  - split; [tauto | intros [[]|H]; discriminate].
  - split; [tauto | intros [H|H]; [exact H | discriminate]].
  - unfold mem_resolver. rewrite resolvers_record. destruct (target_eqb x t) eqn:E.
    + apply target_eqb_eq in E; subst. split; auto.
    + apply target_eqb_neq in E. split; [tauto | intros [H|H]; [exact H | congruence]].
Qed.

Lemma key_in_record_splitter st s e k : key_in (record_splitter st s e) k <-> key_in st k \/ k = NSplitter s.
Proof.
  destruct k as [x|x|x]; cbn [key_in].
  - split; [tauto | intros [[]|H]; discriminate].
  - unfold mem_splitter. rewrite splitters_record. destruct (x =? s) eqn:E.
    + apply String.eqb_eq in E; subst. split; auto.
    + apply String.eqb_neq in E. split; [tauto | intros [H|H]; [exact H | congruence]].
  - split; [tauto | intros [H|H]; [exact H | discriminate]].
Qed.

Lemma edge_to_nodes svc st a b :
  edge (to_nodes svc st None) a b <->
  exists s edges, a = NSplitter s /\ assoc String.eqb s (s_splitters st) = Some edges /\ In b (map snd edges).
Proof.
  unfold edge. split.
  - intros (nd & Hl & Hc). rewrite lookup_to_nodes in Hl. destruct a as [x|x|x]; [discriminate| |].
    + destruct (assoc String.eqb x (s_splitters st)) as [e|] eqn:E; [|discriminate].
      injection Hl as <-. exists x, e. auto.
    + destruct (assoc target_eqb x (s_resolvers st)); [|discriminate]. injection Hl as <-. destruct Hc.
  - intros (s & edges & -> & Ha & Hb). exists (SplitterN edges). rewrite lookup_to_nodes, Ha. auto.
Qed.

Lemma edge_router svc st l a b :
  edge (to_nodes svc st (Some l)) a b <-> (a = NRouter svc /\ In b l) \/ edge (to_nodes svc st None) a b.
Proof.
  unfold edge. rewrite !lookup_to_nodes.
  destruct a as [x|x|x]; [|split; [auto | intros [[H _]|H]; [discriminate | exact H]] ..].
  destruct (x =? svc) eqn:E.
  - apply String.eqb_eq in E; subst. split.
    + intros (nd & Hl & Hc). injection Hl as <-. auto.
    + intros [[_ Hb]|(nd & Hl & _)]; [exists (RouterN l); auto | discriminate].
  - split; [intros (nd & Hl & _); discriminate|]. intros [[H _]|(nd & Hl & _)]; [|discriminate].
    injection H as ->. rewrite String.eqb_refl in E. discriminate.
Qed.

Lemma reachN_mono ns ns' a b :
  (forall x y, edge ns x y -> edge ns' x y) -> reachN ns a b -> reachN ns' a b.
Proof. intros H Hr. induction Hr; [constructor | econstructor; eauto]. Qed.

Definition le_state (st st' : cstate) : Prop :=
  (forall s v, assoc String.eqb s (s_splitters st) = Some v -> assoc String.eqb s (s_splitters st') = Some v) /\
  (forall t v, assoc target_eqb t (s_resolvers st) = Some v -> assoc target_eqb t (s_resolvers st') = Some v) /\
  incl (s_retained st) (s_retained st').

Lemma le_state_refl st : le_state st st.
Proof. repeat split; auto. apply incl_refl. Qed.

Lemma le_state_trans a b c : le_state a b -> le_state b c -> le_state a c.
Proof.
  intros (A1 & A2 & A3) (B1 & B2 & B3). repeat split; auto. eapply incl_tran; eauto.
Qed.

Lemma le_state_key_in st st' k : le_state st st' -> key_in st k -> key_in st' k.
Proof.
  intros (H1 & H2 & _). destruct k as [x|x|x]; cbn [key_in]; auto.
  - rewrite !mem_splitter_iff. intros (e & Ha). eauto.
  - rewrite !mem_resolver_iff. intros (n & Ha). eauto.
Qed.

Lemma le_state_edge svc st st' a b :
  le_state st st' -> edge (to_nodes svc st None) a b -> edge (to_nodes svc st' None) a b.
Proof.
  intros (H1 & _) He. apply edge_to_nodes in He as (s & edges & -> & Ha & Hb).
  apply edge_to_nodes. exists s, edges. auto.
Qed.

Lemma same_graph_le st st' : same_graph st st' -> le_state st st'.
Proof. intros (H1 & H2 & H3). unfold le_state. rewrite H1, H2. auto. Qed.

Lemma same_graph_retain st t : same_graph st (retain st t).
Proof.
  split; [reflexivity|]. split; [reflexivity|]. unfold retain; cbn [s_retained].
  destruct (memb target_eqb t (s_retained st)); [apply incl_refl | apply incl_appl, incl_refl].
Qed.

Lemma same_graph_set_adv st : same_graph st (set_adv st).
Proof. split; [reflexivity|]. split; [reflexivity|]. apply incl_refl. Qed.

Lemma same_graph_nodes svc st st' r : same_graph st st' -> to_nodes svc st' r = to_nodes svc st r.
Proof. intros (H1 & H2 & _). unfold to_nodes. rewrite H1, H2. reflexivity. Qed.

Lemma same_graph_key_in st st' k : same_graph st st' -> (key_in st' k <-> key_in st k).
Proof.
  intros (H1 & H2 & _). destruct k; cbn [key_in]; unfold mem_splitter, mem_resolver; rewrite ?H1, ?H2; tauto.
Qed.

Lemma le_state_overwrite_splitter st st' s e :
  le_state st st' -> mem_splitter st s = false -> le_state st (record_splitter st' s e).
Proof.
  intros (A1 & A2 & A3) Hm. split; [|split]; auto.
  intros x v Hx. rewrite splitters_record. destruct (x =? s) eqn:E; auto.
  apply String.eqb_eq in E; subst. unfold mem_splitter in Hm. rewrite Hx in Hm. discriminate.
Qed.

Lemma le_state_overwrite_resolver st st' t n :
  le_state st st' -> mem_resolver st t = false -> le_state st (record_resolver st' t n).
Proof.
  intros (A1 & A2 & A3) Hm. split; [|split]; auto.
  intros x v Hx. rewrite resolvers_record. destruct (target_eqb x t) eqn:E; auto.
  apply target_eqb_eq in E; subst. unfold mem_resolver in Hm. rewrite Hx in Hm. discriminate.
Qed.

Lemma le_state_record_splitter st s e : mem_splitter st s = false -> le_state st (record_splitter st s e).
Proof. apply le_state_overwrite_splitter, le_state_refl. Qed.

Lemma get_splitter_node_unfold es cx fuel st s :
  get_splitter_node es cx fuel st s =
  if mem_splitter st s then Ok (st, Some (NSplitter s)) else
  match (if disable_adv cx then None else get_splitter es s) with
  | None => Ok (st, None)
  | Some splits =>
    match fuel with
    | O => Err EOutOfFuel
    | S f =>
      match do_legs es cx (get_splitter_node es cx f) s (record_splitter st s []) splits with
      | Err e => Err e
      | Ok (st2, edges) => Ok (set_adv (record_splitter st2 s edges), Some (NSplitter s))
      end
    end
  end.
Proof. destruct fuel; reflexivity. Qed.

Section Asm.
  Variable es : list entry.
  Variable cx : ctx.
  Variable svc : string.

  Notation tn st := (to_nodes svc st None).
  Notation Orb := (Orbit es cx).
  Notation has_sp := (has_sp es cx).
  Notation Legs := (Legs es cx).
  Notation FailsAll := (FailsAll es cx).
  Notation fail_ok := (fail_ok es cx).
  Notation leg_edge := (leg_edge es cx).
  Notation sos_id := (sos_id es cx).
  Notation route_id := (route_id es cx svc).
  Notation root_ok := (root_ok es cx svc).

  Definition Closed_st (st : cstate) : Prop :=
    (forall s edges, assoc String.eqb s (s_splitters st) = Some edges -> forall e, In e edges -> key_in st (snd e)) /\
    (forall t n, assoc target_eqb t (s_resolvers st) = Some n ->
                 In t (s_retained st) /\ incl (rn_failover n) (s_retained st)) /\
    Final_memo es cx st.

  Definition Counted (ip : list string) (st : cstate) : Prop :=
    forall s edges, assoc String.eqb s (s_splitters st) = Some edges ->
      In s ip \/ exists l, get_splitter es s = Some l /\ List.length edges = List.length l.

  Definition RootReach (R : list nid) (st : cstate) : Prop :=
    forall k, key_in st k -> exists r, In r R /\ reachN (tn st) r k.

  (* the part of [Inv] below that the statement of C15_resolution_follows_walk is written with *)
  Definition AInv (ip : list string) (R : list nid) (st : cstate) : Prop :=
    Closed_st st /\ Counted ip st /\ RootReach R st.

  (* [ip]: the splitters whose legs are being built; [R]: the nodes handed back so far *)
  Record Inv (ip : list string) (R : list nid) (st : cstate) : Prop := {
    inv_closed : Closed_st st;
    inv_reach : RootReach R st;
    inv_legs : Legs ip st;
    inv_fails : FailsAll st;
    inv_keys : NDK st }.

  Lemma Legs_Counted ip st : Legs ip st -> Counted ip st.
  Proof.
    intros HL s edges Ha. destruct (HL _ _ Ha) as [_ [H|(legs & Hg & Hf)]]; [left; exact H|].
    right. exists legs. split; [exact Hg|]. symmetry. eapply Forall2_length'; eauto.
  Qed.

  Lemma Inv_mono ip R R' st : incl R R' -> Inv ip R st -> Inv ip R' st.
  Proof.
    intros Hi [A B C D E]. split; auto. intros k Hk. destruct (B k Hk) as (r & Hr & Hp). exists r; auto.
  Qed.

  Lemma same_graph_Closed st st' : same_graph st st' -> Closed_st st -> Closed_st st'.
  Proof.
    intros Hs (C1 & C2 & C3). pose proof Hs as (H1 & H2 & H3). split; [|split].
    - intros s edges Ha e He. rewrite H1 in Ha. apply (same_graph_key_in _ _ _ Hs). eapply C1; eauto.
    - intros t n Ha. rewrite H2 in Ha. destruct (C2 _ _ Ha) as [A B]. split; [auto | eapply incl_tran; eauto].
    - intros t Ht. apply C3. rewrite <- (mem_resolver_graph _ _ _ Hs). exact Ht.
  Qed.

  Lemma Inv_same_graph ip R st st' : same_graph st st' -> Inv ip R st -> Inv ip R st'.
  Proof.
    intros Hs [A B C D E]. pose proof Hs as (H1 & H2 & H3). split.
    - eapply same_graph_Closed; eauto.
    - intros k Hk. apply (same_graph_key_in _ _ _ Hs) in Hk. destruct (B k Hk) as (r & Hi & Hp).
      exists r. split; [exact Hi|]. rewrite (same_graph_nodes svc _ _ _ Hs). exact Hp.
    - intros s edges Ha. rewrite H1 in Ha. auto.
    - intros t Ht. apply D. rewrite <- (mem_resolver_graph _ _ _ Hs). exact Ht.
    - destruct E as [E1 E2]. unfold NDK. rewrite H1, H2. auto.
  Qed.

  Lemma Closed_record_resolver st t n :
    Closed_st st -> step cx (resolver_of es (t_svc t)) t = SFinal ->
    In t (s_retained st) -> incl (rn_failover n) (s_retained st) -> Closed_st (record_resolver st t n).
  Proof.
    intros (C1 & C2 & C3) Hf Ht Hn. split; [|split].
    - intros s edges Ha e He. apply key_in_record_resolver. left. eapply C1; eauto.
    - intros x m Ha. rewrite resolvers_record in Ha. destruct (target_eqb x t) eqn:E; [|eapply C2; eauto].
      apply target_eqb_eq in E; subst. injection Ha as <-. auto.
    - intros x Hx. apply (key_in_record_resolver st t n (NResolver x)) in Hx as [Hx|Hx]; [apply C3; exact Hx | congruence].
  Qed.

  Lemma Inv_record_resolver ip R st t n :
    Inv ip R st -> step cx (resolver_of es (t_svc t)) t = SFinal ->
    In t (s_retained st) -> incl (rn_failover n) (s_retained st) -> fail_ok t ->
    Inv ip (NResolver t :: R) (record_resolver st t n).
  Proof.
    intros [A B C D E] Hf Ht Hn Hfo. split.
    - apply Closed_record_resolver; auto.
    - intros k Hk. apply key_in_record_resolver in Hk as [Hk| ->].
      + destruct (B k Hk) as (r & Hi & Hp). exists r. split; [right; exact Hi|].
        eapply reachN_mono; [|exact Hp]. intros x y He. apply edge_to_nodes. apply edge_to_nodes in He. exact He.
      + exists (NResolver t). split; [left; reflexivity | constructor].
    - exact C.
    - intros x Hx. apply (key_in_record_resolver st t n (NResolver x)) in Hx as [Hx|Hx]; [apply D; exact Hx|].
      injection Hx as ->. exact Hfo.
    - apply NDK_record_resolver. exact E.
  Qed.

  (* getSplitterNode records an empty node for [s] before it builds the legs *)
  Lemma Inv_placeholder ip R st s :
    Inv ip R st -> mem_splitter st s = false -> has_sp s = true ->
    Inv (s :: ip) (NSplitter s :: R) (record_splitter st s []).
  Proof.
    intros [(C1 & C2 & C3) B C D E] Em Hsp. split.
    - split; [|split; [exact C2 | exact C3]].
      intros x edges Ha e He. rewrite splitters_record in Ha. destruct (x =? s).
      + injection Ha as <-. destruct He.
      + apply key_in_record_splitter. left. eapply C1; eauto.
    - intros k Hk. apply key_in_record_splitter in Hk as [Hk| ->].
      + destruct (B k Hk) as (r & Hi & Hp). exists r. split; [right; exact Hi|].
        eapply reachN_mono; [|exact Hp]. intros x y. apply le_state_edge. apply le_state_record_splitter. exact Em.
      + exists (NSplitter s). split; [left; reflexivity | constructor].
    - intros x edges Ha. rewrite splitters_record in Ha. destruct (x =? s) eqn:Ex.
      + apply String.eqb_eq in Ex; subst. split; [exact Hsp | left; left; reflexivity].
      + destruct (C _ _ Ha) as [Hx [Hi|Hl]]; split; auto. left; right; exact Hi.
    - exact D.
    - apply NDK_record_splitter. exact E.
  Qed.

  (* ... and overwrites it with the edges once they are built *)
  Lemma Inv_fill ip R st s legs edges :
    Inv (s :: ip) (map snd edges ++ NSplitter s :: R) st ->
    assoc String.eqb s (s_splitters st) = Some [] ->
    (forall e, In e edges -> key_in st (snd e)) ->
    get_splitter es s = Some legs -> has_sp s = true -> Forall2 (leg_edge s) legs edges ->
    Inv ip (NSplitter s :: R) (record_splitter st s edges).
  Proof.
    intros [(C1 & C2 & C3) B C D E] Hs K Hg Hsp HF. split.
    - split; [|split; [exact C2 | exact C3]].
      intros x edges0 Ha e He. apply key_in_record_splitter. left. rewrite splitters_record in Ha. destruct (x =? s).
      + injection Ha as <-. auto.
      + eapply C1; eauto.
    - (* the placeholder had no edges, so every old edge is still there *)
      assert (Hlift : forall a b, reachN (tn st) a b -> reachN (tn (record_splitter st s edges)) a b).
      { intros a b. apply reachN_mono. intros x y He. apply edge_to_nodes in He as (s0 & e0 & -> & Ha & Hb).
        apply edge_to_nodes. exists s0. rewrite splitters_record. destruct (s0 =? s) eqn:E0; [|eauto].
        apply String.eqb_eq in E0; subst. rewrite Hs in Ha. injection Ha as <-. destruct Hb. }
      intros k Hk. apply key_in_record_splitter in Hk.
      assert (Hk2 : key_in st k).
      { destruct Hk as [Hk| ->]; [exact Hk|]. apply mem_splitter_iff. eauto. }
      destruct (B k Hk2) as (r & Hi & Hp). apply Hlift in Hp. apply in_app_or in Hi as [Hi|Hi]; [|eauto].
      exists (NSplitter s). split; [left; reflexivity|]. eapply reach_step; [|exact Hp].
      apply edge_to_nodes. exists s, edges. rewrite splitters_record, String.eqb_refl. auto.
    - intros x edges0 Ha. rewrite splitters_record in Ha. destruct (x =? s) eqn:Ex.
      + apply String.eqb_eq in Ex; subst. injection Ha as <-. split; [exact Hsp|]. right. eauto.
      + destruct (C _ _ Ha) as [Hx [[Hi|Hi]|Hl]]; split; auto.
        apply String.eqb_neq in Ex. congruence.
    - exact D.
    - apply NDK_record_splitter. exact E.
  Qed.

  Lemma AInv_st0 : AInv [] [] st0.
  Proof.
    split; [split; [|split]|split].
    - intros s edges Ha. discriminate.
    - intros t n Ha. discriminate.
    - intros t Ht. discriminate.
    - intros s edges Ha. discriminate.
    - intros k Hk. destruct k; cbn in Hk; [destruct Hk | discriminate | discriminate].
  Qed.

  Lemma Inv_st0 : Inv [] [] st0.
  Proof.
    destruct AInv_st0 as (HC & _ & HR). split.
    - exact HC.
    - exact HR.
    - intros s edges Ha. discriminate.
    - intros t Ht. discriminate.
    - split; constructor.
  Qed.

  Lemma external_check_err r x e : external_check es r x = Some e -> user_err e.
  Proof.
    unfold external_check. destruct (get_defaults es (t_svc x)) as [[? [|]]|]; try discriminate.
    destruct (rs_redirect r); [intros E; injection E as <-; exact I|].
    destruct (rs_subsets r); [|intros E; injection E as <-; exact I].
    destruct (rs_failover r); [discriminate | intros E; injection E as <-; exact I].
  Qed.

  Lemma resolve_ff_total st t :
    Closed_st st ->
    Post (fun st' t' => same_graph st st' /\ In t' (s_retained st') /\ Orb t t') (resolve_ff es cx st t).
  Proof.
    intros (_ & C2 & C3). unfold resolve_ff. eapply Post_bind; [apply resolve_loop_total|].
    intros st1 [x|x r] [Ht Hres].
    - cbn [Post]. destruct Hres as [Hm Ho]. split; [exact Ht|]. split; [|auto].
      apply mem_resolver_iff in Hm as (n & Ea). destruct (C2 _ _ Ea) as [Hi _].
      destruct Ht as (_ & _ & Ht). auto.
    - destruct (external_check es r x) eqn:Ex; cbn [Post]; [eapply external_check_err; eauto|].
      split; [eapply same_graph_trans; [exact Ht | apply same_graph_retain]|].
      split; [apply retain_In | apply Hres].
  Qed.

  Lemma resolve_failovers_total : forall l st,
    Closed_st st ->
    Post (fun st' res => same_graph st st' /\ incl res (s_retained st') /\ Forall2 Orb l res)
         (resolve_failovers es cx st l).
  Proof.
    induction l as [|ft l IH]; intros st HC; cbn [resolve_failovers].
    - cbn [Post]. split; [apply same_graph_refl|]. split; [intros ? [] | constructor].
    - eapply Post_bind; [apply resolve_ff_total; exact HC|]. intros st1 t1 (G1 & Hi & Ho).
      eapply Post_bind; [apply IH; eapply same_graph_Closed; eauto|]. intros st2 ts (G2 & Hs & Hf). cbn [Post].
      split; [eapply same_graph_trans; eauto|]. split; [|constructor; auto].
      intros x [<-|Hx]; [|auto]. destruct G2 as (_ & _ & G2). auto.
  Qed.

  Lemma get_resolver_node_total ip R st t :
    Inv ip R st ->
    Post (fun st' t' => le_state st st' /\ Inv ip (NResolver t' :: R) st' /\ mem_resolver st' t' = true /\ Orb t t')
         (get_resolver_node es cx st t).
  Proof.
    intros HI. unfold get_resolver_node. eapply Post_bind; [apply resolve_loop_total|].
    intros st1 res [Ht Hres].
    assert (HI1 : Inv ip R st1) by (eapply Inv_same_graph; eauto).
    destruct res as [x|x r].
    - cbn [Post]. destruct Hres as [Hm Ho]. split; [apply same_graph_le; exact Ht|].
      split; [eapply Inv_mono; [|exact HI1]; apply incl_tl, incl_refl|].
      split; [rewrite (mem_resolver_graph _ _ _ Ht); exact Hm|]. apply Ho. apply HI.
    - destruct Hres as (Hm & -> & Ho).
      destruct (external_check es (resolver_of es (t_svc x)) x) eqn:Ex; cbn [Post]; [eapply external_check_err; eauto|].
      set (r := resolver_of es (t_svc x)).
      set (st2 := retain st1 x). set (st3 := record_resolver st2 x (RNode (is_default_resolver r) [])).
      assert (HI2 : Inv ip R st2) by (eapply Inv_same_graph; [apply same_graph_retain | exact HI1]).
      assert (Hfin : step cx r x = SFinal) by (eapply Orbit_final; eauto).
      assert (Hm1 : mem_resolver st1 x = false) by (rewrite (mem_resolver_graph _ _ _ Ht); exact Hm).
      (* the node is recorded, with no failover targets yet, before they are resolved (so the state
         handed to resolve_failovers is closed); the final overwrite still extends the INPUT state,
         because the target was not a member of it (Hm) *)
      eapply Post_bind.
      { apply (resolve_failovers_total _ st3).
        apply Closed_record_resolver; [apply HI2 | exact Hfin | apply retain_In | intros ? []]. }
      intros st4 fts (G4 & P4 & Hfo).
      assert (Hx : fail_ok x).
      { intros ft Hft. destruct (Forall2_In_l _ _ _ _ Hfo Hft) as (y & _ & Hy). eauto. }
      assert (HI4 : Inv ip (NResolver x :: R) st4).
      { eapply Inv_same_graph; [exact G4|]. apply Inv_record_resolver; auto; [apply retain_In | intros ? []]. }
      assert (L4 : le_state st st4).
      { eapply le_state_trans; [apply same_graph_le; exact Ht|].
        eapply le_state_trans; [|apply same_graph_le; exact G4].
        apply le_state_overwrite_resolver; [apply same_graph_le, same_graph_retain | exact Hm1]. }
      assert (Hm4 : mem_resolver st4 x = true).
      { rewrite (mem_resolver_graph _ _ _ G4). apply mem_resolver_iff. unfold st3.
        rewrite resolvers_record, target_eqb_refl. eauto. }
      destruct fts as [|f0 fts]; cbn [Post]; [auto|].
      split; [apply le_state_overwrite_resolver; [exact L4 | exact Hm]|]. split; [|split; [|exact Ho]].
      + eapply Inv_mono; [|apply Inv_record_resolver; [exact HI4 | exact Hfin | | exact P4 | exact Hx]].
        * intros k [<-|Hk]; [left; reflexivity | exact Hk].
        * destruct G4 as (_ & _ & G4). apply G4. apply retain_In.
      + apply mem_resolver_iff. rewrite resolvers_record, target_eqb_refl. eauto.
  Qed.

  (* the measure of getSplitterNode: the splitter names of the entries not yet recorded *)
  Definition snames : list string :=
    dedup String.eqb (flat_map (fun e => match e with ESplitter n _ => [n] | _ => [] end) es).

  Definition unrec (st : cstate) : list string := filter (fun n => negb (mem_splitter st n)) snames.

  Lemma snames_length : List.length snames <= List.length es.
  Proof.
    unfold snames. eapply Nat.le_trans; [apply dedup_length; apply String.eqb_eq|].
    eapply Nat.le_trans; [apply (flat_map_length_le _ 1)|lia]. intros [ | | | | ]; cbn; lia.
  Qed.

  Lemma get_splitter_snames s l : get_splitter es s = Some l -> In s snames.
  Proof.
    intros H. apply get_splitter_In in H. unfold snames. apply (dedup_In String.eqb String.eqb_eq).
    apply in_flat_map. eexists; split; [exact H|]. left; reflexivity.
  Qed.

  Lemma not_mem_splitter_le st st' y : le_state st st' -> negb (mem_splitter st' y) = true -> negb (mem_splitter st y) = true.
  Proof.
    intros (H1 & _) Hy. apply negb_true_iff in Hy. apply negb_true_iff.
    unfold mem_splitter in *. destruct (assoc String.eqb y (s_splitters st)) eqn:E; [|reflexivity].
    rewrite (H1 _ _ E) in Hy. discriminate.
  Qed.

  Lemma unrec_le st st' : le_state st st' -> List.length (unrec st') <= List.length (unrec st).
  Proof. intros L. apply filter_length_le. intros x. apply not_mem_splitter_le. exact L. Qed.

  Lemma unrec_record st s l e :
    get_splitter es s = Some l -> mem_splitter st s = false ->
    List.length (unrec (record_splitter st s e)) < List.length (unrec st).
  Proof.
    intros Hg Hm. apply (filter_length_lt _ _ _ s).
    - eapply get_splitter_snames; eauto.
    - rewrite Hm. reflexivity.
    - apply negb_false_iff. apply mem_splitter_iff. rewrite splitters_record, String.eqb_refl. eauto.
    - intros y. apply not_mem_splitter_le. apply le_state_record_splitter. exact Hm.
  Qed.

  Lemma unrec_bound st : List.length (unrec st) <= splitter_fuel es.
  Proof.
    unfold unrec, splitter_fuel. apply le_S. eapply Nat.le_trans; [|apply snames_length].
    induction snames as [|x l IH]; cbn [filter List.length]; [apply le_n|].
    destruct (negb (mem_splitter st x)); cbn [List.length]; [apply le_n_S | apply le_S]; exact IH.
  Qed.

  (* [f] bounds the number of splitter names not yet recorded: what the fuel has to cover *)
  Definition rec_total (ip : list string) (f : nat) (rec : cstate -> string -> cres (cstate * option nid)) : Prop :=
    forall R st s, Inv ip R st -> List.length (unrec st) <= f ->
      Post (fun st' r => le_state st st' /\
              Inv ip (match r with Some id => id :: R | None => R end) st' /\
              match r with
              | Some id => id = NSplitter s /\ has_sp s = true /\ key_in st' id
              | None => has_sp s = false
              end) (rec st s).

  Lemma do_legs_total ip rec self f : rec_total ip f rec -> forall l R st,
    Inv ip R st -> List.length (unrec st) <= f ->
    Post (fun st' edges => le_state st st' /\ Inv ip (map snd edges ++ R) st' /\
            (forall e, In e edges -> key_in st' (snd e)) /\ Forall2 (leg_edge self) l edges)
         (do_legs es cx rec self st l).
  Proof.
    intros Hrec. induction l as [|sp l IH]; intros R st HI Hlen; cbn [do_legs].
    - cbn [Post]. split; [apply le_state_refl|]. split; [exact HI|]. split; [intros ? [] | constructor].
    - change (default_if_empty (sp_svc sp) self) with (leg_target self sp).
      change (negb (leg_target self sp =? self) && (sp_sub sp =? "")) with (leg_eligible self sp).
      set (s := leg_target self sp).
      eapply Post_bind with (P := fun st1 r =>
        le_state st st1 /\ Inv ip (match r with Some id => id :: R | None => R end) st1 /\
        match r with
        | Some id => id = NSplitter s /\ key_in st1 id /\ leg_eligible self sp && has_sp s = true
        | None => leg_eligible self sp && has_sp s = false
        end).
      + destruct (leg_eligible self sp); [|cbn [Post]; split; [apply le_state_refl | split; [exact HI | reflexivity]]].
        eapply Post_weaken; [|apply (Hrec R st s HI Hlen)].
        intros st1 [id|] (L1 & HI1 & Hr); (split; [exact L1|]); (split; [exact HI1|]).
        * destruct Hr as (-> & -> & K). auto.
        * rewrite Hr. reflexivity.
      + intros st1 [id|] (L1 & HI1 & Hr).
        * destruct Hr as (-> & K1 & Hc).
          eapply Post_bind; [apply (IH _ _ HI1); pose proof (unrec_le _ _ L1); lia|].
          intros st2 edges (L2 & HI2 & K2 & HF). cbn [Post].
          split; [eapply le_state_trans; eauto|].
          split; [eapply Inv_mono; [|exact HI2]; cbn [map snd app]; apply incl_mid|].
          split; [intros e [<-|He]; [eapply le_state_key_in; eauto | auto]|].
          constructor; [|exact HF]. split; [reflexivity|]. fold s. rewrite Hc. reflexivity.
        * eapply Post_bind; [apply (get_resolver_node_total ip _ _ _ HI1)|]. intros st2 t' (L2 & HI2 & M2 & Ho).
          eapply Post_bind; [apply (IH _ _ HI2); pose proof (unrec_le _ _ L1); pose proof (unrec_le _ _ L2); lia|].
          intros st3 edges (L3 & HI3 & K3 & HF). cbn [Post].
          split; [eapply le_state_trans; [exact L1|]; eapply le_state_trans; eauto|].
          split; [eapply Inv_mono; [|exact HI3]; cbn [map snd app]; apply incl_mid|].
          split; [intros e [<-|He]; [eapply (le_state_key_in st2); eauto | auto]|].
          constructor; [|exact HF]. split; [reflexivity|]. fold s. rewrite Hr. exists t'. split; [reflexivity | exact Ho].
  Qed.

  Lemma get_splitter_node_total : forall fuel ip, rec_total ip fuel (get_splitter_node es cx fuel).
  Proof.
    induction fuel as [fuel IH] using lt_wf_ind. intros ip R st s HI Hlen. rewrite get_splitter_node_unfold.
    destruct (mem_splitter st s) eqn:Em.
    { cbn [Post]. split; [apply le_state_refl|]. split; [eapply Inv_mono; [|exact HI]; apply incl_tl, incl_refl|].
      split; [reflexivity|]. split; [|exact Em].
      apply mem_splitter_iff in Em as (e & Ea). apply (inv_legs _ _ _ HI _ _ Ea). }
    pose proof (has_sp_cases es cx s) as Hsp.
    destruct (if disable_adv cx then None else get_splitter es s) as [splits|].
    2:{ cbn [Post]. split; [apply le_state_refl|]. split; [exact HI | exact Hsp]. }
    destruct Hsp as [Hsp Eg]. pose proof (unrec_record st s splits [] Eg Em) as Hlt.
    (* a splitter that is not yet recorded is still counted by the measure *)
    destruct fuel as [|f]; [exfalso; lia|].
    eapply Post_bind.
    { apply (do_legs_total (s :: ip) _ s f (IH f (Nat.lt_succ_diag_r f) (s :: ip)) splits _ _ (Inv_placeholder ip R st s HI Em Hsp)). lia. }
    intros st2 edges (L2 & HI2 & K2 & HF). cbn [Post].
    assert (Hs2 : assoc String.eqb s (s_splitters st2) = Some []).
    { destruct L2 as (A & _). apply A. rewrite splitters_record, String.eqb_refl. reflexivity. }
    split; [|split; [|split; [reflexivity | split; [exact Hsp|]]]].
    - eapply le_state_trans; [|apply same_graph_le, same_graph_set_adv]. apply le_state_overwrite_splitter; [|exact Em].
      eapply le_state_trans; [apply le_state_record_splitter; exact Em | exact L2].
    - eapply Inv_same_graph; [apply same_graph_set_adv|]. eapply Inv_fill; eauto.
    - apply (same_graph_key_in (record_splitter st2 s edges)); [apply same_graph_set_adv|].
      apply key_in_record_splitter. right; reflexivity.
  Qed.

  Lemma get_split_or_resolve_total ip R st s :
    Inv ip R st ->
    Post (fun st' id => le_state st st' /\ Inv ip (id :: R) st' /\ key_in st' id /\ sos_id s id)
         (get_split_or_resolve es cx st (new_target cx s "")).
  Proof.
    intros HI. unfold get_split_or_resolve. cbn [new_target t_svc].
    eapply Post_bind; [apply (get_splitter_node_total _ ip R st s HI (unrec_bound st))|].
    intros st1 [id|] (L1 & HI1 & Hr).
    - cbn [Post]. destruct Hr as (-> & Hsp & K). unfold Complete.sos_id. rewrite Hsp. auto.
    - eapply Post_bind; [apply (get_resolver_node_total ip R st1 _ HI1)|]. intros st2 t' (L2 & HI2 & M2 & Ho). cbn [Post].
      split; [eapply le_state_trans; eauto|]. split; [exact HI2|]. split; [exact M2|].
      unfold Complete.sos_id. rewrite Hr. exists t'. split; [reflexivity | exact Ho].
  Qed.

  Lemma do_routes_total ip : forall l R st,
    Inv ip R st ->
    Post (fun st' ids => le_state st st' /\ Inv ip (ids ++ R) st' /\
            (forall id, In id ids -> key_in st' id) /\ Forall2 route_id l ids)
         (do_routes es cx svc st l).
  Proof.
    induction l as [|r l IH]; intros R st HI; cbn [do_routes].
    - cbn [Post]. split; [apply le_state_refl|]. split; [exact HI|]. split; [intros ? [] | constructor].
    - set (s := default_if_empty (rt_svc r) svc).
      eapply Post_bind with (P := fun st1 id => le_state st st1 /\ Inv ip (id :: R) st1 /\ key_in st1 id /\ route_id r id).
      + unfold Complete.route_id; cbn zeta; fold s. destruct (rt_sub r =? ""); [apply get_split_or_resolve_total; exact HI|].
        eapply Post_bind; [apply (get_resolver_node_total ip R st _ HI)|]. intros st1 t' (L1 & HI1 & M1 & Ho). cbn [Post].
        split; [exact L1|]. split; [exact HI1|]. split; [exact M1|]. exists t'. split; [reflexivity | exact Ho].
      + intros st1 id (L1 & HI1 & K1 & Hid). eapply Post_bind; [apply (IH _ _ HI1)|].
        intros st2 ids (L2 & HI2 & K2 & HF). cbn [Post].
        split; [eapply le_state_trans; eauto|]. split; [eapply Inv_mono; [|exact HI2]; apply incl_mid|].
        split; [intros x [<-|Hx]; [eapply le_state_key_in; eauto | auto] | constructor; auto].
  Qed.

  Lemma closed_tn st a b : Closed_st st -> edge (tn st) a b -> key_in st b.
  Proof.
    intros (C1 & _) He. apply edge_to_nodes in He as (s & edges & -> & Ha & Hb).
    apply in_map_iff in Hb as (e & <- & He). eapply C1; eauto.
  Qed.

  Record Assembled (st : cstate) (start : nid) (router : option (list nid)) : Prop := {
    asm_closed : closed (to_nodes svc st router);
    asm_start : lookup start (to_nodes svc st router) <> None;
    asm_reach : forall k, lookup k (to_nodes svc st router) <> None -> reachN (to_nodes svc st router) start k;
    asm_state : Closed_st st;
    asm_legs : Legs [] st;
    asm_fails : FailsAll st;
    asm_keys : NDK st;
    asm_root : root_ok start router;
    asm_ids : match router with
              | Some l => l <> [] /\ start = NRouter svc /\ forall id, In id l -> key_in st id
              | None => key_in st start
              end }.

  Lemma Assembled_plain st id : Inv [] [id] st -> key_in st id -> root_ok id None -> Assembled st id None.
  Proof.
    intros [A B C D E] K Hr. split; auto.
    - intros a b He. apply key_in_present. eapply closed_tn; eauto.
    - apply key_in_present. exact K.
    - intros k Hk. apply (key_in_lookup svc) in Hk. destruct (B k Hk) as (r & [<-|[]] & Hp). exact Hp.
  Qed.

  Lemma Assembled_router st l :
    Inv [] l st -> l <> [] -> (forall id, In id l -> key_in st id) -> root_ok (NRouter svc) (Some l) ->
    Assembled st (NRouter svc) (Some l).
  Proof.
    intros [A B C D E] Hne K Hr. split; auto.
    - intros a b He. apply edge_router in He as [[_ Hb]|He]; apply key_in_present; [apply K; exact Hb | eapply closed_tn; eauto].
    - rewrite lookup_to_nodes, String.eqb_refl. discriminate.
    - intros k Hk. apply present_cases in Hk as [->|Hk]; [constructor|]. destruct (B k Hk) as (r & Hi & Hp).
      eapply reach_step; [apply edge_router; left; split; [reflexivity | exact Hi]|].
      eapply reachN_mono; [|exact Hp]. intros x y He. apply edge_router. right. exact He.
  Qed.

  Theorem assemble_total :
    match assemble es cx svc with
    | Ok (st, start, router) => Assembled st start router
    | Err e => user_err e
    end.
  Proof.
    change (Post (fun p router => let '(st, start) := p in Assembled st start router) (assemble es cx svc)).
    unfold assemble. destruct (if disable_adv cx then None else get_router es svc) as [routes|] eqn:Er.
    - destruct (record_protocol es (set_adv st0) svc) as [st1|e] eqn:Ep; [|apply record_protocol_err in Ep; subst; exact I].
      assert (HI1 : Inv [] [] st1).
      { eapply Inv_same_graph; [eapply record_protocol_graph; eauto|].
        eapply Inv_same_graph; [apply same_graph_set_adv | apply Inv_st0]. }
      eapply Post_bind; [apply (do_routes_total [] routes [] st1 HI1)|]. intros st2 ids (L2 & HI2 & K2 & HF).
      eapply Post_bind; [apply (get_split_or_resolve_total [] _ st2 svc HI2)|]. intros st3 d (L3 & HI3 & K3 & Hd). cbn [Post].
      apply Assembled_router.
      + eapply Inv_mono; [|exact HI3]. rewrite app_nil_r. intros x [<-|Hx]; apply in_or_app; [right; left; reflexivity | left; exact Hx].
      + destruct ids; discriminate.
      + intros id Hi. apply in_app_or in Hi as [Hi|[<-|[]]]; [eapply le_state_key_in; eauto | exact K3].
      + unfold Complete.root_ok. rewrite Er. exists ids, d. auto.
    - eapply Post_bind; [apply (get_split_or_resolve_total [] [] st0 svc Inv_st0)|]. intros st1 id (L1 & HI1 & K1 & Hid). cbn [Post].
      apply Assembled_plain; auto. unfold Complete.root_ok. rewrite Er. exact Hid.
  Qed.

  Theorem assemble_spec st start router : assemble es cx svc = Ok (st, start, router) -> Assembled st start router.
  Proof. intros H. pose proof assemble_total as T. rewrite H in T. exact T. Qed.

  Theorem assemble_user_err e : assemble es cx svc = Err e -> user_err e.
  Proof. intros H. pose proof assemble_total as T. rewrite H in T. exact T. Qed.

  Theorem assemble_no_fuel : assemble es cx svc <> Err EOutOfFuel.
  Proof. intros H. apply assemble_user_err in H. exact H. Qed.
End Asm.
