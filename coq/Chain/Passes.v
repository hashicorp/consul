(* C15 — the passes over c.nodes: detectCircularReferences, flattenAdjacentSplitterNodes,
   removeUnusedNodes.  Everything here is about an arbitrary node table. *)
From Verif Require Import Base.Prelude.
From Verif Require Import Chain.Model.
From Verif Require Import Chain.Lemmas.
Local Open Scope string_scope.
Local Open Scope list_scope.

Notation lookup := (assoc nid_eqb).

Definition edge (ns : nodes) (a b : nid) : Prop :=
  exists nd, lookup a ns = Some nd /\ In b (children nd).

Inductive reachN (ns : nodes) : nid -> nid -> Prop :=
| reach_refl a : reachN ns a a
| reach_step a b c : edge ns a b -> reachN ns b c -> reachN ns a c.

Definition closed (ns : nodes) : Prop := forall a b, edge ns a b -> lookup b ns <> None.

Definition Ranked (r : nid -> nat) (ns : nodes) : Prop := forall a b, edge ns a b -> r b < r a.

Lemma reachN_trans ns a b c : reachN ns a b -> reachN ns b c -> reachN ns a c.
Proof. induction 1; auto. intros. econstructor; eauto. Qed.

Lemma reachN_edge ns a b : edge ns a b -> reachN ns a b.
Proof. intros. econstructor; eauto. constructor. Qed.

Lemma Ranked_reach r ns a b : Ranked r ns -> reachN ns a b -> r b <= r a.
Proof. intros HR H. induction H; [lia|]. apply HR in H. lia. Qed.

Lemma Ranked_acyclic r ns a b : Ranked r ns -> edge ns a b -> reachN ns b a -> False.
Proof. intros HR He Hr. apply HR in He. apply (Ranked_reach r) in Hr; auto. lia. Qed.

Lemma first_bad_ok f l : first_bad f l = DOk <-> forall c, In c l -> f c = DOk.
Proof.
  induction l as [|c l IH]; cbn [first_bad In]; [tauto|].
  destruct (f c) eqn:E; [rewrite IH; split; intros H x; [intros [<-|Hx]; auto | intros Hx; apply H; auto]|..].
  all: split; [discriminate | intros H; specialize (H c (or_introl eq_refl)); congruence].
Qed.

Lemma first_bad_bad f l r : first_bad f l = r -> r <> DOk -> exists c, In c l /\ f c = r.
Proof.
  induction l as [|c l IH]; cbn [first_bad]; [congruence|].
  destruct (f c) eqn:E; intros H Hr; [|exists c; split; [left|]; congruence ..].
  destruct (IH H Hr) as (x & Hx & Hfx). exists x; split; [right|]; auto.
Qed.

(* the longest walk below n, cut at depth f; once detect has succeeded with f it does not grow with
   f (detect_height_stable) and strictly decreases along edges (detect_ranked) *)
Fixpoint height (f : nat) (ns : nodes) (n : nid) : nat :=
  match lookup n ns with
  | None => 0
  | Some nd =>
    match f with
    | O => 0
    | S f' => match children nd with [] => 0 | cs => S (list_max (map (height f' ns) cs)) end
    end
  end.

Lemma height_le f ns n : height f ns n <= f.
Proof.
  revert n; induction f as [|f IH]; intros n; cbn [height]; destruct (lookup n ns) as [nd|]; try lia.
  destruct (children nd) as [|c cs]; [lia|].
  apply le_n_S. apply list_max_le. apply Forall_forall. intros x Hx.
  apply in_map_iff in Hx as (y & <- & _). apply IH.
Qed.

Lemma list_max_In_le {A} (f : A -> nat) l x : In x l -> f x <= list_max (map f l).
Proof.
  intros H. assert (Hm : list_max (map f l) <= list_max (map f l)) by lia.
  apply list_max_le in Hm. rewrite Forall_forall in Hm. apply Hm. apply in_map. exact H.
Qed.

Lemma detect_unfold f ns vis n :
  detect f ns vis n =
  if memb nid_eqb n vis then DCycle else
  match lookup n ns with
  | None => DMissing
  | Some nd =>
    match f with
    | O => match children nd with [] => DOk | _ => DFuel end
    | S f' => first_bad (detect f' ns (n :: vis)) (children nd)
    end
  end.
Proof. destruct f; reflexivity. Qed.

Lemma detect_ok ns f vis n : detect f ns vis n = DOk ->
  exists nd, lookup n ns = Some nd /\
    match f with
    | O => children nd = []
    | S f' => forall c, In c (children nd) -> detect f' ns (n :: vis) c = DOk
    end.
Proof.
  destruct f; cbn [detect]; (destruct (memb nid_eqb n vis); [discriminate|]);
    (destruct (lookup n ns) as [nd|]; [|discriminate]); intros H; exists nd; (split; [reflexivity|]).
  - destruct (children nd); [reflexivity | discriminate].
  - apply first_bad_ok. exact H.
Qed.

Lemma detect_height_stable ns : forall f vis n,
  detect f ns vis n = DOk -> forall f', f <= f' -> height f' ns n = height f ns n.
Proof.
  induction f as [|f IH]; intros vis n H f' Hf'; apply detect_ok in H as (nd & Hl & Hc).
  - destruct f'; cbn [height]; rewrite Hl; [reflexivity|]. rewrite Hc. reflexivity.
  - destruct f' as [|f']; [lia|]. cbn [height]. rewrite Hl.
    destruct (children nd) as [|c cs]; [reflexivity|].
    do 2 f_equal. apply map_ext_in. intros x Hx. eapply IH; [apply Hc; exact Hx | lia].
Qed.

Lemma detect_desc ns : forall f vis n, detect f ns vis n = DOk ->
  forall m, reachN ns n m -> exists fm vm, fm <= f /\ detect fm ns vm m = DOk.
Proof.
  induction f as [|f IH]; intros vis n H m Hr;
    (destruct Hr as [a | a b c (nd & Hl & Hc) Hr]; [eexists; exists vis; split; [apply le_n | exact H]|]);
    apply detect_ok in H as (nd' & Hl' & Hk); rewrite Hl in Hl'; injection Hl' as <-.
  - rewrite Hk in Hc. destruct Hc.
  - destruct (IH _ _ (Hk b Hc) c Hr) as (fm & vm & Hle & Hd). exists fm, vm. split; [lia | exact Hd].
Qed.

Lemma detect_ranked ns F vis start : detect F ns vis start = DOk ->
  forall a b, reachN ns start a -> edge ns a b -> height F ns b < height F ns a.
Proof.
  intros H a b Hr (nd & Hl & Hc).
  destruct (detect_desc ns F vis start H a Hr) as (fa & va & Hle & Hd).
  assert (Hsa := detect_height_stable ns fa va a Hd F Hle).
  apply detect_ok in Hd as (nd' & Hl' & Hk). rewrite Hl in Hl'. injection Hl' as <-.
  destruct fa as [|fa]; [rewrite Hk in Hc; destruct Hc|].
  assert (Hsb := detect_height_stable ns fa (a :: va) b (Hk b Hc) F ltac:(lia)).
  rewrite Hsa, Hsb. cbn [height]. rewrite Hl.
  destruct (children nd) as [|c cs] eqn:Ec; [destruct Hc|].
  apply le_n_S. rewrite <- Ec in *. apply (list_max_In_le (height fa ns)). exact Hc.
Qed.

(* the depth bound: the current path has no repetition and lies inside the table *)
Lemma detect_no_fuel ns : forall f vis n,
  NoDup vis -> incl vis (map fst ns) -> List.length ns <= List.length vis + f ->
  detect f ns vis n <> DFuel.
Proof.
  induction f as [f IH] using lt_wf_ind. intros vis n Hnd Hin Hlen. rewrite detect_unfold.
  destruct (memb nid_eqb n vis) eqn:Em; [discriminate|].
  destruct (lookup n ns) as [nd|] eqn:El; [|discriminate].
  apply (memb_not_In nid_eqb nid_eqb_eq) in Em.
  assert (Hn : NoDup (n :: vis)) by (constructor; auto).
  assert (Hi : incl (n :: vis) (map fst ns)).
  { intros x [<-|Hx]; [eapply assoc_Some_key; eauto using nid_eqb_eq | auto]. }
  destruct f as [|f].
  - destruct (children nd); [discriminate|]. exfalso.
    apply NoDup_incl_length in Hi; auto. cbn [List.length] in Hi. rewrite map_length in Hi. lia.
  - intros Hb. apply first_bad_bad in Hb as (c & Hc & Hd); [|discriminate].
    apply (IH f (Nat.lt_succ_diag_r f) (n :: vis) c); auto. cbn [List.length]. lia.
Qed.

Lemma detect_no_missing ns : closed ns -> forall f vis n,
  lookup n ns <> None -> detect f ns vis n <> DMissing.
Proof.
  intros Hc. induction f as [f IH] using lt_wf_ind. intros vis n Hn. rewrite detect_unfold.
  destruct (memb nid_eqb n vis); [discriminate|].
  destruct (lookup n ns) as [nd|] eqn:El; [|congruence].
  destruct f as [|f]; [destruct (children nd); discriminate|].
  intros Hb. apply first_bad_bad in Hb as (c & Hcc & Hd); [|discriminate].
  apply (IH f (Nat.lt_succ_diag_r f) (n :: vis) c); auto. apply (Hc n c). exists nd; auto.
Qed.

Lemma ranked_from (r : nid -> nat) ns s :
  (forall x y, reachN ns s x -> edge ns x y -> r y < r x) ->
  forall x y, reachN ns s x -> reachN ns x y -> r y <= r x.
Proof.
  intros HR x y Hx Hxy. induction Hxy as [|x x' y He Hr IH]; [lia|].
  assert (reachN ns s x') by (eapply reachN_trans; [exact Hx | apply reachN_edge; exact He]).
  specialize (HR x x' Hx He). specialize (IH H). lia.
Qed.

Lemma detect_cycle ns F vis start a b :
  reachN ns start a -> edge ns a b -> reachN ns b a -> detect F ns vis start <> DOk.
Proof.
  intros Hr He Hb H.
  assert (HR : forall x y, reachN ns start x -> edge ns x y -> height F ns y < height F ns x)
    by (intros; eapply detect_ranked; eauto).
  assert (H1 := HR a b Hr He).
  assert (H2 : reachN ns start b) by (eapply reachN_trans; [exact Hr | apply reachN_edge; exact He]).
  assert (H3 := ranked_from _ ns start HR b a H2 Hb). lia.
Qed.

Definition is_splitter (ns : nodes) (k : nid) : bool :=
  match lookup k ns with Some (SplitterN _) => true | _ => false end.

Lemma lookup_upsert k k' (nd : node) ns : lookup k' (upsert nid_eqb k nd ns) = if nid_eqb k' k then Some nd else lookup k' ns.
Proof. apply assoc_upsert. exact nid_eqb_eq. Qed.

Lemma is_splitter_upsert ns k edges edges' x :
  lookup k ns = Some (SplitterN edges) ->
  is_splitter (upsert nid_eqb k (SplitterN edges') ns) x = is_splitter ns x.
Proof.
  intros Hl. unfold is_splitter. rewrite lookup_upsert. destruct (nid_eqb x k) eqn:E; [|reflexivity].
  apply nid_eqb_eq in E; subst. rewrite Hl. reflexivity.
Qed.

Lemma inline1_spec ns e :
  (exists inner, lookup (snd e) ns = Some (SplitterN inner) /\
                 inline1 ns e = (map (fun e2 => (wmul (fst e) (fst e2), snd e2)) inner, true))
  \/ (is_splitter ns (snd e) = false /\ inline1 ns e = ([e], false)).
Proof.
  unfold inline1, is_splitter. destruct (lookup (snd e) ns) as [[l|l|d fo]|]; eauto.
Qed.

Lemma inline1_snd ns e : snd (inline1 ns e) = is_splitter ns (snd e).
Proof. unfold inline1, is_splitter. destruct (lookup (snd e) ns) as [[l|l|d fo]|]; reflexivity. Qed.

Lemma inline_fst ns l : fst (inline ns l) = flat_map (fun e => fst (inline1 ns e)) l.
Proof.
  induction l as [|e l IH]; cbn [inline flat_map]; [reflexivity|].
  destruct (inline1 ns e) as [a c1]. destruct (inline ns l) as [b c2]. cbn [fst] in *. rewrite IH. reflexivity.
Qed.

Lemma inline_snd ns l : snd (inline ns l) = existsb (fun e => is_splitter ns (snd e)) l.
Proof.
  induction l as [|e l IH]; cbn [inline existsb]; [reflexivity|]. rewrite <- inline1_snd, <- IH.
  destruct (inline1 ns e) as [a c1]. destruct (inline ns l) as [b c2]. reflexivity.
Qed.

Lemma inline_In ns l e' : In e' (fst (inline ns l)) ->
  (In e' l /\ is_splitter ns (snd e') = false)
  \/ (exists e inner e2, In e l /\ lookup (snd e) ns = Some (SplitterN inner) /\ In e2 inner /\
                         e' = (wmul (fst e) (fst e2), snd e2)).
Proof.
  rewrite inline_fst. intros H. apply in_flat_map in H as (e & He & Hi).
  destruct (inline1_spec ns e) as [(inner & Hl & Hs)|(Hn & Hs)]; rewrite Hs in Hi; cbn [fst] in Hi.
  - apply in_map_iff in Hi as (e2 & <- & He2). right. exists e, inner, e2. auto.
  - destruct Hi as [<-|[]]. left. auto.
Qed.

Lemma inline_unchanged ns l : snd (inline ns l) = false -> fst (inline ns l) = l /\ forall e, In e l -> is_splitter ns (snd e) = false.
Proof.
  rewrite inline_snd, inline_fst. intros H.
  assert (Hall : forall e, In e l -> is_splitter ns (snd e) = false).
  { intros e He. destruct (is_splitter ns (snd e)) eqn:E; [|reflexivity].
    rewrite <- H. symmetry. apply existsb_exists. eauto. }
  split; [|exact Hall]. clear H. induction l as [|e l IH]; cbn [flat_map]; [reflexivity|].
  destruct (inline1_spec ns e) as [(inner & Hl & _)|(_ & ->)].
  - specialize (Hall e (or_introl eq_refl)). unfold is_splitter in Hall. rewrite Hl in Hall. discriminate.
  - cbn [fst app]. f_equal. apply IH. intros x Hx. apply Hall. right. exact Hx.
Qed.

Lemma inline_nonempty ns l :
  l <> [] -> (forall k e, lookup k ns = Some (SplitterN e) -> e <> []) -> fst (inline ns l) <> [].
Proof.
  rewrite inline_fst. destruct l as [|e l]; [congruence|]. intros _ Hne. cbn [flat_map].
  destruct (inline1_spec ns e) as [(inner & Hl & ->)|(_ & ->)]; cbn [fst]; [|discriminate].
  apply Hne in Hl. destruct inner; [congruence | discriminate].
Qed.

Definition Pres (P : nodes -> Prop) : Prop :=
  forall ns k edges, P ns -> lookup k ns = Some (SplitterN edges) ->
    P (upsert nid_eqb k (SplitterN (fst (inline ns edges))) ns).

Lemma flatten_pass_cons ns k o :
  flatten_pass ns (k :: o) =
  match lookup k ns with
  | Some (SplitterN e) =>
      if snd (inline ns e) then (fst (flatten_pass (upsert nid_eqb k (SplitterN (fst (inline ns e))) ns) o), true)
      else flatten_pass ns o
  | _ => flatten_pass ns o
  end.
Proof.
  cbn [flatten_pass]. destruct (lookup k ns) as [[l|e|d fo]|]; try reflexivity. destruct (inline ns e); reflexivity.
Qed.

Lemma flatten_pass_skip ns k o :
  (forall e, lookup k ns = Some (SplitterN e) -> snd (inline ns e) = false) -> flatten_pass ns (k :: o) = flatten_pass ns o.
Proof.
  intros H. rewrite flatten_pass_cons. destruct (lookup k ns) as [[l|e|d fo]|]; try reflexivity.
  rewrite (H e eq_refl). reflexivity.
Qed.

Lemma flatten_S f ords ns :
  flatten (S f) ords ns =
  let p := flatten_pass ns (eff_order (hd [] ords) ns) in
  if snd p then flatten f (tl ords) (fst p) else Some (fst p).
Proof. cbn [flatten]. destruct (flatten_pass ns (eff_order (hd [] ords) ns)); reflexivity. Qed.

Lemma flatten_pass_pres P : Pres P -> forall order ns, P ns -> P (fst (flatten_pass ns order)).
Proof.
  intros HP. induction order as [|k order IH]; intros ns H; [exact H|]. rewrite flatten_pass_cons.
  destruct (lookup k ns) as [[l|edges|d fo]|] eqn:El; auto.
  destruct (snd (inline ns edges)); [|auto]. cbn [fst]. apply IH. apply HP; auto.
Qed.

Lemma flatten_pres P : Pres P -> forall fuel ords ns ns', P ns -> flatten fuel ords ns = Some ns' -> P ns'.
Proof.
  intros HP. induction fuel as [|f IH]; intros ords ns ns' H; [discriminate|]. rewrite flatten_S. cbn zeta.
  pose proof (flatten_pass_pres P HP (eff_order (hd [] ords) ns) ns H) as H1.
  destruct (snd (flatten_pass ns (eff_order (hd [] ords) ns))); [apply IH; exact H1 | intros E; injection E as <-; exact H1].
Qed.

Lemma edge_upsert ns k edges edges' a b :
  lookup k ns = Some (SplitterN edges) ->
  edge (upsert nid_eqb k (SplitterN edges') ns) a b ->
  (a <> k /\ edge ns a b) \/ (a = k /\ In b (map snd edges')).
Proof.
  intros Hl (nd & Hn & Hc). rewrite lookup_upsert in Hn. destruct (nid_eqb a k) eqn:E.
  - apply nid_eqb_eq in E; subst. injection Hn as <-. right; auto.
  - apply nid_eqb_neq in E. left; split; auto. exists nd; auto.
Qed.

Lemma inline_edge ns k edges b :
  lookup k ns = Some (SplitterN edges) -> In b (map snd (fst (inline ns edges))) ->
  (edge ns k b /\ is_splitter ns b = false) \/ exists s, edge ns k s /\ edge ns s b /\ is_splitter ns s = true.
Proof.
  intros Hl Hb. apply in_map_iff in Hb as (e' & <- & He').
  apply inline_In in He' as [[H1 H2]|(e & inner & e2 & H1 & H2 & H3 & ->)].
  - left. split; auto. exists (SplitterN edges); split; auto. cbn [children]. apply in_map; auto.
  - right. exists (snd e). split; [|split].
    + exists (SplitterN edges); split; auto. cbn [children]. apply in_map; auto.
    + exists (SplitterN inner); split; auto. cbn [children snd]. apply in_map; auto.
    + unfold is_splitter. rewrite H2. reflexivity.
Qed.

Lemma Pres_Ranked r : Pres (Ranked r).
Proof.
  intros ns k edges HR Hl a b He. apply (edge_upsert _ _ _ _ _ _ Hl) in He as [[Hn He]|[-> Hb]]; auto.
  apply (inline_edge _ _ _ _ Hl) in Hb as [[H _]|(s & H1 & H2 & _)]; auto.
  apply HR in H1. apply HR in H2. lia.
Qed.

Lemma Pres_closed : Pres closed.
Proof.
  intros ns k edges HC Hl a b He.
  assert (Hb : lookup b ns <> None).
  { apply (edge_upsert _ _ _ _ _ _ Hl) in He as [[Hn He]|[-> Hb]]; [eapply HC; eauto|].
    apply (inline_edge _ _ _ _ Hl) in Hb as [[H _]|(s & H1 & H2 & _)]; eapply HC; eauto. }
  rewrite lookup_upsert. destruct (nid_eqb b k); congruence.
Qed.

Definition nonempty_nodes (ns : nodes) : Prop :=
  forall k nd, lookup k ns = Some nd -> match nd with ResolverN _ _ => True | _ => children nd <> [] end.

Lemma nonempty_splitter ns k e : nonempty_nodes ns -> lookup k ns = Some (SplitterN e) -> e <> [].
Proof. intros H Hl. specialize (H k _ Hl). cbn [children] in H. intros ->. apply H. reflexivity. Qed.

Lemma Pres_nonempty : Pres nonempty_nodes.
Proof.
  intros ns k edges H Hl x nd Hx. rewrite lookup_upsert in Hx. destruct (nid_eqb x k); [|eapply H; eauto].
  injection Hx as <-. cbn [children].
  assert (Hne : fst (inline ns edges) <> []).
  { apply inline_nonempty; [eapply nonempty_splitter; eauto|]. intros k0 e He. eapply nonempty_splitter; eauto. }
  destruct (fst (inline ns edges)); [congruence | discriminate].
Qed.

Lemma Pres_is_splitter ns0 : Pres (fun ns => forall a, is_splitter ns a = is_splitter ns0 a).
Proof.
  intros ns k edges H Hl. cbn beta. intros a. rewrite (is_splitter_upsert _ _ _ _ _ Hl). apply H.
Qed.

Lemma Pres_keys (ns0 : nodes) : Pres (fun ns : nodes => map fst ns = map fst ns0).
Proof.
  intros ns k edges H Hl. cbn beta. rewrite (upsert_keys_in nid_eqb nid_eqb_eq k _ _ ns Hl). exact H.
Qed.

(* b is a leg of splitter a and itself a splitter: what a flatten pass inlines *)
Definition schild (ns : nodes) (a b : nid) : Prop :=
  exists edges, lookup a ns = Some (SplitterN edges) /\ In b (map snd edges) /\ is_splitter ns b = true.

(* every splitter leg of a has rank below K: the measure of the flatten loop *)
Definition BndAt (r : nid -> nat) (K : nat) (ns : nodes) (a : nid) : Prop := forall b, schild ns a b -> r b < K.

Lemma schild_upsert_other ns k edges edges' a b :
  lookup k ns = Some (SplitterN edges) -> a <> k ->
  (schild (upsert nid_eqb k (SplitterN edges') ns) a b <-> schild ns a b).
Proof.
  intros Hl Hn. unfold schild. rewrite (is_splitter_upsert _ _ _ _ _ Hl), lookup_upsert.
  apply nid_eqb_neq in Hn. rewrite Hn. tauto.
Qed.

Lemma inline_snd_schild ns k e :
  lookup k ns = Some (SplitterN e) -> (snd (inline ns e) = true <-> exists b, schild ns k b).
Proof.
  intros Hl. rewrite inline_snd, existsb_exists. split.
  - intros (x & Hx & Hs). exists (snd x), e. split; [exact Hl|]. split; [apply in_map; exact Hx | exact Hs].
  - intros (b & e0 & He & Hb & Hs). rewrite Hl in He. injection He as <-.
    apply in_map_iff in Hb as (x & <- & Hx). eauto.
Qed.

Lemma schild_inlined r K ns k edges :
  Ranked r ns -> BndAt r (S K) ns k -> lookup k ns = Some (SplitterN edges) ->
  BndAt r K (upsert nid_eqb k (SplitterN (fst (inline ns edges))) ns) k.
Proof.
  intros HR HS El b (e & He & Hb & Hs). rewrite lookup_upsert, nid_eqb_refl in He. injection He as <-.
  rewrite (is_splitter_upsert _ _ _ _ _ El) in Hs.
  apply (inline_edge _ _ _ _ El) in Hb as [[_ Hb]|(s & H1 & H2 & H3)]; [congruence|].
  assert (r s < S K).
  { apply HS. exists edges. destruct H1 as (nd & Hn & Hc). rewrite El in Hn. injection Hn as <-. auto. }
  apply HR in H2. lia.
Qed.

Lemma pass_bnd r K : forall order ns,
  Ranked r ns -> (forall a, BndAt r (S K) ns a) -> (forall a, In a order \/ BndAt r K ns a) ->
  forall a, BndAt r K (fst (flatten_pass ns order)) a.
Proof.
  induction order as [|k order IH]; intros ns HR HS HK.
  - intros a. destruct (HK a) as [[]|H]; exact H.
  - rewrite flatten_pass_cons.
    assert (Hskip : (forall b, ~ schild ns k b) -> forall a, BndAt r K (fst (flatten_pass ns order)) a).
    { intros Hno. apply IH; auto. intros a. destruct (HK a) as [[<-|H]|H]; auto.
      right. intros b Hb. destruct (Hno b Hb). }
    destruct (lookup k ns) as [[l|edges|d fo]|] eqn:El;
      try (apply Hskip; intros b (e & He & _); congruence).
    destruct (snd (inline ns edges)) eqn:Ei.
    + cbn [fst]. pose proof (schild_inlined r K ns k edges HR (HS k) El) as Hk. apply IH.
      * apply Pres_Ranked; auto.
      * intros a. destruct (nid_eqb a k) eqn:E.
        -- apply nid_eqb_eq in E; subst a. intros b Hb. specialize (Hk b Hb). lia.
        -- apply nid_eqb_neq in E. intros b Hb. apply (schild_upsert_other _ _ _ _ _ _ El E) in Hb. apply (HS a); auto.
      * intros a. destruct (nid_eqb a k) eqn:E.
        -- apply nid_eqb_eq in E; subst a. right. exact Hk.
        -- apply nid_eqb_neq in E. destruct (HK a) as [[->|H]|H]; [congruence | auto |].
           right. intros b Hb. apply (schild_upsert_other _ _ _ _ _ _ El E) in Hb. apply H; auto.
    + apply Hskip. intros b Hb. assert (Hc : snd (inline ns edges) = true) by (apply (inline_snd_schild _ _ _ El); eauto).
      congruence.
Qed.

Lemma pass_no_schild : forall order ns, (forall a b, ~ schild ns a b) -> flatten_pass ns order = (ns, false).
Proof.
  induction order as [|k order IH]; intros ns Hno; [reflexivity|]. rewrite flatten_pass_skip; [auto|].
  intros e El. destruct (snd (inline ns e)) eqn:Ei; [|reflexivity].
  apply (inline_snd_schild _ _ _ El) in Ei as (b & Hb). destruct (Hno k b Hb).
Qed.

Lemma eff_order_In ord (ns : nodes) k : In k (eff_order ord ns) <-> In k (map fst ns).
Proof.
  unfold eff_order. cbn zeta. set (o := dedup nid_eqb (filter (fun k0 => memb nid_eqb k0 (map fst ns)) ord)).
  rewrite in_app_iff, filter_In. split.
  - intros [H|[H _]]; [|exact H]. apply (dedup_In nid_eqb nid_eqb_eq), filter_In in H as [_ H].
    apply (memb_In nid_eqb nid_eqb_eq). exact H.
  - intros Hk. destruct (memb nid_eqb k o) eqn:E; [left; apply (memb_In nid_eqb nid_eqb_eq); exact E|].
    right. split; [exact Hk | reflexivity].
Qed.

(* the flatten loop needs at most one pass per rank level, plus the pass that changes nothing *)
Lemma flatten_terminates r : forall K ords ns,
  Ranked r ns -> (forall a, BndAt r K ns a) -> flatten (S K) ords ns <> None.
Proof.
  induction K as [|K IH]; intros ords ns HR HB; rewrite flatten_S; cbn zeta.
  - rewrite pass_no_schild; [discriminate|]. intros a b Hs. specialize (HB a b Hs). lia.
  - destruct (snd (flatten_pass ns (eff_order (hd [] ords) ns))); [|discriminate].
    apply IH.
    + apply flatten_pass_pres; auto using Pres_Ranked.
    + apply pass_bnd; [exact HR | exact HB |].
      intros a. destruct (lookup a ns) as [nd|] eqn:El.
      * left. apply eff_order_In. eapply assoc_Some_key; eauto using nid_eqb_eq.
      * right. intros b (e & He & _). congruence.
Qed.

(* what the work list of removeUnusedNodes can still grow by: 1 + out-degree of every node not yet visited *)
Fixpoint pot (ns : nodes) (visited : list nid) : nat :=
  match ns with
  | [] => 0
  | (k, nd) :: ns' => (if memb nid_eqb k visited then 0 else 1 + List.length (children nd)) + pot ns' visited
  end.

Lemma pot_mono ns n visited : pot ns (n :: visited) <= pot ns visited.
Proof.
  induction ns as [|[k nd] ns IH]; cbn [pot memb]; [lia|].
  destruct (nid_eqb k n); cbn [orb]; destruct (memb nid_eqb k visited); lia.
Qed.

Lemma pot_visit ns n nd visited :
  lookup n ns = Some nd -> memb nid_eqb n visited = false ->
  pot ns (n :: visited) + 1 + List.length (children nd) <= pot ns visited.
Proof.
  induction ns as [|[k nd0] ns IH]; cbn [assoc pot memb]; [discriminate|].
  intros Hl Hm. destruct (nid_eqb n k) eqn:E.
  - injection Hl as ->. apply nid_eqb_eq in E; subst k. rewrite nid_eqb_refl, Hm. cbn [orb].
    pose proof (pot_mono ns n visited). lia.
  - assert (E' : nid_eqb k n = false).
    { apply nid_eqb_neq. apply nid_eqb_neq in E. congruence. }
    rewrite E'. cbn [orb]. specialize (IH Hl Hm). destruct (memb nid_eqb k visited); lia.
Qed.

Lemma reach_fuel_pot ns : reach_fuel ns = 2 + pot ns [].
Proof.
  unfold reach_fuel. f_equal. induction ns as [|[k nd] ns IH]; cbn [fold_right pot memb snd]; [reflexivity|].
  rewrite IH. lia.
Qed.

Lemma reach_no_fuel ns : forall fuel todo visited,
  List.length todo + pot ns visited < fuel -> reach fuel ns todo visited <> Err EOutOfFuel.
Proof.
  induction fuel as [|f IH]; intros todo visited Hlt; [lia|]. cbn [reach].
  destruct todo as [|n todo]; [discriminate|].
  destruct (memb nid_eqb n visited) eqn:Em.
  - apply IH. cbn [List.length] in Hlt. lia.
  - destruct (lookup n ns) as [nd|] eqn:El; [|discriminate].
    apply IH. pose proof (pot_visit ns n nd visited El Em). rewrite app_length. cbn [List.length] in Hlt. lia.
Qed.

Definition reached (ns : nodes) (todo visited : list nid) (c : cres (list nid)) : Prop :=
  match c with
  | Ok vs => incl visited vs /\ incl todo vs /\ forall v, In v vs -> lookup v ns <> None /\ forall c, edge ns v c -> In c vs
  | Err e => e = EOutOfFuel
  end.

Lemma reach_total ns : closed ns -> forall fuel todo visited,
  (forall v, In v visited -> lookup v ns <> None /\ forall c, edge ns v c -> In c visited \/ In c todo) ->
  (forall t, In t todo -> lookup t ns <> None) ->
  reached ns todo visited (reach fuel ns todo visited).
Proof.
  intros HC. induction fuel as [|f IH]; intros todo visited Hv Ht; cbn [reach]; [reflexivity|].
  destruct todo as [|n todo].
  - split; [apply incl_refl|]. split; [intros ? []|].
    intros v Hi. destruct (Hv v Hi) as [H1 H2]. split; auto. intros c Hc. destruct (H2 c Hc) as [H|[]]; auto.
  - destruct (memb nid_eqb n visited) eqn:Em.
    + apply (memb_In nid_eqb nid_eqb_eq) in Em.
      assert (H : reached ns todo visited (reach f ns todo visited)).
      { apply IH; [|intros t Hi; apply Ht; right; auto].
        intros v Hi. destruct (Hv v Hi) as [H1 H2]. split; auto. intros c Hc.
        destruct (H2 c Hc) as [H|[<-|H]]; auto. }
      destruct (reach f ns todo visited) as [vs|e]; [|exact H]. destruct H as (I1 & I2 & I3).
      split; auto. split; auto. intros x [<-|Hx]; auto.
    + destruct (lookup n ns) as [nd|] eqn:El; [|destruct (Ht n (or_introl eq_refl) El)].
      assert (H : reached ns (children nd ++ todo) (n :: visited) (reach f ns (children nd ++ todo) (n :: visited))).
      { apply IH.
        - intros v [<-|Hi].
          + split; [congruence|]. intros c (nd' & Hl' & Hc). rewrite El in Hl'. injection Hl' as <-.
            right. apply in_or_app; auto.
          + destruct (Hv v Hi) as [H1 H2]. split; auto. intros c Hc.
            destruct (H2 c Hc) as [H|[<-|H]]; [left; right; auto | left; left; auto | right; apply in_or_app; auto].
        - intros t Hi. apply in_app_or in Hi as [Hi|Hi]; [|apply Ht; right; auto].
          apply (HC n t). exists nd; auto. }
      destruct (reach f ns (children nd ++ todo) (n :: visited)) as [vs|e]; [|exact H]. destruct H as (I1 & I2 & I3).
      split; [intros x Hx; apply I1; right; auto|]. split; auto.
      intros x [<-|Hx]; [apply I1; left; auto | apply I2; apply in_or_app; auto].
Qed.

Lemma assoc_filter_key {B} (f : nid -> bool) k (l : list (nid * B)) :
  assoc nid_eqb k (filter (fun p => f (fst p)) l) = if f k then assoc nid_eqb k l else None.
Proof.
  induction l as [|[k0 v] l IH]; cbn [filter assoc fst]; [destruct (f k); reflexivity|].
  destruct (f k0) eqn:E0; cbn [assoc].
  - destruct (nid_eqb k k0) eqn:E; [|exact IH]. apply nid_eqb_eq in E; subst. rewrite E0. reflexivity.
  - rewrite IH. destruct (nid_eqb k k0) eqn:E; [|reflexivity]. apply nid_eqb_eq in E; subst. rewrite E0. reflexivity.
Qed.

Lemma remove_unused_spec ns start :
  closed ns -> lookup start ns <> None ->
  exists ns2, remove_unused ns start = Ok ns2 /\
    lookup start ns2 <> None /\ closed ns2 /\
    (forall k nd, lookup k ns2 = Some nd -> lookup k ns = Some nd).
Proof.
  intros HC Hs. unfold remove_unused.
  assert (Hv0 : forall v, In v (@nil nid) -> lookup v ns <> None /\ forall c, edge ns v c -> In c (@nil nid) \/ In c [start])
    by (intros ? []).
  assert (Ht0 : forall t, In t [start] -> lookup t ns <> None) by (intros t [<-|[]]; exact Hs).
  pose proof (reach_total ns HC (reach_fuel ns) _ _ Hv0 Ht0) as Hr.
  assert (Hnf : reach (reach_fuel ns) ns [start] [] <> Err EOutOfFuel)
    by (apply reach_no_fuel; rewrite reach_fuel_pot; cbn [List.length pot]; lia).
  destruct (reach (reach_fuel ns) ns [start] []) as [vs|e]; [|congruence]. destruct Hr as (_ & I2 & I3).
  exists (filter (fun p => memb nid_eqb (fst p) vs) ns). split; [reflexivity|].
  assert (Hst : memb nid_eqb start vs = true).
  { apply (memb_In nid_eqb nid_eqb_eq). apply I2. left; reflexivity. }
  split; [|split].
  - rewrite (assoc_filter_key (fun k => memb nid_eqb k vs)). rewrite Hst. exact Hs.
  - intros a b (nd & Hl & Hc). rewrite (assoc_filter_key (fun k => memb nid_eqb k vs)) in Hl |- *.
    destruct (memb nid_eqb a vs) eqn:Ea; [|discriminate].
    apply (memb_In nid_eqb nid_eqb_eq) in Ea. destruct (I3 a Ea) as [_ Hcl].
    assert (Hb : In b vs) by (apply Hcl; exists nd; auto).
    destruct (I3 b Hb) as [Hbl _]. apply (memb_In nid_eqb nid_eqb_eq) in Hb. rewrite Hb. exact Hbl.
  - intros k nd Hl. rewrite (assoc_filter_key (fun k => memb nid_eqb k vs)) in Hl.
    destruct (memb nid_eqb k vs); [exact Hl | discriminate].
Qed.

