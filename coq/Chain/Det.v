(* C15 — the entry list as a map (kind, name) -> entry: with distinct keys, reordering the list
   does not change any lookup (and the compiler reads the list only through lookups: Frame.compile_ext). *)
From Verif Require Import Base.Prelude.
From Verif Require Import Chain.Model.
From Verif Require Import Chain.Lemmas.
From Coq Require Import Permutation.
Local Open Scope string_scope.
Local Open Scope list_scope.

Lemma lookup_entry_None es k : lookup_entry es k = None <-> ~ In k (map ekey es).
Proof.
  induction es as [|e es IH]; cbn [lookup_entry map In]; [tauto|].
  destruct (key_eqb (ekey e) k) eqn:E.
  - apply key_eqb_eq in E. split; [discriminate | intros H; exfalso; apply H; auto].
  - rewrite IH. split; [intros H [H1|H1]; [rewrite H1, key_eqb_refl in E; discriminate | auto] | tauto].
Qed.

Lemma lookup_entry_perm es es' :
  Permutation es es' -> NoDup (map ekey es) -> forall k, lookup_entry es k = lookup_entry es' k.
Proof.
  induction 1 as [|x l l' Hp IH|x y l|l l' l'' Hp1 IH1 Hp2 IH2]; intros Hnd k.
  - reflexivity.
  - cbn [lookup_entry]. destruct (key_eqb (ekey x) k); [reflexivity|]. apply IH. inversion Hnd; auto.
  - cbn [lookup_entry]. destruct (key_eqb (ekey y) k) eqn:Ey, (key_eqb (ekey x) k) eqn:Ex; try reflexivity.
    apply key_eqb_eq in Ey, Ex. cbn [map] in Hnd. inversion Hnd as [|? ? Hn _]; subst.
    exfalso. apply Hn. left. congruence.
  - rewrite IH1; auto. apply IH2. eapply Permutation_NoDup; [|exact Hnd]. apply Permutation_map. exact Hp1.
Qed.
