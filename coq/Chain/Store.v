(* C15 — the write-time guard (validateProposedConfigEntryInServiceGraph), and the two inputs on
   which the code violated the property before two `fix:` commits of /repo (2e58eb8 sorts the node ids
   in flattenAdjacentSplitterNodes, f9df4b1 walks the link index transitively), kept as regression
   witnesses. *)
From Verif Require Import Base.Prelude.
From Verif Require Import Chain.Model.
From Verif Require Import Chain.Lemmas.
Local Open Scope string_scope.
Local Open Scope list_scope.

Definition no_validation (store : list entry) (op : wop) : Prop :=
  match op with WDelete k => lookup_entry store k = None | WPut _ => False end.

Lemma compiles_all st' l :
  forallb (compiles st') l = true <-> forall s, In s l -> exists g, compile st' test_ctx s [] = Ok g.
Proof.
  rewrite forallb_forall. unfold compiles. split; intros H s Hs; specialize (H s Hs).
  - destruct (compile st' test_ctx s []) as [g|e]; [eauto | discriminate].
  - destruct H as (g & ->). reflexivity.
Qed.

Lemma write_cases store op :
  let ok := forall s, In s (affected store (op_key op)) -> exists g, compile (proposed store op) test_ctx s [] = Ok g in
  (no_validation store op /\ write store op = (store, true)) \/
  (~ no_validation store op /\
   ((ok /\ write store op = (proposed store op, true)) \/ (~ ok /\ write store op = (store, false)))).
Proof.
  cbn zeta.
  assert (Hnv : no_validation store op \/ ~ no_validation store op).
  { destruct op as [e|k]; cbn [no_validation]; [auto|]. destruct (lookup_entry store k); [right; discriminate | left; reflexivity]. }
  destruct Hnv as [Hnv|Hnv]; [left | right]; (split; [exact Hnv|]).
  - destruct op as [e|k]; [destruct Hnv|]. cbn [no_validation] in Hnv. unfold write. cbn [op_key]. rewrite Hnv. reflexivity.
  - assert (Hw : write store op = if forallb (compiles (proposed store op)) (affected store (op_key op))
                                  then (proposed store op, true) else (store, false)).
    { unfold write. destruct op as [e|k]; cbn [no_validation op_key] in *; [destruct (lookup_entry store (ekey e)); reflexivity|].
      destruct (lookup_entry store k); [reflexivity | contradiction Hnv; reflexivity]. }
    rewrite Hw. pose proof (compiles_all (proposed store op) (affected store (op_key op))) as Hall.
    destruct (forallb _ _); [left | right]; (split; [|reflexivity]).
    + apply Hall. reflexivity.
    + intros H. apply Hall in H. discriminate.
Qed.

Definition E_proxy_http := EProxy "http".

(* three chained splitters a -> b -> c with weights 33.33/66.67, 50/50, 12.5/87.5 *)
Definition deep_entries : list entry :=
  [ E_proxy_http;
    ESplitter "a" [Split 3333 "b" ""; Split 6667 "ax" ""];
    ESplitter "b" [Split 5000 "c" ""; Split 5000 "bx" ""];
    ESplitter "c" [Split 1250 "d" ""; Split 8750 "cx" ""] ]%N.

Definition order_parents_first : list (list nid) := [[NSplitter "a"; NSplitter "b"; NSplitter "c"]].
Definition order_children_first : list (list nid) := [[NSplitter "c"; NSplitter "b"; NSplitter "a"]].

Definition start_edges (r : cres graph) : list sedge :=
  match r with
  | Ok g => match assoc nid_eqb (g_start g) (g_nodes g) with Some (SplitterN e) => e | _ => [] end
  | Err _ => []
  end.

Definition weights (r : cres graph) : list N := map fst (start_edges r).

(* why flattenAdjacentSplitterNodes has to visit the nodes in a fixed order: the loop itself, run
   with two different visiting orders on the same entries, gives different split weights *)
Lemma flatten_order_would_matter :
  weights (compile_ord deep_entries test_ctx "a" order_parents_first) = [208; 1459; 1667; 6667]%N /\
  weights (compile_ord deep_entries test_ctx "a" order_children_first) = [208; 1458; 1667; 6667]%N.
Proof. split; vm_compute; reflexivity. Qed.

Lemma deep_chain_fixed :
  weights (compile deep_entries test_ctx "a" [NSplitter "c"; NSplitter "b"; NSplitter "a"]) = [208; 1459; 1667; 6667]%N /\
  weights (compile deep_entries test_ctx "a" []) = [208; 1459; 1667; 6667]%N.
Proof. split; vm_compute; reflexivity. Qed.

(* router a -> splitter b -> c, everything http; then service-defaults c switches to grpc:
   chain "a" reaches c only through b; the write is refused and the store is unchanged *)
Definition indirect_store : list entry :=
  [ EDefaults "a" "http" false; EDefaults "c" "http" false;
    ESplitter "b" [Split 10000 "c" ""]%N;
    ERouter "a" [Route "b" ""] ].

Definition indirect_op : wop := WPut (EDefaults "c" "grpc" false).
