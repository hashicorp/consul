(* C15 — the RESOLVE_AGAIN loop of getResolverNode: what it returns, why its redirectHistory
   bounds it, and that a redirect cycle is reported. *)
From Coq Require Import FinFun.
From Verif Require Import Base.Prelude.
From Verif Require Import Chain.Model.
From Verif Require Import Chain.Lemmas.
Local Open Scope string_scope.
Local Open Scope list_scope.

(* states that differ only in the protocol, the advanced-routing flag and retained targets added *)
Definition same_graph (st st' : cstate) : Prop :=
  s_splitters st' = s_splitters st /\ s_resolvers st' = s_resolvers st /\ incl (s_retained st) (s_retained st').

Lemma same_graph_refl st : same_graph st st.
Proof. split; [reflexivity|]. split; [reflexivity | apply incl_refl]. Qed.

Lemma same_graph_trans a b c : same_graph a b -> same_graph b c -> same_graph a c.
Proof.
  intros (A1 & A2 & A3) (B1 & B2 & B3). split; [congruence|]. split; [congruence|]. eapply incl_tran; eauto.
Qed.

Lemma mem_resolver_graph st st' t : same_graph st st' -> mem_resolver st' t = mem_resolver st t.
Proof. intros (_ & H & _). unfold mem_resolver. rewrite H. reflexivity. Qed.

Lemma step_moved cx r t t' : step cx r t = SMoved t' ->
  (exists rd, rs_redirect r = Some rd /\ t' = rewrite_target cx t (rd_svc rd) (rd_sub rd) (rd_dc rd)) \/
  t' = rewrite_target cx t "" (rs_default_subset r) "".
Proof.
  unfold step.
  assert (Hrest : forall x,
    (if (t_sub t =? "") && negb (rs_default_subset r =? "")
     then SMoved (rewrite_target cx t "" (rs_default_subset r) "")
     else if negb (t_sub t =? "") && negb (subset_exists r (t_sub t)) then SBad else SFinal) = SMoved x ->
    x = rewrite_target cx t "" (rs_default_subset r) "").
  { intros x. destruct ((t_sub t =? "") && negb (rs_default_subset r =? "")); [intros E; injection E as <-; reflexivity|].
    destruct (negb (t_sub t =? "") && negb (subset_exists r (t_sub t))); discriminate. }
  destruct (rs_redirect r) as [rd|]; [|intros H; right; apply Hrest; exact H].
  destruct (target_eqb _ t); [intros H; right; apply Hrest; exact H|]. intros E; injection E as <-. left. eauto.
Qed.

Lemma rewrite_target_svc cx t s sub dc :
  t_svc (rewrite_target cx t s sub dc) = t_svc t \/ (s <> "" /\ t_svc (rewrite_target cx t s sub dc) = s).
Proof.
  unfold rewrite_target; cbn [t_svc]. destruct (s =? "") eqn:E; cbn [negb andb]; auto.
  destruct (s =? t_svc t); cbn [negb andb]; auto. right. split; auto. apply String.eqb_neq; exact E.
Qed.

Section Resolve.
  Variable es : list entry.
  Variable cx : ctx.

  Notation step_at t := (step cx (resolver_of es (t_svc t)) t).

  Inductive Orbit : target -> target -> Prop :=
  | orbit_final t : step_at t = SFinal -> Orbit t t
  | orbit_moved t t1 t' : step_at t = SMoved t1 -> Orbit t1 t' -> Orbit t t'.

  Fixpoint walk (n : nat) (t : target) : option target :=
    match n with
    | O => Some t
    | S n' => match step_at t with SMoved t1 => walk n' t1 | _ => None end
    end.

  (* the walk from [t] never stops: neither a final target nor a missing subset is met *)
  Definition cyclic (t : target) : Prop := forall n, walk n t <> None.

  Lemma cyclic_moves t : cyclic t -> exists t1, step_at t = SMoved t1 /\ cyclic t1.
  Proof.
    intros Hc. pose proof (Hc 1) as H1. cbn [walk] in H1. destruct (step_at t) as [t1| |] eqn:Es; try congruence.
    exists t1. split; [reflexivity|]. intros n. specialize (Hc (S n)). cbn [walk] in Hc. rewrite Es in Hc. exact Hc.
  Qed.

  Lemma Orbit_not_cyclic t t' : Orbit t t' -> ~ cyclic t.
  Proof.
    induction 1 as [t Hf | t t1 t' Hm Ho IH]; intros Hc; apply cyclic_moves in Hc as (t2 & Hs & Hc); [congruence|].
    apply IH. congruence.
  Qed.

  Lemma Orbit_final t t' : Orbit t t' -> step_at t' = SFinal.
  Proof. induction 1; auto. Qed.

  Lemma Orbit_det t a b : Orbit t a -> Orbit t b -> a = b.
  Proof.
    intros Ha. revert b. induction Ha as [t Hf | t t1 t' Hm Ho IH]; intros b Hb.
    - destruct Hb as [t _ | t t2 b Hm _]; [reflexivity | congruence].
    - destruct Hb as [t Hf | t t2 b Hm2 Hb]; [congruence|]. apply IH. congruence.
  Qed.

  (* one trip through RESOLVE_AGAIN, whatever the bound.  The inductions over a bounded loop of the
     model rewrite such an equation first, analyse the body once, and split on the bound (whose
     predecessor is all the induction hypothesis is used at) only where the model does. *)
  Lemma resolve_loop_unfold fuel st hist t :
    resolve_loop es cx fuel st hist t =
    if mem_resolver st t then Ok (st, LHit t) else
    match record_protocol es st (t_svc t) with
    | Err e => Err e
    | Ok st1 =>
      if memb target_eqb t hist then Err ECircularRedirect else
      match step_at t with
      | SMoved t' => match fuel with O => Err EOutOfFuel | S f => resolve_loop es cx f st1 (t :: hist) t' end
      | SBad => Err EBadSubset
      | SFinal => Ok (st1, LFinal t (resolver_of es (t_svc t)))
      end
    end.
  Proof. destruct fuel; reflexivity. Qed.

  Lemma record_protocol_graph st s st' : record_protocol es st s = Ok st' -> same_graph st st'.
  Proof.
    unfold record_protocol. destruct (s_proto st =? "").
    - intros E; injection E as <-. split; [reflexivity|]. split; [reflexivity | apply incl_refl].
    - destruct (s_proto st =? _); [intros E; injection E as <-; apply same_graph_refl | discriminate].
  Qed.

  Lemma record_protocol_err st s e : record_protocol es st s = Err e -> e = EProtocolMismatch.
  Proof.
    unfold record_protocol. destruct (s_proto st =? ""); [discriminate|].
    destruct (s_proto st =? _); [discriminate | intros E; injection E as <-; reflexivity].
  Qed.

  (* every memoised target is final, so a memo hit ends the walk; part of Assemble.Closed_st *)
  Definition Final_memo (st : cstate) : Prop := forall t, mem_resolver st t = true -> step_at t = SFinal.

  Definition loop_post (st : cstate) (t : target) (st' : cstate) (res : lres) : Prop :=
    same_graph st st' /\
    match res with
    | LHit t' => mem_resolver st t' = true /\ (Final_memo st -> Orbit t t')
    | LFinal t' r => mem_resolver st t' = false /\ r = resolver_of es (t_svc t') /\ Orbit t t'
    end.

  Lemma resolve_loop_spec : forall fuel st hist t st' res,
    resolve_loop es cx fuel st hist t = Ok (st', res) -> loop_post st t st' res.
  Proof.
    induction fuel as [fuel IH] using lt_wf_ind. intros st hist t st' res. rewrite resolve_loop_unfold.
    destruct (mem_resolver st t) eqn:Em.
    { intros E; injection E as <- <-. split; [apply same_graph_refl|]. split; [exact Em|].
      intros HF. apply orbit_final, HF, Em. }
    destruct (record_protocol es st (t_svc t)) as [st1|e] eqn:Ep; [|discriminate].
    assert (Ht := record_protocol_graph _ _ _ Ep).
    destruct (memb target_eqb t hist); [discriminate|].
    destruct (step_at t) as [t1| |] eqn:Es; [|discriminate|].
    2:{ intros E; injection E as <- <-. split; auto. split; auto. split; auto. apply orbit_final; auto. }
    destruct fuel as [|f]; [discriminate|].
    intros E. destruct (IH f (Nat.lt_succ_diag_r f) _ _ _ _ _ E) as [Ht2 Hres]. split; [eapply same_graph_trans; eauto|].
    destruct res as [t'|t' r].
    - destruct Hres as [Hm Ho]. rewrite (mem_resolver_graph _ _ _ Ht) in Hm. split; auto.
      intros HF. eapply orbit_moved; eauto. apply Ho.
      intros x Hx. apply HF. rewrite <- (mem_resolver_graph _ _ _ Ht). exact Hx.
    - destruct Hres as (Hm & Hr & Ho). rewrite (mem_resolver_graph _ _ _ Ht) in Hm.
      split; auto. split; auto. eapply orbit_moved; eauto.
  Qed.

  (* a missing subset is only reported on a walk that stops there *)
  Lemma resolve_loop_err : forall fuel st hist t e,
    resolve_loop es cx fuel st hist t = Err e ->
    e = EProtocolMismatch \/ e = ECircularRedirect \/ (e = EBadSubset /\ ~ cyclic t) \/ e = EOutOfFuel.
  Proof.
    induction fuel as [fuel IH] using lt_wf_ind. intros st hist t e. rewrite resolve_loop_unfold.
    destruct (mem_resolver st t); [discriminate|].
    destruct (record_protocol es st (t_svc t)) as [st1|e1] eqn:Ep;
      [|intros E; injection E as <-; left; eapply record_protocol_err; eauto].
    destruct (memb target_eqb t hist); [intros E; injection E as <-; auto|].
    destruct (step_at t) as [t1| |] eqn:Es; [| |discriminate].
    2:{ intros E; injection E as <-. right; right; left. split; [reflexivity|].
        intros Hc. apply cyclic_moves in Hc as (t1 & Hc & _). congruence. }
    destruct fuel as [|f]; [intros E; injection E as <-; auto|].
    intros E. destruct (IH f (Nat.lt_succ_diag_r f) _ _ _ _ E) as [H|[H|[[H Hn]|H]]]; auto.
    right; right; left. split; [exact H|]. intros Hc. apply Hn.
    apply cyclic_moves in Hc as (t2 & Hs & Hc). congruence.
  Qed.

  (* the bound: the history has no repetition and stays inside a finite universe *)

  Definition rfields (f : resolver -> list string) : list string :=
    flat_map (fun e => match e with EResolver _ r => f r | _ => [] end) es.

  Lemma rfields_In f s r x : In (EResolver s r) es -> In x (f r) -> In x (rfields f).
  Proof. intros Hi Hx. apply in_flat_map. exists (EResolver s r). auto. Qed.

  Lemma rfields_length f k : (forall r, List.length (f r) <= k) -> List.length (rfields f) <= k * List.length es.
  Proof. intros H. apply flat_map_length_le. intros [ | |? r| | ]; cbn [List.length]; auto; lia. Qed.

  Definition rd_field (g : redirect -> string) (r : resolver) : list string :=
    match rs_redirect r with Some rd => [g rd] | None => [] end.

  Definition redirect_svcs : list string := rfields (rd_field rd_svc).
  Definition redirect_subs : list string := rfields (fun r => rs_default_subset r :: rd_field rd_sub r).
  Definition redirect_dcs : list string := rfields (rd_field rd_dc).

  (* from here on: the universe of the walk that starts at [t0] *)
  Variable t0 : target.
  Definition Usvc := t_svc t0 :: redirect_svcs.
  Definition Usub := "" :: t_sub t0 :: redirect_subs.
  Definition Udc := t_dc t0 :: c_dc cx :: redirect_dcs.
  Definition inU (t : target) : Prop := In (t_svc t) Usvc /\ In (t_sub t) Usub /\ In (t_dc t) Udc.
  Definition Ulen : nat := List.length Usvc * (List.length Usub * List.length Udc).

  Lemma resolver_of_cases s :
    resolver_of es s = default_resolver \/ In (EResolver s (resolver_of es s)) es.
  Proof.
    unfold resolver_of. destruct (get_resolver es s) as [r|] eqn:E; auto. right. apply get_resolver_In; auto.
  Qed.

  Lemma step_inU t t' : inU t -> step_at t = SMoved t' -> inU t'.
  Proof.
    intros (H1 & H2 & H3) Hs.
    set (r := resolver_of es (t_svc t)) in *.
    assert (Hr : r = default_resolver \/ In (EResolver (t_svc t) r) es) by apply resolver_of_cases.
    assert (Hrw : forall s sub dc,
               (s = "" \/ In s Usvc) -> In sub Usub -> (dc = "" \/ In dc Udc) ->
               inU (rewrite_target cx t s sub dc)).
    { intros s sub dc Hs' Hsub Hdc. unfold rewrite_target, inU. cbn [t_svc t_sub t_dc]. split; [|split].
      - destruct (s =? "") eqn:E1; cbn [negb andb]; auto.
        destruct (s =? t_svc t); cbn [negb andb]; auto.
        apply String.eqb_neq in E1. destruct Hs'; [congruence | auto].
      - destruct (sub =? ""); auto.
        destruct (negb (s =? "") && negb (s =? t_svc t)); auto. left; reflexivity.
      - unfold default_if_empty. destruct (dc =? "") eqn:E1.
        + destruct (t_dc t =? ""); auto. right; left; reflexivity.
        + apply String.eqb_neq in E1. destruct Hdc; [congruence|].
          destruct (dc =? ""); auto. right; left; reflexivity. }
    apply step_moved in Hs as [(rd & Erd & ->)| ->].
    - assert (Hin : In (EResolver (t_svc t) r) es).
      { destruct Hr as [Hr|Hr]; auto. rewrite Hr in Erd. discriminate. }
      apply Hrw.
      + right; right. apply (rfields_In _ _ _ _ Hin). unfold rd_field. rewrite Erd. left; reflexivity.
      + right; right. apply (rfields_In _ _ _ _ Hin). unfold rd_field. rewrite Erd. right; left; reflexivity.
      + right; right; right. apply (rfields_In _ _ _ _ Hin). unfold rd_field. rewrite Erd. left; reflexivity.
    - apply Hrw; auto. destruct Hr as [-> | Hr]; [left; reflexivity|].
      right; right. apply (rfields_In _ _ _ _ Hr). left; reflexivity.
  Qed.

  Definition tuple (t : target) := (t_svc t, (t_sub t, t_dc t)).

  Lemma hist_bound hist : NoDup hist -> (forall x, In x hist -> inU x) -> List.length hist <= Ulen.
  Proof.
    intros Hnd Hin. unfold Ulen. rewrite <- !prod_length, <- (map_length tuple hist).
    apply NoDup_incl_length.
    - apply Injective_map_NoDup; auto. intros [a b c] [a' b' c']; unfold tuple; cbn. congruence.
    - intros p Hp. apply in_map_iff in Hp as (x & <- & Hx). destruct (Hin x Hx) as (H1 & H2 & H3).
      unfold tuple. apply in_prod; auto. apply in_prod; auto.
  Qed.

  Lemma resolve_loop_no_fuel : forall fuel st hist t,
    NoDup hist -> (forall x, In x hist -> inU x) -> inU t -> Ulen <= List.length hist + fuel ->
    resolve_loop es cx fuel st hist t <> Err EOutOfFuel.
  Proof.
    induction fuel as [fuel IH] using lt_wf_ind. intros st hist t Hnd Hin Ht Hlen. rewrite resolve_loop_unfold.
    destruct (mem_resolver st t); [discriminate|].
    destruct (record_protocol es st (t_svc t)) as [st1|e1] eqn:Ep; [|apply record_protocol_err in Ep; subst; discriminate].
    destruct (memb target_eqb t hist) eqn:Em; [discriminate|].
    destruct (step_at t) as [t1| |] eqn:Es; try discriminate.
    apply (memb_not_In target_eqb target_eqb_eq) in Em.
    assert (Hnd' : NoDup (t :: hist)) by (constructor; auto).
    assert (Hin' : forall x, In x (t :: hist) -> inU x) by (intros x [<-|Hx]; auto).
    destruct fuel as [|f].
    - exfalso. pose proof (hist_bound _ Hnd' Hin') as Hb. cbn [List.length] in Hb. lia.
    - apply IH; auto; [eapply step_inU; eauto | cbn [List.length]; lia].
  Qed.

  Lemma Ulen_le : Ulen <= redirect_fuel es.
  Proof.
    unfold Ulen, redirect_fuel, Usvc, Usub, Udc. cbn [List.length].
    assert (A : List.length redirect_svcs <= 1 * List.length es)
      by (apply rfields_length; intros r; unfold rd_field; destruct (rs_redirect r); cbn; lia).
    assert (B : List.length redirect_subs <= 2 * List.length es)
      by (apply rfields_length; intros r; unfold rd_field; destruct (rs_redirect r); cbn; lia).
    assert (C : List.length redirect_dcs <= 1 * List.length es)
      by (apply rfields_length; intros r; unfold rd_field; destruct (rs_redirect r); cbn; lia).
    rewrite Nat.mul_assoc.
    apply Nat.mul_le_mono; [apply Nat.mul_le_mono|]; lia.
  Qed.
End Resolve.

Lemma resolve_loop_terminates es cx st t : resolve_loop es cx (redirect_fuel es) st [] t <> Err EOutOfFuel.
Proof.
  apply (resolve_loop_no_fuel es cx t).
  - constructor.
  - intros x [].
  - unfold inU, Usvc, Usub, Udc. cbn [In]. auto.
  - cbn [List.length]. apply Ulen_le.
Qed.

Lemma resolve_loop_total es cx st t :
  Post (loop_post es cx st t) (resolve_loop es cx (redirect_fuel es) st [] t).
Proof.
  pose proof (resolve_loop_terminates es cx st t) as Hn.
  destruct (resolve_loop es cx (redirect_fuel es) st [] t) as [[st' res]|e] eqn:E; cbn [Post].
  - eapply resolve_loop_spec; eauto.
  - destruct (resolve_loop_err _ _ _ _ _ _ _ E) as [->|[->|[[-> _]| ->]]]; cbn; auto.
Qed.

Lemma get_resolver_node_orbit es cx st t st' t' :
  Final_memo es cx st -> get_resolver_node es cx st t = Ok (st', t') -> Orbit es cx t t'.
Proof.
  intros HF. unfold get_resolver_node.
  destruct (resolve_loop es cx (redirect_fuel es) st [] t) as [[st1 res]|e] eqn:E; [|discriminate].
  apply resolve_loop_spec in E as [_ Hres]. destruct res as [x|x r].
  - intros H; injection H as <- <-. apply Hres. exact HF.
  - destruct Hres as (_ & _ & Ho). destruct (external_check es r x); [discriminate|].
    destruct (resolve_failovers es cx _ _) as [[st4 [|f0 fts]]|e]; intros H; try discriminate; injection H as <- <-; exact Ho.
Qed.

Lemma resolve_loop_cycle es cx st t :
  Final_memo es cx st -> cyclic es cx t ->
  resolve_loop es cx (redirect_fuel es) st [] t = Err ECircularRedirect \/
  resolve_loop es cx (redirect_fuel es) st [] t = Err EProtocolMismatch.
Proof.
  intros HF Hc. pose proof (resolve_loop_terminates es cx st t) as Hnf.
  destruct (resolve_loop es cx (redirect_fuel es) st [] t) as [[st' res]|e] eqn:E.
  - exfalso. apply resolve_loop_spec in E as [_ Hres].
    apply (Orbit_not_cyclic es cx t (match res with LHit x => x | LFinal x _ => x end)); [|exact Hc].
    destruct res; [apply Hres; exact HF | apply Hres].
  - destruct (resolve_loop_err _ _ _ _ _ _ _ E) as [->|[->|[[_ Hn]| ->]]]; auto; [contradiction | congruence].
Qed.
