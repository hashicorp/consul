(* Soundness of the decidable corruption test of Archive/Model.v (C20): a pair of member views
   that passes [corruptb] is one step of [Proofs.corrupt] (the identity view passes as the trivial
   permutation). *)
From Verif Require Import Base.Prelude Archive.Model Archive.Proofs.
From Coq Require Import Permutation.

Lemma member_eqb_eq a b : member_eqb a b = true <-> a = b.
Proof.
  unfold member_eqb. destruct a as [n d i], b as [n' d' i']; cbn [m_name m_data m_intact]. split.
  - intros Hx. apply andb_true_iff in Hx as [Hx Hi]. apply andb_true_iff in Hx as [Hn Hd].
    apply String.eqb_eq in Hn. apply bytes_eqb_eq in Hd. apply Bool.eqb_prop in Hi. congruence.
  - intros Hx. injection Hx as -> -> ->.
    rewrite String.eqb_refl, bytes_eqb_refl, Bool.eqb_reflx. reflexivity.
Qed.

Lemma mlist_eqb_eq a b : mlist_eqb a b = true <-> a = b.
Proof. apply list_eqb_eq. exact member_eqb_eq. Qed.

Lemma prefixb_spec st L' : forall L,
  prefixb st L' L = true -> exists post, L = L' ++ post /\ (st = true -> post <> []).
Proof.
  induction L' as [|x l' IH]; intros [|y l] Hp; cbn [prefixb] in Hp; try discriminate.
  - exists []. split; [reflexivity|]. intros ->. discriminate.
  - exists (y :: l). split; [reflexivity|]. intros _. discriminate.
  - apply andb_true_iff in Hp as [Hxy Hp]. apply member_eqb_eq in Hxy. subst y.
    destruct (IH _ Hp) as (post & -> & Hs). exists post. split; [reflexivity|exact Hs].
Qed.

Lemma removed1_spec L : forall L',
  removed1 L L' = true -> exists pre mb post, L = pre ++ mb :: post /\ L' = pre ++ post.
Proof.
  induction L as [|x l IH]; intros L' Hr; cbn [removed1] in Hr; [discriminate|].
  apply orb_true_iff in Hr as [Hr|Hr].
  - apply mlist_eqb_eq in Hr. subst L'. exists [], x, l. split; reflexivity.
  - destruct L' as [|y l']; [discriminate|].
    apply andb_true_iff in Hr as [Hxy Hr]. apply member_eqb_eq in Hxy. subst y.
    destruct (IH _ Hr) as (pre & mb & post & -> & ->).
    exists (x :: pre), mb, post. split; reflexivity.
Qed.

Lemma changed1_spec ok L : forall L',
  changed1 ok L L' = true ->
  exists pre x y post, L = pre ++ x :: post /\ L' = pre ++ y :: post /\ ok x y = true.
Proof.
  induction L as [|x l IH]; intros [|y l'] Hc; cbn [changed1] in Hc; try discriminate.
  apply orb_true_iff in Hc as [Hc|Hc].
  - apply andb_true_iff in Hc as [Hok Hl]. apply mlist_eqb_eq in Hl. subst l'.
    exists [], x, y, l. repeat split; assumption.
  - apply andb_true_iff in Hc as [Hxy Hc]. apply member_eqb_eq in Hxy. subst y.
    destruct (IH _ Hc) as (pre & a & b & post & -> & -> & Hok).
    exists (x :: pre), a, b, post. repeat split; assumption.
Qed.

Lemma remove_first_spec x l : forall r, remove_first x l = Some r -> Permutation l (x :: r).
Proof.
  induction l as [|y l IH]; intros r Hr; cbn [remove_first] in Hr; [discriminate|].
  destruct (member_eqb x y) eqn:E.
  - apply member_eqb_eq in E. subst y. injection Hr as <-. apply Permutation_refl.
  - destruct (remove_first x l) as [r'|]; [|discriminate]. injection Hr as <-.
    eapply Permutation_trans; [apply perm_skip; apply IH; reflexivity|apply perm_swap].
Qed.

Lemma permb_spec L : forall L', permb L L' = true -> Permutation L L'.
Proof.
  induction L as [|x l IH]; intros L' Hp; cbn [permb] in Hp.
  - destruct L'; [constructor|discriminate].
  - destruct (remove_first x L') as [r|] eqn:E; [|discriminate].
    apply remove_first_spec in E. apply IH in Hp.
    eapply Permutation_trans; [apply perm_skip; exact Hp|apply Permutation_sym; exact E].
Qed.

Lemma truncmb_spec L : forall L',
  truncmb L L' = true ->
  exists pre mb post d, L = pre ++ mb :: post /\ L' = pre ++ [Member (m_name mb) d false].
Proof.
  induction L as [|x l IH]; intros [|y l'] Ht; cbn [truncmb] in Ht; try discriminate.
  destruct l' as [|z l''].
  - apply andb_true_iff in Ht as [Hn Hi]. apply String.eqb_eq in Hn.
    destruct y as [yn yd yi]. cbn [m_name m_intact] in Hn, Hi. subst yn.
    destruct yi; [discriminate|].
    exists [], x, l, yd. split; reflexivity.
  - apply andb_true_iff in Ht as [Hxy Ht]. apply member_eqb_eq in Hxy. subst y.
    destruct (IH _ Ht) as (pre & mb & post & d & -> & Hl).
    exists (x :: pre), mb, post, d. split; [reflexivity|]. cbn [app]. rewrite Hl. reflexivity.
Qed.

Theorem corruptb_sound L L' t : corruptb L L' t = true -> corrupt L L' t.
Proof.
  unfold corruptb. destruct t.
  - intros Hc. repeat (apply orb_true_iff in Hc as [Hc|Hc]).
    + apply changed1_spec in Hc as (pre & x & y & post & -> & -> & Hok).
      unfold ok_data in Hok. apply andb_true_iff in Hok as [Hok Hd].
      apply andb_true_iff in Hok as [Hn Hi]. apply String.eqb_eq in Hn.
      apply negb_true_iff, bytes_eqb_neq in Hd.
      destruct y as [yn yd yi]. cbn [m_name m_data m_intact] in *. subst yn yi.
      eapply c_data; [reflexivity|]. intros Hx. apply Hd. symmetry. exact Hx.
    + apply prefixb_spec in Hc as (post & -> & Hs). eapply c_trunc_clean; [reflexivity|auto].
    + apply removed1_spec in Hc as (pre & mb & post & -> & ->). eapply c_remove. reflexivity.
    + apply removed1_spec in Hc as (pre & mb & post & -> & ->). eapply (c_inject _ mb).
      exists pre, post. split; reflexivity.
    + apply c_reorder. apply permb_spec. exact Hc.
    + apply changed1_spec in Hc as (pre & x & y & post & -> & -> & Hok).
      unfold ok_rename in Hok. apply andb_true_iff in Hok as [Hok Hd].
      apply andb_true_iff in Hok as [Hn Hi]. apply negb_true_iff, String.eqb_neq in Hn.
      apply bytes_eqb_eq in Hd.
      destruct y as [yn yd yi]. cbn [m_name m_data m_intact] in *. subst yd yi.
      eapply c_rename; [reflexivity|exact Hn].
  - intros Hc. apply orb_true_iff in Hc as [Hc|Hc].
    + apply prefixb_spec in Hc as (post & -> & _). eapply c_trunc_header. reflexivity.
    + apply truncmb_spec in Hc as (pre & mb & post & d & -> & ->).
      eapply c_trunc_member. reflexivity.
Qed.

(* the identity view passes the test (it is the trivial permutation) *)
Lemma permb_refl L : permb L L = true.
Proof.
  induction L as [|x l IH]; [reflexivity|]. cbn [permb remove_first].
  assert (E : member_eqb x x = true) by (apply member_eqb_eq; reflexivity).
  rewrite E. exact IH.
Qed.

Lemma corruptb_identity L : corruptb L L true = true.
Proof. unfold corruptb. rewrite permb_refl. rewrite !orb_true_r. reflexivity. Qed.
