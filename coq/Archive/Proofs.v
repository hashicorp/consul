(* C20 — what [read] accepts.  [read_ok_inv]: acceptance of ANY member list means the stream was
   complete, every member has an expected name and is undamaged, and meta.json and state.bin each have
   a piece, a checksum line, and only lines that record the hash of their concatenated pieces; the
   "lacks ..." and "wrong checksum" results are its projections.  With the checksum bytes as written
   the payload is the written one ([sums_intact_sound], [accept_sound]).  [tamper]: a single corruption
   ([corrupt]) of a written archive is rejected or extracts exactly the original. *)
From Verif Require Import Base.Prelude Archive.Model.
From Coq Require Import Permutation.

Section Proofs.
  Context {digest : Type} (deqb : digest -> digest -> bool) (H : bytes -> digest).
  Context {Meta : Type} (meta0 : Meta) (enc_meta : Meta -> bytes)
          (dec_meta : Meta -> bytes -> option Meta).
  Context (print_sums : list (digest * string) -> bytes)
          (parse_sums : bytes -> list (option (digest * string)))
          (scan_err : bytes -> bool).

  Notation read := (read deqb H meta0 dec_meta parse_sums scan_err).
  Notation read_gz := (read_gz deqb H meta0 dec_meta parse_sums scan_err).
  Notation read_members := (read_members dec_meta).
  Notation write := (write H enc_meta print_sums).
  Notation sums_lines := (sums_lines H enc_meta).
  Notation verify_lines := (@verify_lines digest deqb H Meta).
  Notation decode_and_verify := (decode_and_verify deqb H parse_sums scan_err).
  Notation lookup_hash := (@lookup_hash digest H Meta).

  (* What the theorems assume of the external pieces.  Each theorem depends only on the
     hypotheses its proof uses (the Section discharges the others); Properties/C20.v shows,
     per theorem, exactly which ones are passed. *)
  Hypothesis deqb_spec : forall a b, deqb a b = true <-> a = b.
  Hypothesis H_inj : forall a b, H a = H b -> a = b.                 (* collision freedom *)
  Hypothesis dec_enc : forall m, dec_meta meta0 (enc_meta m) = Some m. (* JSON round trip *)
  Hypothesis dec_empty : forall m, dec_meta m [] = None.              (* json.Unmarshal("") fails *)
  Hypothesis enc_nonempty : forall m, enc_meta m <> [].
  (* an encoding cut into three parts: the first two (non-empty) do not both decode
     (encoding/json: one JSON object and a newline) *)
  Hypothesis dec_pieces : forall m a b c md md',
    a ++ b ++ c = enc_meta m -> a <> [] -> b <> [] ->
    dec_meta md a = None \/ dec_meta md' b = None.
  (* the line codec, on the lines the writer writes only *)
  Hypothesis parse_print : forall ord m s,
    parse_sums (print_sums (sums_lines ord m s)) = map Some (sums_lines ord m s).
  Hypothesis scan_print : forall ord m s, scan_err (print_sums (sums_lines ord m s)) = false.
  Hypothesis parse_empty : parse_sums [] = [].

  Definition datas (n : string) (L : list member) : list bytes :=
    map m_data (filter (fun mb => String.eqb (m_name mb) n) L).
  Definition cat (n : string) (L : list member) : bytes := List.concat (datas n L).

  Fixpoint dec_all (md : Meta) (ds : list bytes) : option Meta :=
    match ds with
    | [] => Some md
    | d :: r => match dec_meta md d with None => None | Some md' => dec_all md' r end
    end.

  Definition expected (n : string) : Prop := n = n_meta \/ n = n_state \/ n = n_sums.
  Definition payload (n : string) : Prop := n = n_meta \/ n = n_state.
  Definition member_ok (mb : member) : Prop := expected (m_name mb) /\ m_intact mb = true.

  Lemma datas_cons n mb L :
    datas n (mb :: L) = if String.eqb (m_name mb) n then m_data mb :: datas n L else datas n L.
  Proof. unfold datas; cbn [filter]. destruct (String.eqb (m_name mb) n); reflexivity. Qed.

  Lemma cat_cons n mb L :
    cat n (mb :: L) = if String.eqb (m_name mb) n then m_data mb ++ cat n L else cat n L.
  Proof. unfold cat; rewrite datas_cons. destruct (String.eqb (m_name mb) n); reflexivity. Qed.

  Lemma datas_app n L1 L2 : datas n (L1 ++ L2) = datas n L1 ++ datas n L2.
  Proof. unfold datas. rewrite filter_app, map_app. reflexivity. Qed.

  Lemma cat_app n L1 L2 : cat n (L1 ++ L2) = cat n L1 ++ cat n L2.
  Proof. unfold cat. rewrite datas_app, concat_app. reflexivity. Qed.

  Lemma cat_single n L d : datas n L = [d] -> cat n L = d.
  Proof. unfold cat. intros ->. apply app_nil_r. Qed.

  Lemma datas_mid n pre mb post :
    datas n (pre ++ mb :: post) =
    datas n pre ++ (if String.eqb (m_name mb) n then [m_data mb] else []) ++ datas n post.
  Proof. rewrite datas_app, datas_cons. destruct (String.eqb (m_name mb) n); reflexivity. Qed.

  Lemma datas_mid_other n pre mb post : m_name mb <> n -> datas n (pre ++ mb :: post) = datas n (pre ++ post).
  Proof. intros Hn. apply String.eqb_neq in Hn. rewrite datas_mid, Hn, datas_app. reflexivity. Qed.

  Lemma single_mid pre mb post d :
    datas (m_name mb) (pre ++ mb :: post) = [d] -> datas (m_name mb) pre = [] /\ datas (m_name mb) post = [].
  Proof.
    rewrite datas_mid, String.eqb_refl. destruct (datas _ pre) as [|x l]; cbn.
    - intros Hd. injection Hd as _ Hd. auto.
    - destruct l; discriminate.
  Qed.

  Lemma datas_perm_singleton n L L' d :
    Permutation L L' -> datas n L = [d] -> datas n L' = [d].
  Proof.
    intros Hp Hd. apply Permutation_length_1_inv. rewrite <- Hd. unfold datas.
    apply Permutation_map. clear Hd. induction Hp; cbn.
    - constructor.
    - destruct (String.eqb (m_name x) n); [constructor|]; assumption.
    - destruct (String.eqb (m_name x) n), (String.eqb (m_name y) n); try apply Permutation_refl; apply perm_swap.
    - eapply Permutation_trans; eassumption.
  Qed.

  Definition nonempty {A} (l : list A) : bool := match l with [] => false | _ => true end.

  Lemma read_members_inv L : forall a a',
    read_members L a = Ok a' ->
    Forall member_ok L /\
    a_meta a' = a_meta a ++ cat n_meta L /\
    a_state a' = a_state a ++ cat n_state L /\
    a_sums a' = a_sums a ++ cat n_sums L /\
    dec_all (a_md a) (datas n_meta L) = Some (a_md a') /\
    a_seen_meta a' = a_seen_meta a || nonempty (datas n_meta L) /\
    a_seen_state a' = a_seen_state a || nonempty (datas n_state L).
  Proof.
    induction L as [|mb L IH]; intros a a' Hr.
    - cbn in Hr. injection Hr as <-. cbn. rewrite !app_nil_r, !orb_false_r. repeat split; constructor.
    - cbn [Model.read_members] in Hr. rewrite !cat_cons, !datas_cons.
      destruct (String.eqb (m_name mb) n_meta) eqn:Em.
      { apply String.eqb_eq in Em.
        destruct (m_intact mb) eqn:Ei; cbn [negb] in Hr; [|discriminate].
        destruct (dec_meta (a_md a) (m_data mb)) as [md|] eqn:Ed; [|discriminate].
        apply IH in Hr as (Hall & Hm & Hs & Hq & Hd & Hsm & Hss).
        cbn [a_meta a_state a_sums a_md a_seen_meta a_seen_state] in *.
        rewrite Em. cbn. rewrite Ed.
        rewrite Hm, <- app_assoc, Hss, orb_true_r. repeat split; try assumption.
        constructor; [|assumption]. split; [left; assumption|assumption]. }
      destruct (String.eqb (m_name mb) n_state) eqn:Es.
      { apply String.eqb_eq in Es.
        destruct (m_intact mb) eqn:Ei; cbn [negb] in Hr; [|discriminate].
        apply IH in Hr as (Hall & Hm & Hs & Hq & Hd & Hsm & Hss).
        cbn [a_meta a_state a_sums a_md a_seen_meta a_seen_state] in *.
        rewrite Es. cbn.
        rewrite Hs, <- app_assoc, Hsm, orb_true_r. repeat split; try assumption.
        constructor; [|assumption]. split; [right; left; assumption|assumption]. }
      destruct (String.eqb (m_name mb) n_sums) eqn:Eq; [|discriminate].
      { apply String.eqb_eq in Eq.
        destruct (m_intact mb) eqn:Ei; cbn [negb] in Hr; [|discriminate].
        apply IH in Hr as (Hall & Hm & Hs & Hq & Hd & Hsm & Hss).
        cbn [a_meta a_state a_sums a_md a_seen_meta a_seen_state] in *.
        rewrite Hq, <- app_assoc. repeat split; try assumption.
        constructor; [|assumption]. split; [right; right; assumption|assumption]. }
  Qed.

  Lemma verify_lines_inv a ls : forall seen seen',
    verify_lines a ls seen = Ok seen' ->
    (forall d f, In (Some (d, f)) ls -> lookup_hash a f = Some d) /\
    (forall f, In f seen' -> In f seen \/ exists d, In (Some (d, f)) ls).
  Proof.
    induction ls as [|l ls IH]; intros seen seen' Hv.
    - cbn in Hv. injection Hv as <-. split; [intros d f []|intros f Hf; left; exact Hf].
    - cbn [Model.verify_lines] in Hv. destruct l as [[d f]|]; [|discriminate].
      destruct (lookup_hash a f) as [h|] eqn:El; [|discriminate].
      destruct (deqb d h) eqn:Ed; [|discriminate].
      apply deqb_spec in Ed. subst h.
      apply IH in Hv as [Hall Hseen]. split.
      + intros d' f' [Heq|Hin]; [injection Heq as <- <-; exact El|apply Hall; exact Hin].
      + intros f' Hf'. destruct (Hseen f' Hf') as [[<-|Hs]|[d' Hd']].
        * right. exists d. left. reflexivity.
        * left. exact Hs.
        * right. exists d'. right. exact Hd'.
  Qed.

  Lemma mem_str_In f l : mem_str f l = true -> In f l.
  Proof.
    unfold mem_str. intros Hx. apply existsb_exists in Hx as (x & Hin & Heq).
    apply String.eqb_eq in Heq. subst x. exact Hin.
  Qed.

  Lemma decode_ok_inv a :
    decode_and_verify a = Ok tt ->
    let ls := parse_sums (a_sums a) in
    (forall d f, In (Some (d, f)) ls -> lookup_hash a f = Some d) /\
    (exists d, In (Some (d, n_meta)) ls) /\ (exists d, In (Some (d, n_state)) ls).
  Proof.
    unfold Model.decode_and_verify. intros Hd.
    destruct (verify_lines a (parse_sums (a_sums a)) []) as [seen|e] eqn:Ev; [|discriminate].
    destruct (scan_err (a_sums a)); [discriminate|].
    destruct (mem_str n_meta seen && mem_str n_state seen) eqn:Em; [|discriminate].
    apply andb_true_iff in Em as [Hm Hs]. apply mem_str_In in Hm, Hs.
    apply verify_lines_inv in Ev as [Hall Hseen]. split; [exact Hall|]. split.
    - destruct (Hseen _ Hm) as [[]|Hx]; exact Hx.
    - destruct (Hseen _ Hs) as [[]|Hx]; exact Hx.
  Qed.

  (* What acceptance implies, for EVERY member list.  Complete and undamaged, expected names only;
     the state is the concatenation of the state.bin pieces, the metadata what the meta.json pieces
     decode to one after the other; and each payload
     name has a piece, has a checksum line, and every line for it records the hash of its bytes. *)
  Theorem read_ok_inv L t r :
    read L t = Ok r ->
    t = true /\ Forall member_ok L /\
    snd r = cat n_state L /\
    dec_all meta0 (datas n_meta L) = Some (fst r) /\
    forall n, payload n ->
      datas n L <> [] /\
      (exists d, In (Some (d, n)) (parse_sums (cat n_sums L))) /\
      (forall d, In (Some (d, n)) (parse_sums (cat n_sums L)) -> d = H (cat n L)).
  Proof.
    unfold Model.read. intros Hr.
    destruct (read_members L (acc0 meta0)) as [a|e] eqn:Erm; [|discriminate].
    destruct t; cbn [negb] in Hr; [|discriminate].
    destruct (decode_and_verify a) as [[]|e] eqn:Edv; [|discriminate].
    destruct (a_seen_meta a && a_seen_state a) eqn:Eseen; [|discriminate].
    injection Hr as <-.
    apply read_members_inv in Erm as (Hall & Hm & Hs & Hq & Hd & Hsm & Hss).
    cbn in Hm, Hs, Hq, Hd, Hsm, Hss.
    apply andb_true_iff in Eseen as [E1 E2]. rewrite Hsm in E1. rewrite Hss in E2.
    apply decode_ok_inv in Edv as (Hlk & Hem & Hes). rewrite Hq in *.
    split; [reflexivity|]. split; [exact Hall|]. split; [exact Hs|]. split; [exact Hd|].
    intros n Hn. split; [|split].
    - intros Hx. destruct Hn as [-> | ->]; rewrite Hx in *; discriminate.
    - destruct Hn as [-> | ->]; assumption.
    - intros d Hin. apply Hlk in Hin. unfold Model.lookup_hash in Hin.
      destruct Hn as [-> | ->]; cbn in Hin; congruence.
  Qed.

  Theorem no_payload_rejected n L t r : payload n -> datas n L = [] -> read L t = Ok r -> False.
  Proof. intros Hn Hx Hr. apply read_ok_inv in Hr as (_ & _ & _ & _ & Hp). destruct (Hp n Hn) as (Hd & _). exact (Hd Hx). Qed.

  (* no parsed checksum line names the payload member *)
  Theorem no_line_rejected n L t r :
    payload n -> (forall d, ~ In (Some (d, n)) (parse_sums (cat n_sums L))) -> read L t = Ok r -> False.
  Proof.
    intros Hn Hx Hr. apply read_ok_inv in Hr as (_ & _ & _ & _ & Hp).
    destruct (Hp n Hn) as (_ & [d Hd] & _). exact (Hx d Hd).
  Qed.

  (* a recorded checksum that is not the hash of the member's bytes *)
  Theorem wrong_sum_rejected n L t r d :
    payload n -> In (Some (d, n)) (parse_sums (cat n_sums L)) -> d <> H (cat n L) ->
    read L t = Ok r -> False.
  Proof.
    intros Hn Hin Hd Hr. apply read_ok_inv in Hr as (_ & _ & _ & _ & Hp).
    destruct (Hp n Hn) as (_ & _ & Hh). exact (Hd (Hh d Hin)).
  Qed.

  (* the checksum bytes are empty: the member is absent, or every SHA256SUMS member is empty *)
  Theorem no_sums_rejected L t r : cat n_sums L = [] -> read L t = Ok r -> False.
  Proof.
    intros Hq. apply (no_line_rejected n_meta); [left; reflexivity|].
    intros d Hd. rewrite Hq, parse_empty in Hd. destruct Hd.
  Qed.

  Theorem no_sums_member_rejected L t r : datas n_sums L = [] -> read L t = Ok r -> False.
  Proof. intros Hq. apply no_sums_rejected. unfold cat. rewrite Hq. reflexivity. Qed.

  Theorem lacks_expected_rejected n L t r : expected n -> datas n L = [] -> read L t = Ok r -> False.
  Proof.
    intros [-> |[-> | ->]].
    - apply no_payload_rejected. left. reflexivity.
    - apply no_payload_rejected. right. reflexivity.
    - apply no_sums_member_rejected.
  Qed.

  Theorem incomplete_rejected L r : read L false = Ok r -> False.
  Proof. intros Hr. apply read_ok_inv in Hr as (Ht & _). discriminate. Qed.

  Lemma write_member ord m s mb :
    In mb (write ord m s) ->
    member_ok mb /\ datas (m_name mb) (write ord m s) = [m_data mb].
  Proof.
    unfold member_ok, expected.
    intros [<-|[<-|[<-|[]]]]; cbn [m_name m_intact]; (split; [tauto|reflexivity]).
  Qed.

  Lemma write_datas_meta ord m s : datas n_meta (write ord m s) = [enc_meta m].
  Proof. reflexivity. Qed.
  Lemma write_datas_state ord m s : datas n_state (write ord m s) = [s].
  Proof. reflexivity. Qed.
  Lemma write_cat_sums ord m s : cat n_sums (write ord m s) = print_sums (sums_lines ord m s).
  Proof. apply cat_single. reflexivity. Qed.

  (* a payload member's bytes, as the checksum lines of [write] name them *)
  Lemma In_sums ord m s d n :
    payload n -> In (Some (d, n)) (map Some (sums_lines ord m s)) -> d = H (cat n (write ord m s)).
  Proof.
    intros Hn. replace (cat n (write ord m s)) with (if String.eqb n n_meta then enc_meta m else s).
    - unfold Model.sums_lines. destruct Hn as [-> | ->], ord; cbn [map In]; intros [Hx|[Hx|[]]];
        try (injection Hx as <-; reflexivity); discriminate Hx.
    - symmetry. destruct Hn as [-> | ->]; apply cat_single; reflexivity.
  Qed.

  Lemma deqb_refl d : deqb d d = true.
  Proof. apply deqb_spec; reflexivity. Qed.

  Lemma verify_written ord m s (md : Meta) sm ss :
    decode_and_verify (Acc (enc_meta m) s (print_sums (sums_lines ord m s)) md sm ss) = Ok tt.
  Proof.
    unfold Model.decode_and_verify. cbn [a_sums]. rewrite parse_print, scan_print.
    destruct ord; cbn; rewrite !deqb_refl; reflexivity.
  Qed.

  (* what is read back is whatever the metadata codec decodes from its own encoding: the state
     bytes always, the metadata exactly when encoding/json round-trips on it *)
  Theorem roundtrip_codec ord m s m' :
    dec_meta meta0 (enc_meta m) = Some m' -> read (write ord m s) true = Ok (m', s).
  Proof.
    intros Hdec. unfold Model.read, Model.write. cbn. rewrite Hdec. cbn.
    rewrite verify_written. reflexivity.
  Qed.

  Theorem roundtrip ord m s : read (write ord m s) true = Ok (m, s).
  Proof. apply roundtrip_codec, dec_enc. Qed.

  Theorem sums_intact_sound ord m s L t r :
    cat n_sums L = print_sums (sums_lines ord m s) -> read L t = Ok r ->
    forall n, payload n -> cat n L = cat n (write ord m s).
  Proof.
    intros Hq Hr n Hn. apply read_ok_inv in Hr as (_ & _ & _ & _ & Hp).
    destruct (Hp n Hn) as (_ & [d Hd] & Hh). apply Hh in Hd as Hd'. subst d.
    rewrite Hq, parse_print in Hd. apply In_sums in Hd; [|exact Hn]. apply H_inj. exact Hd.
  Qed.

  (* pieces that all decode and concatenate to an encoding: there is one piece, the encoding *)
  Lemma dec_all_empty_piece ds ds' : forall md, dec_all md (ds ++ [] :: ds') = None.
  Proof.
    induction ds as [|d ds IH]; intros md; cbn; [rewrite dec_empty; reflexivity|].
    destruct (dec_meta md d); [apply IH|reflexivity].
  Qed.

  Lemma dec_all_encoding m ds m' :
    dec_all meta0 ds = Some m' -> List.concat ds = enc_meta m -> m' = m.
  Proof.
    intros Hd Hc.
    destruct ds as [|a [|b rest]].
    - cbn in Hc. symmetry in Hc. destruct (enc_nonempty _ Hc).
    - cbn in Hc. rewrite app_nil_r in Hc. subst a. cbn in Hd. rewrite dec_enc in Hd. congruence.
    - exfalso. cbn [List.concat] in Hc. cbn [dec_all] in Hd.
      destruct (dec_meta meta0 a) as [md1|] eqn:E1; [|discriminate].
      destruct (dec_meta md1 b) as [md2|] eqn:E2; [|discriminate].
      assert (Ha : a <> []) by (intros ->; rewrite dec_empty in E1; discriminate).
      assert (Hb : b <> []) by (intros ->; rewrite dec_empty in E2; discriminate).
      destruct (dec_pieces m a b (List.concat rest) meta0 md1 Hc Ha Hb); congruence.
  Qed.

  (* For EVERY member list: acceptance with untouched checksum bytes means the original state
     bytes and the original metadata, however the members are cut or repeated. *)
  Theorem accept_sound ord m s L t m' s' :
    cat n_sums L = print_sums (sums_lines ord m s) ->
    read L t = Ok (m', s') ->
    m' = m /\ s' = s /\ cat n_state L = s /\ cat n_meta L = enc_meta m.
  Proof.
    intros Hq Hr.
    pose proof (sums_intact_sound ord m s L t _ Hq Hr n_meta (or_introl eq_refl)) as Hm.
    pose proof (sums_intact_sound ord m s L t _ Hq Hr n_state (or_intror eq_refl)) as Hs.
    rewrite (cat_single _ _ _ (write_datas_meta ord m s)) in Hm.
    rewrite (cat_single _ _ _ (write_datas_state ord m s)) in Hs.
    apply read_ok_inv in Hr as (_ & _ & Hs' & Hd & _). cbn [fst snd] in Hs', Hd.
    split; [eapply dec_all_encoding; [exact Hd|exact Hm]|]. split; [congruence|]. split; assumption.
  Qed.

  (* payload members untouched (exactly one of each, as written) => extraction identical,
     whatever happened to the SHA256SUMS member(s) *)
  Theorem payload_intact_sound m s L t r :
    read L t = Ok r -> datas n_meta L = [enc_meta m] -> cat n_state L = s -> r = (m, s).
  Proof.
    intros Hr Hm Hs. apply read_ok_inv in Hr as (_ & _ & Hs' & Hd & _).
    rewrite Hm in Hd. cbn in Hd. rewrite dec_enc in Hd. injection Hd as Hd.
    destruct r; cbn in *; congruence.
  Qed.

  Definition inserted {A} (x : A) (L L' : list A) : Prop :=
    exists a b, L = a ++ b /\ L' = a ++ x :: b.

  Inductive corrupt (L : list member) : list member -> bool -> Prop :=
  | c_data pre mb post d :                 (* the bytes of one member are altered *)
      L = pre ++ mb :: post -> d <> m_data mb ->
      corrupt L (pre ++ Member (m_name mb) d true :: post) true
  | c_trunc_member pre mb post d :         (* cut inside a member's data *)
      L = pre ++ mb :: post ->
      corrupt L (pre ++ [Member (m_name mb) d false]) false
  | c_trunc_header pre post :              (* cut / damage inside a header: Next fails *)
      L = pre ++ post -> corrupt L pre false
  | c_trunc_clean pre post :               (* cut exactly between members *)
      L = pre ++ post -> post <> [] -> corrupt L pre true
  | c_remove pre mb post :
      L = pre ++ mb :: post -> corrupt L (pre ++ post) true
  | c_inject x L' :                        (* a member is injected (duplication included) *)
      inserted x L L' -> corrupt L L' true
  | c_reorder L' :
      Permutation L L' -> corrupt L L' true
  | c_rename pre mb post n' :              (* to ANY other name, the three expected ones included *)
      L = pre ++ mb :: post -> n' <> m_name mb ->
      corrupt L (pre ++ Member n' (m_data mb) true :: post) true.

  Lemma app_eq_self_l {A} (a b : list A) : a ++ b = a -> b = [].
  Proof. intros Hx. rewrite <- (app_nil_r a) in Hx at 2. apply app_inv_head in Hx. exact Hx. Qed.

  Lemma write_split ord m s pre mb post :
    write ord m s = pre ++ mb :: post ->
    expected (m_name mb) /\ datas (m_name mb) pre = [] /\ datas (m_name mb) post = [].
  Proof.
    intros Hw. destruct (write_member ord m s mb) as [[He _] Hd].
    - rewrite Hw. apply in_elt.
    - split; [exact He|]. rewrite Hw in Hd. exact (single_mid _ _ _ _ Hd).
  Qed.

  (* removing any member of a written archive is rejected (the empty state included) *)
  Theorem remove_rejected ord m s pre mb post t r :
    write ord m s = pre ++ mb :: post -> read (pre ++ post) t = Ok r -> False.
  Proof.
    intros Hw. destruct (write_split _ _ _ _ _ _ Hw) as (He & Hpre & Hpost).
    apply (lacks_expected_rejected _ _ _ _ He). rewrite datas_app, Hpre, Hpost. reflexivity.
  Qed.

  (* renaming any member of a written archive to any other name is rejected *)
  Theorem rename_rejected ord m s pre mb post n' t r :
    write ord m s = pre ++ mb :: post -> n' <> m_name mb ->
    read (pre ++ Member n' (m_data mb) true :: post) t = Ok r -> False.
  Proof.
    intros Hw Hn. destruct (write_split _ _ _ _ _ _ Hw) as (He & Hpre & Hpost).
    apply (lacks_expected_rejected _ _ _ _ He).
    rewrite datas_mid_other by exact Hn. rewrite datas_app, Hpre, Hpost. reflexivity.
  Qed.

  (* an archive that stops, even cleanly, before its last member is rejected *)
  Theorem clean_cut_rejected ord m s pre post t r :
    write ord m s = pre ++ post -> post <> [] -> read pre t = Ok r -> False.
  Proof.
    intros Hw Hp. destruct post as [|mb post]; [contradiction|].
    destruct (write_split _ _ _ _ _ _ Hw) as (He & Hpre & _).
    exact (lacks_expected_rejected _ _ _ _ He Hpre).
  Qed.

  (* altered bytes of meta.json or state.bin: the untouched checksum lines no longer match *)
  Theorem payload_change_rejected ord m s pre mb post d t r :
    write ord m s = pre ++ mb :: post -> m_name mb <> n_sums -> d <> m_data mb ->
    read (pre ++ Member (m_name mb) d true :: post) t = Ok r -> False.
  Proof.
    intros Hw Hn Hd Hr. destruct (write_split _ _ _ _ _ _ Hw) as (He & Hpre & Hpost).
    assert (Hp : payload (m_name mb)) by (unfold expected, payload in *; tauto).
    assert (Hmid : forall x, m_name x = m_name mb -> cat (m_name mb) (pre ++ x :: post) = m_data x).
    { intros x Hx. apply cat_single. rewrite datas_mid, Hpre, Hpost, Hx, String.eqb_refl. reflexivity. }
    apply Hd. transitivity (cat (m_name mb) (pre ++ Member (m_name mb) d true :: post)).
    { symmetry. exact (Hmid (Member _ d true) eq_refl). }
    rewrite <- (Hmid mb eq_refl), <- Hw.
    apply (sums_intact_sound ord m s _ t r); [|exact Hr|exact Hp].
    rewrite <- write_cat_sums, Hw. unfold cat. rewrite !(datas_mid_other n_sums) by exact Hn. reflexivity.
  Qed.

  (* An injected member (duplication included) never changes what is extracted.  An extra SHA256SUMS
     leaves the payload members as written.  An extra payload member leaves the checksum bytes as
     written, so it is empty: an empty meta.json piece does not decode, an empty state.bin piece
     changes nothing. *)
  Theorem inject_sound ord m s x a b r :
    write ord m s = a ++ b -> read (a ++ x :: b) true = Ok r -> r = (m, s).
  Proof.
    intros Hw Hr.
    pose proof (write_datas_meta ord m s) as Wm. pose proof (write_datas_state ord m s) as Ws.
    pose proof Hr as (_ & Hall & _ & Hd & _)%read_ok_inv.
    assert (Hx : member_ok x) by (rewrite Forall_forall in Hall; apply Hall, in_elt).
    destruct Hx as [Hn _].
    destruct (String.eqb (m_name x) n_sums) eqn:En.
    - apply String.eqb_eq in En.
      apply (payload_intact_sound _ _ _ _ _ Hr); [|apply cat_single];
        rewrite datas_mid_other, <- Hw by (rewrite En; discriminate); assumption.
    - apply String.eqb_neq in En.
      assert (Hq : cat n_sums (a ++ x :: b) = print_sums (sums_lines ord m s)).
      { rewrite <- write_cat_sums, Hw. unfold cat. rewrite datas_mid_other by exact En. reflexivity. }
      pose proof (sums_intact_sound _ _ _ _ _ _ Hq Hr) as Hsame.
      destruct Hn as [Hn|[Hn|Hn]]; [|clear Hd|contradiction].
      + exfalso. specialize (Hsame n_meta (or_introl eq_refl)).
        rewrite Hw, !cat_app, cat_cons, Hn, String.eqb_refl in Hsame.
        apply app_inv_head, (app_inv_tail _ _ []) in Hsame.
        rewrite datas_mid, Hn, String.eqb_refl, Hsame in Hd. cbn [app] in Hd.
        rewrite dec_all_empty_piece in Hd. discriminate.
      + apply (payload_intact_sound _ _ _ _ _ Hr).
        * rewrite datas_mid_other, <- Hw by (rewrite Hn; discriminate). exact Wm.
        * rewrite (Hsame n_state (or_intror eq_refl)). apply cat_single, Ws.
  Qed.

  (* the hypotheses are named because the case analysis could also be closed through [accept_sound],
     which would bring [enc_nonempty] and [dec_pieces] into the statement of C20_tamper *)
  Theorem tamper ord m s L' t' r :
    corrupt (write ord m s) L' t' -> read L' t' = Ok r -> r = (m, s).
  Proof using deqb_spec H_inj dec_enc dec_empty parse_print parse_empty.
    intros Hc Hr.
    pose proof (write_datas_meta ord m s) as Wm. pose proof (write_datas_state ord m s) as Ws.
    destruct Hc as [pre mb post d Hw Hd|pre mb post d Hw|pre post Hw|pre post Hw Hp|pre mb post Hw
                   |x L' (a & b & Hw & ->)|L' Hp|pre mb post n' Hw Hn].
    - (* c_data *)
      destruct (String.eqb (m_name mb) n_sums) eqn:En.
      + (* the checksum member is altered: the payload members are as written *)
        apply String.eqb_eq in En. rewrite Hw in Wm, Ws.
        apply (payload_intact_sound _ _ _ _ _ Hr); [|apply cat_single];
          rewrite datas_mid_other in Wm, Ws |- * by (cbn [m_name]; rewrite En; discriminate); assumption.
      + apply String.eqb_neq in En. destruct (payload_change_rejected _ _ _ _ _ _ _ _ _ Hw En Hd Hr).
    - destruct (incomplete_rejected _ _ Hr).
    - destruct (incomplete_rejected _ _ Hr).
    - destruct (clean_cut_rejected _ _ _ _ _ _ _ Hw Hp Hr).
    - destruct (remove_rejected _ _ _ _ _ _ _ _ Hw Hr).
    - exact (inject_sound _ _ _ _ _ _ _ Hw Hr).
    - (* c_reorder *)
      apply (payload_intact_sound _ _ _ _ _ Hr); [|apply cat_single]; eapply datas_perm_singleton; eassumption.
    - destruct (rename_rejected _ _ _ _ _ _ _ _ _ Hw Hn Hr).
  Qed.

  Theorem read_gz_ok_inv hdr L t tr r :
    read_gz hdr L t tr = Ok r -> hdr = true /\ tr = true /\ read L t = Ok r.
  Proof.
    unfold Model.read_gz. destruct hdr; cbn [negb]; [|discriminate].
    destruct (read L t) as [r0|e]; [|discriminate].
    destruct tr; [|discriminate]. intros Hx; injection Hx as <-. auto.
  Qed.

End Proofs.
