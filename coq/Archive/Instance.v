(* A concrete instance of every Section variable of the archive model, satisfying every
   hypothesis of Archive/Proofs.v: the hypotheses are jointly satisfiable (non-vacuity),
   and the instantiated reader and writer compute. *)
From Verif Require Import Base.Prelude Archive.Model Archive.Proofs.
From Verif Require Import Base.Lists.

Definition idigest := bytes.
Definition iH (b : bytes) : idigest := b.
Definition iMeta := bytes.
Definition imeta0 : iMeta := [].
(* a length-prefixed metadata codec: no encoding splits into two pieces that both decode *)
Definition ienc (m : iMeta) : bytes := N.of_nat (List.length m) :: m.
Definition idec (_ : iMeta) (d : bytes) : option iMeta :=
  match d with
  | n :: r => if Nat.eqb (List.length r) (N.to_nat n) then Some r else None
  | [] => None
  end.
Definition iscan (_ : bytes) : bool := false.

Fixpoint iprint (l : list (idigest * string)) : bytes :=
  match l with
  | [] => []
  | (d, f) :: r =>
    N.of_nat (List.length d) :: d ++
    N.of_nat (List.length (bytes_of_string f)) :: bytes_of_string f ++ iprint r
  end.

Fixpoint iparse_fuel (fuel : nat) (b : bytes) : list (option (idigest * string)) :=
  match fuel with
  | O => []
  | S k =>
    match b with
    | [] => []
    | n :: r =>
      let ln := N.to_nat n in
      match skipn ln r with
      | [] => [None]
      | k2 :: r2 =>
        let lf := N.to_nat k2 in
        Some (firstn ln r, bs (firstn lf r2)) :: iparse_fuel k (skipn lf r2)
      end
    end
  end.
Definition iparse (b : bytes) : list (option (idigest * string)) := iparse_fuel (List.length b) b.

Lemma firstn_len_app {A} (a b : list A) : firstn (List.length a) (a ++ b) = a.
Proof. induction a as [|x a IH]; cbn; [destruct b; reflexivity|rewrite IH; reflexivity]. Qed.
Lemma skipn_len_app {A} (a b : list A) : skipn (List.length a) (a ++ b) = b.
Proof. induction a as [|x a IH]; cbn; [reflexivity|exact IH]. Qed.

Lemma iparse_fuel_print l : forall fuel, (List.length l <= fuel)%nat ->
  iparse_fuel fuel (iprint l) = map Some l.
Proof.
  induction l as [|[d f] l IH]; intros fuel Hf.
  - destruct fuel; reflexivity.
  - destruct fuel as [|fuel]; [cbn in Hf; lia|].
    cbn [iprint iparse_fuel map]. rewrite !Nat2N.id.
    rewrite skipn_len_app, firstn_len_app. rewrite !Nat2N.id.
    rewrite skipn_len_app, firstn_len_app, bs_bytes_of_string.
    rewrite IH; [reflexivity|cbn in Hf; lia].
Qed.

Lemma iprint_length l : (List.length l <= List.length (iprint l))%nat.
Proof.
  induction l as [|[d f] l IH]; cbn [iprint List.length]; [lia|].
  rewrite app_length. cbn [List.length]. rewrite app_length. lia.
Qed.

Lemma iparse_print l : iparse (iprint l) = map Some l.
Proof. unfold iparse. apply iparse_fuel_print, iprint_length. Qed.

Lemma iH_inj a b : iH a = iH b -> a = b.
Proof. exact (fun e => e). Qed.
Lemma idec_enc m : idec imeta0 (ienc m) = Some m.
Proof. unfold idec, ienc. rewrite Nat2N.id, Nat.eqb_refl. reflexivity. Qed.
Lemma idec_empty m : idec m [] = None.
Proof. reflexivity. Qed.
Lemma ienc_nonempty m : ienc m <> [].
Proof. discriminate. Qed.
Lemma iparse_empty : iparse [] = [].
Proof. reflexivity. Qed.
Lemma idec_pieces (m : iMeta) (a b c : list N) (md md' : iMeta) :
  a ++ b ++ c = ienc m -> a <> [] -> b <> [] -> idec md a = None \/ idec md' b = None.
Proof.
  intros He Ha Hb. left. destruct a as [|n a']; [contradiction|].
  unfold ienc in He. cbn [app] in He. injection He as Hn Hm.
  unfold idec. destruct (Nat.eqb (List.length a') (N.to_nat n)) eqn:E; [|reflexivity].
  exfalso. apply Nat.eqb_eq in E. subst n. rewrite Nat2N.id in E.
  apply (f_equal (@List.length N)) in Hm. rewrite !app_length in Hm.
  destruct b; [contradiction|]. cbn [List.length] in Hm. lia.
Qed.
Lemma iparse_print_lines ord m s :
  iparse (iprint (sums_lines iH ienc ord m s)) = map Some (sums_lines iH ienc ord m s).
Proof. apply iparse_print. Qed.
Lemma iscan_print ord m s : iscan (iprint (sums_lines iH ienc ord m s)) = false.
Proof. reflexivity. Qed.

Definition iread := read bytes_eqb iH imeta0 idec iparse iscan.
Definition iwrite := write iH ienc iprint.

Theorem instance_tamper ord m s L' t' r :
  corrupt (iwrite ord m s) L' t' -> iread L' t' = Ok r -> r = (m, s).
Proof.
  exact (tamper bytes_eqb iH imeta0 ienc idec iprint iparse iscan bytes_eqb_eq iH_inj idec_enc
                idec_empty iparse_print_lines iparse_empty ord m s L' t' r).
Qed.

(* A concrete, non-trivial archive: it reads back; flipping a state byte is rejected;
   dropping state.bin of an empty state is refused (it was accepted before the repair 782406e). *)
Example ex_roundtrip :
  iread (iwrite true [1; 2; 3]%N [10; 20; 30; 40]%N) true = Ok ([1; 2; 3]%N, [10; 20; 30; 40]%N).
Proof. vm_compute. reflexivity. Qed.

Example ex_flip_rejected :
  iread [ Member n_meta (ienc [1; 2; 3]%N) true;
          Member n_state [10; 21; 30; 40]%N true;
          Member n_sums (iprint (sums_lines iH ienc true [1; 2; 3]%N [10; 20; 30; 40]%N)) true ] true
  = Err EHashMismatch.
Proof. vm_compute. reflexivity. Qed.

Example ex_empty_state_without_member_refused :
  iread [ Member n_meta (ienc [1]%N) true;
          Member n_sums (iprint (sums_lines iH ienc false [1]%N [])) true ] true
  = Err ENotInArchive.
Proof. vm_compute. reflexivity. Qed.

(* A lossy metadata codec (it stores byte 255 as 253, as encoding/json stores an invalid UTF-8 byte
   as U+FFFD) satisfying the premises of C20_roundtrip_refuted: the archive of [255] verifies and
   reads back as [253]. *)
Definition lenc (m : iMeta) : bytes := ienc (map (fun x => if N.eqb x 255 then 253%N else x) m).
Example ex_lossy_roundtrip :
  read bytes_eqb iH imeta0 idec iparse iscan (write iH lenc iprint true [255]%N [7]%N) true
  = Ok ([253]%N, [7]%N).
Proof. vm_compute. reflexivity. Qed.

(* The non-trivial branch of [tamper]: corrupted archives that ARE accepted, with the original
   extraction.  (1) an empty extra state.bin injected between the members; (2) a second
   SHA256SUMS with a valid line appended; (3) the members reordered. *)
Definition ex_m : iMeta := [1; 2; 3]%N.
Definition ex_s : bytes := [10; 20; 30; 40]%N.
Definition ex_inj_state : list member :=
  [ Member n_meta (ienc ex_m) true; Member n_state [] true; Member n_state ex_s true;
    Member n_sums (iprint (sums_lines iH ienc true ex_m ex_s)) true ].
Definition ex_inj_sums : list member :=
  iwrite true ex_m ex_s ++ [Member n_sums (iprint [(iH ex_s, n_state)]) true].
Definition ex_reordered : list member :=
  [ Member n_sums (iprint (sums_lines iH ienc true ex_m ex_s)) true;
    Member n_state ex_s true; Member n_meta (ienc ex_m) true ].

Example ex_corrupt_accepted_inject_state :
  corrupt (iwrite true ex_m ex_s) ex_inj_state true /\ ex_inj_state <> iwrite true ex_m ex_s /\
  iread ex_inj_state true = Ok (ex_m, ex_s).
Proof.
  split; [|split; [discriminate|vm_compute; reflexivity]].
  eapply (c_inject _ (Member n_state [] true)).
  exists [Member n_meta (ienc ex_m) true],
         [Member n_state ex_s true; Member n_sums (iprint (sums_lines iH ienc true ex_m ex_s)) true].
  split; reflexivity.
Qed.

Example ex_corrupt_accepted_inject_sums :
  corrupt (iwrite true ex_m ex_s) ex_inj_sums true /\ iread ex_inj_sums true = Ok (ex_m, ex_s).
Proof.
  split; [|vm_compute; reflexivity].
  eapply (c_inject _ (Member n_sums (iprint [(iH ex_s, n_state)]) true)).
  exists (iwrite true ex_m ex_s), []. split; [rewrite app_nil_r; reflexivity|reflexivity].
Qed.

Example ex_corrupt_accepted_reorder :
  corrupt (iwrite true ex_m ex_s) ex_reordered true /\ iread ex_reordered true = Ok (ex_m, ex_s).
Proof.
  split; [|vm_compute; reflexivity].
  apply c_reorder. unfold iwrite, write, ex_reordered.
  eapply Permutation.perm_trans; [apply Permutation.perm_swap|].
  eapply Permutation.perm_trans; [apply Permutation.perm_skip, Permutation.perm_swap|].
  eapply Permutation.perm_trans; [apply Permutation.perm_swap|]. apply Permutation.Permutation_refl.
Qed.
