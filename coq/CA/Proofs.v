(* Proofs about CA/Model.v: what a successful signing request implies, how a command moves the
   serial counter and what it leaves alone, one active root after every step, and what an accepted
   root-set command stores.  Stdlib only, no axioms. *)
From Verif Require Import Base.Prelude.
From Verif Require Import CA.Model.
From Verif Require Import CA.UrlProofs.
From Verif Require Import CA.Parse.
From Coq Require Import Sorted.
Open Scope string_scope.
Open Scope N_scope.
Open Scope list_scope.

Lemma negb_false_true b : negb b = false -> b = true.
Proof. destruct b; cbn; congruence. Qed.

Definition id_host (id : cert_id) : string :=
  match id with
  | IdService h _ _ _ _ | IdAgent h _ _ _ | IdGateway h _ _ | IdServer h _ => h
  | IdSigning cl dom => lower (cl ++ "." ++ dom)%string
  end.

Definition id_dc (id : cert_id) : string :=
  match id with
  | IdService _ _ _ dc _ | IdAgent _ _ dc _ | IdGateway _ _ dc | IdServer _ dc => dc
  | IdSigning _ _ => EmptyString
  end.

Definition is_agent (id : cert_id) : bool := match id with IdAgent _ _ _ _ => true | _ => false end.

(* the write permission the token must hold for the identity *)
Definition granted (az : authz) (id : cert_id) : Prop :=
  match id with
  | IdService _ _ _ _ svc => az_service_write az svc = true
  | IdAgent _ _ _ agent => az_node_write az agent = true
  | IdGateway _ _ _ => az_mesh_write az = true
  | IdServer _ _ => az_acl_write az = true
  | IdSigning _ _ => False
  end.

Definition coerce (e : ca_env) (id : cert_id) : cert_id :=
  match id with
  | IdAgent _ ap dc agent => IdAgent (trust_domain e) ap dc agent
  | _ => id
  end.

Definition agent_cert_uri (e : ca_env) (u : url) (id : cert_id) : url :=
  match id with
  | IdAgent host ap dc agent =>
      if (host =? trust_domain e)%string then u else uri_of (coerce e id)
  | _ => u
  end.

(* the shape of all four branches of the switch in [authorize_id] *)
Lemma guard_ok (p : bool) (dc dc' : string) :
  (if negb p then Err EDenied else if negb (dc =? dc')%string then Err EDatacenter else Ok tt) = Ok tt ->
  p = true /\ dc = dc'.
Proof.
  destruct p; [|discriminate]. destruct (String.eqb_spec dc dc'); [|discriminate]. intros _. split; [reflexivity | assumption].
Qed.

Lemma authorize_id_ok e az id :
  authorize_id e az id = Ok tt -> granted az id /\ id_dc id = e_dc e.
Proof. destruct id; cbn [authorize_id granted id_dc]; first [apply guard_ok | discriminate]. Qed.

Lemma authorize_ok e az c id :
  authorize e az c = Ok id ->
  exists u, csr_uris c = [u] /\ csr_emails c = 0 /\ parse_cert_uri u = Ok id /\
            validate_supported id = true /\ granted az id /\ id_dc id = e_dc e /\
            is_duser (u_deco u) = false.
Proof.
  unfold authorize. destruct (csr_uris c) as [|u [|u2 t]]; try discriminate.
  destruct (N.eqb_spec (csr_emails c) 0) as [Em|]; cbn [negb]; try discriminate.
  destruct (is_duser (u_deco u)) eqn:Dd; try discriminate.
  destruct (parse_cert_uri u) as [id0|pe] eqn:P; try discriminate.
  destruct (validate_supported id0) eqn:V; cbn [negb]; try discriminate.
  destruct (authorize_id e az id0) as [[]|x] eqn:A; try discriminate.
  intros [= <-]. destruct (authorize_id_ok _ _ _ A) as [G D]. exists u. auto 8.
Qed.

Lemma sign_uris_ok e u id uris :
  sign_uris e [u] id = Ok uris -> parse_cert_uri u = Ok id ->
  uris = [agent_cert_uri e u id] /\ (is_agent id = false -> lower (id_host id) = trust_domain e).
Proof.
  destruct id; cbn [sign_uris is_agent id_host agent_cert_uri coerce]; intros H Hp; [| | | |discriminate].
  1, 3, 4: unfold can_sign in H; destruct (String.eqb_spec (lower host) (trust_domain e)); [|discriminate];
    injection H as <-; auto.
  split; [|discriminate].
  destruct (host =? trust_domain e)%string; cbn [negb] in H; injection H as <-; [reflexivity|].
  cbn [map]. unfold same_agent. rewrite Hp, !String.eqb_refl. reflexivity.
Qed.

(* What AuthorizeAndSignCertificate has established about a request when it issues: one URI [u],
   which reads as the identity [id], for which the token was asked. *)
Set Implicit Arguments.
Record issued (e : ca_env) (az : authz) (c : csr) (u : url) (id : cert_id) : Prop := {
  iss_uris : csr_uris c = [u];
  iss_emails : csr_emails c = 0;
  iss_plain : is_duser (u_deco u) = false;
  iss_parse : parse_cert_uri u = Ok id;
  iss_supported : validate_supported id = true;
  iss_granted : granted az id;
  iss_dc : id_dc id = e_dc e;
  iss_host : is_agent id = false -> lower (id_host id) = trust_domain e
}.
Unset Implicit Arguments.

Theorem sign_request_issued e az c s crt s' :
  sign_request e az c s = Ok (crt, s') ->
  exists u id, issued e az c u id /\
    crt = Cert [agent_cert_uri e u id] (csr_dns c) (csr_ips c) false (next_serial s) /\
    s' = incr_serial s.
Proof.
  unfold sign_request. destruct (authorize e az c) as [id|x] eqn:A; try discriminate.
  destruct (authorize_ok _ _ _ _ A) as (u & Hu & Hem & Hp & Hv & Hg & Hd & Hdu).
  rewrite Hu. destruct (sign_uris e [u] id) as [uris|x] eqn:S; try discriminate.
  unfold provider_sign. intros [= <- <-]. destruct (sign_uris_ok _ _ _ _ S Hp) as [-> Hh].
  exists u, id. split; [constructor; assumption | split; reflexivity].
Qed.

Lemma agent_cert_uri_other e u id : is_agent id = false -> agent_cert_uri e u id = u.
Proof. destruct id; (discriminate || reflexivity). Qed.

Lemma ascii_lower_idem c : ascii_lower (ascii_lower c) = ascii_lower c.
Proof.
  unfold ascii_lower at 2 3. destruct (in_range 65 90 (code c)) eqn:R; [|unfold ascii_lower; rewrite R; reflexivity].
  unfold ascii_lower, in_range, code in *. rewrite N_ascii_embedding by lia.
  replace (_ && _)%bool with false by lia. reflexivity.
Qed.

Lemma lower_idem s : lower (lower s) = lower s.
Proof.
  induction s as [|c s IH]; cbn [lower]; [reflexivity|]. rewrite ascii_lower_idem, IH. reflexivity.
Qed.

Lemma reads_host h ds id : reads h ds id -> id_host id = h.
Proof. destruct 1; reflexivity. Qed.

Lemma parse_host u id : parse_cert_uri u = Ok id ->
  id_host id = u_host u \/ exists cl dom, id = IdSigning cl dom.
Proof.
  intros H. apply parse_reads in H as [_ [(ds & _ & R) | (_ & cl & dom & _ & _ & ->)]]; [left | eauto].
  exact (reads_host _ _ _ R).
Qed.

Lemma agent_cert_uri_spec e u id :
  parse_cert_uri u = Ok id -> validate_supported id = true ->
  (is_agent id = false -> lower (id_host id) = trust_domain e) ->
  lower (u_host (agent_cert_uri e u id)) = trust_domain e /\
  (agent_cert_uri e u id = u \/ (is_agent id = true /\ agent_cert_uri e u id = uri_of (coerce e id))).
Proof.
  intros Hp Hv Hh. destruct (parse_host _ _ Hp) as [E | (cl & dom & ->)]; [|discriminate].
  destruct id; cbn [agent_cert_uri coerce id_host] in *;
    try (split; [rewrite <- E; apply Hh|left]; reflexivity).
  destruct (String.eqb_spec host (trust_domain e)) as [Ht|_].
  - split; [|left; reflexivity]. rewrite <- E, Ht. apply lower_idem.
  - split; [apply lower_idem | right; split; reflexivity].
Qed.

(* What a certificate issued through AutoConfig.InitialConfiguration implies.  There is no ACL
   question (the JWT authorized [node]) and no supported-scope test on this path; since bf079b3
   the datacenter of the identity is the server's. *)
Theorem autoconfig_sign_issued e node c s crt s' :
  autoconfig_sign e node c s = Ok (crt, s') ->
  exists u host ap,
    csr_uris c = [u] /\ csr_emails c = 0 /\ is_duser (u_deco u) = false /\
    parse_cert_uri u = Ok (IdAgent host ap (e_dc e) node) /\
    crt = Cert [agent_cert_uri e u (IdAgent host ap (e_dc e) node)] (csr_dns c) (csr_ips c) false (next_serial s) /\
    s' = incr_serial s.
Proof.
  unfold autoconfig_sign. destruct (csr_uris c) as [|u [|u2 t]] eqn:Hu; try discriminate.
  destruct (N.eqb_spec (csr_emails c) 0) as [Em|]; cbn [negb]; try discriminate.
  destruct (is_duser (u_deco u)) eqn:Dd; try discriminate.
  destruct (parse_cert_uri u) as [[| host ap dc agent | | |]|pe] eqn:Hp; try discriminate.
  destruct (String.eqb_spec agent node) as [->|]; cbn [negb]; try discriminate.
  destruct (String.eqb_spec dc (e_dc e)) as [->|]; cbn [negb]; try discriminate.
  destruct (sign_uris e [u] _) as [uris|x] eqn:S; try discriminate.
  unfold provider_sign. intros [= <- <-]. destruct (sign_uris_ok _ _ _ _ S Hp) as [-> _].
  exists u, host, ap. auto 7.
Qed.

Definition last_serial (s : store) : N := match s_serial s with Some n => n | None => 0 end.

Lemma next_serial_gt s : last_serial s < next_serial s.
Proof. unfold last_serial, next_serial. destruct (s_serial s); lia. Qed.

Lemma step_serial s idx o s1 r :
  step s idx o = (s1, r) ->
  match r with
  | OSerial n => n = next_serial s /\ last_serial s1 = next_serial s
  | _ => last_serial s1 = last_serial s
  end.
Proof.
  destruct o; cbn [step];
    repeat match goal with |- context [match ?x with _ => _ end = _] => destruct x end;
    intros [= <- <-]; auto.
Qed.

(* What a command leaves alone: the roots table unless it is one of the two root-set commands, the
   configuration unless it writes or restores it. *)
Lemma step_frame s idx o :
  (match o with
   | OpSetRoots _ _ | OpSetRootsAndConfig _ _ _ => True
   | _ => s_roots (fst (step s idx o)) = s_roots s /\ s_roots_idx (fst (step s idx o)) = s_roots_idx s
   end) /\
  (match o with
   | OpSetConfig _ | OpSetRootsAndConfig _ _ _ | OpSnapshotRestore => True
   | _ => s_config (fst (step s idx o)) = s_config s
   end).
Proof.
  destruct o; cbn [step];
    repeat match goal with |- context [match ?x with _ => _ end] => destruct x end; repeat split.
Qed.

Lemma sorted_above m n l : m < n -> StronglySorted N.lt l -> Forall (fun k => n < k) l ->
  StronglySorted N.lt (n :: l) /\ Forall (fun k => m < k) (n :: l).
Proof.
  intros Hmn Hs Hf. split; constructor; try assumption.
  eapply Forall_impl; [|exact Hf]. cbn. intros; lia.
Qed.

Definition active_count (rs : list root) : nat := List.length (filter r_active rs).

Definition one_active (s : store) : Prop := s_roots s = [] \/ active_count (s_roots s) = 1%nat.

Inductive Reach : store -> Prop :=
| ReachInit : Reach empty_store
| ReachStep s idx o : Reach s -> Reach (fst (step s idx o)).

(* [insert_root]: the table is keyed by ID *)

Lemma insert_root_fresh r acc :
  ~ In (r_id r) (map r_id acc) -> insert_root r acc = acc ++ [r].
Proof.
  induction acc as [|x acc IH]; cbn [insert_root map In app]; intros H; [reflexivity|].
  destruct (String.eqb_spec (r_id x) (r_id r)) as [E|_]; [tauto|]. f_equal. apply IH. tauto.
Qed.

Lemma insert_root_ids r acc id :
  In id (map r_id (insert_root r acc)) <-> id = r_id r \/ In id (map r_id acc).
Proof.
  induction acc as [|x acc IH]; cbn [insert_root map In].
  - intuition.
  - destruct (String.eqb_spec (r_id x) (r_id r)) as [E|_]; cbn [map In].
    + rewrite E. intuition.
    + rewrite IH. intuition.
Qed.

Lemma insert_root_in r acc y : In y (insert_root r acc) -> In y acc \/ y = r.
Proof.
  induction acc as [|a acc IH]; cbn [insert_root In]; [intuition|].
  destruct (r_id a =? r_id r)%string; cbn [In]; intuition.
Qed.

Lemma insert_root_nodup r acc : NoDup (map r_id acc) -> NoDup (map r_id (insert_root r acc)).
Proof.
  induction acc as [|x acc IH]; intros Hnd; cbn [insert_root map].
  - constructor; [intros [] | constructor].
  - inversion Hnd as [|? ? Hx Hnd']; subst. destruct (String.eqb_spec (r_id x) (r_id r)) as [E|E]; cbn [map].
    + rewrite <- E. constructor; assumption.
    + constructor; [|apply IH; exact Hnd'].
      intros Hin. apply insert_root_ids in Hin as [Hin|Hin]; [congruence | contradiction].
Qed.

Definition cnt (Q : root -> bool) (l : list root) : nat := List.length (filter Q l).

Lemma cnt_ext Q Q' l : (forall x, Q x = Q' x) -> cnt Q l = cnt Q' l.
Proof. intros H. unfold cnt. rewrite (filter_ext _ _ H). reflexivity. Qed.

Lemma cnt_insert Q r acc : NoDup (map r_id acc) ->
  cnt Q (insert_root r acc) =
  (cnt (fun x => Q x && negb (r_id x =? r_id r)%string) acc + (if Q r then 1 else 0))%nat.
Proof.
  unfold cnt. induction acc as [|x acc IH]; intros Hnd; cbn [insert_root filter List.length].
  - destruct (Q r); reflexivity.
  - inversion Hnd as [|? ? Hx Hnd']; subst. destruct (String.eqb_spec (r_id x) (r_id r)) as [E|_].
    + cbn [filter]. rewrite andb_false_r.
      rewrite (filter_ext_in (fun y => Q y && negb (r_id y =? r_id r)%string) Q acc).
      * destruct (Q r); cbn [List.length]; lia.
      * intros y Hy. destruct (String.eqb_spec (r_id y) (r_id r)) as [Ey|_]; [|apply andb_true_r].
        exfalso. apply Hx. rewrite E, <- Ey. apply in_map. exact Hy.
    + cbn [filter]. rewrite andb_true_r. destruct (Q x); cbn [List.length]; rewrite (IH Hnd'); lia.
Qed.

Definition id_in (rs : list root_in) (id : string) : bool :=
  existsb (fun rj => (fst rj =? id)%string) rs.

(* entries of the list that are active and not overwritten by a later entry with the same ID *)
Fixpoint eff_active (rs : list root_in) : nat :=
  match rs with
  | [] => 0%nat
  | ri :: t => ((if snd ri && negb (id_in t (fst ri)) then 1 else 0) + eff_active t)%nat
  end.

Lemma eff_active_count rs : active_overwritten rs = false -> eff_active rs = count_active rs.
Proof.
  unfold count_active. induction rs as [|ri rs IH]; [reflexivity|].
  cbn [active_overwritten eff_active filter]. intros H. apply orb_false_iff in H as [H1 H2].
  rewrite (IH H2). fold (id_in rs (fst ri)) in H1.
  destruct (snd ri); cbn [andb] in *; [rewrite H1|]; reflexivity.
Qed.

(* "delete all, insert each" *)

Section FoldInsert.
  Variables (old : list root) (idx : N).
  Local Notation ins := (fun (a : list root) (ri : root_in) => insert_root (stamp old idx ri) a).

  Lemma fold_insert_ids rs : forall acc id,
    In id (map r_id (fold_left ins rs acc)) <-> In id (map r_id acc) \/ In id (map fst rs).
  Proof.
    induction rs as [|ri rs IH]; intros acc id; cbn [fold_left map In]; [tauto|].
    rewrite IH, insert_root_ids. cbn [stamp r_id]. intuition.
  Qed.

  Lemma fold_insert_members rs : forall acc x,
    In x (fold_left ins rs acc) -> In x acc \/ exists ri, In ri rs /\ x = stamp old idx ri.
  Proof.
    induction rs as [|ri rs IH]; intros acc x H; cbn [fold_left] in H; [left; exact H|].
    apply IH in H as [H|(rj & Hj & ->)]; [|right; exists rj; split; [right|]; auto].
    apply insert_root_in in H as [H| ->]; [left; exact H|]. right. exists ri. split; [left|]; reflexivity.
  Qed.

  Lemma fold_insert_nodup rs : forall acc,
    NoDup (map r_id acc ++ map fst rs) -> fold_left ins rs acc = acc ++ map (stamp old idx) rs.
  Proof.
    induction rs as [|ri rs IH]; intros acc H; cbn [fold_left map]; [rewrite app_nil_r; reflexivity|].
    rewrite insert_root_fresh.
    - rewrite IH, <- app_assoc; [reflexivity|]. rewrite map_app, <- app_assoc. exact H.
    - cbn [map] in H. apply NoDup_remove_2 in H. intros Hin. apply H, in_or_app. left. exact Hin.
  Qed.

  Lemma fold_insert_count rs : forall acc, NoDup (map r_id acc) ->
    cnt r_active (fold_left ins rs acc) =
    (cnt (fun x => r_active x && negb (id_in rs (r_id x))) acc + eff_active rs)%nat.
  Proof.
    induction rs as [|ri rs IH]; intros acc Hnd; cbn [fold_left eff_active].
    - rewrite Nat.add_0_r. apply cnt_ext. intros x. cbn. symmetry. apply andb_true_r.
    - rewrite IH by (apply insert_root_nodup; exact Hnd).
      rewrite cnt_insert by exact Hnd. cbn [stamp r_active r_id].
      rewrite (cnt_ext _ (fun x => r_active x && negb (id_in (ri :: rs) (r_id x))) acc); [lia|].
      intros x. cbn [id_in existsb]. fold (id_in rs (r_id x)). rewrite (String.eqb_sym (r_id x) (fst ri)).
      destruct (r_active x), (id_in rs (r_id x)), (fst ri =? r_id x)%string; reflexivity.
  Qed.
End FoldInsert.


Lemma cas_yes_inv s idx cidx rs rs' :
  root_check_and_set s idx cidx rs = CasYes rs' ->
  count_active rs = 1%nat /\ active_overwritten rs = false /\ s_roots_idx s = cidx /\
  rs' = fold_left (fun acc ri => insert_root (stamp (s_roots s) idx ri) acc) rs [].
Proof.
  unfold root_check_and_set.
  destruct (Nat.eqb_spec (count_active rs) 1); cbn [negb]; [|discriminate].
  destruct (active_overwritten rs); [discriminate|].
  destruct (N.eqb_spec (s_roots_idx s) cidx); cbn [negb]; [|discriminate].
  destruct (existsb _ _); [discriminate|]. intros [= <-]. auto.
Qed.

Lemma cas_yes_one_active s idx cidx rs rs' :
  root_check_and_set s idx cidx rs = CasYes rs' -> active_count rs' = 1%nat.
Proof.
  intros H. apply cas_yes_inv in H as (C & O & _ & ->). change (active_count ?l) with (cnt r_active l).
  rewrite fold_insert_count by constructor. rewrite (eff_active_count _ O), C. reflexivity.
Qed.

Lemma step_one_active s idx o : one_active s -> one_active (fst (step s idx o)).
Proof.
  intros Hinv. destruct (step_frame s idx o) as [K _].
  (* only the two commands that go through caRootCheckAndSetTxn touch the root table; a root list
     they accept has one active entry *)
  destruct o; try (unfold one_active; rewrite (proj1 K); exact Hinv); cbn [step].
  - (* OpSetRoots *)
    destruct (root_check_and_set s idx _ _) as [x| |rs'] eqn:C; try exact Hinv.
    right. exact (cas_yes_one_active _ _ _ _ _ C).
  - (* OpSetRootsAndConfig *)
    destruct (root_check_and_set s idx _ _) as [x| |rs'] eqn:C; try exact Hinv.
    destruct (config_index_ok s _); [|exact Hinv]. right. exact (cas_yes_one_active _ _ _ _ _ C).
Qed.

Lemma reach_run_ops ops : forall s, Reach s -> Reach (run_ops s ops).
Proof.
  induction ops as [|[idx o] ops IH]; intros s Hs; cbn [run_ops]; [exact Hs|].
  apply IH. apply ReachStep. exact Hs.
Qed.

Definition same_but_roots (s s' : store) : Prop :=
  s_config s' = s_config s /\ s_pstates s' = s_pstates s /\ s_builtin_idx s' = s_builtin_idx s /\
  s_serial s' = s_serial s.

(* the whole set is replaced: nothing of the old set survives, every given ID is present *)
Definition replaced_by (old : list root) (idx : N) (rs : list root_in) (new : list root) : Prop :=
  (forall x, In x new -> r_modify x = idx /\ In (r_id x, r_active x) rs) /\
  (forall ri, In ri rs -> exists x, In x new /\ r_id x = fst ri) /\
  (NoDup (map fst rs) -> new = map (stamp old idx) rs).

Lemma cas_yes_replaced s idx cidx rs rs' :
  root_check_and_set s idx cidx rs = CasYes rs' ->
  s_roots_idx s = cidx /\ count_active rs = 1%nat /\ replaced_by (s_roots s) idx rs rs'.
Proof.
  intros H. apply cas_yes_inv in H as (C & _ & I & ->). split; [exact I|]. split; [exact C|]. split; [|split].
  - intros x Hx. apply fold_insert_members in Hx as [[]|([id a] & Hri & ->)]. split; [reflexivity | exact Hri].
  - intros ri Hri. apply (in_map fst) in Hri.
    apply (fun H => proj2 (fold_insert_ids (s_roots s) idx rs [] _) (or_intror H)) in Hri.
    apply in_map_iff in Hri as (x & E & Hx). eauto.
  - intros Hnd. apply fold_insert_nodup. exact Hnd.
Qed.

Lemma cas_mismatch s idx cidx rs :
  s_roots_idx s <> cidx ->
  root_check_and_set s idx cidx rs = CasNo \/ root_check_and_set s idx cidx rs = CasErr EOneActive
  \/ root_check_and_set s idx cidx rs = CasErr EActiveOverwritten.
Proof.
  intros Hne. unfold root_check_and_set.
  destruct (Nat.eqb (count_active rs) 1); cbn [negb]; [|auto].
  destruct (active_overwritten rs); [auto|].
  destruct (N.eqb_spec (s_roots_idx s) cidx); [contradiction | auto].
Qed.
