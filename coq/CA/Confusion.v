(* No identity confusion (property C12): whatever identity a reader of the issued certificate
   obtains by parsing its URI SAN is the identity the ACL check was made for.

   The certificate carries u.String(); the reader parses that string again ([reparse]).  The
   only case in which the reader does not see the very URL the CA looked at is a RawPath that
   net/url does not accept as a valid encoding (or a URI re-printed for an agent): the path is then
   re-encoded from its decoded form, "%2F" becomes a separator, and the reader splits the path
   differently.  The theorems show that the reader then either fails to parse or still obtains
   the same identity - never another one. *)
From Verif Require Import Base.Prelude.
From Verif Require Import CA.Model.
From Verif Require Import CA.UrlProofs.
From Verif Require Import CA.Parse.
From Verif Require Import CA.Proofs.
Open Scope string_scope.
Open Scope N_scope.
Open Scope list_scope.

Lemma reads_fun h l id id' : reads h l id -> reads h l id' -> id = id'.
Proof. destruct 1; inversion 1; reflexivity. Qed.

(* The CA reads decoded segments [ds]; a reader of the re-encoded path sees every segment that
   holds a decoded "/" split again.  If nothing splits the two lists are the same.  Otherwise the
   reader's list is longer, and it is accepted by none of the longer patterns: a keyword among the
   first four segments differs - except for a gateway path with a partition read as a service or
   agent path with a partition, where "gateway", "mesh", "dc" in a row would have to lie across
   positions of which at least one holds another keyword, wherever the row starts. *)
Lemma reads_split h ds id id2 :
  reads h ds id -> reads h (List.concat (map split_slash ds)) id2 -> id2 = id.
Proof.
  intros H1 H2. destruct (concat_split_cases ds) as [E | Hlt].
  { rewrite E in H2. exact (reads_fun _ _ _ _ H2 H1). }
  remember (List.concat (map split_slash ds)) as l eqn:El. apply Nat.ltb_lt in Hlt.
  destruct H1 as [ns dc svc|ap ns dc svc|dc agent|ap dc agent|dc|ap dc|dc]; destruct H2;
    try discriminate Hlt; cbn in El; try discriminate El.
  all: destruct (split_slash_nonnil ap) as (a1 & ta & Ea), (split_slash_nonnil dc) as (d1 & td & Ed);
    rewrite Ea, Ed in El; destruct ta as [|? [|? [|? [|? [|? [|? [|? ?]]]]]]]; discriminate El.
Qed.

Lemma reads_not_star h ds id : reads h ds id -> ds <> ["*"] /\ List.concat (map split_slash ds) <> ["*"].
Proof. destruct 1; split; discriminate. Qed.

Definition with_raw (u : url) (r : string) : url := Url (u_scheme u) (u_host u) (u_path u) r (u_deco u).

(* The core: a URL whose RawPath decodes to its Path, read once through the RawPath (as the
   CA does) and once through the decoded Path alone (as a reader of the re-encoded
   certificate does), yields the same identity whenever the second reading succeeds. *)
Theorem reading_same sch h p r pl id id2 :
  nonempty r = true -> unescape r = Some p ->
  parse_cert_uri (Url sch h p r pl) = Ok id ->
  parse_cert_uri (Url sch h p "" pl) = Ok id2 ->
  id2 = id.
Proof.
  intros Hr Hu Hp1 Hp2.
  assert (Hpe : p <> "") by (intros ->; rewrite (unescape_empty _ Hu) in Hr; discriminate Hr).
  apply parse_reads in Hp1 as [_ Hp1], Hp2 as [_ Hp2]. cbn [u_raw u_path u_host] in *.
  rewrite Hr in Hp1. change (nonempty "") with false in Hp2. cbn [unesc_all] in *.
  destruct Hp1 as [(ds & Hds & R1) | (E & _)]; [|contradiction].
  destruct Hp2 as [(ds2 & [= <-] & R2) | (E & _)]; [|contradiction].
  rewrite (unescape_split _ _ _ Hu Hds) in R2. exact (reads_split _ _ _ _ R1 R2).
Qed.

Theorem reading_reprinted_agent td ap dc agent id2 :
  parse_cert_uri (reparse (uri_of (IdAgent td ap dc agent))) = Ok id2 -> id2 = IdAgent td "default" dc agent.
Proof.
  unfold uri_of, fresh_url. rewrite reparse_fresh by discriminate. intros H.
  apply parse_reads in H as [_ H]. cbn [u_raw u_path u_host] in H. change (nonempty "") with false in H.
  change ("/agent/client/dc/" ++ dc ++ "/id/" ++ agent)%string
    with (String.concat "/" [""; "agent"; "client"; "dc"; dc; "id"; agent]) in H.
  cbv iota in H. rewrite split_join_gen in H by discriminate.
  destruct H as [(ds & [= <-] & R) | (E & _)]; [|discriminate E].
  exact (reads_split _ _ _ _ (RdAgent td dc agent) R).
Qed.

(* a path that parses as an identity is never "*", the one path [escaped_path] does not encode *)
Lemma parse_path_not_star u id : url_wf u -> parse_cert_uri u = Ok id -> u_path u <> "*".
Proof.
  intros Hwf Hp Hs. apply parse_reads in Hp as [_ [(ds & Hds & R) | (E & _)]]; [|congruence].
  apply reads_not_star in R as [N1 N2]. unfold nonempty in Hds.
  destruct Hwf as [Hr | [Hu _]]; [rewrite Hr, Hs in Hds; injection Hds as <-; exact (N1 eq_refl)|].
  rewrite Hs in Hu.
  destruct (u_raw u =? "")%string eqn:Er; [apply String.eqb_eq in Er; rewrite Er in Hu; discriminate Hu|].
  cbn [negb unesc_all] in Hds. exact (N2 (eq_sym (unescape_split _ _ _ Hu Hds))).
Qed.

Theorem reading_certificate u id id2 :
  url_wf u -> parse_cert_uri u = Ok id -> parse_cert_uri (reparse u) = Ok id2 -> id2 = id.
Proof.
  intros Hwf Hp Hp2. pose proof (parse_path_not_star _ _ Hwf Hp) as Hs.
  destruct u as [sch h p r pl]. destruct Hwf as [Hr|[Hu Hne]]; cbn [u_raw u_path] in *.
  - subst r. rewrite reparse_fresh in Hp2 by exact Hs. congruence.
  - destruct (String.eqb_spec r "") as [->|Hr]; [injection Hu as <-; contradiction|].
    rewrite (reparse_raw _ _ _ _ _ Hr Hu Hne Hs) in Hp2. destruct (valid_encoded r); [congruence|].
    apply String.eqb_neq in Hr. eapply reading_same; try eassumption. unfold nonempty. rewrite Hr. reflexivity.
Qed.

(* the identity the certificate carries, as far as a reader can obtain one *)
Definition cert_identity (e : ca_env) (u : url) (id : cert_id) : cert_id :=
  match id with
  | IdAgent host ap dc agent =>
      if (host =? trust_domain e)%string then id else IdAgent (trust_domain e) "default" dc agent
  | _ => id
  end.

(* the ACL question: which resource, which name *)
Inductive scope := ScService (name : string) | ScNode (name : string) | ScMesh | ScACL | ScNone.

Definition scope_of (id : cert_id) : scope :=
  match id with
  | IdService _ _ _ _ svc => ScService svc
  | IdAgent _ _ _ agent => ScNode agent
  | IdGateway _ _ _ => ScMesh
  | IdServer _ _ => ScACL
  | IdSigning _ _ => ScNone
  end.

Lemma cert_identity_scope e u az id :
  scope_of (cert_identity e u id) = scope_of id /\ (granted az id -> granted az (cert_identity e u id)).
Proof.
  destruct id; try (split; [reflexivity | exact (fun G => G)]).
  cbn [cert_identity]. destruct (host =? trust_domain e)%string; split; (reflexivity || exact (fun G => G)).
Qed.

Theorem cert_uri_reading e u id id2 :
  url_wf u -> parse_cert_uri u = Ok id ->
  parse_cert_uri (reparse (agent_cert_uri e u id)) = Ok id2 -> id2 = cert_identity e u id.
Proof.
  intros Hwf Hp H2. destruct id; cbn [agent_cert_uri cert_identity coerce] in *;
    try (eapply reading_certificate; eassumption).
  destruct (host =? trust_domain e)%string; [eapply reading_certificate; eassumption|].
  eapply reading_reprinted_agent; eassumption.
Qed.
