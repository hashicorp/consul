(* Proofs about the URL layer of CA/Model.v: percent-encoding round trips, paths as lists of
   "/"-separated segments, what a reader of the certificate sees ([reparse]), and
   parse-after-print for well-formed identities. *)
From Verif Require Import Base.Prelude.
From Verif Require Import CA.Model.
Open Scope string_scope.
Open Scope N_scope.

Lemma unhex_upperhex n : n < 16 -> unhex (upperhex n) = Some n.
Proof.
  intros H. unfold unhex, upperhex, code.
  destruct (n <? 10) eqn:E; rewrite N_ascii_embedding by lia.
  - replace (in_range 48 57 (48 + n)) with true by (unfold in_range; lia). f_equal. lia.
  - replace (in_range 48 57 (55 + n)) with false by (unfold in_range; lia).
    replace (in_range 97 102 (55 + n)) with false by (unfold in_range; lia).
    replace (in_range 65 70 (55 + n)) with true by (unfold in_range; lia). f_equal. lia.
Qed.

Lemma esc_char c :
  unhex (upperhex (code c / 16)) = Some (code c / 16) /\
  unhex (upperhex (code c mod 16)) = Some (code c mod 16) /\
  ascii_of_N (16 * (code c / 16) + code c mod 16) = c.
Proof.
  pose proof (N_ascii_bounded c) as B. fold (code c) in B.
  split; [apply unhex_upperhex; lia|]. split; [apply unhex_upperhex; lia|].
  rewrite <- N.div_mod by discriminate. apply ascii_N_embedding.
Qed.

(* "%" and "*" by contraposition from one evaluation each *)
Lemma safe_not_percent c : should_escape_path c = false -> Ascii.eqb c percent = false.
Proof. destruct (Ascii.eqb_spec c percent) as [->|]; [discriminate | reflexivity]. Qed.

Lemma safe_not_star c : should_escape_path c = false -> Ascii.eqb c "*"%char = false.
Proof. destruct (Ascii.eqb_spec c "*"%char) as [->|]; [discriminate | reflexivity]. Qed.

Lemma unescape_pct h l r :
  unescape (String percent (String h (String l r))) =
  match unhex h, unhex l with
  | Some a, Some b => match unescape r with Some t => Some (String (ascii_of_N (16 * a + b)) t) | None => None end
  | _, _ => None
  end.
Proof. reflexivity. Qed.

Lemma unescape_plain c r : Ascii.eqb c percent = false ->
  unescape (String c r) = match unescape r with Some t => Some (String c t) | None => None end.
Proof. intros H. cbn [unescape]. rewrite H. reflexivity. Qed.

Theorem unescape_escape s : unescape (escape_path s) = Some s.
Proof.
  induction s as [|c s IH]; [reflexivity|].
  cbn [escape_path]. destruct (should_escape_path c) eqn:E.
  - rewrite unescape_pct. destruct (esc_char c) as (H1 & H2 & H3).
    rewrite H1, H2, IH, H3. reflexivity.
  - rewrite (unescape_plain _ _ (safe_not_percent c E)), IH. reflexivity.
Qed.

Lemma escape_path_not_star s : s <> "*" -> escape_path s <> "*".
Proof.
  destruct s as [|c s]; [intros _; discriminate|].
  cbn [escape_path]. destruct (should_escape_path c) eqn:E; [intros _; discriminate|].
  intros Hne Heq. injection Heq as -> Hs.
  destruct s; [apply Hne; reflexivity|]. cbn [escape_path] in Hs.
  destruct (should_escape_path a); discriminate.
Qed.

(* [unescape] steps over three characters at a "%", so structural induction on the text does not
   follow it; this is induction over its successful runs. *)
Lemma unescape_ind (P : string -> string -> Prop) :
  P "" "" ->
  (forall h l a b r t, unhex h = Some a -> unhex l = Some b -> unescape r = Some t -> P r t ->
     P (String percent (String h (String l r))) (String (ascii_of_N (16 * a + b)) t)) ->
  (forall c r t, Ascii.eqb c percent = false -> unescape r = Some t -> P r t -> P (String c r) (String c t)) ->
  forall r p, unescape r = Some p -> P r p.
Proof.
  intros P0 Ppct Pplain r.
  assert (H : forall n r, (String.length r <= n)%nat -> forall p, unescape r = Some p -> P r p);
    [|exact (H _ r (le_n _))].
  clear r. induction n as [|n IH]; intros [|c r] Hn p Hu; cbn [String.length] in Hn;
    try (injection Hu as <-; exact P0); [lia|].
  destruct (Ascii.eqb_spec c percent) as [->|Hc].
  - destruct r as [|h [|l r]]; try discriminate Hu. rewrite unescape_pct in Hu.
    destruct (unhex h) as [a|] eqn:Hh; [|discriminate]. destruct (unhex l) as [b|] eqn:Hl; [|discriminate].
    destruct (unescape r) as [t|] eqn:Ht; [|discriminate]. injection Hu as <-.
    cbn [String.length] in Hn. apply Ppct; try assumption. apply IH; [lia | exact Ht].
  - apply Ascii.eqb_neq in Hc. rewrite (unescape_plain _ _ Hc) in Hu.
    destruct (unescape r) as [t|] eqn:Ht; [|discriminate]. injection Hu as <-.
    apply Pplain; try assumption. apply IH; [lia | exact Ht].
Qed.

Lemma unescape_empty r : unescape r = Some "" -> r = "".
Proof.
  intros H. refine (unescape_ind (fun r p => p = "" -> r = "") _ _ _ r "" H eq_refl); [reflexivity | discriminate..].
Qed.

(* what url.Parse guarantees about (Path, RawPath) *)
Definition url_wf (u : url) : Prop :=
  u_raw u = "" \/ (unescape (u_raw u) = Some (u_path u) /\ u_raw u <> escape_path (u_path u)).

(* the same as a boolean, evaluated on every real CSR URL by the correspondence run *)
Definition url_wfb (u : url) : bool :=
  (u_raw u =? "")%string ||
  (match unescape (u_raw u) with Some p => (p =? u_path u)%string | None => false end
   && negb (u_raw u =? escape_path (u_path u))%string).

Lemma set_path_wf p path raw : set_path p = Some (path, raw) ->
  forall sch h pl, url_wf (Url sch h path raw pl).
Proof.
  unfold set_path. destruct (unescape p) as [q|] eqn:U; [|discriminate].
  intros H sch h pl. injection H as <- <-. unfold url_wf. cbn [u_raw u_path].
  destruct (p =? escape_path q)%string eqn:E; [left; reflexivity|].
  right. split; [exact U|]. apply String.eqb_neq. exact E.
Qed.

Lemma set_path_escape p : set_path (escape_path p) = Some (p, "").
Proof. unfold set_path. rewrite unescape_escape, String.eqb_refl. reflexivity. Qed.

Theorem reparse_fresh sch h p pl : p <> "*" -> reparse (Url sch h p "" pl) = Url sch h p "" pl.
Proof.
  intros Hne. apply String.eqb_neq in Hne. unfold reparse, escaped_path. cbn [u_raw u_path nonempty].
  change (nonempty "") with false. cbn [andb]. rewrite Hne, set_path_escape. reflexivity.
Qed.

(* a parsed URL with a RawPath is read back unchanged when the RawPath is a valid encoding, and
   loses its RawPath (the path is re-encoded from the decoded text) otherwise *)
Theorem reparse_raw sch h p r pl :
  r <> "" -> unescape r = Some p -> r <> escape_path p -> p <> "*" ->
  reparse (Url sch h p r pl) = if valid_encoded r then Url sch h p r pl else Url sch h p "" pl.
Proof.
  intros Hr Hu Hne Hstar. apply String.eqb_neq in Hr, Hne, Hstar.
  unfold reparse, escaped_path, nonempty. cbn [u_raw u_path u_scheme u_host u_deco].
  rewrite Hr, Hu, String.eqb_refl. cbn [negb andb]. destruct (valid_encoded r); cbn [andb].
  - unfold set_path. rewrite Hu, Hne. reflexivity.
  - rewrite Hstar, set_path_escape. reflexivity.
Qed.

Fixpoint no_slash (s : string) : bool :=
  match s with
  | EmptyString => true
  | String c r => negb (Ascii.eqb c slash) && no_slash r
  end.

Lemma split_slash_nonnil s : exists h t, split_slash s = h :: t.
Proof.
  induction s as [|c s (h & t & IH)]; cbn [split_slash]; [eauto|].
  destruct (Ascii.eqb c slash); [eauto|]. rewrite IH. eauto.
Qed.

Lemma split_noslash s : no_slash s = true -> split_slash s = [s].
Proof.
  induction s as [|c s IH]; cbn [no_slash split_slash]; [reflexivity|].
  intros H. apply andb_true_iff in H as [Hc Hs]. apply negb_true_iff in Hc. rewrite Hc, (IH Hs). reflexivity.
Qed.

Lemma split_app a b : split_slash (a ++ String slash b) = (split_slash a ++ split_slash b)%list.
Proof.
  induction a as [|c a IH]; cbn [String.append split_slash].
  - rewrite Ascii.eqb_refl. reflexivity.
  - rewrite IH. destruct (Ascii.eqb c slash); [reflexivity|].
    destruct (split_slash_nonnil a) as (h & t & ->). reflexivity.
Qed.

(* strings.Split after strings.Join, and back *)
Lemma split_join_gen ds : ds <> [] ->
  split_slash (String.concat "/" ds) = List.concat (map split_slash ds).
Proof.
  induction ds as [|d [|d' ds] IH]; intros H; [contradiction | cbn; rewrite app_nil_r; reflexivity |].
  change (String.concat "/" (d :: d' :: ds)) with (d ++ String slash (String.concat "/" (d' :: ds))).
  rewrite split_app, IH by discriminate. reflexivity.
Qed.

Lemma concat_split_noslash segs :
  Forall (fun s => no_slash s = true) segs -> List.concat (map split_slash segs) = segs.
Proof. induction 1 as [|s segs Hs _ IH]; cbn; [|rewrite (split_noslash _ Hs), IH]; reflexivity. Qed.

Lemma split_join segs : segs <> [] -> Forall (fun s => no_slash s = true) segs ->
  split_slash (String.concat "/" segs) = segs.
Proof. intros Hne H. rewrite (split_join_gen _ Hne). apply concat_split_noslash. exact H. Qed.

Lemma join_split s : String.concat "/" (split_slash s) = s.
Proof.
  induction s as [|c s IH]; [reflexivity|]. cbn [split_slash].
  destruct (Ascii.eqb_spec c slash) as [->|_].
  - destruct (split_slash_nonnil s) as (h & t & E). rewrite E in *. rewrite <- IH. reflexivity.
  - destruct (split_slash s) as [|h [|h' t]]; rewrite <- IH; reflexivity.
Qed.

Lemma split_single x h : split_slash x = [h] -> h = x.
Proof. intros H. rewrite <- (join_split x), H. reflexivity. Qed.

Lemma concat_split_cases ds :
  List.concat (map split_slash ds) = ds \/
  (List.length ds < List.length (List.concat (map split_slash ds)))%nat.
Proof.
  induction ds as [|d ds IH]; [left; reflexivity|]. cbn [map List.concat].
  destruct (split_slash_nonnil d) as (h & [|h' t] & E); rewrite E.
  - apply split_single in E as ->. destruct IH as [-> | IH]; [left; reflexivity | right; cbn; lia].
  - right. cbn [app List.length]. rewrite app_length. destruct IH as [-> | IH]; lia.
Qed.

(* url.PathUnescape on every segment *)
Fixpoint unescape_all (l : list string) : option (list string) :=
  match l with
  | [] => Some []
  | x :: t => match unescape x, unescape_all t with
              | Some d, Some dt => Some (d :: dt)
              | _, _ => None
              end
  end.

Lemma unescape_app a a' b : unescape a = Some a' ->
  unescape (a ++ b) = match unescape b with Some b' => Some (a' ++ b') | None => None end.
Proof.
  revert a a'. apply (unescape_ind (fun a a' =>
    unescape (a ++ b) = match unescape b with Some b' => Some (a' ++ b') | None => None end)).
  - cbn [append]. destruct (unescape b); reflexivity.
  - intros h l x y r t Hh Hl _ IH. cbn [append]. rewrite unescape_pct, Hh, Hl, IH. destruct (unescape b); reflexivity.
  - intros c r t Hc _ IH. cbn [append]. rewrite (unescape_plain _ _ Hc), IH. destruct (unescape b); reflexivity.
Qed.

Lemma unescape_join xs : forall ds, unescape_all xs = Some ds ->
  unescape (String.concat "/" xs) = Some (String.concat "/" ds).
Proof.
  induction xs as [|x xs IH]; intros ds H; [injection H as <-; reflexivity|].
  cbn [unescape_all] in H. destruct (unescape x) as [d|] eqn:Hx; [|discriminate].
  destruct (unescape_all xs) as [dt|] eqn:Ht; [|discriminate]. injection H as <-. specialize (IH dt eq_refl).
  destruct xs as [|x' xs]; [injection Ht as <-; exact Hx|].
  change (String.concat "/" (x :: x' :: xs)) with (x ++ String slash (String.concat "/" (x' :: xs))).
  rewrite (unescape_app _ _ _ Hx), (unescape_plain slash) by reflexivity. rewrite IH.
  cbn [unescape_all] in Ht. destruct (unescape x'); [|discriminate]. destruct (unescape_all xs); [|discriminate].
  injection Ht as <-. reflexivity.
Qed.

Lemma unescape_split r p ds : unescape r = Some p -> unescape_all (split_slash r) = Some ds ->
  split_slash p = List.concat (map split_slash ds).
Proof.
  intros Hu Hds. apply unescape_join in Hds as Hj. rewrite join_split, Hu in Hj. injection Hj as ->.
  apply split_join_gen. intros ->. destruct (split_slash_nonnil r) as (h & t & E). rewrite E in Hds.
  cbn in Hds. destruct (unescape h); [destruct (unescape_all t)|]; discriminate.
Qed.

Definition seg_ok (s : string) : bool := nonempty s && no_slash s.

(* identities that URI() prints faithfully in the community edition *)
Definition wf_id (id : cert_id) : Prop :=
  match id with
  | IdService _ ap ns dc svc =>
      ns = "default" /\ seg_ok ap = true /\ lower ap = ap /\ seg_ok dc = true /\ seg_ok svc = true
  | IdAgent _ ap dc agent => ap = "default" /\ seg_ok dc = true /\ seg_ok agent = true
  | IdGateway _ ap dc => ap = "default" /\ seg_ok dc = true
  | IdServer _ dc => seg_ok dc = true
  | IdSigning cl dom =>
      nonempty cl = true /\ lower cl = cl /\ lower dom = dom /\
      (forall a b, cut_dot cl <> Some (a, b))
  end.

Lemma seg_ok_split s : seg_ok s = true -> nonempty s = true /\ no_slash s = true.
Proof. apply andb_true_iff. Qed.

Lemma nonempty_neq s : nonempty s = true -> (s =? "")%string = false.
Proof. apply negb_true_iff. Qed.

Lemma lower_app a b : lower (a ++ b) = lower a ++ lower b.
Proof. induction a as [|c a IH]; cbn [String.append lower]; [reflexivity | rewrite IH; reflexivity]. Qed.

Lemma cut_dot_app cl dom : (forall a b, cut_dot cl <> Some (a, b)) ->
  cut_dot (cl ++ String "."%char dom) = Some (cl, dom).
Proof.
  induction cl as [|c cl IH]; intros H; cbn [String.append cut_dot].
  - reflexivity.
  - cbn [cut_dot] in H. destruct (Ascii.eqb c "."%char) eqn:E.
    + exfalso. eapply H. reflexivity.
    + rewrite IH; [reflexivity|]. intros a b Hc. rewrite Hc in H. eapply H. reflexivity.
Qed.

Lemma uri_path_not_star id : u_path (uri_of id) <> "*".
Proof. destruct id; cbn [uri_of fresh_url u_path]; try discriminate. destruct (_ && _); discriminate. Qed.

(* ParseCertURI on a printed URL: no RawPath, and the path is the join of slash-free segments, so
   the split gives these segments back and the four patterns are tried on an explicit list. *)
Local Ltac parse_joined segs :=
  unfold parse_cert_uri, fresh_url; cbn [u_scheme u_raw u_path u_host];
  change (nonempty "") with false; cbv iota;
  match goal with |- context [split_slash ?p] => change p with (String.concat "/" segs) end;
  rewrite split_join by first [discriminate | repeat constructor; assumption];
  cbn [m_service m_agent m_gateway m_server].

Theorem parse_print id : wf_id id -> parse_cert_uri (uri_of id) = Ok id.
Proof.
  destruct id as [host ap ns dc svc | host ap dc agent | host ap dc | host dc | cl dom]; cbn [wf_id]; intros H.
  - destruct H as (-> & Hap & Hlow & Hdc & Hsvc).
    apply seg_ok_split in Hap as (Hap1 & Hap2), Hdc as (Hdc1 & Hdc2), Hsvc as (Hs1 & Hs2).
    unfold uri_of, service_ap. rewrite (nonempty_neq _ Hap1), Hlow, Hap1.
    destruct (ap =? "default")%string eqn:Ed; cbn [negb andb].
    + apply String.eqb_eq in Ed. subst ap.
      parse_joined [""; "ns"; "default"; "dc"; dc; "svc"; svc]. rewrite Hdc1, Hs1. reflexivity.
    + parse_joined [""; "ap"; ap; "ns"; "default"; "dc"; dc; "svc"; svc]. rewrite Hap1, Hdc1, Hs1.
      cbn. unfold default_ap. rewrite (nonempty_neq _ Hap1). reflexivity.
  - destruct H as (-> & Hdc & Hag).
    apply seg_ok_split in Hdc as (Hdc1 & Hdc2), Hag as (Ha1 & Ha2). unfold uri_of.
    parse_joined [""; "agent"; "client"; "dc"; dc; "id"; agent]. rewrite Hdc1, Ha1. reflexivity.
  - destruct H as (-> & Hdc). apply seg_ok_split in Hdc as (Hdc1 & Hdc2). unfold uri_of.
    parse_joined [""; "gateway"; "mesh"; "dc"; dc]. rewrite Hdc1. reflexivity.
  - apply seg_ok_split in H as (Hdc1 & Hdc2). unfold uri_of.
    parse_joined [""; "agent"; "server"; "dc"; dc]. rewrite Hdc1. reflexivity.
  - destruct H as (Hn & Hlc & Hld & Hnd).
    unfold uri_of, parse_cert_uri, fresh_url. cbn [u_scheme u_raw u_path u_host].
    change (cl ++ "." ++ dom) with (cl ++ String "."%char dom).
    rewrite lower_app. cbn [lower]. change (ascii_lower ".") with "."%char.
    rewrite Hlc, Hld, (cut_dot_app _ _ Hnd), Hn. reflexivity.
Qed.
