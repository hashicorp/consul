(* Concrete requests and histories: the values behind the witnesses for the refuted clauses of C12
   and the non-vacuity examples (Properties/C12.v). *)
From Verif Require Import Base.Prelude.
From Verif Require Import CA.Model.
From Verif Require Import CA.UrlProofs.
Open Scope string_scope.
Open Scope N_scope.
Open Scope list_scope.

Definition w_env : ca_env := CaEnv "dc1" "11111111-2222-3333-4444-555555555555".
Definition w_td : string := "11111111-2222-3333-4444-555555555555.consul".

(* a token with node:write on "n1" and service:write on "web" only *)
Definition w_az : authz :=
  Authz (fun n => (n =? "web")%string) (fun n => (n =? "n1")%string) false false.

Definition w_csr (u : url) : csr := Csr [u] [] [] 0.

(* ---- an ordinary request: service "web" in this trust domain and datacenter ---- *)
Definition w_web : url := Url "spiffe" w_td "/ns/default/dc/dc1/svc/web" "" DNone.

Lemma w_web_issued :
  sign_request w_env w_az (w_csr w_web) empty_store =
  Ok (Cert [w_web] [] [] false 1, incr_serial empty_store).
Proof. vm_compute. reflexivity. Qed.

Lemma w_web_wf : url_wf w_web.
Proof. left. reflexivity. Qed.

(* ---- an escaped spelling: the ACL question is asked about the decoded name ---- *)
Definition w_web_esc : url :=
  Url "spiffe" w_td "/ns/default/dc/dc1/svc/web" "/ns/default/dc/dc1/svc/we%62" DNone.

(* ---- agent identity of another datacenter: refused like every other kind (commit 88c1fa0) ---- *)
Definition w_agent_dc2 : url := Url "spiffe" w_td "/agent/client/dc/dc2/id/n1" "" DNone.

(* ---- agent identity with a foreign host in a non-canonical spelling: the URI is compared as an
        identity and re-printed in the trust domain (commit b4828e2) ---- *)
Definition w_agent_foreign : url :=
  Url "spiffe" "dummy.consul" "/ap/default/agent/client/dc/dc1/id/n1" "" DNone.

Definition w_agent_esc : url :=
  Url "spiffe" "other-cluster.consul" "/agent/client/dc/dc1/id/n1" "/agent/client/dc/dc1/id/n%31" DNone.

Definition w_agent_td : url := Url "spiffe" w_td "/agent/client/dc/dc1/id/n1" "" DNone.

(* the canonical spelling with a dummy host, as auto-encrypt sends it *)
Definition w_agent_dummy : url := Url "spiffe" "dummy.consul" "/agent/client/dc/dc1/id/n1" "" DNone.

(* ---- an encoded "/" in a name plus a byte net/url does not accept in a RawPath: the certificate's
        URI is re-encoded from the decoded path and no longer reads as an identity ---- *)
Definition w_az_any : authz := Authz (fun _ => true) (fun _ => true) true true.

Definition w_slash : url :=
  Url "spiffe" w_td "/ns/default/dc/dc1/svc/web/x " "/ns/default/dc/dc1/svc/web%2Fx " DNone.

(* ---- a history: configuration, first root, rotation, a stale update, a serial, snapshot and restore ---- *)
Definition w_hist : list (N * op) :=
  [ (3, OpSetConfig (ConfigIn "consul" "c1" 0 7));
    (4, OpSetRootsAndConfig 0 [("r1", true)] (ConfigIn "consul" "c1" 3 8));
    (6, OpSetRoots 4 [("r1", false); ("r2", true)]);
    (7, OpSetRoots 4 [("r3", true)]);            (* stale index: refused *)
    (8, OpIncrementSerial);
    (9, OpSnapshotRestore) ].

(* ---- a service:write token asks for the DNS name of the servers as well ---- *)
Definition w_csr_server_san : csr := Csr [w_web] ["server.dc1.consul"] [] 0.

(* ---- an agent identity in a partition (the community edition has none) ---- *)
Definition w_agent_ap : url := Url "spiffe" w_td "/ap/foo/agent/client/dc/dc1/id/n1" "" DNone.

(* ---- a URI with a query / fragment / userinfo (not a SPIFFE ID), and the omit-host form of an
        agent URI, which is not such a decoration (3ebfd83) ---- *)
Definition w_web_query : url := Url "spiffe" w_td "/ns/default/dc/dc1/svc/web" "" DUser.
Definition w_agent_query : url := Url "spiffe" "dummy.consul" "/agent/client/dc/dc1/id/n1" "" DUser.
Definition w_agent_omithost : url := Url "spiffe" "" "/agent/client/dc/dc1/id/n1" "" DForm.
