(* ParseCertURI as a relation between segment lists and identities: the seven lists the four
   patterns accept, and the one walk through [parse_cert_uri] that reduces a successful parse to
   them. *)
From Verif Require Import Base.Prelude.
From Verif Require Import CA.Model.
From Verif Require Import CA.UrlProofs.
Open Scope string_scope.
Open Scope N_scope.
Open Scope list_scope.

(* one keyword test off the end of a pattern's condition.  Each [m_*] of the model tests the
   keywords of its pattern with a chain of [&&]; the numerals in the four inversions below
   ([do 3 (apply andb_streq …)]) are the lengths of those chains. *)
Lemma andb_streq b s k : b && (s =? k)%string = true -> b = true /\ s = k.
Proof. intros H. apply andb_true_iff in H as [H E]. apply String.eqb_eq in E. auto. Qed.

Lemma m_service_inv l ap ns dc svc : m_service l = Some (ap, ns, dc, svc) ->
  (l = [""; "ns"; ns; "dc"; dc; "svc"; svc] /\ ap = "") \/
  (l = [""; "ap"; ap; "ns"; ns; "dc"; dc; "svc"; svc]).
Proof.
  destruct l as [|e [|k1 [|a [|b [|c0 [|d [|f [|g [|i [|j t]]]]]]]]]]; cbn [m_service]; try discriminate;
    destruct (_ && _)%bool eqn:C; try discriminate; intros [= <- <- <- <-].
  - do 3 (apply andb_true_iff in C as [C _]). do 3 (apply andb_streq in C as [C ->]).
    apply String.eqb_eq in C as ->. left. split; reflexivity.
  - do 4 (apply andb_true_iff in C as [C _]). do 4 (apply andb_streq in C as [C ->]).
    apply String.eqb_eq in C as ->. right. reflexivity.
Qed.

Lemma m_agent_inv l ap dc agent : m_agent l = Some (ap, dc, agent) ->
  (l = [""; "agent"; "client"; "dc"; dc; "id"; agent] /\ ap = "") \/
  (l = [""; "ap"; ap; "agent"; "client"; "dc"; dc; "id"; agent]).
Proof.
  destruct l as [|e [|k1 [|a [|b [|c0 [|d [|f [|g [|i [|j t]]]]]]]]]]; cbn [m_agent]; try discriminate;
    destruct (_ && _)%bool eqn:C; try discriminate; intros [= <- <- <-].
  - do 2 (apply andb_true_iff in C as [C _]). do 4 (apply andb_streq in C as [C ->]).
    apply String.eqb_eq in C as ->. left. split; reflexivity.
  - do 3 (apply andb_true_iff in C as [C _]). do 5 (apply andb_streq in C as [C ->]).
    apply String.eqb_eq in C as ->. right. reflexivity.
Qed.

Lemma m_gateway_inv l ap dc : m_gateway l = Some (ap, dc) ->
  (l = [""; "gateway"; "mesh"; "dc"; dc] /\ ap = "") \/
  (l = [""; "ap"; ap; "gateway"; "mesh"; "dc"; dc]).
Proof.
  destruct l as [|e [|k1 [|a [|b [|c0 [|d [|f [|g t]]]]]]]]; cbn [m_gateway]; try discriminate;
    destruct (_ && _)%bool eqn:C; try discriminate; intros [= <- <-].
  - apply andb_true_iff in C as [C _]. do 3 (apply andb_streq in C as [C ->]).
    apply String.eqb_eq in C as ->. left. split; reflexivity.
  - do 2 (apply andb_true_iff in C as [C _]). do 4 (apply andb_streq in C as [C ->]).
    apply String.eqb_eq in C as ->. right. reflexivity.
Qed.

Lemma m_server_inv l dc : m_server l = Some dc -> l = [""; "agent"; "server"; "dc"; dc].
Proof.
  destruct l as [|e [|k1 [|a [|b [|c0 [|d t]]]]]]; cbn [m_server]; try discriminate.
  destruct (_ && _)%bool eqn:C; [|discriminate]. intros [= <-].
  apply andb_true_iff in C as [C _]. do 3 (apply andb_streq in C as [C ->]).
  apply String.eqb_eq in C as ->. reflexivity.
Qed.

(* [reads h segs id]: a path whose (decoded) segments are [segs], under host [h], is the identity
   [id].  The regexps of agent/connect/uri.go, one constructor per alternative. *)
Inductive reads (h : string) : list string -> cert_id -> Prop :=
| RdService ns dc svc : reads h [""; "ns"; ns; "dc"; dc; "svc"; svc] (IdService h "default" ns dc svc)
| RdServiceAp ap ns dc svc :
    reads h [""; "ap"; ap; "ns"; ns; "dc"; dc; "svc"; svc] (IdService h (default_ap ap) ns dc svc)
| RdAgent dc agent : reads h [""; "agent"; "client"; "dc"; dc; "id"; agent] (IdAgent h "default" dc agent)
| RdAgentAp ap dc agent :
    reads h [""; "ap"; ap; "agent"; "client"; "dc"; dc; "id"; agent] (IdAgent h (default_ap ap) dc agent)
| RdGateway dc : reads h [""; "gateway"; "mesh"; "dc"; dc] (IdGateway h "default" dc)
| RdGatewayAp ap dc : reads h [""; "ap"; ap; "gateway"; "mesh"; "dc"; dc] (IdGateway h (default_ap ap) dc)
| RdServer dc : reads h [""; "agent"; "server"; "dc"; dc] (IdServer h dc).

(* the segments after url.PathUnescape on each, which ParseCertURI applies only when RawPath is set *)
Definition unesc_all (raw : bool) (l : list string) : option (list string) :=
  if raw then unescape_all l else Some l.

Lemma unesc_if_empty raw d : unesc_if raw "" = Some d -> d = "".
Proof. destruct raw; cbn; congruence. Qed.

Section Patterns.
  Variables (raw : bool) (h : string) (l : list string).

  Lemma service_reads ap ns dc svc ap' ns' dc' svc' :
    m_service l = Some (ap, ns, dc, svc) ->
    unesc_if raw ap = Some ap' -> unesc_if raw ns = Some ns' -> unesc_if raw dc = Some dc' ->
    unesc_if raw svc = Some svc' ->
    exists ds, unesc_all raw l = Some ds /\ reads h ds (IdService h (default_ap ap') ns' dc' svc').
  Proof.
    intros M Ua Un Ud Us. apply m_service_inv in M as [[-> ->] | ->].
    - apply unesc_if_empty in Ua as ->. eexists. split; [|apply RdService].
      destruct raw; cbn [unesc_all unesc_if unescape_all] in *; [rewrite Un, Ud, Us; reflexivity | congruence].
    - eexists. split; [|apply RdServiceAp].
      destruct raw; cbn [unesc_all unesc_if unescape_all] in *; [rewrite Ua, Un, Ud, Us; reflexivity | congruence].
  Qed.

  Lemma agent_reads ap dc agent ap' dc' agent' :
    m_agent l = Some (ap, dc, agent) ->
    unesc_if raw ap = Some ap' -> unesc_if raw dc = Some dc' -> unesc_if raw agent = Some agent' ->
    exists ds, unesc_all raw l = Some ds /\ reads h ds (IdAgent h (default_ap ap') dc' agent').
  Proof.
    intros M Ua Ud Ug. apply m_agent_inv in M as [[-> ->] | ->].
    - apply unesc_if_empty in Ua as ->. eexists. split; [|apply RdAgent].
      destruct raw; cbn [unesc_all unesc_if unescape_all] in *; [rewrite Ud, Ug; reflexivity | congruence].
    - eexists. split; [|apply RdAgentAp].
      destruct raw; cbn [unesc_all unesc_if unescape_all] in *; [rewrite Ua, Ud, Ug; reflexivity | congruence].
  Qed.

  Lemma gateway_reads ap dc ap' dc' :
    m_gateway l = Some (ap, dc) -> unesc_if raw ap = Some ap' -> unesc_if raw dc = Some dc' ->
    exists ds, unesc_all raw l = Some ds /\ reads h ds (IdGateway h (default_ap ap') dc').
  Proof.
    intros M Ua Ud. apply m_gateway_inv in M as [[-> ->] | ->].
    - apply unesc_if_empty in Ua as ->. eexists. split; [|apply RdGateway].
      destruct raw; cbn [unesc_all unesc_if unescape_all] in *; [rewrite Ud; reflexivity | congruence].
    - eexists. split; [|apply RdGatewayAp].
      destruct raw; cbn [unesc_all unesc_if unescape_all] in *; [rewrite Ua, Ud; reflexivity | congruence].
  Qed.

  Lemma server_reads dc dc' :
    m_server l = Some dc -> unesc_if raw dc = Some dc' ->
    exists ds, unesc_all raw l = Some ds /\ reads h ds (IdServer h dc').
  Proof.
    intros M Ud. apply m_server_inv in M as ->. eexists. split; [|apply RdServer].
    destruct raw; cbn [unesc_all unesc_if unescape_all] in *; [rewrite Ud; reflexivity | congruence].
  Qed.
End Patterns.

(* A successful ParseCertURI: the segments of RawPath (decoded one by one) or else of Path are one
   of the accepted lists, or the path is empty and the host a signing ID. *)
Theorem parse_reads u id : parse_cert_uri u = Ok id ->
  u_scheme u = "spiffe" /\
  let raw := nonempty (u_raw u) in
  ((exists ds, unesc_all raw (split_slash (if raw then u_raw u else u_path u)) = Some ds /\
               reads (u_host u) ds id) \/
   (u_path u = "" /\ exists cl dom,
      cut_dot (u_host u) = Some (cl, dom) /\ nonempty cl = true /\ id = IdSigning cl dom)).
Proof.
  unfold parse_cert_uri. intros H. destruct (u_scheme u =? "spiffe")%string eqn:Es; [|discriminate].
  apply String.eqb_eq in Es. split; [exact Es|]. cbn [negb] in H.
  set (raw := nonempty (u_raw u)) in *. set (segs := split_slash _) in *. cbv zeta.
  destruct (m_service segs) as [[[[ap ns] dc] svc]|] eqn:M.
  { destruct (unesc_if raw ap) eqn:Ua; [|discriminate]. destruct (unesc_if raw ns) eqn:Un; [|discriminate].
    destruct (unesc_if raw dc) eqn:Ud; [|discriminate]. destruct (unesc_if raw svc) eqn:Us; [|discriminate].
    injection H as <-. left. eapply service_reads; eassumption. }
  destruct (m_agent segs) as [[[ap dc] agent]|] eqn:M2.
  { destruct (unesc_if raw ap) eqn:Ua; [|discriminate]. destruct (unesc_if raw dc) eqn:Ud; [|discriminate].
    destruct (unesc_if raw agent) eqn:Ug; [|discriminate].
    injection H as <-. left. eapply agent_reads; eassumption. }
  destruct (m_gateway segs) as [[ap dc]|] eqn:M3.
  { destruct (unesc_if raw ap) eqn:Ua; [|discriminate]. destruct (unesc_if raw dc) eqn:Ud; [|discriminate].
    injection H as <-. left. eapply gateway_reads; eassumption. }
  destruct (m_server segs) as [dc|] eqn:M4.
  { destruct (unesc_if raw dc) eqn:Ud; [|discriminate].
    injection H as <-. left. eapply server_reads; eassumption. }
  destruct (u_path u =? "")%string eqn:Ep; [|discriminate]. apply String.eqb_eq in Ep.
  destruct (cut_dot (u_host u)) as [[cl dom]|]; [|discriminate].
  destruct (nonempty cl) eqn:Hn; [|discriminate]. injection H as <-. right. eauto 6.
Qed.
