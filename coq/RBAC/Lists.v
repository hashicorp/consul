(* List facts that only the RBAC proofs use (the shared ones are in Base/Lists.v): boolean
   quantifiers and [find] under [map]/[filter], [filter_map], [ForallOrdPairs]. *)
From Coq Require Import Sorted.
From Verif Require Import Base.Prelude.
From Verif Require Import Base.Lists.
From Verif Require Import RBAC.Model.
Local Open Scope bool_scope.

Section Lists.
  Context {A B : Type}.

  Lemma find_ext_in (f g : A -> bool) l :
    (forall x, In x l -> f x = g x) -> find f l = find g l.
  Proof.
    induction l as [|x l IH]; intros H; cbn; [reflexivity|].
    rewrite (H x (or_introl eq_refl)), IH; [reflexivity|]. intros y Hy. apply H. right; exact Hy.
  Qed.

  Lemma existsb_map (f : B -> bool) (h : A -> B) l : existsb f (map h l) = existsb (fun x => f (h x)) l.
  Proof. induction l as [|x l IH]; cbn; [reflexivity|]. rewrite IH. reflexivity. Qed.

  Lemma forallb_map (f : B -> bool) (h : A -> B) l : forallb f (map h l) = forallb (fun x => f (h x)) l.
  Proof. induction l as [|x l IH]; cbn; [reflexivity|]. rewrite IH. reflexivity. Qed.

  Lemma find_map (f : B -> bool) (h : A -> B) l :
    find f (map h l) = option_map h (find (fun x => f (h x)) l).
  Proof. induction l as [|x l IH]; cbn; [reflexivity|]. destruct (f (h x)); [reflexivity|exact IH]. Qed.

  Lemma existsb_filter_implied (f g : A -> bool) l :
    (forall x, f x = true -> g x = true) -> existsb f (filter g l) = existsb f l.
  Proof.
    intros H. rewrite existsb_filter. apply existsb_ext_in. intros x _.
    destruct (f x) eqn:F; [rewrite (H x F)|rewrite andb_false_r]; reflexivity.
  Qed.

  Lemma In_filter_map (f : A -> option B) l y :
    In y (filter_map f l) <-> exists x, In x l /\ f x = Some y.
  Proof.
    induction l as [|x l IH]; cbn.
    - split; [tauto|intros (x & [] & _)].
    - destruct (f x) as [z|] eqn:E; cbn; rewrite IH; split.
      + intros [<-|(x' & Hx & Hf)]; [exists x; auto|exists x'; auto].
      + intros (x' & [<-|Hx] & Hf); [left; congruence|right; exists x'; auto].
      + intros (x' & Hx & Hf). exists x'; auto.
      + intros (x' & [<-|Hx] & Hf); [congruence|exists x'; auto].
  Qed.

  Lemma FOP_strongly_sorted (R : A -> A -> Prop) l : StronglySorted R l -> ForallOrdPairs R l.
  Proof. induction 1; constructor; assumption. Qed.

  Lemma FOP_impl (R S : A -> A -> Prop) l :
    (forall a b, In a l -> In b l -> R a b -> S a b) -> ForallOrdPairs R l -> ForallOrdPairs S l.
  Proof.
    intros H F. induction F as [|a l Ha F IH]; constructor.
    - rewrite Forall_forall in *. intros b Hb. apply H; cbn; auto.
    - apply IH. intros x y Hx Hy. apply H; cbn; auto.
  Qed.

  Lemma FOP_map (R : B -> B -> Prop) (h : A -> B) l :
    ForallOrdPairs R (map h l) <-> ForallOrdPairs (fun x y => R (h x) (h y)) l.
  Proof.
    induction l as [|x l IH]; cbn; [split; constructor|].
    split; intros F; inversion F as [|? ? Hx F']; subst; constructor; try (apply IH; exact F').
    - rewrite Forall_forall in *. intros y Hy. apply Hx, in_map, Hy.
    - rewrite Forall_forall in *. intros b Hb. apply in_map_iff in Hb as (y & <- & Hy). apply Hx, Hy.
  Qed.

  Lemma FOP_filter_map (R : B -> B -> Prop) (f : A -> option B) l :
    ForallOrdPairs (fun x y => forall a b, f x = Some a -> f y = Some b -> R a b) l ->
    ForallOrdPairs R (filter_map f l).
  Proof.
    induction 1 as [|x l Hx F IH]; cbn; [constructor|].
    destruct (f x) as [a|] eqn:E; [|exact IH]. constructor; [|exact IH].
    rewrite Forall_forall in *. intros b Hb. apply In_filter_map in Hb as (y & Hy & Ey).
    exact (Hx y Hy a b eq_refl Ey).
  Qed.
End Lists.
