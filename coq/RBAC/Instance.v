(* A concrete regex-engine fragment meeting the hypothesis of the C14 theorems
   ([re_alternation]): [re_inst p m] reads the pattern as an alternation of literal fields
   separated by '|' and accepts [m] when it equals one of them.  Shows the hypothesis is
   satisfiable; the theorems then compute on a concrete example. *)
From Verif Require Import Base.Prelude.
From Verif Require Import RBAC.Model.
From Verif Require Import RBAC.Perms.
From Verif Require Import RBAC.Proofs.
Local Open Scope string_scope.
Local Open Scope bool_scope.

Definition bar : ascii := "|"%char.

(* automaton over the pattern: [st] = what is left of [m] to match in the current field,
   None when the current field already differs *)
Fixpoint fm (m : string) (st : option string) (p : string) : bool :=
  match p with
  | EmptyString => match st with Some EmptyString => true | _ => false end
  | String ch p' =>
      if Ascii.eqb ch bar
      then match st with Some EmptyString => true | _ => fm m (Some m) p' end
      else match st with
           | Some (String c r) => if Ascii.eqb c ch then fm m (Some r) p' else fm m None p'
           | _ => fm m None p'
           end
  end.

Definition re_inst (p m : string) : bool := fm m (Some m) p.

Fixpoint bar_free (s : string) : bool :=
  match s with
  | EmptyString => true
  | String c s' => negb (Ascii.eqb c bar) && bar_free s'
  end.

Definition fld (st : option string) (x : string) : bool :=
  match st with Some r => x =? r | None => false end.

Lemma fm_field m x :
  bar_free x = true ->
  forall st, fm m st x = fld st x
             /\ forall rest, fm m st (x ++ String bar rest) = fld st x || fm m (Some m) rest.
Proof.
  induction x as [|c x IH]; cbn [bar_free append]; intros H st.
  - destruct st as [[|c' r]|]; split; reflexivity.
  - apply andb_true_iff in H as [Hc Hx]. apply negb_true_iff in Hc. cbn [fm]. rewrite Hc.
    destruct st as [[|c' r]|]; cbn [fld String.eqb]; try exact (IH Hx None).
    rewrite (Ascii.eqb_sym c c'). destruct (Ascii.eqb c' c); [exact (IH Hx (Some r))|exact (IH Hx None)].
Qed.

Lemma valid_method_bar_free x : valid_method x -> bar_free x = true.
Proof.
  unfold valid_method. cbn. intros H.
  repeat (destruct H as [<-|H]; [reflexivity|]). destruct H.
Qed.

Lemma re_inst_nonempty m ms x :
  Forall valid_method (x :: ms) ->
  fm m (Some m) (join "|" (x :: ms)) = existsb (fun y => y =? m) (x :: ms).
Proof.
  revert x; induction ms as [|y ms IH]; intros x Hv; inversion Hv as [|? ? Hx Hv']; subst.
  - cbn [join existsb]. rewrite orb_false_r. exact (proj1 (fm_field m x (valid_method_bar_free x Hx) (Some m))).
  - change (join "|" (x :: y :: ms)) with (x ++ String bar (join "|" (y :: ms))).
    rewrite (proj2 (fm_field m x (valid_method_bar_free x Hx) (Some m))), (IH y Hv'). reflexivity.
Qed.

Theorem re_inst_alternation : re_alternation re_inst.
Proof.
  intros ms m Hne Hv. unfold re_inst. destruct ms as [|x ms]; [contradiction|].
  apply re_inst_nonempty; exact Hv.
Qed.

(* C14_equiv_partial on [ex_ixns] (Properties/C14.v, C14_instance) is not decided trivially: GET /x is allowed,
   GET /admin/x and DELETE /x are not *)
Example instance_values :
  eval_rbac re_inst (translate ex_cfg ex_ixns false true) ex_conn (Req "/x" [(":method", "GET")]) = true
  /\ eval_rbac re_inst (translate ex_cfg ex_ixns false true) ex_conn (Req "/admin/x" [(":method", "GET")]) = false
  /\ eval_rbac re_inst (translate ex_cfg ex_ixns false true) ex_conn (Req "/x" [(":method", "DELETE")]) = false.
Proof. repeat split; vm_compute; reflexivity. Qed.
