(* Sources (rbacService) and the passes that look at sources only.
   What ixnSourceMatches decides, which URIs a source covers, how an intention resolves to its
   source; removeSameSourceIntentions, intentionListToIntermediateRBACForm,
   removeShadowedSourceIntentions.
   What the principals of a policy evaluate to, given what the pattern of each source evaluates to
   (and/or wrappers, optimizePrincipals, simplifyNotSourceSlice, flattenPrincipalFrom{Cert,XFCC}).
   removeSourcePrecedence: the marking walk, followed along its recursion, and what the marked list
   decides for a connection: when the matching sources are nested ([laminar]) exactly the first intention whose
   source matches contributes; without that, a non-default first match still does. *)
From Verif Require Import Base.Prelude.
From Verif Require Import Base.Lists.
From Verif Require Import RBAC.Model.
From Verif Require Import RBAC.Lists.
From Verif Require Import RBAC.Order.
From Verif Require Import RBAC.Patterns.
From Verif Require Import RBAC.Perms.
Local Open Scope string_scope.
Local Open Scope bool_scope.
Local Open Scope list_scope.

Lemma or_default_id x : x <> "" -> or_default x = x.
Proof. intros H. unfold or_default. destruct (String.eqb_spec x ""); [contradiction|reflexivity]. Qed.

Lemma or_default_wild x : (or_default x =? wild) = (x =? wild).
Proof. unfold or_default. destruct (String.eqb_spec x "") as [->|]; reflexivity. Qed.

Lemma ism_iff a b :
  ixn_source_matches a b = true <->
  (count_wild a < count_wild b)%N /\ s_ap a = s_ap b /\ s_peer a = s_peer b
  /\ (s_ns a = s_ns b \/ s_ns b = wild) /\ (s_name a = s_name b \/ s_name b = wild).
Proof.
  unfold ixn_source_matches.
  destruct (N.eqb_spec (count_wild a) (count_wild b)); [split; [discriminate|lia]|].
  destruct (N.ltb_spec (count_wild b) (count_wild a)); [split; [discriminate|lia]|].
  rewrite !andb_true_iff, !orb_true_iff, !String.eqb_eq. split; [intros M; split; [lia|tauto]|tauto].
Qed.

Lemma ism_same_peer a b : ixn_source_matches a b = true -> s_peer a = s_peer b.
Proof. intros H. apply ism_iff in H. tauto. Qed.

Lemma ism_count_lt a b : ixn_source_matches a b = true -> (count_wild a < count_wild b)%N.
Proof. intros H. apply ism_iff in H. tauto. Qed.

Lemma src_covers_iff s id :
  src_covers s id = true <->
  s_td s = id_td id /\ eff_ap s = id_ap id
  /\ (s_ns s = wild \/ s_ns s = id_ns id) /\ (s_name s = wild \/ s_name s = id_svc id).
Proof. unfold src_covers. rewrite !andb_true_iff, !orb_true_iff, !String.eqb_eq. tauto. Qed.

Lemma covers_uri_iff s u :
  covers_uri s u = true <-> exists id, parse_service u = Some id /\ src_covers s id = true.
Proof.
  unfold covers_uri. destruct (parse_service u) as [id|].
  - split; [intros H; exists id; auto|intros (id' & [= <-] & H); exact H].
  - split; [discriminate|intros (id' & [=] & _)].
Qed.

Lemma covers_td s u : covers_uri s u = true -> exists id, parse_service u = Some id /\ s_td s = id_td id.
Proof.
  intros H. apply covers_uri_iff in H as (id & P & C). apply src_covers_iff in C as (T & _). exists id; auto.
Qed.

Lemma wf_same_ap a b :
  wf_src a -> wf_src b -> s_peer a = s_peer b -> eff_ap a = eff_ap b -> s_ap a = s_ap b.
Proof.
  intros (_ & _ & Na & _ & La & Pa) (_ & _ & Nb & _ & Lb & Pb) Hp. unfold eff_ap. rewrite <- Hp.
  destruct (String.eqb_spec (s_peer a) "") as [E|E].
  - rewrite !or_default_id, La, Lb by assumption. tauto.
  - intros _. rewrite (Pa E). rewrite Hp in E. rewrite (Pb E). reflexivity.
Qed.

Definition skey (s : rsvc) : string * string * string * string := (s_ap s, s_ns s, s_name s, s_peer s).

Lemma covers_shape s ns svc : wf_src s ->
  (s_ns s = wild \/ s_ns s = ns) -> (s_name s = wild \/ s_name s = svc) ->
  (count_wild s = 0%N /\ s_ns s = ns /\ s_name s = svc)
  \/ (count_wild s = 1%N /\ s_ns s = ns /\ s_name s = wild)
  \/ (count_wild s = 2%N /\ s_ns s = wild /\ s_name s = wild).
Proof.
  intros (_ & _ & _ & W & _) Hn Hs. unfold count_wild.
  destruct (String.eqb_spec (s_ns s) wild); [right; right; auto|].
  destruct (String.eqb_spec (s_name s) wild); [right; left|left]; tauto.
Qed.

Lemma covers_both a b u :
  wf_src a -> wf_src b -> s_peer a = s_peer b ->
  covers_uri a u = true -> covers_uri b u = true ->
  skey a = skey b \/ ixn_source_matches a b = true \/ ixn_source_matches b a = true.
Proof.
  intros Wa Wb Hp Ca Cb.
  apply covers_uri_iff in Ca as (id & P & Ca), Cb as (id' & P' & Cb).
  rewrite P in P'. injection P' as <-.
  apply src_covers_iff in Ca as (_ & Aa & Na & Ma), Cb as (_ & Ab & Nb & Mb).
  assert (Hap : s_ap a = s_ap b) by (apply wf_same_ap; congruence).
  (* nine pairs of shapes (no, one, two wildcards each): on the diagonal (goals 1, 5, 9) the keys are equal;
     above it [a] has fewer wildcards and is matched by [b], below it the other way round *)
  destruct (covers_shape a _ _ Wa Na Ma) as [(Ca & Ea & Fa)|[(Ca & Ea & Fa)|(Ca & Ea & Fa)]],
           (covers_shape b _ _ Wb Nb Mb) as [(Cb & Eb & Fb)|[(Cb & Eb & Fb)|(Cb & Eb & Fb)]].
  1, 5, 9: left; unfold skey; rewrite Ea, Eb, Fa, Fb, Hap, Hp; reflexivity.
  1, 2, 4: right; left; apply ism_iff; rewrite Ca, Cb, Ea, Eb, Fa, Fb, Hap, Hp; repeat split; auto.
  all: right; right; apply ism_iff; rewrite Ca, Cb, Ea, Eb, Fa, Fb, Hap, Hp; repeat split; auto.
Qed.

Lemma resolve_some cfg i s :
  resolve cfg i = Some s -> s = src_of cfg i (lookup_bundle (c_bundles cfg) (i_src_peer i)).
Proof. unfold resolve. destruct (negb _ && _); [discriminate|]. intros [= <-]. reflexivity. Qed.

Lemma resolve_key cfg i j : src_key i = src_key j -> resolve cfg i = resolve cfg j.
Proof.
  unfold src_key, resolve, src_of. intros [= H1 H2 H3 H4]. rewrite H1, H2, H3, H4. reflexivity.
Qed.

Lemma resolve_skey cfg i s : resolve cfg i = Some s -> skey s = src_key i.
Proof. intros H. apply resolve_some in H as ->. reflexivity. Qed.

Lemma ixn_matches_key cfg xf c i j : src_key i = src_key j -> ixn_matches cfg xf c i = ixn_matches cfg xf c j.
Proof. intros H. unfold ixn_matches. rewrite (resolve_key cfg i j H). reflexivity. Qed.

(* countWild of the source is what UpdatePrecedence counts on the source side *)
Lemma count_wild_src_of cfg i tb :
  count_wild (src_of cfg i tb) = (2 - count_exact (i_src_ns i) (i_src_name i))%N.
Proof.
  unfold count_wild, count_exact, src_of. cbn [s_ns s_name]. rewrite or_default_wild.
  destruct (i_src_ns i =? wild); [reflexivity|]. destruct (i_src_name i =? wild); reflexivity.
Qed.

(* intentionListToIntermediateRBACForm *)

Lemma r_src_to_rixn cfg http i tb : r_src (to_rixn cfg http i tb) = src_of cfg i tb.
Proof. unfold to_rixn. destruct (i_perms i); [reflexivity|]. destruct http; reflexivity. Qed.

Lemma to_rixns_cons cfg http i D :
  to_rixns cfg http (i :: D) =
  match resolve cfg i with
  | Some _ => to_rixn cfg http i (lookup_bundle (c_bundles cfg) (i_src_peer i)) :: to_rixns cfg http D
  | None => to_rixns cfg http D
  end.
Proof. cbn [to_rixns]. unfold resolve. destruct (negb _ && _); reflexivity. Qed.

Lemma to_rixns_sources cfg http D : map r_src (to_rixns cfg http D) = filter_map (resolve cfg) D.
Proof.
  induction D as [|i D IH]; [reflexivity|]. rewrite to_rixns_cons. cbn [filter_map].
  destruct (resolve cfg i) as [s|] eqn:R; [|exact IH].
  cbn [map]. rewrite IH, r_src_to_rixn, (resolve_some cfg i s R). reflexivity.
Qed.

(* removeSameSourceIntentions *)

Lemma key_eqb_eq a b : key_eqb a b = true <-> a = b.
Proof.
  destruct a as [[[a1 a2] a3] a4], b as [[[b1 b2] b3] b4]. unfold key_eqb.
  rewrite !andb_true_iff, !String.eqb_eq. split; [intros [[[-> ->] ->] ->]; reflexivity|intros [= -> -> -> ->]; auto].
Qed.

Lemma remove_same_source_eq l : remove_same_source l = dedupe [] l.
Proof. destruct l as [|x [|y l]]; reflexivity. Qed.

Lemma In_dedupe seen l x : In x (dedupe seen l) -> In x l /\ existsb (key_eqb (src_key x)) seen = false.
Proof.
  revert seen; induction l as [|i l IH]; intros seen; cbn; [tauto|].
  destruct (existsb (key_eqb (src_key i)) seen) eqn:E.
  - intros H. destruct (IH _ H). auto.
  - intros [<-|H]; [auto|]. destruct (IH _ H) as [H1 H2]. split; [auto|].
    cbn [existsb] in H2. apply orb_false_iff in H2 as [_ H2]. exact H2.
Qed.

Lemma In_remove_same_source l x : In x (remove_same_source l) -> In x l.
Proof. rewrite remove_same_source_eq. intros H. apply In_dedupe in H as [H _]. exact H. Qed.

Lemma dedupe_pairs (R : intention -> intention -> Prop) seen l :
  ForallOrdPairs R l -> ForallOrdPairs (fun i j => R i j /\ src_key i <> src_key j) (dedupe seen l).
Proof.
  revert seen; induction l as [|i l IH]; intros seen F; cbn; [constructor|].
  inversion F as [|? ? Hi F']; subst.
  destruct (existsb (key_eqb (src_key i)) seen); [apply IH; exact F'|].
  constructor; [|apply IH; exact F'].
  rewrite Forall_forall in *. intros x Hx. apply In_dedupe in Hx as [Hx Hk]. split; [apply Hi; exact Hx|].
  intros Heq. cbn [existsb] in Hk. apply orb_false_iff in Hk as [Hk _].
  rewrite (proj2 (key_eqb_eq _ _) (eq_sym Heq)) in Hk. discriminate.
Qed.

Lemma remove_same_source_pairs l :
  ForallOrdPairs (fun i j => ixn_less j i = false /\ src_key i <> src_key j) (remove_same_source (sort_ixns l)).
Proof. rewrite remove_same_source_eq. apply dedupe_pairs, FOP_strongly_sorted, sort_ixns_sorted. Qed.

(* only intentions whose key was seen are dropped: a test that depends on the key alone and
   rejects the seen keys has the same first hit *)
Lemma find_dedupe (P : intention -> bool) seen l :
  (forall i j, src_key i = src_key j -> P i = P j) ->
  (forall i, existsb (key_eqb (src_key i)) seen = true -> P i = false) ->
  find P (dedupe seen l) = find P l.
Proof.
  intros HP. revert seen; induction l as [|i l IH]; intros seen Hseen; cbn; [reflexivity|].
  destruct (existsb (key_eqb (src_key i)) seen) eqn:E.
  - rewrite (Hseen i E). apply IH; exact Hseen.
  - cbn [find]. destruct (P i) eqn:Pi; [reflexivity|]. apply IH.
    intros x Hx. cbn [existsb] in Hx. apply orb_true_iff in Hx as [K|Hx]; [|apply Hseen; exact Hx].
    apply key_eqb_eq in K. rewrite (HP x i K). exact Pi.
Qed.

Lemma find_remove_same_source (P : intention -> bool) l :
  (forall i j, src_key i = src_key j -> P i = P j) ->
  find P (remove_same_source l) = find P l.
Proof. intros HP. rewrite remove_same_source_eq. apply find_dedupe; [exact HP|discriminate]. Qed.

(* removeShadowedSourceIntentions *)

Lemma In_drop_shadowed kept l r : In r (drop_shadowed kept l) -> In r l.
Proof.
  revert kept; induction l as [|x l IH]; intros kept; cbn; [tauto|].
  destruct (existsb _ kept); cbn; intros H; [right; eapply IH; exact H|].
  destruct H as [<-|H]; [left; reflexivity|right; eapply IH; exact H].
Qed.

Lemma drop_shadowed_Forall (P : rixn -> Prop) kept l : Forall P l -> Forall P (drop_shadowed kept l).
Proof.
  rewrite !Forall_forall. intros H r Hr. apply H. eapply In_drop_shadowed; exact Hr.
Qed.

Lemma drop_shadowed_pairs (R : rixn -> rixn -> Prop) kept l :
  ForallOrdPairs R l ->
  ForallOrdPairs (fun x y => R x y /\ ixn_source_matches (r_src y) (r_src x) = false) (drop_shadowed kept l)
  /\ forall y, In y (drop_shadowed kept l) -> forall p, In p kept -> ixn_source_matches (r_src y) p = false.
Proof.
  revert kept; induction l as [|x l IH]; intros kept F; cbn; [split; [constructor|intros y []]|].
  inversion F as [|? ? Hx F']; subst.
  destruct (existsb (fun p => ixn_source_matches (r_src x) p) kept) eqn:E; [apply IH; exact F'|].
  destruct (IH (kept ++ [r_src x]) F') as [G Hk]. split.
  - constructor; [|exact G]. rewrite Forall_forall in *. intros y Hy.
    split; [apply Hx, (In_drop_shadowed _ _ _ Hy)|]. apply (Hk y Hy), in_or_app. right; left; reflexivity.
  - intros y [<-|Hy] p Hp.
    + apply not_true_iff_false. intros M. rewrite (proj2 (existsb_exists _ _)) in E by eauto. discriminate.
    + apply (Hk y Hy). apply in_or_app. left; exact Hp.
Qed.

(* A shadowed intention never is the first match, so dropping it does not change the first match:
   [m] is upward closed under ixnSourceMatches on the sources [U] at hand. *)
Lemma find_drop_shadowed {A} (m : rsvc -> bool) (v : rixn -> A) (dflt : A) (U : rsvc -> Prop) kept l :
  (forall a p, U a -> U p -> ixn_source_matches a p = true -> m a = true -> m p = true) ->
  (forall p, In p kept -> U p /\ m p = false) -> (forall r, In r l -> U (r_src r)) ->
  match find (fun r => m (r_src r)) (drop_shadowed kept l) with Some r => v r | None => dflt end
  = match find (fun r => m (r_src r)) l with Some r => v r | None => dflt end.
Proof.
  intros Hup. revert kept; induction l as [|x l IH]; intros kept Hk HU; [reflexivity|].
  cbn [drop_shadowed find].
  assert (HU' : forall r, In r l -> U (r_src r)) by (intros r Hr; apply HU; right; exact Hr).
  destruct (existsb (fun p => ixn_source_matches (r_src x) p) kept) eqn:E.
  - apply existsb_exists in E as (p & Hp & Mp). destruct (Hk p Hp) as [Up Fp].
    destruct (m (r_src x)) eqn:Mx; [|apply IH; assumption].
    rewrite (Hup (r_src x) p (HU x (or_introl eq_refl)) Up Mp Mx) in Fp. discriminate.
  - cbn [find]. destruct (m (r_src x)) eqn:Mx; [reflexivity|]. apply IH; [|exact HU'].
    intros p Hp. apply in_app_or in Hp as [Hp|[<-|[]]]; [apply Hk; exact Hp|].
    split; [apply HU; left; reflexivity|exact Mx].
Qed.

(* the principals built from sources *)

Lemma eval_and_principals c l : eval_principal c (and_principals l) = forallb (eval_principal c) l.
Proof. destruct l as [|x [|y l]]; cbn; try reflexivity. rewrite andb_true_r. reflexivity. Qed.

Lemma eval_or_principals c l : eval_principal c (or_principals l) = existsb (eval_principal c) l.
Proof. destruct l as [|x [|y l]]; cbn; try reflexivity. rewrite orb_false_r. reflexivity. Qed.

Lemma collect_or_sem c l ids :
  collect_or l = Some ids -> existsb (eval_principal c) l = existsb (eval_principal c) ids.
Proof.
  revert ids; induction l as [|p l IH]; intros ids H; cbn in H.
  - injection H as <-. reflexivity.
  - destruct p; try discriminate. destruct (collect_or l) as [t|]; [|discriminate].
    injection H as <-. cbn. rewrite existsb_app, (IH t eq_refl). reflexivity.
Qed.

Lemma optimize_sem c l :
  existsb (eval_principal c) (optimize_principals l) = existsb (eval_principal c) l.
Proof.
  unfold optimize_principals. destruct (collect_or l) as [ids|] eqn:E; [|reflexivity].
  cbn. rewrite orb_false_r, eval_or_principals. symmetry. apply collect_or_sem; exact E.
Qed.

Section Flatten.
  Variable c : conn.

  (* simplifyNotSourceSlice keeps the meaning of a conjunction of negations *)
  Lemma In_keep_unmatched x l : In x (keep_unmatched l) -> In x l.
  Proof.
    induction l as [|y l IH]; cbn; [tauto|].
    destruct (existsb (fun sj => ixn_source_matches y sj) l); cbn; intuition.
  Qed.

  Lemma In_simplify_not x l : In x (simplify_not l) -> In x l.
  Proof.
    unfold simplify_not. destruct (List.length l <=? 1)%nat; [tauto|].
    intros H. apply In_keep_unmatched in H. apply In_sort_by in H. exact H.
  Qed.

  Lemma keep_unmatched_sem (f : rsvc -> bool) l :
    (forall a b, In a l -> In b l -> ixn_source_matches a b = true -> f a = true -> f b = true) ->
    forallb (fun n => negb (f n)) (keep_unmatched l) = forallb (fun n => negb (f n)) l.
  Proof.
    induction l as [|x l IH]; intros H; cbn; [reflexivity|].
    assert (IH' : forallb (fun n => negb (f n)) (keep_unmatched l) = forallb (fun n => negb (f n)) l)
      by (apply IH; intros a b Ha Hb; apply H; cbn; auto).
    destruct (existsb (fun sj => ixn_source_matches x sj) l) eqn:E; cbn; rewrite IH'; [|reflexivity].
    destruct (forallb (fun n => negb (f n)) l) eqn:F; [|rewrite andb_false_r; reflexivity].
    apply existsb_exists in E as (y & Hy & Hxy).
    rewrite forallb_forall in F. specialize (F y Hy).
    destruct (f x) eqn:Fx; [|reflexivity].
    rewrite (H x y (or_introl eq_refl) (or_intror Hy) Hxy Fx) in F. discriminate.
  Qed.

  Lemma simplify_not_sem (f : rsvc -> bool) l :
    (forall a b, In a l -> In b l -> ixn_source_matches a b = true -> f a = true -> f b = true) ->
    forallb (fun n => negb (f n)) (simplify_not l) = forallb (fun n => negb (f n)) l.
  Proof.
    intros H. unfold simplify_not. destruct (List.length l <=? 1)%nat; [reflexivity|].
    rewrite keep_unmatched_sem.
    - apply forallb_same_members. intros x. apply In_sort_by.
    - intros a b Ha Hb. apply H; apply In_sort_by in Ha, Hb; assumption.
  Qed.

  Lemma forallb_map_not (mk : idpat -> principal) (f : rsvc -> bool) l :
    (forall s, In s l -> eval_principal c (mk (spiffe_pat s)) = f s) ->
    forallb (eval_principal c) (map (fun s => PNot (mk (spiffe_pat s))) l) = forallb (fun n => negb (f n)) l.
  Proof.
    intros H. rewrite forallb_map. apply forallb_ext_in. intros s Hs. cbn [eval_principal]. rewrite (H s Hs). reflexivity.
  Qed.

  Lemma eval_flatten_with (mk : idpat -> principal) (f : rsvc -> bool) r :
    (forall s, In s (r_src r :: r_not r) -> eval_principal c (mk (spiffe_pat s)) = f s) ->
    (forall a b, In a (r_not r) -> In b (r_not r) -> ixn_source_matches a b = true -> f a = true -> f b = true) ->
    eval_principal c (flatten_with mk r) = f (r_src r) && forallb (fun n => negb (f n)) (r_not r).
  Proof.
    intros Hmk Hsub. rewrite <- (simplify_not_sem f (r_not r) Hsub).
    unfold flatten_with.
    assert (Hin : forall s, In s (simplify_not (r_not r)) -> eval_principal c (mk (spiffe_pat s)) = f s)
      by (intros s Hs; apply Hmk; right; apply In_simplify_not; exact Hs).
    destruct (simplify_not (r_not r)) as [|n ns].
    - cbn. rewrite andb_true_r. apply Hmk. left; reflexivity.
    - rewrite eval_and_principals, <- (forallb_map_not mk f (n :: ns) Hin), <- (Hmk (r_src r) (or_introl eq_refl)).
      reflexivity.
  Qed.
End Flatten.

(* removeSourcePrecedence *)

Section Walk.
  Variable re : string -> string -> bool.
  Variable q : request.
  Variable dflt_allow : bool.
  Variable m : rsvc -> bool.
  Let dflt := action_of_bool dflt_allow.

  Definition fresh_rixn (r : rixn) : Prop :=
    r_not r = [] /\ r_skip r = false /\ Forall fresh_perm (r_perms r).

  (* the decision of one intermediate intention on the request, and "it is not the default" *)
  Definition verdict (r : rixn) : bool :=
    match r_act r with
    | AAllow => true
    | ADeny => false
    | AL7 => match find (fun p => eval_perm re q (rp_perm p)) (r_perms r) with
             | Some p => rp_allow p
             | None => dflt_allow
             end
    end.
  Definition vnd (r : rixn) : bool := xorb dflt_allow (verdict r).

  Definition contrib (r : rixn) : bool :=
    negb (r_skip r) && (m (r_src r) && forallb (fun n => negb (m n)) (r_not r)) && vnd r.

  Lemma default_action_vnd r : action_eqb (r_act r) dflt = true -> vnd r = false.
  Proof.
    unfold vnd, verdict, dflt. destruct (r_act r), dflt_allow; cbn; try discriminate; reflexivity.
  Qed.

  Lemma l4_nondefault_vnd r :
    action_eqb (r_act r) dflt = false -> action_eqb (r_act r) AL7 = false -> vnd r = true.
  Proof.
    unfold vnd, verdict, dflt. destruct (r_act r), dflt_allow; cbn; try discriminate; reflexivity.
  Qed.

  Lemma r_src_add_not s r : r_src (add_not_source s r) = r_src r.
  Proof. unfold add_not_source. destruct (r_skip r), (ixn_source_matches s (r_src r)); reflexivity. Qed.

  Lemma mark_sources_srcs l : map r_src (mark_sources dflt l) = map r_src l.
  Proof.
    induction l as [|x l IH]; [reflexivity|]. cbn [mark_sources map].
    rewrite map_map, (map_ext _ r_src (r_src_add_not (r_src x))), IH. f_equal.
    destruct (action_eqb (r_act x) dflt); reflexivity.
  Qed.

  (* one step of the walk: the head contributes unless its action is the default, and its source is
     subtracted from the later intentions it contains *)
  Lemma contrib_marked_cons x l :
    fresh_rixn x ->
    existsb contrib (mark_sources dflt (x :: l)) =
    m (r_src x) && vnd x || existsb contrib (map (add_not_source (r_src x)) (mark_sources dflt l)).
  Proof.
    intros (Hn & Hk & _). cbn [mark_sources existsb]. f_equal. unfold contrib.
    destruct (action_eqb (r_act x) dflt) eqn:Ea; cbn [r_skip r_src r_not negb andb].
    - rewrite (default_action_vnd x Ea), andb_false_r. reflexivity.
    - rewrite Hk, Hn. cbn [negb forallb andb]. rewrite andb_true_r. reflexivity.
  Qed.

  Lemma contrib_add_not s r :
    contrib (add_not_source s r) = contrib r && negb (ixn_source_matches s (r_src r) && m s).
  Proof.
    unfold add_not_source. destruct (r_skip r) eqn:K; [unfold contrib; rewrite K; reflexivity|].
    destruct (ixn_source_matches s (r_src r)); [|cbn [andb negb]; rewrite andb_true_r; reflexivity].
    unfold contrib, vnd, verdict. cbn [r_skip r_src r_not r_act r_perms]. rewrite K, forallb_app. cbn [forallb].
    destruct (m s), (m (r_src r)), (forallb (fun n => negb (m n)) (r_not r)); cbn [negb andb];
      rewrite ?andb_true_r, ?andb_false_r; reflexivity.
  Qed.

  Lemma add_not_unmatched s L : m s = false -> existsb contrib (map (add_not_source s) L) = existsb contrib L.
  Proof.
    intros Hs. rewrite existsb_map. apply existsb_ext_in. intros r _.
    rewrite contrib_add_not, Hs, andb_false_r. apply andb_true_r.
  Qed.

  Lemma add_not_blocks s L :
    m s = true -> (forall r, In r L -> m (r_src r) = true -> ixn_source_matches s (r_src r) = true) ->
    existsb contrib (map (add_not_source s) L) = false.
  Proof.
    intros Hs H. rewrite existsb_map. apply not_true_iff_false. intros E.
    apply existsb_exists in E as (r & Hr & C). rewrite contrib_add_not, Hs, andb_true_r in C.
    apply andb_true_iff in C as [C N].
    destruct (m (r_src r)) eqn:Mr; [rewrite (H r Hr Mr) in N; discriminate|].
    unfold contrib in C. rewrite Mr in C. cbn [andb] in C. rewrite andb_false_r in C. discriminate.
  Qed.

  Definition laminar (l : list rixn) : Prop :=
    ForallOrdPairs (fun x y => m (r_src x) = true -> m (r_src y) = true ->
                               ixn_source_matches (r_src x) (r_src y) = true) l.

  Lemma core_main l :
    Forall fresh_rixn l -> laminar l ->
    existsb contrib (mark_sources dflt l) =
    match find (fun r => m (r_src r)) l with Some r => vnd r | None => false end.
  Proof.
    induction l as [|x l IH]; intros Hf Hlam; [reflexivity|].
    inversion Hf as [|? ? Hx Hf']; subst. inversion Hlam as [|? ? Hxl Hlam']; subst.
    rewrite (contrib_marked_cons x l Hx). cbn [find]. destruct (m (r_src x)) eqn:Mx; cbn [andb orb].
    - (* x is the first intention matching the connection; it contains every later matching one *)
      rewrite add_not_blocks; [apply orb_false_r|exact Mx|].
      intros r Hr Mr. apply (in_map r_src) in Hr. rewrite mark_sources_srcs in Hr.
      apply in_map_iff in Hr as (y & E & Hy). rewrite Forall_forall in Hxl. rewrite <- E in Mr |- *.
      exact (Hxl y Hy eq_refl Mr).
    - rewrite (add_not_unmatched _ _ Mx). apply IH; assumption.
  Qed.

  (* without laminarity one direction survives: a non-default precedence decision is kept *)
  Lemma core_lower l :
    Forall fresh_rixn l ->
    match find (fun r => m (r_src r)) l with Some r => vnd r | None => false end = true ->
    existsb contrib (mark_sources dflt l) = true.
  Proof.
    induction l as [|x l IH]; intros Hf; [discriminate|].
    inversion Hf as [|? ? Hx Hf']; subst.
    rewrite (contrib_marked_cons x l Hx). cbn [find]. destruct (m (r_src x)) eqn:Mx; cbn [andb orb].
    - intros ->. reflexivity.
    - intros Hv. rewrite (add_not_unmatched _ _ Mx). apply IH; assumption.
  Qed.

  Definition good (S : list rsvc) (r : rixn) : Prop :=
    In (r_src r) S
    /\ (forall n, In n (r_not r) -> In n S /\ s_peer n = s_peer (r_src r))
    /\ Forall fresh_perm (r_perms r)
    /\ (r_skip r = false -> action_eqb (r_act r) dflt = false).

  Lemma good_add_not S s r : In s S -> good S r -> good S (add_not_source s r).
  Proof.
    intros Hs G. unfold add_not_source. destruct (r_skip r) eqn:K; [exact G|].
    destruct (ixn_source_matches s (r_src r)) eqn:M; [|exact G].
    destruct G as (G1 & G2 & G3 & G4). split; [exact G1|split; [|split; [exact G3|intros _; exact (G4 K)]]].
    cbn [r_src r_not]. intros n Hn. apply in_app_or in Hn as [Hn|[<-|[]]]; [exact (G2 n Hn)|].
    split; [exact Hs|apply ism_same_peer; exact M].
  Qed.

  Lemma marked_good S l :
    Forall fresh_rixn l -> (forall r, In r l -> In (r_src r) S) ->
    forall r, In r (mark_sources dflt l) -> good S r.
  Proof.
    induction l as [|x l IH]; intros Hf Hsrc r Hr; [destruct Hr|].
    inversion Hf as [|? ? (Hn & Hk & Hp) Hf']; subst.
    pose proof (Hsrc x (or_introl eq_refl)) as Hx.
    cbn [mark_sources] in Hr. destruct Hr as [<-|Hr].
    - unfold good. destruct (action_eqb (r_act x) dflt) eqn:Ea; cbn [r_src r_not r_perms r_skip r_act];
        rewrite ?Hn; (split; [exact Hx|split; [intros n []|split; [exact Hp|]]]); [discriminate|intros _; exact Ea].
    - apply in_map_iff in Hr as (r0 & <- & Hr0). apply good_add_not; [exact Hx|].
      apply (IH Hf'); [intros y Hy; apply Hsrc; right; exact Hy|exact Hr0].
  Qed.
End Walk.

Lemma to_rixn_fresh cfg http i tb : fresh_rixn (to_rixn cfg http i tb).
Proof.
  unfold to_rixn, fresh_rixn. destruct (i_perms i) as [|p ps]; cbn; [auto|].
  destruct http; cbn; [|auto]. repeat split.
  constructor; [split; reflexivity|].
  apply Forall_forall. intros x Hx. apply in_map_iff in Hx as (y & <- & _). split; reflexivity.
Qed.

Lemma to_rixns_fresh cfg http D : Forall fresh_rixn (to_rixns cfg http D).
Proof.
  induction D as [|i D IH]; [constructor|]. rewrite to_rixns_cons.
  destruct (resolve cfg i); [constructor; [apply to_rixn_fresh|exact IH]|exact IH].
Qed.
