(* Permissions: convertPermission produces an Envoy permission that matches exactly the requests
   the intention permission matches, and removePermissionPrecedence turns "first matching
   permission decides" into an unordered list. *)
From Verif Require Import Base.Prelude.
From Verif Require Import RBAC.Model.
From Verif Require Import RBAC.Lists.
Local Open Scope string_scope.
Local Open Scope bool_scope.
Local Open Scope list_scope.

(* structs.isValidHTTPMethod (config_entry_discoverychain.go), which ServiceIntentionsConfigEntry.Validate
   applies to every permission's Methods *)
Definition valid_method (m : string) : Prop :=
  In m ["GET"; "HEAD"; "POST"; "PUT"; "PATCH"; "DELETE"; "CONNECT"; "OPTIONS"; "TRACE"].

(* what is assumed of the regex engine: an alternation of method names matches its members *)
Definition re_alternation (re : string -> string -> bool) : Prop :=
  forall ms m, ms <> [] -> Forall valid_method ms ->
               re (join "|" ms) m = existsb (fun x => x =? m) ms.

(* Envoy ignores a value matcher on an ABSENT header even when it is inverted, consul's Invert
   means "the header does not have that value": the two agree on a request that carries every
   header an inverted value matcher asks about. *)
Definition is_value_matcher (h : hdr_perm) : bool :=
  negb (h_exact h =? "") || negb (h_regex h =? "") || negb (h_prefix h =? "")
  || negb (h_suffix h =? "") || negb (h_contains h =? "").
Definition hdr_inv_okb (h : hdr_perm) (q : request) : bool :=
  negb (h_invert h && is_value_matcher h)
  || match header_lookup (h_name h) q with Some _ => true | None => false end.
Definition inv_ok (p : ixn_perm) (q : request) : Prop :=
  match ip_http p with Some h => Forall (fun hd => hdr_inv_okb hd q = true) (hp_header h) | None => True end.

Definition methods_ok (p : ixn_perm) : Prop :=
  match ip_http p with Some h => Forall valid_method (hp_methods h) | None => True end.

Section Perms.
  Variable re : string -> string -> bool.
  Hypothesis re_methods : re_alternation re.

  Lemma eval_and_permissions q l :
    eval_perm re q (and_permissions l) = forallb (eval_perm re q) l.
  Proof.
    destruct l as [|x [|y l]]; cbn; try reflexivity. rewrite andb_true_r. reflexivity.
  Qed.

  (* Both sides are the same cascade over the five value fields and [h_present]; in each branch they
     differ only for an inverted value matcher on an absent header, which [hdr_inv_okb] excludes. *)
  Lemma convert_header_sem q h :
    hdr_inv_okb h q = true ->
    match convert_header h with Some p => eval_perm re q p | None => true end = hdr_matches re h q.
  Proof.
    unfold convert_header, hdr_matches, hdr_inv_okb, is_value_matcher. intros H.
    destruct (h_exact h =? ""); [destruct (h_regex h =? ""); [destruct (h_prefix h =? "");
      [destruct (h_suffix h =? ""); [destruct (h_contains h =? ""); [destruct (h_present h)|]|]|]|]|];
      cbn [negb orb eval_perm] in *; unfold eval_header;
      destruct (header_lookup (h_name h) q), (h_invert h); try discriminate H;
      cbn [eval_sm]; try destruct (h_ignore_case h); reflexivity.
  Qed.

  Lemma convert_headers_sem q hs :
    Forall (fun h => hdr_inv_okb h q = true) hs ->
    forallb (eval_perm re q) (filter_map convert_header hs) = forallb (fun h => hdr_matches re h q) hs.
  Proof.
    induction 1 as [|h hs Hh _ IH]; cbn [filter_map forallb]; [reflexivity|].
    rewrite <- (convert_header_sem q h Hh). destruct (convert_header h); cbn [forallb]; rewrite IH; reflexivity.
  Qed.

  Lemma convert_permission_sem q p :
    methods_ok p -> inv_ok p q -> eval_perm re q (convert_permission p) = ixn_perm_matches re p q.
  Proof.
    unfold methods_ok, inv_ok, convert_permission, ixn_perm_matches.
    destruct (ip_http p) as [h|]; [|reflexivity].
    intros Hm Hi. rewrite eval_and_permissions, !forallb_app, (convert_headers_sem q _ Hi).
    unfold http_perm_matches. rewrite andb_assoc. f_equal; [f_equal|].
    - destruct (hp_path_exact h =? ""); cbn [negb]; [|cbn; rewrite andb_true_r; reflexivity].
      destruct (hp_path_prefix h =? ""); cbn [negb]; [|cbn; rewrite andb_true_r; reflexivity].
      destruct (hp_path_regex h =? ""); cbn [negb]; [|cbn; rewrite andb_true_r; reflexivity].
      reflexivity.
    - destruct (hp_methods h) as [|m ms] eqn:E; [reflexivity|].
      cbn [forallb eval_perm]. rewrite andb_true_r. unfold eval_header.
      destruct (header_lookup ":method" q) as [v|]; [|reflexivity].
      rewrite xorb_false_l. cbn [eval_sm]. apply re_methods; [discriminate|exact Hm].
  Qed.

  (* removePermissionPrecedence *)

  Variable dflt_allow : bool.
  Let dflt := action_of_bool dflt_allow.

  Definition fresh_perm (p : rperm) : Prop := rp_not p = [] /\ rp_skip p = false.

  Lemma action_eqb_bool a b : action_eqb (action_of_bool a) (action_of_bool b) = Bool.eqb a b.
  Proof. destruct a, b; reflexivity. Qed.

  Lemma eval_flatten_perm q p :
    eval_perm re q (flatten_perm p) =
    eval_perm re q (rp_perm p) && forallb (fun n => negb (eval_perm re q n)) (rp_not p).
  Proof.
    unfold flatten_perm. destruct (rp_not p) as [|n ns] eqn:E.
    - cbn. rewrite andb_true_r. reflexivity.
    - rewrite eval_and_permissions. cbn [forallb]. rewrite forallb_map. reflexivity.
  Qed.

  Definition live (q : request) (l : list rperm) : bool :=
    existsb (eval_perm re q) (map flatten_perm (filter (fun p => negb (rp_skip p)) l)).

  Lemma live_cons q p l :
    live q (p :: l) = negb (rp_skip p) && eval_perm re q (flatten_perm p) || live q l.
  Proof. unfold live. cbn [filter]. destruct (rp_skip p); reflexivity. Qed.

  (* the walk subtracts a permission from every later one still considered *)
  Lemma live_add_not q s l :
    live q (map (add_not_perm s) l) = negb (eval_perm re q s) && live q l.
  Proof.
    induction l as [|p l IH]; [symmetry; apply andb_false_r|].
    cbn [map]. rewrite !live_cons, IH. unfold add_not_perm.
    destruct (rp_skip p) eqn:K; cbn [rp_skip]; rewrite ?K; cbn [negb andb orb]; [reflexivity|].
    rewrite !eval_flatten_perm. cbn [rp_perm rp_not]. rewrite forallb_app. cbn [forallb].
    destruct (eval_perm re q s); cbn [negb andb]; rewrite ?andb_false_r, ?andb_true_r; reflexivity.
  Qed.

  Lemma live_spec q l :
    Forall fresh_perm l ->
    live q (mark_perms dflt l) =
    match find (fun p => eval_perm re q (rp_perm p)) l with
    | Some p => xorb dflt_allow (rp_allow p)
    | None => false
    end.
  Proof.
    induction 1 as [|x l [Hn Hs] _ IH]; [reflexivity|].
    cbn [mark_perms find]. rewrite live_cons, live_add_not, IH. unfold dflt. rewrite action_eqb_bool.
    destruct (Bool.eqb (rp_allow x) dflt_allow) eqn:Eq.
    - apply eqb_prop in Eq. cbn [rp_skip negb andb orb].
      destruct (eval_perm re q (rp_perm x)); cbn [negb andb]; [rewrite Eq, xorb_nilpotent|]; reflexivity.
    - rewrite Hs, eval_flatten_perm, Hn. cbn [negb forallb andb]. rewrite andb_true_r.
      destruct (eval_perm re q (rp_perm x)); [|reflexivity].
      destruct dflt_allow, (rp_allow x); try discriminate; reflexivity.
  Qed.

  Theorem perm_precedence q ps :
    Forall fresh_perm ps ->
    existsb (eval_perm re q) (map flatten_perm (remove_permission_precedence dflt ps)) =
    match find (fun p => eval_perm re q (rp_perm p)) ps with
    | Some p => xorb dflt_allow (rp_allow p)
    | None => false
    end.
  Proof. intros Hf. destruct ps as [|x ps]; [reflexivity|]. exact (live_spec q (x :: ps) Hf). Qed.
End Perms.
