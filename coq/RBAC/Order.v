(* Order facts for C14: IntentionPrecedenceSorter's comparison is a strict weak order, the
   stable insertion sort sorts, and "first match in the sorted list" is "the smallest
   matching element, first one on ties" ([best]). *)
From Coq Require Import OrderedTypeEx Sorted.
From Verif Require Import Base.Prelude.
From Verif Require Import Base.Sorting.
From Verif Require Import RBAC.Model.
Local Open Scope bool_scope.

Lemma good_lex2 {A} (c1 c2 : A -> A -> comparison) :
  good_cmp c1 -> good_cmp c2 -> good_cmp (fun a b => lex (c1 a b) (c2 a b)).
Proof.
  intros G1 G2. refine (good_cmp_ext _ _ _ (good_lex c1 c2 G1 G2)).
  intros a b. unfold lex. destruct (c1 a b); reflexivity.
Qed.

Lemma good_string {A} (f : A -> string) : good_cmp (fun a b => String.compare (f a) (f b)).
Proof.
  split.
  - intros a b. apply String.compare_antisym.
  - intros a b d H1 H2.
    apply String_as_OT.cmp_lt in H1. apply String_as_OT.cmp_lt in H2.
    apply String_as_OT.cmp_lt. eapply String_as_OT.lt_trans; eassumption.
  - intros a b d H. apply String.compare_eq_iff in H. rewrite H. reflexivity.
Qed.

Lemma ixn_cmp_good : good_cmp ixn_cmp.
Proof.
  unfold ixn_cmp.
  repeat (apply good_lex2; [first [apply good_N_desc with (f := i_prec) | apply good_string] |]).
  apply good_string.
Qed.

Record swo {A : Type} (lt : A -> A -> bool) : Prop := {
  swo_asym : forall a b, lt a b = true -> lt b a = false;
  swo_trans : forall a b d, lt a b = true -> lt b d = true -> lt a d = true;
  swo_ntrans : forall a b d, lt a b = false -> lt b d = false -> lt a d = false }.

Lemma swo_of_cmp {A} (c : A -> A -> comparison) :
  good_cmp c -> swo (fun a b => match c a b with Lt => true | _ => false end).
Proof.
  intros G. split.
  - intros a b H. rewrite (gc_antisym c G b a). destruct (c a b); try discriminate. reflexivity.
  - intros a b d H1 H2.
    destruct (c a b) eqn:E1; try discriminate. destruct (c b d) eqn:E2; try discriminate.
    rewrite (gc_trans c G a b d E1 E2). reflexivity.
  - intros a b d H1 H2. destruct (c a d) eqn:E; try reflexivity. exfalso.
    destruct (c a b) eqn:E1; try discriminate.
    + rewrite (gc_eq_l c G a b d E1) in E. rewrite E in H2. discriminate.
    + assert (Hba : c b a = Lt) by (rewrite (gc_antisym c G b a), E1; reflexivity).
      rewrite (gc_trans c G b a d Hba E) in H2. discriminate.
Qed.

Lemma ixn_less_swo : swo ixn_less.
Proof. exact (swo_of_cmp ixn_cmp ixn_cmp_good). Qed.

Section Sort.
  Context {A : Type} (lt : A -> A -> bool) (W : swo lt).

  Definition sorted (l : list A) : Prop := StronglySorted (fun a b => lt b a = false) l.

  Lemma sort_by_isort : insertion_sort (fun x y => negb (lt y x)) (insert_by lt) (sort_by lt).
  Proof. split; try reflexivity. intros x y l. cbn [insert_by]. destruct (lt y x); reflexivity. Qed.

  Lemma In_sort_by l z : In z (sort_by lt l) <-> In z l.
  Proof. apply (In_isort sort_by_isort). Qed.

  Lemma sort_sorted l : sorted (sort_by lt l).
  Proof.
    apply (isort_sorted sort_by_isort).
    - intros x y z Hxy Hyz. exact (swo_ntrans lt W z y x Hyz Hxy).
    - intros x y. apply negb_true_iff.
    - intros x y E. apply (swo_asym lt W), negb_false_iff, E.
  Qed.

  (* the smallest P-element, computed from the right: x wins unless a later one is strictly smaller *)
  Fixpoint rmin (P : A -> bool) (l : list A) : option A :=
    match l with
    | [] => None
    | x :: r =>
        if P x then match rmin P r with
                    | None => Some x
                    | Some b => if lt b x then Some b else Some x
                    end
        else rmin P r
    end.

  Lemma find_insert P x l : sorted l ->
    find P (insert_by lt x l) =
    if P x then match find P l with
                | None => Some x
                | Some b => if lt b x then Some b else Some x
                end
    else find P l.
  Proof.
    induction 1 as [|y l Hs IH Hy]; cbn.
    - destruct (P x); reflexivity.
    - destruct (lt y x) eqn:E; cbn.
      + destruct (P y) eqn:Py.
        * destruct (P x); [rewrite E|]; reflexivity.
        * exact IH.
      + destruct (P x) eqn:Px; [|reflexivity].
        destruct (P y) eqn:Py; [rewrite E; reflexivity|].
        destruct (find P l) as [b|] eqn:F; [|reflexivity].
        apply find_some in F as [Hb _]. rewrite Forall_forall in Hy.
        rewrite (swo_ntrans lt W b y x (Hy b Hb) E). reflexivity.
  Qed.

  Lemma find_sort P l : find P (sort_by lt l) = rmin P l.
  Proof.
    induction l as [|x l IH]; [reflexivity|].
    change (sort_by lt (x :: l)) with (insert_by lt x (sort_by lt l)).
    rewrite find_insert by apply sort_sorted. rewrite IH. reflexivity.
  Qed.

  (* the left-to-right formulation: keep the best so far, replace it only by a strictly smaller one *)
  Fixpoint best_by (P : A -> bool) (l : list A) (acc : option A) : option A :=
    match l with
    | [] => acc
    | i :: r =>
        if P i
        then best_by P r (match acc with
                          | None => Some i
                          | Some b => if lt i b then Some i else Some b
                          end)
        else best_by P r acc
    end.

  Lemma best_by_some P l a :
    best_by P l (Some a) =
    match rmin P l with
    | None => Some a
    | Some b => if lt b a then Some b else Some a
    end.
  Proof.
    revert a; induction l as [|x l IH]; intros a; cbn; [reflexivity|].
    destruct (P x) eqn:Px; [|apply IH].
    destruct (lt x a) eqn:Exa; rewrite IH; destruct (rmin P l) as [b|] eqn:R.
    - destruct (lt b x) eqn:Ebx.
      + rewrite (swo_trans lt W b x a Ebx Exa). reflexivity.
      + rewrite Exa. reflexivity.
    - rewrite Exa. reflexivity.
    - destruct (lt b x) eqn:Ebx.
      + reflexivity.
      + rewrite Exa. rewrite (swo_ntrans lt W b x a Ebx Exa). reflexivity.
    - rewrite Exa. reflexivity.
  Qed.

  Lemma best_by_none P l : best_by P l None = rmin P l.
  Proof.
    induction l as [|x l IH]; cbn; [reflexivity|].
    destruct (P x); [|exact IH]. rewrite best_by_some. reflexivity.
  Qed.

  Theorem find_sort_best P l : find P (sort_by lt l) = best_by P l None.
  Proof. rewrite find_sort, best_by_none. reflexivity. Qed.
End Sort.

Lemma best_is_best_by P l acc : best P l acc = best_by ixn_less P l acc.
Proof. revert acc; induction l as [|x l IH]; intros acc; cbn; [reflexivity|]. destruct (P x); apply IH. Qed.

Theorem find_sorted_is_best P l : find P (sort_ixns l) = best P l None.
Proof. rewrite best_is_best_by. apply find_sort_best. exact ixn_less_swo. Qed.

Lemma sort_ixns_sorted l : sorted ixn_less (sort_ixns l).
Proof. apply sort_sorted. exact ixn_less_swo. Qed.

Lemma In_sort_ixns l i : In i (sort_ixns l) <-> In i l.
Proof. apply In_sort_by. Qed.
