(* C14: the RBAC rule set produced by [translate_gen] against the precedence decision.

   Both sides are brought to "the first intermediate intention whose source matches the connection
   decides".  RBAC side: the policies built from the marked list are evaluated ([translate_sem],
   [rip_sem]) and the marking walk is followed along its recursion ([contrib_marked_cons], [core_main]); the
   walk is exact when the matching sources are nested ([laminar]), which holds after
   removeShadowedSourceIntentions and, before 214d73a, held only for a precedence order that is
   monotone in the source ([source_monotone]).  Reference side: [reference_as_find]. *)
From Verif Require Import Base.Prelude.
From Verif Require Import Base.Lists.
From Verif Require Import RBAC.Model.
From Verif Require Import RBAC.Lists.
From Verif Require Import RBAC.Order.
From Verif Require Import RBAC.Patterns.
From Verif Require Import RBAC.Perms.
From Verif Require Import RBAC.Sources.
Local Open Scope string_scope.
Local Open Scope bool_scope.
Local Open Scope list_scope.

Definition consistent (a b : rsvc) : Prop :=
  s_peer a = s_peer b -> s_td a = s_td b /\ s_exp_ap a = s_exp_ap b.

Lemma covers_subset a b u :
  consistent a b -> ixn_source_matches a b = true -> covers_uri a u = true -> covers_uri b u = true.
Proof.
  intros Hc Hm. rewrite !covers_uri_iff. intros (id & P & C). exists id. split; [exact P|].
  apply ism_iff in Hm as (_ & Eap & Epeer & Ens & Ename). destruct (Hc Epeer) as [Etd Eexp].
  assert (Eeff : eff_ap a = eff_ap b) by (unfold eff_ap; rewrite Eap, Epeer, Eexp; reflexivity).
  rewrite src_covers_iff in *. destruct C as (Htd & Hap & Hns & Hname).
  repeat split; [congruence|congruence| |].
  - destruct Ens as [E|E]; [rewrite <- E; exact Hns|left; exact E].
  - destruct Ename as [E|E]; [rewrite <- E; exact Hname|left; exact E].
Qed.

Section Conn.
  Variable cfg : config.
  Variable c : conn.

  Definition host_ok (t : string) : Prop :=
    raw_match t (u_host (cn_tls c)) = (t =? u_host (cn_tls c)) /\
    (forall u, cn_xfcc c = Some u -> raw_match t (u_host u) = (t =? u_host u)).

  Let ctls (s : rsvc) : bool := covers_uri s (cn_tls c).
  Let cx (s : rsvc) : bool := match cn_xfcc c with Some u => covers_uri s u | None => false end.

  Record srcs_ok (S : list rsvc) : Prop := {
    so_wf : forall s, In s S -> wf_src s;
    so_lit : forall s, In s S -> lit_src s;
    so_host : forall s, In s S -> host_ok (s_td s);
    so_cons : forall a b, In a S -> In b S -> consistent a b;
    so_sep : forall a b, In a S -> In b S -> s_peer a <> s_peer b -> s_td a <> s_td b }.

  Lemma src_matches_peer xf p :
    exists g o, forall s, s_peer s = p ->
      src_matches cfg xf s c = g && match o with Some u => covers_uri s u | None => false end.
  Proof.
    unfold src_matches. destruct (xf && negb (p =? "")) eqn:E.
    - exists (is_gateway (c_td cfg) (cn_tls c)), (cn_xfcc c). intros s <-. rewrite E. reflexivity.
    - exists true, (Some (cn_tls c)). intros s <-. rewrite E. reflexivity.
  Qed.

  Lemma src_matches_subset xf a b :
    consistent a b -> ixn_source_matches a b = true ->
    src_matches cfg xf a c = true -> src_matches cfg xf b c = true.
  Proof.
    intros Hc Hm. destruct (src_matches_peer xf (s_peer a)) as (g & o & H).
    rewrite (H a eq_refl), (H b (eq_sym (ism_same_peer a b Hm))).
    destruct g, o as [u|]; try discriminate. apply covers_subset; assumption.
  Qed.

  Lemma eval_auth S s : srcs_ok S -> In s S -> eval_principal c (PAuth (spiffe_pat s)) = ctls s.
  Proof.
    intros OK H. destruct (so_host S OK s H) as [Hh _]. cbn.
    apply spiffe_pat_covers; [apply (so_wf S OK)|apply (so_lit S OK)|]; assumption.
  Qed.

  Lemma eval_xfcc S s : srcs_ok S -> In s S -> eval_principal c (PXfcc (spiffe_pat s)) = cx s.
  Proof.
    intros OK H. destruct (so_host S OK s H) as [_ Hh]. cbn. unfold cx.
    destruct (cn_xfcc c) as [u|]; [|reflexivity].
    apply spiffe_pat_covers; [apply (so_wf S OK)|apply (so_lit S OK)|apply Hh]; auto.
  Qed.

  Lemma eval_flatten_principal xf S r :
    srcs_ok S -> host_ok (c_td cfg) ->
    (forall s, In s (r_src r :: r_not r) -> In s S) ->
    (forall n, In n (r_not r) -> s_peer n = s_peer (r_src r)) ->
    eval_principal c (flatten_principal cfg xf r)
    = src_matches cfg xf (r_src r) c && forallb (fun n => negb (src_matches cfg xf n c)) (r_not r).
  Proof.
    intros OK Hgw Hin Hpeer.
    assert (Hsubc : forall u a b, In a (r_not r) -> In b (r_not r) -> ixn_source_matches a b = true ->
                                  covers_uri a u = true -> covers_uri b u = true).
    { intros u a b Ha Hb. apply covers_subset. apply (so_cons S OK); apply Hin; right; assumption. }
    assert (Hcert : eval_principal c (flatten_with PAuth r)
                    = ctls (r_src r) && forallb (fun n => negb (ctls n)) (r_not r)).
    { apply eval_flatten_with.
      - intros s Hs. apply (eval_auth S); auto.
      - intros a b Ha Hb. apply Hsubc; assumption. }
    unfold flatten_principal, src_matches.
    destruct xf; cbn [negb andb].
    2:{ exact Hcert. }
    destruct (s_peer (r_src r) =? "") eqn:Ep; cbn [negb].
    - rewrite Hcert. f_equal. apply forallb_ext_in.
      intros n Hn. rewrite (Hpeer n Hn), Ep. reflexivity.
    - rewrite eval_and_principals. cbn [forallb]. rewrite andb_true_r.
      change (eval_principal c (PAuth (gateway_pat (c_td cfg)))) with (pat_match (gateway_pat (c_td cfg)) (cn_tls c)).
      rewrite (gateway_pat_is_gateway _ _ (proj1 Hgw)).
      rewrite (eval_flatten_with c PXfcc cx).
      + destruct (is_gateway (c_td cfg) (cn_tls c)); cbn [andb]; [|reflexivity].
        unfold cx. f_equal. apply forallb_ext_in.
        intros n Hn. rewrite (Hpeer n Hn), Ep. reflexivity.
      + intros s Hs. apply (eval_xfcc S); auto.
      + intros a b Ha Hb. unfold cx. destruct (cn_xfcc c) as [u|]; [|discriminate]. apply Hsubc; assumption.
  Qed.

  (* a matching source covers a service URI the connection presents; when that is the forwarded
     one, the certificate is a gateway's, not a service's *)
  Lemma src_matches_td xf s :
    src_matches cfg xf s c = true ->
    exists u id, parse_service u = Some id /\ s_td s = id_td id
                 /\ (u = cn_tls c \/ cn_xfcc c = Some u /\ parse_service (cn_tls c) = None).
  Proof.
    unfold src_matches. destruct (xf && negb (s_peer s =? "")); intros H.
    - apply andb_true_iff in H as [G H]. destruct (cn_xfcc c) as [u|]; [|discriminate].
      apply covers_td in H as (id & P & T). apply gateway_not_service in G. exists u, id. auto.
    - apply covers_td in H as (id & P & T). exists (cn_tls c), id. auto.
  Qed.

  Lemma trichotomy xf S a b :
    srcs_ok S -> In a S -> In b S ->
    src_matches cfg xf a c = true -> src_matches cfg xf b c = true ->
    skey a = skey b \/ ixn_source_matches a b = true \/ ixn_source_matches b a = true.
  Proof.
    intros OK Ha Hb.
    destruct (String.eqb_spec (s_peer a) (s_peer b)) as [Hp|Hp].
    - destruct (src_matches_peer xf (s_peer a)) as (g & o & H).
      rewrite (H a eq_refl), (H b (eq_sym Hp)). destruct g, o as [u|]; try discriminate.
      apply covers_both; [apply (so_wf S OK); exact Ha|apply (so_wf S OK); exact Hb|exact Hp].
    - (* different peers have different trust domains, so they do not cover the same URI *)
      pose proof (so_sep S OK a b Ha Hb Hp) as Htd. intros H1 H2. exfalso.
      destruct (src_matches_td xf a H1) as (u1 & i1 & P1 & T1 & [->|[X1 N1]]),
               (src_matches_td xf b H2) as (u2 & i2 & P2 & T2 & [->|[X2 N2]]); congruence.
  Qed.
End Conn.

Section Core.
  Variable re : string -> string -> bool.
  Hypothesis re_methods : re_alternation re.
  Variable cfg : config.
  Variable xf : bool.
  Variable c : conn.
  Variable q : request.
  Variable dflt_allow : bool.
  Let dflt := action_of_bool dflt_allow.
  Let m (s : rsvc) : bool := src_matches cfg xf s c.

  Definition rmatch (r : rixn) : bool :=
    eval_principal c (flatten_principal cfg xf r)
    && (if action_eqb (r_act r) AL7
        then existsb (eval_perm re q) (map flatten_perm (r_perms r)) else true).

  Lemma build_sem l i :
    existsb (fun kp => policy_matches re c q (snd kp)) (fst (build_policies cfg xf i l))
    || existsb (eval_principal c) (snd (build_policies cfg xf i l))
    = existsb rmatch l.
  Proof.
    revert i; induction l as [|r l IH]; intros i; [reflexivity|].
    cbn [build_policies]. specialize (IH (N.succ i)).
    destruct (build_policies cfg xf (N.succ i) l) as [l7 l4]. cbn [fst snd] in IH.
    cbn [existsb]. rewrite <- IH. unfold rmatch.
    destruct (action_eqb (r_act r) AL7); cbn [fst snd existsb].
    - unfold policy_matches at 1. cbn [pol_principals pol_permissions].
      rewrite optimize_sem. cbn [existsb]. rewrite orb_false_r, orb_assoc. reflexivity.
    - rewrite andb_true_r.
      destruct (eval_principal c (flatten_principal cfg xf r)); cbn [orb]; [apply orb_true_r|reflexivity].
  Qed.

  Variable S : list rsvc.
  Hypothesis S_ok : srcs_ok c S.
  Hypothesis gw_ok : host_ok c (c_td cfg).

  Definition perm_fix (r : rixn) : rixn :=
    RIxn (r_src r) (r_not r) (r_act r) (remove_permission_precedence dflt (r_perms r)) (r_skip r).

  Lemma good_contrib r :
    good dflt_allow S r -> negb (r_skip r) && rmatch (perm_fix r) = contrib re q dflt_allow m r.
  Proof.
    intros (Hs & Hn & Hp & Hact). unfold contrib.
    destruct (r_skip r) eqn:Ek; [reflexivity|]. cbn [negb andb]. specialize (Hact eq_refl).
    unfold rmatch.
    change (flatten_principal cfg xf (perm_fix r)) with (flatten_principal cfg xf r).
    rewrite (eval_flatten_principal cfg c xf S r S_ok gw_ok).
    2:{ intros s [<-|Hs']; [exact Hs|apply Hn; exact Hs']. }
    2:{ intros n Hn'. apply Hn; exact Hn'. }
    fold (m (r_src r)). f_equal. cbn [perm_fix r_act r_perms].
    destruct (action_eqb (r_act r) AL7) eqn:E7.
    - unfold dflt. rewrite (perm_precedence re dflt_allow q _ Hp). unfold vnd, verdict.
      destruct (r_act r); try discriminate.
      destruct (find (fun p => eval_perm re q (rp_perm p)) (r_perms r)); [reflexivity|].
      rewrite xorb_nilpotent. reflexivity.
    - symmetry. apply l4_nondefault_vnd; assumption.
  Qed.

  Lemma rip_sem l :
    Forall fresh_rixn l -> (forall r, In r l -> In (r_src r) S) ->
    existsb rmatch (remove_intention_precedence dflt l) = existsb (contrib re q dflt_allow m) (mark_sources dflt l).
  Proof.
    intros Hf Hsrc. unfold remove_intention_precedence.
    rewrite existsb_filter_implied.
    2:{ intros r. unfold rmatch. cbn. destruct (action_eqb (r_act r) AL7); [|reflexivity].
        destruct (r_perms r); [cbn; rewrite andb_false_r; discriminate|reflexivity]. }
    fold perm_fix. change (fun r => perm_fix r) with perm_fix. rewrite existsb_map.
    destruct l as [|x l]; [reflexivity|].
    unfold remove_source_precedence. rewrite existsb_filter.
    apply existsb_ext_in. intros r Hr. apply good_contrib.
    exact (marked_good dflt_allow S (x :: l) Hf Hsrc r Hr).
  Qed.
End Core.

Definition sources (cfg : config) (ixns : list intention) : list rsvc := filter_map (resolve cfg) ixns.

Lemma In_sources cfg ixns s : In s (sources cfg ixns) <-> exists i, In i ixns /\ resolve cfg i = Some s.
Proof. apply In_filter_map. Qed.

Lemma resolve_consistent cfg i j a b :
  resolve cfg i = Some a -> resolve cfg j = Some b -> consistent a b.
Proof.
  intros Ra Rb. apply resolve_some in Ra as ->, Rb as ->. unfold consistent, src_of. cbn [s_peer s_td s_exp_ap].
  intros ->. split; reflexivity.
Qed.

Lemma verdict_to_rixn re cfg http q d i tb :
  re_alternation re -> Forall methods_ok (i_perms i) -> Forall (fun p => inv_ok p q) (i_perms i) ->
  verdict re q d (to_rixn cfg http i tb) = decide re d http i q.
Proof.
  intros Hre Hm Hi. unfold to_rixn, decide, verdict.
  destruct (i_perms i) as [|p ps] eqn:E; cbn [r_act].
  - destruct (i_allow i); reflexivity.
  - destruct http; cbn [r_act r_perms]; [|reflexivity].
    rewrite find_map. cbn [rp_perm].
    rewrite (find_ext_in _ (fun x => ixn_perm_matches re x q)).
    + destruct (find _ (p :: ps)); reflexivity.
    + intros x Hx. rewrite Forall_forall in Hm, Hi.
      apply convert_permission_sem; [exact Hre|apply Hm; exact Hx|apply Hi; exact Hx].
Qed.

(* the request carries every header an inverted value matcher of some permission asks about *)
Definition inverted_headers_present (ixns : list intention) (q : request) : Prop :=
  forall i, In i ixns -> Forall (fun p => inv_ok p q) (i_perms i).

Lemma to_rixns_find re cfg http xf c q d D :
  re_alternation re -> (forall i, In i D -> Forall methods_ok (i_perms i)) ->
  inverted_headers_present D q ->
  match find (fun r => src_matches cfg xf (r_src r) c) (to_rixns cfg http D) with
  | Some r => verdict re q d r
  | None => d
  end
  = match find (ixn_matches cfg xf c) D with
    | Some i => decide re d http i q
    | None => d
    end.
Proof.
  intros Hre. induction D as [|i D IH]; intros Hm Hv; [reflexivity|].
  assert (IH' := IH (fun j Hj => Hm j (or_intror Hj)) (fun j Hj => Hv j (or_intror Hj))).
  rewrite to_rixns_cons. cbn [find]. unfold ixn_matches at 1.
  destruct (resolve cfg i) as [s|] eqn:R; [|exact IH'].
  cbn [find]. rewrite r_src_to_rixn, <- (resolve_some cfg i s R).
  destruct (src_matches cfg xf s c); [|exact IH'].
  apply verdict_to_rixn; [exact Hre|apply Hm; left; reflexivity|apply Hv; left; reflexivity].
Qed.

Lemma translate_sem rep re cfg ixns d http c q :
  eval_rbac re (translate_gen rep cfg ixns d http) c q
  = xorb d (existsb (rmatch re cfg (expect_xfcc cfg ixns http) c q)
                    (remove_intention_precedence (action_of_bool d) (to_intermediate_gen rep cfg http ixns))).
Proof.
  unfold translate_gen.
  set (xf := expect_xfcc cfg ixns http).
  set (R3 := remove_intention_precedence (action_of_bool d) (to_intermediate_gen rep cfg http ixns)).
  pose proof (build_sem re cfg xf c q R3 0) as B.
  destruct (build_policies cfg xf 0 R3) as [l7 l4]. cbn [fst snd] in B.
  unfold eval_rbac. cbn [rb_allow rb_policies]. rewrite existsb_app, <- B.
  assert (E : existsb (fun kp : polkey * policy => policy_matches re c q (snd kp))
                match l4 with
                | [] => []
                | _ :: _ => [(KL4, Policy (optimize_principals l4) [PermAny])]
                end = existsb (eval_principal c) l4).
  { destruct l4 as [|p l4]; [reflexivity|].
    cbn [existsb snd]. unfold policy_matches. cbn [pol_principals pol_permissions].
    rewrite optimize_sem. cbn [existsb eval_perm]. rewrite orb_false_r, andb_true_r. reflexivity. }
  rewrite E. destruct d; cbn [negb]; [reflexivity|].
  rewrite xorb_false_l. reflexivity.
Qed.

Definition well_formed (cfg : config) (ixns : list intention) : Prop :=
  (forall i, In i ixns -> Forall methods_ok (i_perms i))
  /\ (forall s, In s (sources cfg ixns) -> wf_src s)
  /\ (forall a b, In a (sources cfg ixns) -> In b (sources cfg ixns) ->
                  s_peer a <> s_peer b -> s_td a <> s_td b).

(* no partition a source stands for contains a regex metacharacter (partitions are still
   spliced into the pattern unquoted; namespaces and service names are quoted) *)
Definition partitions_literal (cfg : config) (ixns : list intention) : Prop :=
  forall s, In s (sources cfg ixns) -> lit_src s.

(* the trust domain of every presented URI was authenticated: a configured trust domain read
   as a regex matches a presented host only if it IS that host *)
Definition hosts_authentic (cfg : config) (ixns : list intention) (c : conn) : Prop :=
  host_ok c (c_td cfg) /\ forall s, In s (sources cfg ixns) -> host_ok c (s_td s).

(* a strictly narrower source has strictly higher precedence *)
Definition source_monotone (cfg : config) (ixns : list intention) : Prop :=
  forall i j a b, In i ixns -> In j ixns -> resolve cfg i = Some a -> resolve cfg j = Some b ->
                  ixn_source_matches a b = true -> ixn_less i j = true.

Lemma srcs_ok_sources cfg ixns c :
  well_formed cfg ixns -> partitions_literal cfg ixns -> hosts_authentic cfg ixns c ->
  srcs_ok c (sources cfg ixns).
Proof.
  intros (_ & Hwf & Hsep) Hlit (_ & Hhost). split; auto.
  intros a b Ha Hb. apply In_sources in Ha as (i & _ & Hi). apply In_sources in Hb as (j & _ & Hj).
  eapply resolve_consistent; eassumption.
Qed.

Section Main.
  Variable re : string -> string -> bool.
  Hypothesis re_methods : re_alternation re.
  Variables (cfg : config) (ixns : list intention) (d http : bool) (c : conn) (q : request).
  Hypothesis Hwf : well_formed cfg ixns.
  Hypothesis Hlit : partitions_literal cfg ixns.
  Hypothesis Hhost : hosts_authentic cfg ixns c.
  Hypothesis Hinv : inverted_headers_present ixns q.

  Let xf := expect_xfcc cfg ixns http.
  Let D := remove_same_source (sort_ixns ixns).
  Let L := to_rixns cfg http D.
  Let m (s : rsvc) : bool := src_matches cfg xf s c.
  Let OK := srcs_ok_sources cfg ixns c Hwf Hlit Hhost.

  Lemma D_sub i : In i D -> In i ixns.
  Proof. intros H. apply In_sort_ixns, In_remove_same_source, H. Qed.

  Lemma L_sources r : In r L -> In (r_src r) (sources cfg ixns).
  Proof.
    intros H. apply (in_map r_src) in H. unfold L in H. rewrite to_rixns_sources in H.
    apply In_filter_map in H as (i & Hi & Hr). apply In_sources. exists i. split; [apply D_sub|]; assumption.
  Qed.

  Definition prepared (rep : bool) : list rixn := if rep then drop_shadowed [] L else L.

  Lemma prepared_sub rep r : In r (prepared rep) -> In r L.
  Proof. destruct rep; [apply In_drop_shadowed|auto]. Qed.

  Lemma prepared_fresh rep : Forall fresh_rixn (prepared rep).
  Proof. destruct rep; [apply drop_shadowed_Forall|]; apply to_rixns_fresh. Qed.

  Lemma reference_as_find :
    intention_allows re cfg ixns d http c q
    = match find (fun r => m (r_src r)) L with
      | Some r => verdict re q d r
      | None => d
      end.
  Proof.
    unfold intention_allows. fold xf.
    rewrite <- find_sorted_is_best.
    rewrite <- (find_remove_same_source (ixn_matches cfg xf c) (sort_ixns ixns))
      by (intros i j; apply ixn_matches_key).
    fold D. unfold L, m. rewrite (to_rixns_find re cfg http xf c q d D re_methods); [reflexivity| |].
    - intros i Hi. apply (proj1 Hwf). apply D_sub; exact Hi.
    - intros i Hi. apply Hinv. apply D_sub; exact Hi.
  Qed.

  Lemma rbac_as_contrib rep :
    eval_rbac re (translate_gen rep cfg ixns d http) c q
    = xorb d (existsb (contrib re q d m) (mark_sources (action_of_bool d) (prepared rep))).
  Proof.
    rewrite translate_sem. fold xf. unfold to_intermediate_gen, to_intermediate. fold D. fold L.
    change (if rep then drop_shadowed [] L else L) with (prepared rep). f_equal.
    apply (rip_sem re cfg xf c q d (sources cfg ixns) OK (proj1 Hhost) _ (prepared_fresh rep)).
    intros r Hr. apply L_sources, (prepared_sub rep), Hr.
  Qed.

  Lemma xor_back (o : option rixn) :
    xorb d (match o with Some r => vnd re q d r | None => false end)
    = match o with Some r => verdict re q d r | None => d end.
  Proof.
    destruct o as [r|]; [|apply xorb_false_r]. unfold vnd.
    rewrite <- xorb_assoc, xorb_nilpotent, xorb_false_l. reflexivity.
  Qed.

  (* what the order of [L] (precedence, then distinct source keys) gives for the sources of a pair *)
  Lemma L_pairs (P : rsvc -> rsvc -> Prop) :
    (forall i j a b, In i ixns -> In j ixns -> ixn_less j i = false -> src_key i <> src_key j ->
                     resolve cfg i = Some a -> resolve cfg j = Some b -> P a b) ->
    ForallOrdPairs (fun x y => P (r_src x) (r_src y)) L.
  Proof.
    intros H. apply (FOP_map P r_src). unfold L. rewrite to_rixns_sources. apply FOP_filter_map.
    eapply FOP_impl; [|apply remove_same_source_pairs]. fold D.
    intros i j Hi Hj [Hless Hkey] a b. apply H; auto using D_sub.
  Qed.

  Lemma L_keys : ForallOrdPairs (fun x y => skey (r_src x) <> skey (r_src y)) L.
  Proof.
    apply (L_pairs (fun a b => skey a <> skey b)). intros i j a b _ _ _ Hkey Ra Rb.
    rewrite (resolve_skey cfg i a Ra), (resolve_skey cfg j b Rb). exact Hkey.
  Qed.

  (* Matching sources are comparable ([trichotomy]); where no source is matched by an earlier one,
     the earlier of two matching sources is therefore matched by the later.  After 214d73a the
     shadowed intentions are gone; before, the order had to be monotone in the source. *)
  Lemma prepared_laminar rep : (rep = false -> source_monotone cfg ixns) -> laminar m (prepared rep).
  Proof.
    intros Hmono.
    apply (FOP_impl (fun x y => skey (r_src x) <> skey (r_src y)
                                /\ ixn_source_matches (r_src y) (r_src x) = false)).
    - intros x y Hx Hy [Hkey Hno] Mx My.
      apply (prepared_sub rep), L_sources in Hx, Hy.
      destruct (trichotomy cfg c xf _ _ _ OK Hx Hy Mx My) as [K|[T|T]]; [contradiction|exact T|congruence].
    - destruct rep; cbn [prepared].
      + apply drop_shadowed_pairs, L_keys.
      + apply (L_pairs (fun a b => skey a <> skey b /\ ixn_source_matches b a = false)).
        intros i j a b Hi Hj Hless Hkey Ra Rb. split.
        * rewrite (resolve_skey cfg i a Ra), (resolve_skey cfg j b Rb). exact Hkey.
        * apply not_true_iff_false. intros T.
          rewrite (Hmono eq_refl j i b a Hj Hi Rb Ra T) in Hless. discriminate.
  Qed.

  (* both translators: the one before 214d73a ([rep = false]) needs source_monotone *)
  Theorem equiv_gen rep :
    (rep = false -> source_monotone cfg ixns) ->
    eval_rbac re (translate_gen rep cfg ixns d http) c q = intention_allows re cfg ixns d http c q.
  Proof.
    intros Hmono. rewrite rbac_as_contrib, reference_as_find.
    rewrite (core_main re q d m _ (prepared_fresh rep) (prepared_laminar rep Hmono)).
    rewrite xor_back. fold m. destruct rep; [|reflexivity].
    (* a shadowed intention never is the first match *)
    apply (find_drop_shadowed m (verdict re q d) d (fun s => In s (sources cfg ixns)) [] L);
      [|intros p []|apply L_sources].
    intros a p Ha Hp. apply src_matches_subset, (so_cons c _ OK); assumption.
  Qed.

  (* the translator as it was before 214d73a needed source_monotone *)
  Theorem equiv_before_repair :
    source_monotone cfg ixns ->
    eval_rbac re (translate_before_214d73a cfg ixns d http) c q = intention_allows re cfg ixns d http c q.
  Proof. intros Hmono. apply (equiv_gen false). intros _. exact Hmono. Qed.

  (* without source_monotone the error is one-sided *)
  Theorem nondefault_kept_before_repair :
    intention_allows re cfg ixns d http c q = negb d ->
    eval_rbac re (translate_before_214d73a cfg ixns d http) c q = negb d.
  Proof.
    unfold translate_before_214d73a. rewrite (rbac_as_contrib false), reference_as_find, <- xor_back. cbn [prepared]. intros H.
    rewrite (core_lower re q d m L (prepared_fresh false)); [destruct d; reflexivity|].
    fold m. destruct (match find _ L with Some r => vnd re q d r | None => false end); [reflexivity|].
    destruct d; discriminate.
  Qed.
End Main.

Theorem same_destination_monotone cfg ixns :
  (forall i, In i ixns -> i_prec i = precedence_of i) ->
  (forall i j, In i ixns -> In j ixns -> i_dst_ns i = i_dst_ns j /\ i_dst_name i = i_dst_name j) ->
  source_monotone cfg ixns.
Proof.
  intros Hprec Hdst i j a b Hi Hj Ra Rb Hm.
  apply ism_count_lt in Hm. apply resolve_some in Ra as ->, Rb as ->. rewrite !count_wild_src_of in Hm.
  unfold ixn_less, ixn_cmp. rewrite (Hprec i Hi), (Hprec j Hj). unfold precedence_of.
  destruct (Hdst i j Hi Hj) as [-> ->].
  (* the destination part is the same number, at least 3; the source part is at most 2 *)
  set (k := match count_exact (i_dst_ns j) (i_dst_name j) with 2 => 9 | 1 => 6 | _ => 3 end%N) in *.
  assert (Hk : (3 <= k)%N) by (subst k; destruct (count_exact (i_dst_ns j) (i_dst_name j)) as [|[p|[p|p|]|]]; lia).
  assert (Hlt : (k - (2 - count_exact (i_src_ns j) (i_src_name j))
                 < k - (2 - count_exact (i_src_ns i) (i_src_name i)))%N) by lia.
  apply N.compare_lt_iff in Hlt. rewrite Hlt. reflexivity.
Qed.

Definition w_cfg : config := Config "test.consul" "default" [].
Definition w_ixn (src dst : string) (allow : bool) : intention :=
  let i := Ixn "" "" "default" src "" "default" dst allow [] 0 in
  Ixn "" "" "default" src "" "default" dst allow [] (precedence_of i).
Definition w_conn (svc : string) : conn :=
  Conn (Uri "test.consul" ["ns"; "default"; "dc"; "dc1"; "svc"; svc]) None.
Definition w_req : request := Req "/" [(":method", "GET")].

(* (finding 9 of DESIGN.md section 9, repaired in /repo 214d73a) `* -> web` deny (precedence 8) above `api -> *` allow
   (precedence 6), default deny: precedence denies api, the RBAC built before the repair allowed it. *)
Definition w_superset : list intention := [w_ixn "*" "web" false; w_ixn "api" "*" true].

(* the same shape with the roles swapped, default allow: precedence allows api, that RBAC denied it *)
Definition w_superset' : list intention := [w_ixn "*" "web" true; w_ixn "api" "*" false].

Lemma superset_values re :
  eval_rbac re (translate_before_214d73a w_cfg w_superset false false) (w_conn "api") w_req = true
  /\ intention_allows re w_cfg w_superset false false (w_conn "api") w_req = false
  /\ eval_rbac re (translate w_cfg w_superset false false) (w_conn "api") w_req = false
  /\ eval_rbac re (translate_before_214d73a w_cfg w_superset' true false) (w_conn "api") w_req = false
  /\ intention_allows re w_cfg w_superset' true false (w_conn "api") w_req = true
  /\ eval_rbac re (translate w_cfg w_superset' true false) (w_conn "api") w_req = true.
Proof. repeat split; vm_compute; reflexivity. Qed.

(* (finding 8 of DESIGN.md section 9, repaired in /repo d976793) `web.v1 -> db` allow, default deny:
   `web.v1` is admitted, `webxv1` is not *)
Definition w_regex : list intention := [w_ixn "web.v1" "db" true].

Lemma regex_regression re :
  eval_rbac re (translate w_cfg w_regex false false) (w_conn "webxv1") w_req = false
  /\ intention_allows re w_cfg w_regex false false (w_conn "webxv1") w_req = false
  /\ eval_rbac re (translate w_cfg w_regex false false) (w_conn "web.v1") w_req = true
  /\ intention_allows re w_cfg w_regex false false (w_conn "web.v1") w_req = true.
Proof. repeat split; vm_compute; reflexivity. Qed.

Lemma w_host_ok svc t : raw_match t "test.consul" = (t =? "test.consul") -> host_ok (w_conn svc) t.
Proof. intros H. unfold host_ok, w_conn. cbn. split; [exact H|]. intros u [=]. Qed.

Lemma wf_default n p e td : n <> "" -> wf_src (RSvc "default" "default" n p e td).
Proof. intros Hn. repeat split; cbn [s_name s_ns s_ap s_peer]; try discriminate. exact Hn. Qed.

(* The witness lists hold local intentions of the default namespace.  Over [w_cfg] every source is
   then RSvc "default" "default" <name> "" "" "test.consul", and the hypotheses of [equiv_gen] that
   speak of sources hold for every connection [w_conn svc]. *)
Definition local_ixn (i : intention) : Prop :=
  i_src_peer i = "" /\ i_src_ap i = "" /\ i_src_ns i = "default" /\ i_src_name i <> ""
  /\ Forall methods_ok (i_perms i).

Lemma local_hyps ixns :
  Forall local_ixn ixns ->
  well_formed w_cfg ixns /\ partitions_literal w_cfg ixns /\ forall svc, hosts_authentic w_cfg ixns (w_conn svc).
Proof.
  intros H. rewrite Forall_forall in H.
  assert (Hs : forall s, In s (sources w_cfg ixns) ->
                         exists n, n <> "" /\ s = RSvc "default" "default" n "" "" "test.consul").
  { intros s Hs. apply In_sources in Hs as (i & Hi & R). destruct (H i Hi) as (Hp & Hap & Hns & Hn & _).
    apply resolve_some in R as ->. exists (i_src_name i). split; [exact Hn|].
    unfold src_of. rewrite Hp, Hap, Hns. reflexivity. }
  split; [split; [|split]|split].
  - intros i Hi. apply H; exact Hi.
  - intros s Hs'. destruct (Hs s Hs') as (n & Hn & ->). apply wf_default, Hn.
  - intros a b Ha Hb Hp. destruct (Hs a Ha) as (? & _ & ->), (Hs b Hb) as (? & _ & ->). contradiction Hp; reflexivity.
  - intros s Hs'. destruct (Hs s Hs') as (n & _ & ->). reflexivity.
  - intros svc. split; [apply w_host_ok; reflexivity|].
    intros s Hs'. destruct (Hs s Hs') as (n & _ & ->). apply w_host_ok; reflexivity.
Qed.

Lemma w_superset_local : Forall local_ixn w_superset.
Proof. repeat constructor; discriminate. Qed.

Lemma w_regex_local : Forall local_ixn w_regex.
Proof. repeat constructor; discriminate. Qed.

(* [w_superset] is outside source_monotone: `api -> *` is the narrower source and sorts later *)
Lemma w_superset_not_monotone : ~ source_monotone w_cfg w_superset.
Proof.
  intros H.
  specialize (H (w_ixn "api" "*" true) (w_ixn "*" "web" false) _ _
                (or_intror (or_introl eq_refl)) (or_introl eq_refl) eq_refl eq_refl eq_refl).
  vm_compute in H. discriminate.
Qed.

(* non-vacuity of [equiv_gen]: a set with wildcard, exact, peered and L7 intentions for one
   destination, a peer connection through the mesh gateway, meets every hypothesis *)
Definition ex_cfg : config := Config "local.consul" "default" [Bundle "peer1" "peer1.consul" "part1"].
Definition ex_ixns : list intention :=
  [ Ixn "" "" "default" "web" "" "default" "db" true [] 9;
    Ixn "" "" "default" "*" "" "default" "db" false [] 8;
    Ixn "peer1" "" "default" "api" "" "default" "db" false
        [IxnPerm false (Some (HttpPerm "" "/admin" "" [] []));
         IxnPerm true (Some (HttpPerm "" "/" "" [] ["GET"; "POST"]))] 9;
    Ixn "peer1" "" "default" "*" "" "default" "db" true [] 8 ].
Definition ex_conn : conn :=
  Conn (Uri "local.consul" ["gateway"; "mesh"; "dc"; "dc1"])
       (Some (Uri "peer1.consul" ["ap"; "part1"; "ns"; "default"; "dc"; "dc2"; "svc"; "api"])).

Lemma ex_host_ok t :
  raw_match t "local.consul" = (t =? "local.consul") ->
  raw_match t "peer1.consul" = (t =? "peer1.consul") -> host_ok ex_conn t.
Proof. intros H1 H2. split; [exact H1|]. intros u [= <-]. exact H2. Qed.

Lemma ex_sources :
  sources ex_cfg ex_ixns =
  [RSvc "default" "default" "web" "" "" "local.consul"; RSvc "default" "default" "*" "" "" "local.consul";
   RSvc "default" "default" "api" "peer1" "part1" "peer1.consul";
   RSvc "default" "default" "*" "peer1" "part1" "peer1.consul"].
Proof. reflexivity. Qed.

Lemma example_hyps :
  well_formed ex_cfg ex_ixns /\ partitions_literal ex_cfg ex_ixns /\ hosts_authentic ex_cfg ex_ixns ex_conn.
Proof.
  assert (Hl : host_ok ex_conn "local.consul") by (apply ex_host_ok; reflexivity).
  assert (Hp : host_ok ex_conn "peer1.consul") by (apply ex_host_ok; reflexivity).
  assert (Hs : forall s, In s (sources ex_cfg ex_ixns) ->
                         wf_src s /\ lit_src s
                         /\ (s_peer s = "" /\ s_td s = "local.consul" \/ s_peer s = "peer1" /\ s_td s = "peer1.consul")).
  { rewrite ex_sources.
    intros s [<-|[<-|[<-|[<-|[]]]]]; (split; [apply wf_default; discriminate|split; [reflexivity|]]);
      [left|left|right|right]; split; reflexivity. }
  split; [split; [|split]|split; [|split]].
  - intros i [<-|[<-|[<-|[<-|[]]]]]; cbn [i_perms]; repeat (apply Forall_cons || apply Forall_nil).
    + left; reflexivity.
    + right; right; left; reflexivity.
  - intros s H. apply Hs, H.
  - intros a b Ha Hb.
    destruct (Hs a Ha) as (_ & _ & [[-> ->]|[-> ->]]), (Hs b Hb) as (_ & _ & [[-> ->]|[-> ->]]);
      intros E; try discriminate; contradiction E; reflexivity.
  - intros s H. apply Hs, H.
  - exact Hl.
  - intros s H. destruct (Hs s H) as (_ & _ & [[_ ->]|[_ ->]]); assumption.
Qed.

(* the hypothesis of equiv_before_repair holds of this list as well *)
Lemma ex_ixns_monotone : source_monotone ex_cfg ex_ixns.
Proof.
  assert (Hd : forall i, In i ex_ixns -> i_dst_ns i = "default" /\ i_dst_name i = "db")
    by (intros i [<-|[<-|[<-|[<-|[]]]]]; split; reflexivity).
  apply same_destination_monotone.
  - intros i [<-|[<-|[<-|[<-|[]]]]]; reflexivity.
  - intros i j Hi Hj. destruct (Hd i Hi) as [-> ->], (Hd j Hj) as [-> ->]. split; reflexivity.
Qed.

Lemma no_headers_inverted_ok ixns q :
  (forall i p h, In i ixns -> In p (i_perms i) -> ip_http p = Some h -> hp_header h = []) ->
  inverted_headers_present ixns q.
Proof.
  intros H i Hi. apply Forall_forall. intros p Hp. unfold inv_ok.
  destruct (ip_http p) as [h|] eqn:E; [|exact I]. rewrite (H i p h Hi Hp E). constructor.
Qed.

Lemma w_superset_inv q : inverted_headers_present w_superset q.
Proof. apply no_headers_inverted_ok. intros i p h [<-|[<-|[]]] []. Qed.
Lemma w_regex_inv q : inverted_headers_present w_regex q.
Proof. apply no_headers_inverted_ok. intros i p h [<-|[]] []. Qed.
Lemma ex_ixns_inv q : inverted_headers_present ex_ixns q.
Proof.
  intros i [<-|[<-|[<-|[<-|[]]]]]; cbn [i_perms]; repeat constructor.
Qed.

(* (open finding) an inverted value matcher and a request that LACKS the header: consul's
   `x-internal` Exact "yes" Invert means "x-internal is not yes"; Envoy ignores a value matcher
   on an absent header even when inverted, so the deny permission is bypassed. *)
Definition w_inv_hdr : hdr_perm := HdrPerm "x-internal" false "yes" "" "" "" "" true false.
Definition w_inv_ixns : list intention :=
  [Ixn "" "" "default" "web" "" "default" "db" false
       [IxnPerm false (Some (HttpPerm "" "" "" [w_inv_hdr] []));
        IxnPerm true (Some (HttpPerm "" "/" "" [] []))] 9].
Definition w_req_with : request := Req "/" [(":method", "GET"); ("x-internal", "no")].

Lemma inverted_header_witness re :
  eval_rbac re (translate w_cfg w_inv_ixns false true) (w_conn "web") w_req = true
  /\ intention_allows re w_cfg w_inv_ixns false true (w_conn "web") w_req = false
  /\ eval_rbac re (translate w_cfg w_inv_ixns false true) (w_conn "web") w_req_with = false
  /\ intention_allows re w_cfg w_inv_ixns false true (w_conn "web") w_req_with = false.
Proof. repeat split; vm_compute; reflexivity. Qed.

Lemma w_inv_local : Forall local_ixn w_inv_ixns.
Proof. repeat constructor; discriminate. Qed.

Lemma w_inv_headers : ~ inverted_headers_present w_inv_ixns w_req /\ inverted_headers_present w_inv_ixns w_req_with.
Proof.
  split.
  - intros H. specialize (H _ (or_introl eq_refl)). cbn [i_perms] in H.
    inversion H as [|? ? H1 _]; subst. unfold inv_ok in H1. cbn in H1.
    inversion H1 as [|? ? H2 _]; subst. vm_compute in H2. discriminate.
  - intros i [<-|[]]; cbn [i_perms]; repeat constructor.
Qed.

Lemma flat_monotone cfg ixns n :
  (forall i a, In i ixns -> resolve cfg i = Some a -> count_wild a = n) -> source_monotone cfg ixns.
Proof.
  intros H i j a b Hi Hj Ra Rb Hm. apply ism_count_lt in Hm.
  rewrite (H i a Hi Ra), (H j b Hj Rb) in Hm. lia.
Qed.

(* source_monotone with MIXED destinations: disjoint sources on an exact and on the wildcard destination *)
Definition ex_mixed : list intention := [w_ixn "api" "db" true; w_ixn "web" "*" false].
Lemma ex_mixed_monotone : source_monotone w_cfg ex_mixed
  /\ exists i j, In i ex_mixed /\ In j ex_mixed /\ i_dst_name i <> i_dst_name j.
Proof.
  split.
  - apply (flat_monotone _ _ 0). intros i a [<-|[<-|[]]] [= <-]; reflexivity.
  - exists (w_ixn "api" "db" true), (w_ixn "web" "*" false). cbn. repeat split; auto. discriminate.
Qed.

