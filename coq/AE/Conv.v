(* C16 — a full sync that returns nil leaves every entry settled; a fault-free one converges;
   entries that wait for an RPC get it (retry). *)
From Verif Require Import Base.Prelude AE.Model AE.Basics AE.Steps AE.Inv AE.Proofs AE.More.
From stdpp Require Import gmap.

(* what of a service definition is the agent's: everything except the tags under
   EnableTagOverride and the reserved ("consul-") tagged addresses *)
Definition svc_own (d : svc) : N * N * bool * N * list (N * N) :=
  (sv_name d, if sv_eto d then 0%N else sv_tags d, sv_eto d, sv_rest d, sv_tau d).

Lemma adopt_own d r : svc_own (adopt d r) = svc_own d.
Proof.
  unfold adopt, svc_own. destruct (sv_eto d) eqn:E; cbn.
  - destruct (bool_decide _); cbn; rewrite ?E; reflexivity.
  - destruct (bool_decide _); cbn; rewrite ?E; reflexivity.
Qed.

Lemma uss_svcs_live g st c id e d :
  l_svcs st !! id = Some e -> se_del e = false -> se_def e = Some d ->
  exists e1 d1, l_svcs (uss_apply g st c) !! id = Some e1 /\ se_del e1 = false /\ se_def e1 = Some d1 /\
                svc_own d1 = svc_own d.
Proof.
  intros L D F. rewrite (uss_svcs_local L). unfold uss_svc. rewrite D, F.
  destruct (c_svcs c !! id) as [r|].
  - eexists _, _. split; [reflexivity|]. cbn. repeat split; auto. apply adopt_own.
  - exists (se_set_sync false e), d. cbn. auto.
Qed.

(* what a visit leaves of an entry, unless the RPC failed: nothing, or the entry marked in sync,
   and if it is still marked deleted then its deregistration was refused *)
Definition settled_s (a : acc) (id : N) : Prop :=
  forall e, l_svcs (st_of a) !! id = Some e ->
    se_sync e = true /\
    (se_del e = true -> refused_del_svc (log_of a) id).
Definition settled_c (a : acc) (id : N) : Prop :=
  forall e, l_chks (st_of a) !! id = Some e ->
    ce_sync e = true /\
    (ce_del e = true -> refused_del_chk (log_of a) id).

Lemma settled_s_stable g a a' id :
  iteration g a a' -> err_of a = true \/ settled_s a id -> err_of a' = true \/ settled_s a' id.
Proof.
  intros [->|[ev Hs]]; [auto|]. intros [Er|Hst]; [left; eapply stepped_err; eauto|right].
  intros e' L'. destruct (svc_at_back (Step_svc_at id (proj1 Hs)) L') as (e1 & L1 & S1).
  destruct (Hst e1 L1) as [Sy Hd]. rewrite (sle_sync _ _ S1 Sy). split; [exact Sy|].
  intros D. eapply logged_iteration; [right; eauto|exact (Hd D)].
Qed.

Lemma settled_c_stable g a a' id :
  iteration g a a' -> err_of a = true \/ settled_c a id -> err_of a' = true \/ settled_c a' id.
Proof.
  intros [->|[ev Hs]]; [auto|]. intros [Er|Hst]; [left; eapply stepped_err; eauto|right].
  intros e' L'. destruct (chk_at_back (Step_chk_at id (proj1 Hs)) L') as (e1 & L1 & S1).
  destruct (Hst e1 L1) as [Sy Hd]. rewrite (cle_sync _ _ S1 Sy). split; [exact Sy|].
  intros D. eapply logged_iteration; [right; eauto|exact (Hd D)].
Qed.

Lemma settled_s_visit g a id : wf_local (st_of a) -> err_of (step_svc g a id) = true \/ settled_s (step_svc g a id) id.
Proof.
  intros (W1 & _). generalize (step_svc_spec g a id).
  destruct (l_svcs (st_of a) !! id) as [e|] eqn:L; [destruct (rpc_s e) eqn:R|].
  - intros (ev & Hs & K & <-). destruct (err_of (step_svc g a (e_id ev))) eqn:Er; [auto|right].
    pose proof (stepped_not_failed Hs Er) as NF. destruct Hs as (Hs & Hl & _).
    unfold kind_s in K.
    destruct (Step_own_svc Hs L) as [O|[N|[L' Rf]]]; [destruct (se_del e); auto|contradiction| |];
      intros e' Le'; [congruence|].
    assert (e' = se_set_sync true e) by congruence. subst e'. split; [reflexivity|]. cbn. intros D.
    rewrite Hl, D in *. apply logged_last. auto.
  - intros ->. right. intros e' L'. assert (e' = e) by congruence. subst e'.
    unfold rpc_s in R. destruct (se_del e) eqn:D; [discriminate|]. destruct (W1 id e L D) as [d F].
    rewrite F in R. destruct (se_sync e); [split; [reflexivity|discriminate]|discriminate].
  - intros ->. right. intros e' L'. congruence.
Qed.

Lemma settled_c_visit g a id : wf_local (st_of a) -> err_of (step_chk g a id) = true \/ settled_c (step_chk g a id) id.
Proof.
  intros (_ & W2 & _). generalize (step_chk_spec g a id).
  destruct (l_chks (st_of a) !! id) as [e|] eqn:L; [destruct (rpc_c e) eqn:R|].
  - intros (ev & Hs & K & <-). destruct (err_of (step_chk g a (e_id ev))) eqn:Er; [auto|right].
    pose proof (stepped_not_failed Hs Er) as NF. destruct Hs as (Hs & Hl & _).
    unfold kind_c in K.
    destruct (Step_own_chk Hs L) as [O|[N|(e1 & L' & Sy & Dl & Rf)]]; [destruct (ce_del e); auto|contradiction| |];
      intros e' Le'; [congruence|].
    assert (e' = e1) by congruence. subst e'. split; [exact Sy|]. rewrite Dl. intros D.
    rewrite Hl, D in *. apply logged_last. auto.
  - intros ->. right. intros e' L'. assert (e' = e) by congruence. subst e'.
    unfold rpc_c in R. destruct (ce_del e) eqn:D; [discriminate|]. destruct (W2 id e L D) as (d & F & _).
    rewrite F in R. destruct (ce_sync e); [split; [reflexivity|discriminate]|discriminate].
  - intros ->. right. intros e' L'. congruence.
Qed.

Lemma sync_changes_settled {g os oc st c fs st' c' fs' log} :
  wf_local st -> sync_changes g os oc st c fs = (st', c', fs', log, false) ->
  (forall id, In id os -> settled_s (st', c', fs', log, false) id) /\
  (forall id, In id oc -> settled_c (st', c', fs', log, false) id).
Proof.
  intros W E. destruct (sync_changes_cases g os oc st c fs) as (a1 & H1 & [(E1 & Er & _)|(E1 & _)]);
    rewrite E in E1; [rewrite <- E1 in Er; discriminate|]. rewrite E1.
  set (Wf := fun a : acc => wf_local (st_of a)).
  assert (W1 : Wf a1) by (exact (iteration_wf g _ _ H1 W)).
  assert (Ws : forall a x, Wf a -> Wf (step_svc g a x)) by (intros a x; apply iteration_wf with (g := g), step_svc_iteration).
  assert (Wc : forall a x, Wf a -> Wf (step_chk g a x)) by (intros a x; apply iteration_wf with (g := g), step_chk_iteration).
  assert (NoErr : forall P : Prop, err_of (fold_left (step_chk g) oc (fold_left (step_svc g) os a1)) = true \/ P -> P).
  { rewrite <- E1. intros P [X|X]; [discriminate|exact X]. }
  split; intros id Hin; apply NoErr.
  - apply (fold_keep (step_chk g) (fun a => err_of a = true \/ settled_s a id)).
    { intros a x. apply settled_s_stable with (g := g), step_chk_iteration. }
    apply (fold_visit (step_svc g) Wf (fun a => err_of a = true \/ settled_s a id) id os); auto.
    + intros a x _. apply settled_s_stable with (g := g), step_svc_iteration.
    + intros a. apply settled_s_visit.
  - apply (fold_visit (step_chk g) Wf (fun a => err_of a = true \/ settled_c a id) id oc); auto.
    + intros a x _. apply settled_c_stable with (g := g), step_chk_iteration.
    + intros a. apply settled_c_visit.
    + apply fold_keep; assumption.
Qed.

Definition covers {A} (m : gmap N A) (l : list N) : Prop := forall id, is_Some (m !! id) -> In id l.

Record converged (g : cfg) (st : lstate) (c : cat) (st' : lstate) (c' : cat) : Prop := {
  (* the local registrations are the live ones from before, all marked in sync, nothing deleted left *)
  cv_svc_live : forall id e', l_svcs st' !! id = Some e' ->
                  se_del e' = false /\ se_sync e' = true /\ exists e, l_svcs st !! id = Some e /\ se_del e = false;
  cv_svc_kept : forall id e d, l_svcs st !! id = Some e -> se_del e = false -> se_def e = Some d ->
                  exists e' d', l_svcs st' !! id = Some e' /\ se_def e' = Some d' /\ svc_own d' = svc_own d;
  cv_chk_live : forall id e', l_chks st' !! id = Some e' ->
                  ce_del e' = false /\ ce_sync e' = true /\
                  exists e, l_chks st !! id = Some e /\ ce_del e = false /\ ce_def e' = ce_def e;
  cv_chk_kept : forall id e, l_chks st !! id = Some e -> ce_del e = false ->
                  exists e', l_chks st' !! id = Some e' /\ ce_def e' = ce_def e;
  (* the catalog's services are exactly the local ones (the "consul" service is left alone) *)
  cv_cat_svcs : forall id,
                  (id = g_consul g /\ l_svcs st !! id = None /\ c_svcs c' !! id = c_svcs c !! id) \/
                  c_svcs c' !! id = match l_svcs st' !! id with Some e => se_def e | None => None end;
  (* the catalog's checks are exactly the local ones, up to the fields it copies from its service *)
  (* ... and, for a check whose deferred-output timer is pending, up to its Output *)
  cv_cat_chks : forall id e d, l_chks st' !! id = Some e -> ce_def e = Some d -> holds_ce c' id e d;
  cv_cat_nochk : forall id, l_chks st' !! id = None -> id <> g_serf g -> c_chks c' !! id = None;
  cv_node : c_node c' = Some (g_ni g)
}.

Lemma uss_covers g st c os oc :
  covers (l_svcs st) os -> covers (c_svcs c) os -> covers (l_chks st) oc -> covers (c_chks c) oc ->
  covers (l_svcs (uss_apply g st c)) os /\ covers (l_chks (uss_apply g st c)) oc.
Proof.
  intros Cs Ccs Cc Ccc. split; intros id [e L].
  - destruct (l_svcs st !! id) as [e0|] eqn:L0; [apply Cs; eauto|].
    destruct (uss_svcs_new L L0) as (_ & _ & Hc). apply Ccs. exact Hc.
  - destruct (l_chks st !! id) as [e0|] eqn:L0; [apply Cc; eauto|].
    destruct (uss_chks_new L L0) as (_ & _ & Hc). apply Ccc. exact Hc.
Qed.

(* SyncFull returned nil — possibly with ACL refusals along the way, any fault list: every entry
   left is marked in sync, and one still marked deleted had its deregistration refused in this sync *)
Lemma sync_full_settled {g os oc st c fs st' c' fs' log} :
  wf_local st -> c_svcs c !! 0%N = None ->
  covers (l_svcs st) os -> covers (c_svcs c) os -> covers (l_chks st) oc -> covers (c_chks c) oc ->
  sync_full g os oc st c fs = (st', c', fs', log, false) ->
  (forall id, settled_s (st', c', fs', log, false) id) /\ (forall id, settled_c (st', c', fs', log, false) id).
Proof.
  intros W C0 Cs Ccs Cc Ccc E.
  apply sync_full_cases in E as [(_ & _ & X)|(fs1 & la & lb & E & ->)]; [discriminate|].
  pose proof (uss_wf_local g st c W C0) as W1. destruct (uss_covers g st c os oc Cs Ccs Cc Ccc) as [Ks Kc].
  destruct (sync_changes_INV W1 E) as (Is & Ic & _).
  destruct (sync_changes_settled W1 E) as [Hs Hc].
  split; intros id e L; cbn in *.
  - destruct (is_back (Is id) e L) as (e1 & L1 & _).
    destruct (Hs id (Ks id (ex_intro _ e1 L1)) e L) as [Sy Hd]. split; [exact Sy|].
    intros D. apply logged_app. right. exact (Hd D).
  - destruct (ic_back (Ic id) e L) as (e1 & L1 & _).
    destruct (Hc id (Kc id (ex_intro _ e1 L1)) e L) as [Sy Hd]. split; [exact Sy|].
    intros D. apply logged_app. right. exact (Hd D).
Qed.

Definition all_ok (log : list event) : Prop := forall ev, In ev log -> e_out ev = OOk.

Definition quiet (g : cfg) (a : acc) : Prop :=
  fs_of a = [] /\ err_of a = false /\ all_ok (log_of a) /\
  c_node (cat_of a) = Some (g_ni g) /\ l_node (st_of a) = true.

Lemma all_ok_snoc log ev : all_ok log -> e_out ev = OOk -> all_ok (log ++ [ev]).
Proof. intros H E x Hx. apply in_app_or in Hx as [Hx|[<-|[]]]; auto. Qed.

Lemma reg_node_same ni skip : reg_node ni skip (Some ni) = Some ni.
Proof. destruct skip; reflexivity. Qed.

(* on an agent-style state a registration carries every service its checks need, so without
   faults no iteration fails *)
Lemma step_svc_quiet g a id : wf_local (st_of a) -> quiet g a -> quiet g (step_svc g a id).
Proof.
  destruct a as [[[[st c] fs] log] err]. intros (W1 & W2 & W3) Q. unfold quiet in *. cbn in *.
  pose proof Q as (-> & -> & Hl & Hn & Ln). unfold step_svc.
  destruct (l_svcs st !! id) as [e|] eqn:L; [|exact Q].
  destruct (se_del e) eqn:D.
  - unfold delete_service, push. cbn. repeat split; auto using all_ok_snoc. rewrite dereg_svc_node. exact Hn.
  - destruct (se_sync e) eqn:S; [exact Q|].
    destruct (W1 id e L D) as [d F]. rewrite F. unfold sync_service, push. cbn [next].
    destruct (cat_register_ok (g_ni g) (l_node st) (Some (id, d))
                (pig_of g id (reg_token g (se_tok e) (se_loc e)) (l_chks st)) c) as [c1 R].
    { intros k dk Hk. rewrite pig_of_lookup in Hk. destruct (l_chks st !! k) as [x|]; [|discriminate].
      destruct (is_pig g id _ x) eqn:P; [|discriminate]. destruct (is_pig_spec P) as (dx & Fx & _ & _ & Bx).
      apply stamp_is_Some. right. assert (dk = dx) by congruence. subst dk. rewrite Bx. cbn. rewrite lookup_insert. eauto. }
    rewrite R. cbn. repeat split; auto using all_ok_snoc.
    apply cat_register_Some in R as (-> & _). rewrite Hn. apply reg_node_same.
Qed.

Lemma step_chk_quiet g a id : wf_local (st_of a) -> quiet g a -> quiet g (step_chk g a id).
Proof.
  destruct a as [[[[st c] fs] log] err]. intros (W1 & W2 & W3) Q. unfold quiet in *. cbn in *.
  pose proof Q as (-> & -> & Hl & Hn & Ln). unfold step_chk.
  destruct (l_chks st !! id) as [e|] eqn:L; [|exact Q].
  destruct (ce_del e) eqn:D.
  - unfold delete_check, push. cbn. repeat split; auto using all_ok_snoc.
  - destruct (ce_sync e) eqn:S; [exact Q|].
    destruct (W2 id e L D) as (d & F & Hs). rewrite F. unfold sync_check, push. fold (sync_sv st d). cbn [next].
    destruct (cat_register_ok (g_ni g) (l_node st) (sync_sv st d) {[id := d]} c) as [c1 R].
    { intros k dk Hk. apply lookup_singleton_Some in Hk as [<- <-]. apply stamp_is_Some.
      destruct Hs as [Hs|(s & Ls & Ds)]; [auto|]. right.
      destruct (W1 _ s Ls Ds) as [sd Fs]. unfold sync_sv. rewrite Ls, Ds, Fs. cbn. rewrite lookup_insert. eauto. }
    rewrite R. cbn. repeat split; auto using all_ok_snoc.
    apply cat_register_Some in R as (-> & _). rewrite Hn. apply reg_node_same.
Qed.

Lemma sync_changes_quiet {g os oc st c st' c' fs' log err} :
  wf_local st -> (l_node st = true -> c_node c = Some (g_ni g)) ->
  sync_changes g os oc st c [] = (st', c', fs', log, err) ->
  err = false /\ all_ok log /\ c_node c' = Some (g_ni g).
Proof.
  intros W Hn E. unfold sync_changes in E.
  set (WQ := fun a : acc => wf_local (st_of a) /\ quiet g a).
  assert (A1 : WQ (if l_node st then (st, c, [], [], false) else sync_node_info g st c [])).
  { destruct (l_node st) eqn:Ln; (split; [exact W|]); cbn.
    - repeat split; auto. intros ev [].
    - repeat split; [intros ev [<-|[]]; reflexivity|destruct (c_node c); reflexivity]. }
  destruct (if l_node st then _ else _) as [[[[st1 c1] fs1] log1] stop] eqn:E1.
  assert (stop = false) as -> by (destruct A1 as (_ & _ & Hst & _); exact Hst).
  assert (A3 : WQ (fold_left (step_chk g) oc (fold_left (step_svc g) os (st1, c1, fs1, log1, false)))).
  { apply fold_keep; [|apply fold_keep; [|exact A1]]; intros a x [Wa Qa]; split.
    - eapply iteration_wf; [apply step_chk_iteration|exact Wa].
    - apply step_chk_quiet; assumption.
    - eapply iteration_wf; [apply step_svc_iteration|exact Wa].
    - apply step_svc_quiet; assumption. }
  rewrite E in A3. destruct A3 as (_ & _ & Er & Hl & Hc & _). auto.
Qed.

Lemma sync_full_nofault g os oc st c :
  sync_full g os oc st c [] =
  let '(st2, c2, fs2, lb, err) := sync_changes g os oc (uss_apply g st c) c [] in
  (st2, c2, fs2, [Ev KListSvcs 0 (agent_token g) false false OOk []; Ev KListChks 0 (agent_token g) false false OOk []] ++ lb, err).
Proof. reflexivity. Qed.

(* what a full sync whose reads succeed does whatever the faults: it keeps every live
   registration (up to the server-owned fields it adopts), makes no entry live, leaves no service
   row without entry except the exempt one and, with [bind_ok], no check row without entry *)
Lemma sync_full_frame {g os oc st c fs1 st' c' fs' lb err} :
  wf_local st -> wf_cat c ->
  sync_changes g os oc (uss_apply g st c) c fs1 = (st', c', fs', lb, err) ->
  (forall id e', l_svcs st' !! id = Some e' -> se_del e' = false ->
     exists e, l_svcs st !! id = Some e /\ se_del e = false) /\
  (forall id e d, l_svcs st !! id = Some e -> se_del e = false -> se_def e = Some d ->
     exists e' d', l_svcs st' !! id = Some e' /\ se_def e' = Some d' /\ svc_own d' = svc_own d) /\
  (forall id e', l_chks st' !! id = Some e' -> ce_del e' = false ->
     exists e, l_chks st !! id = Some e /\ ce_del e = false /\ ce_def e' = ce_def e) /\
  (forall id e, l_chks st !! id = Some e -> ce_del e = false ->
     exists e', l_chks st' !! id = Some e' /\ ce_def e' = ce_def e) /\
  (forall id, l_svcs st' !! id = None ->
     (id = g_consul g /\ l_svcs st !! id = None /\ c_svcs c' !! id = c_svcs c !! id) \/ c_svcs c' !! id = None) /\
  (bind_ok st c -> forall id, l_chks st' !! id = None -> id <> g_serf g -> c_chks c' !! id = None).
Proof.
  intros W Wc E. pose proof (uss_wf_local g st c W (proj2 Wc)) as W1.
  destruct (sync_changes_INV W1 E) as (Is & Ic & _).
  split; [|split; [|split; [|split; [|split]]]].
  - intros id e' L' D. destruct (is_back (Is id) e' L') as (e1 & L1 & S1). apply sle_def in S1 as (_ & Sl & _).
    destruct (l_svcs st !! id) as [e|] eqn:L0.
    + exists e. split; [reflexivity|]. destruct (uss_svcs_old g st c id e L0) as (x & Lx & Dx & _). congruence.
    + destruct (uss_svcs_new L1 L0) as (D1 & _). congruence.
  - intros id e d L D F. destruct (uss_svcs_live g st c id e d L D F) as (e1 & d1 & L1 & D1 & F1 & O1).
    destruct (l_svcs st' !! id) as [e'|] eqn:L'.
    + destruct (is_back (Is id) e' L') as (x & Lx & Sx). apply sle_def in Sx as (Sd & _).
      exists e', d1. split; [reflexivity|]. split; [congruence|exact O1].
    + destruct (is_gone (Is id) e1 L1 L') as [D' _]. congruence.
  - intros id e' L' D. destruct (ic_back (Ic id) e' L') as (e1 & L1 & S1). apply cle_def in S1 as (Sd & Sl).
    destruct (l_chks st !! id) as [e|] eqn:L0.
    + exists e. destruct (uss_chks_old g st c id e L0) as (x & Lx & Dx & Fx & _).
      split; [reflexivity|]. split; congruence.
    + destruct (uss_chks_new L1 L0) as (D1 & _). congruence.
  - intros id e L D. destruct (uss_chks_old g st c id e L) as (e1 & L1 & D1 & F1 & _).
    destruct (l_chks st' !! id) as [e'|] eqn:L'.
    + destruct (ic_back (Ic id) e' L') as (x & Lx & Sx). apply cle_def in Sx as (Sd & _).
      exists e'. split; [reflexivity|congruence].
    + pose proof (ic_gone (Ic id) e1 L1 L'). congruence.
  - (* a row without entry was deregistered with its entry, or never had one and was no foreign row either *)
    intros id L'. destruct (l_svcs (uss_apply g st c) !! id) as [e1|] eqn:L1.
    + right. exact (proj2 (is_gone (Is id) e1 L1 L')).
    + rewrite (is_foreign (Is id) L1). rewrite uss_svcs_lookup in L1.
      destruct (l_svcs st !! id) as [x|] eqn:L0.
      * exfalso. destruct (uss_svcs_old g st c id x L0) as (y & Ly & _). rewrite uss_svcs_lookup, L0 in Ly. congruence.
      * destruct (decide (g_consul g = id)) as [<-|Hne]; [left; auto|right].
        unfold uss_svc in L1. destruct (c_svcs c !! id); [discriminate|reflexivity].
  - intros B. destruct (sync_changes_INVK W1 Wc (uss_bind_ok g st c B) E) as (_ & _ & Ik).
    intros id L' Hne. destruct (l_chks (uss_apply g st c) !! id) as [e1|] eqn:L1.
    + exact (ik_gone (Ik id) e1 L1 L').
    + destruct (ik_foreign (Ik id) L1) as [E'|E']; [|exact E']. rewrite E'.
      rewrite uss_chks_lookup in L1. destruct (decide (g_serf g = id)); [congruence|]. unfold uss_chk in L1.
      destruct (l_chks st !! id) as [x|], (c_chks c !! id); try discriminate; try reflexivity.
      destruct (ce_del x); [discriminate|]. destruct (ce_def x); discriminate.
Qed.

(* a fault-free full sync over an agent-style state: no error and no refusal ([sync_changes_quiet]),
   so nothing is left deleted or out of sync ([sync_full_settled]) and every entry left is held
   ([no_false_insync_full]); the rest of [converged] is [sync_full_frame] *)
Lemma sync_full_ok {g os oc st c st' c' fs' log err} :
  wf_local st -> wf_cat c ->
  covers (l_svcs st) os -> covers (c_svcs c) os -> covers (l_chks st) oc -> covers (c_chks c) oc ->
  sync_full g os oc st c [] = (st', c', fs', log, err) ->
  err = false /\ wf_local st' /\ wf_cat c' /\
  (forall id e', l_svcs st' !! id = Some e' -> se_del e' = false /\ se_sync e' = true) /\
  (forall id e', l_chks st' !! id = Some e' -> ce_del e' = false /\ ce_sync e' = true) /\
  (bind_ok st c -> converged g st c st' c').
Proof.
  intros W Wc Cs Ccs Cc Ccc E. pose proof (uss_wf_local g st c W (proj2 Wc)) as W1.
  assert (Q : err = false /\ all_ok log /\ c_node c' = Some (g_ni g)).
  { rewrite sync_full_nofault in E.
    destruct (sync_changes g os oc (uss_apply g st c) c []) as [[[[st2 c2] fs2] lb] e2] eqn:E2.
    injection E as <- <- <- <- <-.
    assert (Hn : l_node (uss_apply g st c) = true -> c_node c = Some (g_ni g)).
    { cbn. destruct (bool_decide (c_node c = Some (g_ni g))) eqn:B; [intros _; apply bool_decide_eq_true in B; exact B|discriminate]. }
    destruct (sync_changes_quiet W1 Hn E2) as (-> & Hl & Hnode).
    repeat split; auto. intros ev [<-|[<-|Hin]]; auto. }
  destruct Q as (-> & Hl & Hnode).
  destruct (sync_full_settled W (proj2 Wc) Cs Ccs Cc Ccc E) as [Ss Sc].
  assert (Ls : forall id e', l_svcs st' !! id = Some e' -> se_del e' = false /\ se_sync e' = true).
  { intros id e' L'. destruct (Ss id e' L') as [Sy Hd]. split; [|exact Sy].
    destruct (se_del e'); [|reflexivity]. destruct (Hd eq_refl) as (ev & Hin & _ & _ & R).
    rewrite (Hl ev Hin) in R. discriminate. }
  assert (Lc : forall id e', l_chks st' !! id = Some e' -> ce_del e' = false /\ ce_sync e' = true).
  { intros id e' L'. destruct (Sc id e' L') as [Sy Hd]. split; [|exact Sy].
    destruct (ce_del e'); [|reflexivity]. destruct (Hd eq_refl) as (ev & Hin & _ & _ & R).
    rewrite (Hl ev Hin) in R. discriminate. }
  pose proof (no_false_insync_full W (proj2 Wc) E) as [(_ & _ & X)|[NFs NFc]]; [discriminate|].
  apply sync_full_cases in E as [(_ & _ & X)|(fs1 & la & lb & E & ->)]; [discriminate|].
  destruct (sync_changes_wf W1 Wc E) as [W' Wc'].
  destruct (sync_full_frame W Wc E) as (Fs & Ks & Fc & Kc & Ns & Nc).
  split; [reflexivity|]. split; [exact W'|]. split; [exact Wc'|]. split; [exact Ls|]. split; [exact Lc|].
  intros B. split.
  - intros id e' L'. destruct (Ls id e' L') as [D S]. eauto.
  - exact Ks.
  - intros id e' L'. destruct (Lc id e' L') as [D S]. eauto.
  - exact Kc.
  - intros id. destruct (l_svcs st' !! id) as [e'|] eqn:L'; [right|exact (Ns id L')].
    destruct (Ls id e' L') as [D S]. destruct (proj1 W' id e' L' D) as [d F]. rewrite F.
    destruct (NFs id e' d L' S D F) as [Hh|(ev & Hin & R & _)]; [exact Hh|].
    rewrite (Hl ev Hin) in R. discriminate.
  - intros id e d L' F. destruct (Lc id e L') as [D S].
    destruct (NFc id e d L' S D F) as [Hh|(ev & Hin & R & _)]; [exact Hh|].
    rewrite (Hl ev Hin) in R. discriminate.
  - exact (Nc B).
  - exact Hnode.
Qed.

Theorem converges g os oc st c st' c' fs' log err :
  wf_local st -> wf_cat c -> bind_ok st c ->
  covers (l_svcs st) os -> covers (c_svcs c) os -> covers (l_chks st) oc -> covers (c_chks c) oc ->
  sync_full g os oc st c [] = (st', c', fs', log, err) ->
  err = false /\ converged g st c st' c'.
Proof.
  intros W Wc B C1 C2 C3 C4 E.
  destruct (sync_full_ok W Wc C1 C2 C3 C4 E) as (-> & _ & _ & _ & _ & H). auto.
Qed.

Definition pushed_svc (log : list event) (id : N) : Prop :=
  exists ev, In ev log /\ e_kind ev = KSyncSvc /\ e_id ev = id.
Definition pushed_chk (log : list event) (id : N) : Prop :=
  exists ev, In ev log /\ ((e_kind ev = KSyncChk /\ e_id ev = id) \/ (e_kind ev = KSyncSvc /\ In id (e_pig ev))).
Definition node_failed (log : list event) : Prop :=
  exists ev, In ev log /\ e_kind ev = KNodeInfo /\ e_out ev = OFail.

(* a partial sync issues the RPC every visited entry waits for (a check marked deleted may instead
   be dropped with its service), unless the node-info registration failed first: SyncChanges
   returns at once in that case.  The entry stays literally the same until its RPC ([svc_at_touch],
   [chk_at_touch]) and a visit that still finds it issues the RPC ([step_svc_spec]). *)
Lemma visited_waiting {g os oc st c fs st' c' fs' log err} :
  sync_changes g os oc st c fs = (st', c', fs', log, err) ->
  node_failed log \/
  ((forall id e, l_svcs st !! id = Some e -> rpc_s e = true -> In id os ->
      logged (fun ev => e_kind ev = kind_s e /\ e_id ev = id) log) /\
   (forall id e, l_chks st !! id = Some e -> rpc_c e = true -> In id oc ->
      logged (chk_rpc (ce_del e) id) log \/ (ce_del e = true /\ l_chks st' !! id = None))).
Proof.
  intros E. destruct (sync_changes_cases g os oc st c fs) as (a1 & H1 & [(E1 & _ & NF)|(E1 & _)]); rewrite E in E1.
  { left. rewrite <- E1 in NF. exact NF. }
  right.
  split; intros id e L R Hin.
  - set (P := fun ev => e_kind ev = kind_s e /\ e_id ev = id).
    set (IV := fun a : acc => l_svcs (st_of a) !! id = Some e \/ logged P (log_of a)).
    assert (Keep : forall a a', iteration g a a' -> IV a -> IV a').
    { intros a a' H [La|Ra]; [|right; eapply logged_iteration; eauto].
      destruct H as [->|(ev & Hs & Hl & _)]; [left; exact La|].
      destruct (svc_at_touch (Step_svc_at id Hs) La) as [?|?]; [left; assumption|].
      right. rewrite Hl. apply logged_last. assumption. }
    assert (R2 : logged P (log_of (fold_left (step_svc g) os a1))).
    { apply (fold_visit (step_svc g) IV (fun a => logged P (log_of a)) id os); auto.
      - intros a x. apply Keep, step_svc_iteration.
      - intros a x _. apply logged_iteration with (g := g), step_svc_iteration.
      - intros a [La|Ra]; [|eapply logged_iteration; [apply step_svc_iteration|exact Ra]].
        generalize (step_svc_spec g a id). rewrite La, R. intros (ev & (_ & -> & _) & K). apply logged_last. exact K.
      - apply (Keep _ _ H1). left. exact L. }
    apply (fold_keep (step_chk g) (fun a => logged P (log_of a)) oc) in R2; [rewrite <- E1 in R2; exact R2|].
    intros a x. apply logged_iteration with (g := g), step_chk_iteration.
  - set (R' := fun a : acc => logged (chk_rpc (ce_del e) id) (log_of a) \/ (ce_del e = true /\ l_chks (st_of a) !! id = None)).
    set (IV := fun a : acc => l_chks (st_of a) !! id = Some e \/ R' a).
    (* an absent check does not come back *)
    assert (RKeep : forall a a', iteration g a a' -> R' a -> R' a').
    { intros a a' H [Ra|[D Na]]; [left; eapply logged_iteration; eauto|right; split; [exact D|]].
      destruct H as [->|(ev & Hs & _)]; [exact Na|].
      destruct (l_chks (st_of a') !! id) as [y|] eqn:Ly; [|reflexivity].
      destruct (chk_at_back (Step_chk_at id Hs) Ly) as (y1 & Ly1 & _). congruence. }
    assert (Keep : forall a a', iteration g a a' -> IV a -> IV a').
    { intros a a' H [La|Ra]; [|right; eapply RKeep; eauto].
      destruct H as [->|(ev & Hs & Hl & _)]; [left; exact La|].
      destruct (chk_at_touch (Step_chk_at id Hs) La) as [?|[?|?]]; [left; assumption| |right; right; assumption].
      right; left. rewrite Hl. apply logged_last. assumption. }
    assert (I2 : IV (fold_left (step_svc g) os a1)).
    { apply fold_keep; [intros a x; apply Keep, step_svc_iteration|]. apply (Keep _ _ H1). left. exact L. }
    assert (R3 : R' (fold_left (step_chk g) oc (fold_left (step_svc g) os a1))).
    { apply (fold_visit (step_chk g) IV R' id oc); auto.
      - intros a x. apply Keep, step_chk_iteration.
      - intros a x _. apply RKeep, step_chk_iteration.
      - intros a [La|Ra]; [|eapply RKeep; [apply step_chk_iteration|exact Ra]].
        generalize (step_chk_spec g a id). rewrite La, R. intros (ev & (_ & Hl & _) & K & Id). left. rewrite Hl. apply logged_last.
        unfold chk_rpc, kind_c in *. destruct (ce_del e); auto. }
    rewrite <- E1 in R3. exact R3.
Qed.

(* the same in the vocabulary of the retry theorems *)
Theorem visited_rpc {g os oc st c fs st' c' fs' log err} :
  sync_changes g os oc st c fs = (st', c', fs', log, err) ->
  node_failed log \/
  ((forall id e, l_svcs st !! id = Some e -> In id os ->
      (se_del e = true -> del_svc_rpc log id) /\
      (se_del e = false -> se_sync e = false -> is_Some (se_def e) -> pushed_svc log id)) /\
   (forall id e, l_chks st !! id = Some e -> In id oc ->
      (ce_del e = true -> del_chk_rpc log id \/ l_chks st' !! id = None) /\
      (ce_del e = false -> ce_sync e = false -> is_Some (ce_def e) -> pushed_chk log id))).
Proof.
  intros E. destruct (visited_waiting E) as [NF|[Hs Hc]]; [auto|right].
  split; intros id e L Hin.
  - specialize (Hs id e L). unfold rpc_s, kind_s in Hs. split.
    + intros D. rewrite D in Hs. exact (Hs eq_refl Hin).
    + intros D S [d F]. rewrite D, S, F in Hs. exact (Hs eq_refl Hin).
  - specialize (Hc id e L). unfold rpc_c in Hc. split.
    + intros D. rewrite D in Hc. destruct (Hc eq_refl Hin) as [?|[_ ?]]; auto.
    + intros D S [d F]. rewrite D, S, F in Hc. destruct (Hc eq_refl Hin) as [?|[? _]]; [assumption|discriminate].
Qed.
