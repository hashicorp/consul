(* C16 — one partial sync (SyncChanges) and one full sync (SyncFull), for every fault list and every
   visiting order: no false in-sync mark, deletions of services remembered (for checks: Properties/C16.v,
   from [sync_changes_INVK]).  The service half needs no hypothesis on the local state. *)
From Verif Require Import Base.Prelude AE.Model AE.Basics AE.Steps AE.Inv.
From stdpp Require Import gmap.

Lemma sync_changes_INVS {g os oc st c fs st' c' fs' log err} :
  sync_changes g os oc st c fs = (st', c', fs', log, err) -> INVS st c st' c' log.
Proof.
  apply (sync_changes_inv g (INVS st c)); [intros; eapply INVS_step; eauto|intros id; apply inv_s_init].
Qed.

Lemma sync_changes_INV {g os oc st c fs st' c' fs' log err} :
  wf_local st -> sync_changes g os oc st c fs = (st', c', fs', log, err) -> INV st c st' c' log.
Proof.
  intros W. apply (sync_changes_inv g (INV st c)); [intros; eapply INV_step; eauto|apply INV_init; exact W].
Qed.

Lemma sync_changes_INVK {g os oc st c fs st' c' fs' log err} :
  wf_local st -> wf_cat c -> bind_ok st c ->
  sync_changes g os oc st c fs = (st', c', fs', log, err) -> INVK st c st' c'.
Proof.
  intros W Wc B E.
  apply (sync_changes_inv g (fun st' c' log => INV st c st' c' log /\ INVK st c st' c')) in E.
  - exact (proj2 E).
  - intros ? ? ? ? ? ? [I J] Hs. split; [eapply INV_step; eauto|eapply INVK_step; eauto].
  - split; [apply INV_init; exact W|apply INVK_init; assumption].
Qed.

Lemma sync_changes_wf {g os oc st c fs st' c' fs' log err} :
  wf_local st -> wf_cat c -> sync_changes g os oc st c fs = (st', c', fs', log, err) -> wf_local st' /\ wf_cat c'.
Proof.
  intros W Wc. apply (sync_changes_inv g (fun st c _ => wf_local st /\ wf_cat c)); [|auto].
  intros s k l s' k' ev [Hw Hk] Hs. split; [eapply step_wf_local; eauto|eapply step_wf_cat; eauto].
Qed.

Theorem svc_any_changes {g os oc st c fs st' c' fs' log err} :
  sync_changes g os oc st c fs = (st', c', fs', log, err) ->
  (forall id e d, l_svcs st' !! id = Some e -> se_sync e = true -> se_del e = false -> se_def e = Some d ->
     holds_svc c' id d \/ refused_svc log id \/ l_svcs st !! id = Some e) /\
  (forall id e, l_svcs st !! id = Some e -> se_del e = true ->
     (exists e', l_svcs st' !! id = Some e' /\ se_del e' = true) \/ c_svcs c' !! id = None).
Proof.
  intros E. pose proof (sync_changes_INVS E) as I. split.
  - intros id e d L S D F. destruct (is_held (I id) e d L S D F) as [?|[?|[? _]]]; auto.
  - intros id e L D. destruct (l_svcs st' !! id) as [e'|] eqn:L'.
    + left. exists e'. split; [reflexivity|].
      destruct (is_back (I id) e' L') as (e0 & L0 & S0). apply sle_def in S0 as (_ & Sl & _). congruence.
    + right. exact (proj2 (is_gone (I id) e L L')).
Qed.

Lemma uss_held_svc g st c id e d :
  l_svcs (uss_apply g st c) !! id = Some e -> se_sync e = true -> se_del e = false -> se_def e = Some d ->
  holds_svc c id d.
Proof.
  intros L S D F. apply uss_svcs_Some in L. unfold holds_svc, uss_svc in *.
  destruct (l_svcs st !! id) as [e0|], (c_svcs c !! id) as [r|]; try discriminate.
  - destruct (se_del e0) eqn:D0; [injection L as <-; congruence|].
    destruct (se_def e0) as [d0|] eqn:F0; [|injection L as <-; congruence].
    injection L as <-. cbn in *. apply bool_decide_eq_true in S. congruence.
  - injection L as <-. cbn in S. discriminate.
  - injection L as <-. cbn in D. discriminate.
Qed.

(* after the diff a live check marked in sync is held — up to its Output when a deferred-output
   timer is pending (the diff blanks the Output on both sides in that case) *)
Lemma uss_held_chk g st c id e d :
  l_chks (uss_apply g st c) !! id = Some e -> ce_sync e = true -> ce_del e = false -> ce_def e = Some d ->
  holds_ce c id e d.
Proof.
  intros L S D F. apply uss_chks_Some in L. unfold holds_ce, holds_chk_upto, uss_chk in *.
  destruct (l_chks st !! id) as [e0|], (c_chks c !! id) as [r|]; try discriminate.
  - destruct (ce_del e0) eqn:D0; [injection L as <-; congruence|].
    destruct (ce_def e0) as [d0|] eqn:F0; [|injection L as <-; congruence].
    injection L as <-. cbn in *. assert (d0 = d) by congruence. subst d0. exists r. split; [reflexivity|].
    destruct (g_interval g && ce_defer e0) eqn:B.
    + apply andb_true_iff in B as [_ B]. rewrite B. apply chk_isame_blank_core. exact S.
    + apply chk_isame_core. exact S.
  - injection L as <-. cbn in S. discriminate.
  - injection L as <-. cbn in D. discriminate.
Qed.

(* updateSyncState keeps every local entry, keeps it deleted if it was, keeps live definitions
   live; the entries it adds are deleted placeholders *)
Lemma uss_svcs_old g st c id e0 :
  l_svcs st !! id = Some e0 ->
  exists e, l_svcs (uss_apply g st c) !! id = Some e /\ se_del e = se_del e0 /\ se_tok e = se_tok e0 /\ se_loc e = se_loc e0 /\
            (se_del e0 = true -> se_def e = se_def e0) /\ (is_Some (se_def e0) -> is_Some (se_def e)).
Proof.
  intros L. rewrite (uss_svcs_local L). unfold uss_svc. destruct (c_svcs c !! id) as [r|].
  - destruct (se_del e0) eqn:D0; [exists e0; auto 10|].
    destruct (se_def e0) as [d0|] eqn:F0; [|exists e0; rewrite F0; auto 10].
    eexists. split; [reflexivity|]. cbn. repeat split; auto; try congruence; eauto.
  - exists (se_set_sync false e0). cbn. auto 10.
Qed.

Lemma uss_svcs_new {g st c id e} :
  l_svcs (uss_apply g st c) !! id = Some e -> l_svcs st !! id = None ->
  se_del e = true /\ se_def e = None /\ is_Some (c_svcs c !! id).
Proof.
  intros L N. apply uss_svcs_Some in L. rewrite N in L. unfold uss_svc in L.
  destruct (c_svcs c !! id); [|discriminate]. injection L as <-. cbn. eauto.
Qed.

Lemma uss_chks_old g st c id e0 :
  l_chks st !! id = Some e0 ->
  exists e, l_chks (uss_apply g st c) !! id = Some e /\ ce_del e = ce_del e0 /\ ce_def e = ce_def e0 /\
            ce_tok e = ce_tok e0 /\ ce_loc e = ce_loc e0.
Proof.
  intros L. rewrite (uss_chks_local L). unfold uss_chk. destruct (c_chks c !! id) as [r|].
  - destruct (ce_del e0) eqn:D0; [exists e0; auto|].
    destruct (ce_def e0) as [d0|] eqn:F0; [|exists e0; auto].
    eexists. split; [reflexivity|]. cbn. auto.
  - exists (ce_set_sync false e0). cbn. auto.
Qed.

Lemma uss_chks_new {g st c id e} :
  l_chks (uss_apply g st c) !! id = Some e -> l_chks st !! id = None ->
  ce_del e = true /\ ce_def e = None /\ is_Some (c_chks c !! id).
Proof.
  intros L N. apply uss_chks_Some in L. rewrite N in L. unfold uss_chk in L.
  destruct (c_chks c !! id); [|discriminate]. injection L as <-. cbn. eauto.
Qed.

Lemma uss_wf_local g st c : wf_local st -> c_svcs c !! 0%N = None -> wf_local (uss_apply g st c).
Proof.
  intros (W1 & W2 & W3) C0. split; [|split].
  - intros id e L D. destruct (l_svcs st !! id) as [e0|] eqn:L0.
    + destruct (uss_svcs_old g st c id e0 L0) as (e' & L' & Dl & _ & _ & _ & Fs). rewrite L in L'. injection L' as <-.
      apply Fs. apply (W1 id e0 L0). congruence.
    + destruct (uss_svcs_new L L0) as (D' & _). congruence.
  - intros id e L D. destruct (l_chks st !! id) as [e0|] eqn:L0.
    + destruct (uss_chks_old g st c id e0 L0) as (e' & L' & Dl & Fd & _). rewrite L in L'. injection L' as <-.
      destruct (W2 id e0 L0) as (d & Hd & Hs); [congruence|]. exists d. split; [congruence|].
      destruct Hs as [?|(s & Ls & Ds)]; [auto|]. right.
      destruct (uss_svcs_old g st c _ s Ls) as (s' & Ls' & Dl' & _). exists s'. split; [exact Ls'|congruence].
    + destruct (uss_chks_new L L0) as (D' & _). congruence.
  - rewrite uss_svcs_lookup, W3, C0. destruct (decide (g_consul g = 0%N)); reflexivity.
Qed.

Lemma uss_bind_ok g st c : bind_ok st c -> bind_ok (uss_apply g st c) c.
Proof.
  intros B id e d r L D F Lr. destruct (l_chks st !! id) as [e0|] eqn:L0.
  - destruct (uss_chks_old g st c id e0 L0) as (e' & L' & Dl & Fd & _). rewrite L in L'. injection L' as <-.
    apply (B id e0 d r L0); congruence.
  - destruct (uss_chks_new L L0) as (_ & F' & _). congruence.
Qed.

Lemma update_sync_state_cases g st c fs :
  (exists fs1 la, update_sync_state g st c fs = (st, fs1, la, true)) \/
  (exists fs1 la, update_sync_state g st c fs = (uss_apply g st c, fs1, la, false)).
Proof.
  unfold update_sync_state. destruct (next fs) as [o1 fs1]. destruct o1; eauto.
  destruct (next fs1) as [o2 fs2]. destruct o2; eauto.
Qed.

Lemma sync_full_cases {g os oc st c fs st' c' fs' log err} :
  sync_full g os oc st c fs = (st', c', fs', log, err) ->
  (st' = st /\ c' = c /\ err = true) \/
  (exists fs1 la lb, sync_changes g os oc (uss_apply g st c) c fs1 = (st', c', fs', lb, err) /\ log = la ++ lb).
Proof.
  unfold sync_full. destruct (update_sync_state_cases g st c fs) as [(fs1 & la & ->)|(fs1 & la & ->)].
  - intros [= <- <- <- <- <-]. left; auto.
  - destruct (sync_changes g os oc (uss_apply g st c) c fs1) as [[[[st2 c2] fs3] lb] e2] eqn:E.
    intros [= <- <- <- <- <-]. right. exists fs1, la, lb. split; [exact E|reflexivity].
Qed.

Lemma sync_full_wf {g os oc st c fs st' c' fs' log err} :
  wf_local st -> wf_cat c -> sync_full g os oc st c fs = (st', c', fs', log, err) -> wf_local st' /\ wf_cat c'.
Proof.
  intros W Wc E. apply sync_full_cases in E as [(-> & -> & _)|(fs1 & la & lb & E & _)]; [auto|].
  eapply sync_changes_wf; [apply uss_wf_local; [exact W|exact (proj2 Wc)]|exact Wc|exact E].
Qed.

(* after the diff no entry is in sync without being held, so the "it was like that before" case
   of the invariant is excluded *)
Lemma insync_after_diff_svc g os oc st c fs1 st' c' fs' la lb err :
  sync_changes g os oc (uss_apply g st c) c fs1 = (st', c', fs', lb, err) ->
  forall id e d, l_svcs st' !! id = Some e -> se_sync e = true -> se_del e = false -> se_def e = Some d ->
    holds_svc c' id d \/ refused_svc (la ++ lb) id.
Proof.
  intros E id e d L S D F. pose proof (sync_changes_INVS E id) as I.
  destruct (is_held I e d L S D F) as [?|[?|[L1 N]]]; auto.
  - right. apply logged_app. auto.
  - exfalso. apply N. eapply uss_held_svc; eauto.
Qed.

Lemma insync_after_diff_chk g os oc st c fs1 st' c' fs' la lb err :
  wf_local (uss_apply g st c) -> sync_changes g os oc (uss_apply g st c) c fs1 = (st', c', fs', lb, err) ->
  forall id e d, l_chks st' !! id = Some e -> ce_sync e = true -> ce_del e = false -> ce_def e = Some d ->
    holds_ce c' id e d \/ refused_chk (la ++ lb) id.
Proof.
  intros W1 E id e d L S D F. destruct (sync_changes_INV W1 E) as (_ & Ic & _).
  destruct (ic_held (Ic id) e d L S D F) as [?|[?|[L1 N]]]; auto.
  - right. apply logged_app. auto.
  - exfalso. apply N. eapply uss_held_chk; eauto.
Qed.

Theorem no_false_insync_full {g os oc st c fs st' c' fs' log err} :
  wf_local st -> c_svcs c !! 0%N = None ->
  sync_full g os oc st c fs = (st', c', fs', log, err) ->
  (st' = st /\ c' = c /\ err = true) \/
  ((forall id e d, l_svcs st' !! id = Some e -> se_sync e = true -> se_del e = false -> se_def e = Some d ->
      holds_svc c' id d \/ refused_svc log id) /\
   (forall id e d, l_chks st' !! id = Some e -> ce_sync e = true -> ce_del e = false -> ce_def e = Some d ->
      holds_ce c' id e d \/ refused_chk log id)).
Proof.
  intros W C0 E. apply sync_full_cases in E as [(-> & -> & ->)|(fs1 & la & lb & E & ->)]; [auto|]. right.
  split; [eapply insync_after_diff_svc; exact E|eapply insync_after_diff_chk; [exact (uss_wf_local g st c W C0)|exact E]].
Qed.

