(* C16 — pointwise lookup lemmas for every map operation the model performs.  Services and checks are
   two maps of two record types, so here and later most facts come in pairs with the same script; the
   check half differs where checks ride on a service registration or fall with their service. *)
From Verif Require Import Base.Prelude AE.Model.
From stdpp Require Import gmap.

Lemma next_nil : next [] = (OOk, []).
Proof. reflexivity. Qed.

Lemma In_keys {A} (m : gmap N A) k : In k (keys m) <-> is_Some (m !! k).
Proof.
  unfold keys. rewrite <- elem_of_list_In, elem_of_list_fmap. split.
  - intros [[k' v] [-> H]]. apply elem_of_map_to_list in H. eauto.
  - intros [v H]. exists (k, v). split; [reflexivity|]. apply elem_of_map_to_list. exact H.
Qed.

(* what of a check definition is the agent's: everything except ServiceName / ServiceTags
   (copied by the catalog from its service row) and an empty status (defaulted to critical).
   [ck_aux] is not in it: the catalog stores it, but HealthCheck.IsSame never looks at it, so
   "held" in the sense the agent can establish cannot include it (C16_ignored_fields_refuted) *)
Definition chk_core_upto (blank : bool) (d : chk) : N * N * N * N :=
  (ck_sid d, status_default (ck_status d), if blank then 0%N else ck_out d, ck_rest d).
Definition chk_core (d : chk) : N * N * N * N := chk_core_upto false d.

Lemma chk_core_upto_mono b b' r d :
  (b = true -> b' = true) -> chk_core_upto b r = chk_core_upto b d -> chk_core_upto b' r = chk_core_upto b' d.
Proof.
  unfold chk_core_upto. intros Hb [= E1 E2 E3 E4]. rewrite E1, E2, E4. destruct b'; [reflexivity|].
  destruct b; [discriminate (Hb eq_refl)|]. rewrite E3. reflexivity.
Qed.

Lemma status_default_idem s : status_default (status_default s) = status_default s.
Proof. unfold status_default. destruct (N.eqb_spec s 0) as [->|E]; [reflexivity|]. destruct (N.eqb_spec s 0); [contradiction|reflexivity]. Qed.

Lemma stamp_Some svcs d r :
  stamp svcs d = Some r ->
  chk_core r = chk_core d /\ (ck_sid d = 0%N \/ is_Some (svcs !! ck_sid d)).
Proof.
  unfold stamp, chk_core, chk_core_upto. destruct (N.eqb_spec (ck_sid d) 0) as [E|E].
  - intros [= <-]. cbn. rewrite status_default_idem. auto.
  - destruct (svcs !! ck_sid d) eqn:L; [|discriminate]. intros [= <-]. cbn. rewrite status_default_idem.
    split; [reflexivity|eauto].
Qed.

Lemma stamp_is_Some svcs d :
  ck_sid d = 0%N \/ is_Some (svcs !! ck_sid d) -> is_Some (stamp svcs d).
Proof.
  unfold stamp. destruct (N.eqb_spec (ck_sid d) 0) as [E|E]; [eauto|].
  intros [?|[s Hs]]; [contradiction|]. rewrite Hs. eauto.
Qed.

Lemma reg_svcs_lookup sv (m : gmap N svc) k :
  reg_svcs sv m !! k = match sv with
                       | Some (id, d) => if decide (id = k) then Some d else m !! k
                       | None => m !! k
                       end.
Proof.
  destruct sv as [[id d]|]; cbn [reg_svcs]; [|reflexivity].
  destruct (decide (id = k)) as [->|Hne]; [apply lookup_insert|apply lookup_insert_ne; exact Hne].
Qed.

Lemma reg_svcs_mono sv (m : gmap N svc) k : is_Some (m !! k) -> is_Some (reg_svcs sv m !! k).
Proof.
  rewrite reg_svcs_lookup. destruct sv as [[id d]|]; [|auto]. destruct (decide (id = k)); eauto.
Qed.

Definition forallb_kv {A} (f : N -> A -> bool) (m : gmap N A) : bool :=
  forallb (fun kv : N * A => f (fst kv) (snd kv)) (map_to_list m).

Lemma forallb_kv_spec {A} (f : N -> A -> bool) (m : gmap N A) :
  forallb_kv f m = true <-> (forall k v, m !! k = Some v -> f k v = true).
Proof.
  unfold forallb_kv. rewrite forallb_forall. split.
  - intros H k v Hk. apply (H (k, v)). apply elem_of_list_In, elem_of_map_to_list. exact Hk.
  - intros H [k v] Hin. apply elem_of_list_In, elem_of_map_to_list in Hin. exact (H k v Hin).
Qed.

Lemma forallb_kv_lookup {A} (f : N -> A -> bool) (m : gmap N A) k v :
  forallb_kv f m = true -> m !! k = Some v -> f k v = true.
Proof. intros H. exact (proj1 (forallb_kv_spec f m) H k v). Qed.

Lemma is_some_true {A} (o : option A) : is_some o = true <-> is_Some o.
Proof. destruct o; cbn; split; [eauto|reflexivity|discriminate|intros [x H]; discriminate H]. Qed.

Lemma chk_isame_core b d r : chk_isame d r = true -> chk_core_upto b r = chk_core_upto b d.
Proof.
  unfold chk_isame, chk_cmp, chk_core_upto. intros H. apply bool_decide_eq_true in H.
  injection H as E1 E2 E3 E4 E5 E6. rewrite E1, E2, E3, E4. reflexivity.
Qed.

Lemma chk_isame_blank_core d r : chk_isame (chk_blank d) (chk_blank r) = true -> chk_core_upto true r = chk_core_upto true d.
Proof. exact (chk_isame_core true (chk_blank d) (chk_blank r)). Qed.

Lemma keep_same_core old r : chk_core (keep_same old r) = chk_core r.
Proof.
  unfold keep_same. destruct old as [o|]; [|reflexivity]. destruct (chk_isame o r) eqn:E; [|reflexivity].
  symmetry. apply (chk_isame_core false). exact E.
Qed.

Lemma cat_register_Some {ni skip sv chks c c'} :
  cat_register ni skip sv chks c = Some c' ->
  c_node c' = reg_node ni skip (c_node c) /\
  c_svcs c' = reg_svcs sv (c_svcs c) /\
  c_chks c' = merge (reg_chk (reg_svcs sv (c_svcs c))) chks (c_chks c) /\
  (forall k d, chks !! k = Some d -> is_Some (stamp (reg_svcs sv (c_svcs c)) d)).
Proof.
  unfold cat_register.
  destruct (forallb _ _) eqn:F; [|discriminate]. intros [= <-]. cbn.
  repeat split. intros k d Hk. apply is_some_true.
  exact (forallb_kv_lookup (fun _ d => is_some (stamp (reg_svcs sv (c_svcs c)) d)) chks k d F Hk).
Qed.

Lemma cat_register_ok ni skip sv chks c :
  (forall k d, chks !! k = Some d -> is_Some (stamp (reg_svcs sv (c_svcs c)) d)) ->
  is_Some (cat_register ni skip sv chks c).
Proof.
  intros H. unfold cat_register.
  assert (F : forallb_kv (fun _ d => is_some (stamp (reg_svcs sv (c_svcs c)) d)) chks = true).
  { apply forallb_kv_spec. intros k d Hk. apply is_some_true. eauto. }
  unfold forallb_kv in F. rewrite F. eauto.
Qed.

Lemma reg_chks_lookup svcs (chks old : gmap N chk) k :
  merge (reg_chk svcs) chks old !! k =
  match chks !! k with
  | Some d => match stamp svcs d with Some r => Some (keep_same (old !! k) r) | None => old !! k end
  | None => old !! k
  end.
Proof.
  rewrite lookup_merge. unfold reg_chk.
  destruct (chks !! k) as [d|], (old !! k); cbn; try reflexivity; destruct (stamp svcs d); reflexivity.
Qed.

Lemma chk_core_sid r d : chk_core r = chk_core d -> ck_sid r = ck_sid d.
Proof. unfold chk_core, chk_core_upto. congruence. Qed.

Lemma cat_register_chks {ni skip sv chks c c'} k :
  cat_register ni skip sv chks c = Some c' ->
  match chks !! k with
  | Some d => exists r, c_chks c' !! k = Some r /\ chk_core r = chk_core d /\
                        (ck_sid d = 0%N \/ is_Some (c_svcs c' !! ck_sid d))
  | None => c_chks c' !! k = c_chks c !! k
  end.
Proof.
  intros R. apply cat_register_Some in R as (_ & Hs & Hc & Hall). rewrite Hc, Hs, reg_chks_lookup.
  destruct (chks !! k) as [d|] eqn:Lk; [|reflexivity].
  destruct (Hall k d Lk) as [r Hr]. rewrite Hr. apply stamp_Some in Hr as [Hr Hsv].
  eexists. split; [reflexivity|]. rewrite keep_same_core. auto.
Qed.

Lemma dereg_svc_svcs id c k :
  c_svcs (cat_dereg_svc id c) !! k = if decide (id = k) then None else c_svcs c !! k.
Proof.
  unfold cat_dereg_svc. destruct (c_svcs c !! id) eqn:L; cbn.
  - destruct (decide (id = k)) as [->|Hne]; [apply lookup_delete|apply lookup_delete_ne; exact Hne].
  - destruct (decide (id = k)) as [->|Hne]; [exact L|reflexivity].
Qed.

Lemma dereg_svc_chks id c k :
  c_chks (cat_dereg_svc id c) !! k =
  match c_svcs c !! id with
  | None => c_chks c !! k
  | Some _ => match c_chks c !! k with
              | Some r => if decide (ck_sid r = id) then None else Some r
              | None => None
              end
  end.
Proof.
  unfold cat_dereg_svc. destruct (c_svcs c !! id) eqn:L; cbn; [|reflexivity].
  destruct (c_chks c !! k) as [r|] eqn:Lk.
  - destruct (decide (ck_sid r = id)) as [E|E].
    + apply map_filter_lookup_None. right. intros r' Hr'. cbn. rewrite Lk in Hr'. injection Hr' as <-. tauto.
    + apply map_filter_lookup_Some. split; [exact Lk|exact E].
  - apply map_filter_lookup_None. left. exact Lk.
Qed.

Lemma dereg_svc_node id c : c_node (cat_dereg_svc id c) = c_node c.
Proof. unfold cat_dereg_svc. destruct (c_svcs c !! id); reflexivity. Qed.

Lemma dereg_svc_chks_cases id c k :
  c_chks (cat_dereg_svc id c) !! k = c_chks c !! k \/
  (c_chks (cat_dereg_svc id c) !! k = None /\ exists r, c_chks c !! k = Some r /\ ck_sid r = id).
Proof.
  rewrite dereg_svc_chks. destruct (c_svcs c !! id); [|auto].
  destruct (c_chks c !! k) as [r|]; [|auto]. destruct (decide (ck_sid r = id)); eauto.
Qed.

Lemma pig_of_lookup g id tok (m : gmap N centry) k :
  pig_of g id tok m !! k =
  match m !! k with Some e => if is_pig g id tok e then ce_def e else None | None => None end.
Proof. unfold pig_of. rewrite lookup_omap. destruct (m !! k); reflexivity. Qed.

Lemma mark_pig_lookup g id tok (m : gmap N centry) k :
  mark_pig g id tok m !! k =
  match m !! k with Some e => Some (if is_pig g id tok e then ce_set_sync true e else e) | None => None end.
Proof. unfold mark_pig. rewrite lookup_fmap. destruct (m !! k); reflexivity. Qed.

Lemma is_pig_spec {g id tok e} :
  is_pig g id tok e = true ->
  exists d, ce_def e = Some d /\ ce_del e = false /\ ce_sync e = false /\ ck_sid d = id.
Proof.
  unfold is_pig. destruct (ce_def e) as [d|]; [|discriminate].
  intros H. repeat (apply andb_true_iff in H as [H ?]).
  exists d. repeat split; try (apply negb_true_iff; assumption). apply N.eqb_eq. assumption.
Qed.

Lemma pig_cases g id tok (m : gmap N centry) k :
  (mark_pig g id tok m !! k = m !! k /\ pig_of g id tok m !! k = None) \/
  (exists x d, m !! k = Some x /\ ce_del x = false /\ ce_sync x = false /\ ce_def x = Some d /\
               mark_pig g id tok m !! k = Some (ce_set_sync true x) /\ pig_of g id tok m !! k = Some d).
Proof.
  rewrite mark_pig_lookup, pig_of_lookup. destruct (m !! k) as [x|]; [|auto].
  destruct (is_pig g id tok x) eqn:P; [|auto].
  destruct (is_pig_spec P) as (d & F & D & S & _). right. exists x, d. rewrite F. auto 10.
Qed.

Lemma prune_lookup_Some id (m : gmap N centry) k e :
  prune_chks id m !! k = Some e <-> m !! k = Some e /\ prunable id e = false.
Proof. unfold prune_chks. rewrite map_filter_lookup_Some. reflexivity. Qed.

Lemma prune_lookup_None id (m : gmap N centry) k :
  prune_chks id m !! k = None <-> m !! k = None \/ exists e, m !! k = Some e /\ prunable id e = true.
Proof.
  unfold prune_chks. rewrite map_filter_lookup_None. split.
  - intros [H|H]; [auto|]. destruct (m !! k) as [e|] eqn:L; [|auto]. right. exists e. split; [reflexivity|].
    specialize (H e eq_refl). cbn in H. destruct (prunable id e); [reflexivity|contradiction H; reflexivity].
  - intros [H|[e [L P]]]; [auto|]. right. intros e' L'. rewrite L in L'. injection L' as <-. cbn. congruence.
Qed.

Lemma prunable_spec id e :
  prunable id e = true <-> ce_del e = true /\ exists d, ce_def e = Some d /\ ck_sid d = id.
Proof.
  unfold prunable. split.
  - intros H. apply andb_true_iff in H as [H1 H2]. split; [exact H1|].
    destruct (ce_def e) as [d|]; [|discriminate]. exists d. split; [reflexivity|apply N.eqb_eq; exact H2].
  - intros [H1 [d [H2 H3]]]. rewrite H1, H2. cbn. apply N.eqb_eq. exact H3.
Qed.

Lemma prune_cases id (m : gmap N centry) k :
  prune_chks id m !! k = m !! k \/
  (prune_chks id m !! k = None /\
   exists e d, m !! k = Some e /\ ce_del e = true /\ ce_def e = Some d /\ ck_sid d = id).
Proof.
  destruct (m !! k) as [e|] eqn:L.
  - destruct (prunable id e) eqn:P.
    + right. split; [apply prune_lookup_None; eauto|]. apply prunable_spec in P as (D & d & F & S). eauto 6.
    + left. apply prune_lookup_Some. auto.
  - left. apply prune_lookup_None. auto.
Qed.

Lemma exempt_lookup {A} id (loc m : gmap N A) k :
  exempt id loc m !! k = if decide (id = k) then (match loc !! id with None => None | Some _ => m !! k end) else m !! k.
Proof.
  unfold exempt. destruct (loc !! id) eqn:L.
  - destruct (decide (id = k)); reflexivity.
  - destruct (decide (id = k)) as [->|Hne]; [apply lookup_delete|apply lookup_delete_ne; exact Hne].
Qed.

Lemma uss_svcs_lookup g st c k :
  l_svcs (uss_apply g st c) !! k =
  if decide (g_consul g = k)
  then match l_svcs st !! k with None => None | Some _ => uss_svc (l_svcs st !! k) (c_svcs c !! k) end
  else uss_svc (l_svcs st !! k) (c_svcs c !! k).
Proof.
  cbn. rewrite exempt_lookup, lookup_merge.
  destruct (decide (g_consul g = k)) as [->|Hne].
  - destruct (l_svcs st !! k), (c_svcs c !! k); reflexivity.
  - destruct (l_svcs st !! k), (c_svcs c !! k); reflexivity.
Qed.

Lemma uss_chks_lookup g st c k :
  l_chks (uss_apply g st c) !! k =
  if decide (g_serf g = k)
  then match l_chks st !! k with None => None | Some _ => uss_chk (g_interval g) (l_chks st !! k) (c_chks c !! k) end
  else uss_chk (g_interval g) (l_chks st !! k) (c_chks c !! k).
Proof.
  cbn. rewrite exempt_lookup, lookup_merge.
  destruct (decide (g_serf g = k)) as [->|Hne].
  - destruct (l_chks st !! k), (c_chks c !! k); reflexivity.
  - destruct (l_chks st !! k), (c_chks c !! k); reflexivity.
Qed.

Lemma uss_svcs_Some {g st c k e} :
  l_svcs (uss_apply g st c) !! k = Some e -> uss_svc (l_svcs st !! k) (c_svcs c !! k) = Some e.
Proof.
  rewrite uss_svcs_lookup. destruct (decide (g_consul g = k)); [|auto].
  destruct (l_svcs st !! k); [auto|discriminate].
Qed.

Lemma uss_svcs_local {g st c k e0} :
  l_svcs st !! k = Some e0 -> l_svcs (uss_apply g st c) !! k = uss_svc (Some e0) (c_svcs c !! k).
Proof. intros L. rewrite uss_svcs_lookup, L. destruct (decide (g_consul g = k)); reflexivity. Qed.

Lemma uss_chks_Some {g st c k e} :
  l_chks (uss_apply g st c) !! k = Some e -> uss_chk (g_interval g) (l_chks st !! k) (c_chks c !! k) = Some e.
Proof.
  rewrite uss_chks_lookup. destruct (decide (g_serf g = k)); [|auto].
  destruct (l_chks st !! k); [auto|discriminate].
Qed.

Lemma uss_chks_local {g st c k e0} :
  l_chks st !! k = Some e0 ->
  l_chks (uss_apply g st c) !! k = uss_chk (g_interval g) (Some e0) (c_chks c !! k).
Proof. intros L. rewrite uss_chks_lookup, L. destruct (decide (g_serf g = k)); reflexivity. Qed.
