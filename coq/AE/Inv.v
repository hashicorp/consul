(* C16 — the vocabulary of the sync theorems, what one RPC does at one id ([svc_at], [chk_at]), and
   the invariant of a SyncChanges pass, kept per id. *)
From Verif Require Import Base.Prelude AE.Model AE.Basics AE.Steps.
From stdpp Require Import gmap.

(* the catalog holds a service definition exactly; it holds a check definition up to the two
   fields it copies from its own service row (ServiceName, ServiceTags) *)
Definition holds_svc (c : cat) (id : N) (d : svc) : Prop := c_svcs c !! id = Some d.
Definition holds_chk_upto (blank : bool) (c : cat) (id : N) (d : chk) : Prop :=
  exists r, c_chks c !! id = Some r /\ chk_core_upto blank r = chk_core_upto blank d.
Definition holds_chk (c : cat) (id : N) (d : chk) : Prop := holds_chk_upto false c id d.
(* what can be said of a local entry: held, up to the Output while its deferred-output timer is
   pending (UpdateCheck with CheckUpdateInterval > 0 changes the local Output without a push) *)
Definition holds_ce (c : cat) (id : N) (e : centry) (d : chk) : Prop := holds_chk_upto (ce_defer e) c id d.

Lemma holds_chk_upto_mono b b' c id d : (b = true -> b' = true) -> holds_chk_upto b c id d -> holds_chk_upto b' c id d.
Proof. intros Hb (r & L & E). exists r. split; [exact L|exact (chk_core_upto_mono _ _ _ _ Hb E)]. Qed.

Global Instance holds_svc_dec c id d : Decision (holds_svc c id d).
Proof. unfold holds_svc. apply _. Defined.

Lemma holds_chk_dec b c id d : holds_chk_upto b c id d \/ ~ holds_chk_upto b c id d.
Proof.
  unfold holds_chk_upto. destruct (c_chks c !! id) as [r|] eqn:L.
  - destruct (decide (chk_core_upto b r = chk_core_upto b d)) as [E|E].
    + left. eauto.
    + right. intros [r' [[= <-] H]]. contradiction.
  - right. intros [r' [H _]]. discriminate.
Qed.

(* the registration of the entry was refused by ACLs (permission denied / ACL not found) in
   this log: for a check either its own registration, or the service registration it rode on *)
Definition refused_svc (log : list event) (id : N) : Prop :=
  exists ev, In ev log /\ refusal (e_out ev) = true /\ e_kind ev = KSyncSvc /\ e_id ev = id.
Definition refused_chk (log : list event) (id : N) : Prop :=
  exists ev, In ev log /\ refusal (e_out ev) = true /\
             ((e_kind ev = KSyncChk /\ e_id ev = id) \/ (e_kind ev = KSyncSvc /\ In id (e_pig ev))).

(* agent-style local state: live entries have definitions; a live check is a node check or
   belongs to a live service ("a service is removed together with its checks"); no service has the
   id 0, which as a check's ServiceID means "" = node-level check *)
Definition wf_local (st : lstate) : Prop :=
  (forall id e, l_svcs st !! id = Some e -> se_del e = false -> is_Some (se_def e)) /\
  (forall id e, l_chks st !! id = Some e -> ce_del e = false ->
     exists d, ce_def e = Some d /\
               (ck_sid d = 0%N \/ exists s, l_svcs st !! ck_sid d = Some s /\ se_del s = false)) /\
  l_svcs st !! 0%N = None.

(* what the state store guarantees (C07): no check without its service; and no service row 0, the
   ServiceID of node-level checks *)
Definition wf_cat (c : cat) : Prop :=
  (forall id r, c_chks c !! id = Some r -> ck_sid r = 0%N \/ is_Some (c_svcs c !! ck_sid r)) /\
  c_svcs c !! 0%N = None.

Definition bind_ok (st : lstate) (c : cat) : Prop :=
  forall id e d r, l_chks st !! id = Some e -> ce_del e = true -> ce_def e = Some d ->
                   c_chks c !! id = Some r -> ck_sid r = ck_sid d.

(* an entry [e] after some sync steps, against the entry [e0] before them *)
Definition sle (e e0 : sentry) : Prop := e = e0 \/ e = se_set_sync true e0.

Definition cle (e e0 : centry) : Prop :=
  e = e0 \/ (ce_sync e0 = false /\ ce_def e = ce_def e0 /\ ce_del e = ce_del e0 /\ (ce_defer e = true -> ce_defer e0 = true)).

Lemma sle_refl e : sle e e. Proof. left; reflexivity. Qed.
Lemma cle_refl e : cle e e. Proof. left; reflexivity. Qed.
Lemma sle_mark e e0 : sle e e0 -> sle (se_set_sync true e) e0.
Proof. intros [->| ->]; right; reflexivity. Qed.
Lemma cle_mark e : cle (ce_set_sync true e) e.
Proof. destruct (ce_sync e) eqn:S; [left; destruct e; cbn in *; subst; reflexivity|right; cbn; auto 10]. Qed.
Lemma cle_clear e : ce_sync e = false -> cle (ce_clear_defer e) e.
Proof. intros S. right. cbn. repeat split; auto; discriminate. Qed.
Lemma cle_mark_clear e : ce_sync e = false -> cle (ce_set_sync true (ce_clear_defer e)) e.
Proof. intros S. right. cbn. repeat split; auto; discriminate. Qed.
Lemma cle_defer e e0 : cle e e0 -> ce_defer e = true -> ce_defer e0 = true.
Proof. intros [->|(_ & _ & _ & H)]; auto. Qed.
Lemma cle_sync e e0 : cle e e0 -> ce_sync e0 = true -> e = e0.
Proof. intros [->|(S & _)] H; [reflexivity|congruence]. Qed.
Lemma sle_sync e e0 : sle e e0 -> se_sync e0 = true -> e = e0.
Proof. intros [->| ->] H; [reflexivity|]. destruct e0; cbn in *; subst; reflexivity. Qed.
Lemma sle_def e e0 : sle e e0 -> se_def e = se_def e0 /\ se_del e = se_del e0 /\ se_tok e = se_tok e0 /\ se_loc e = se_loc e0.
Proof. intros [->| ->]; auto. Qed.
Lemma cle_def e e0 : cle e e0 -> ce_def e = ce_def e0 /\ ce_del e = ce_del e0.
Proof. intros [->|(_ & H1 & H2 & _)]; auto. Qed.

(* the local service entry [id] and the catalog's service row [id] across one step: untouched
   (the row possibly overwritten with the entry's own definition, carried by a check push), its
   own registration, its own deregistration done, its own deregistration refused *)
Inductive svc_at (st : lstate) (c : cat) (st' : lstate) (c' : cat) (ev : event) (id : N) : Prop :=
| sa_same
    (Same : l_svcs st' !! id = l_svcs st !! id)
    (Row : c_svcs c' !! id = c_svcs c !! id \/
           exists e d, l_svcs st !! id = Some e /\ se_del e = false /\ se_def e = Some d /\ c_svcs c' !! id = Some d)
| sa_push e d
    (L : l_svcs st !! id = Some e) (D : se_del e = false) (S : se_sync e = false) (F : se_def e = Some d)
    (L' : l_svcs st' !! id = Some (se_set_sync true e)) (K : e_kind ev = KSyncSvc) (Id : e_id ev = id)
    (Row : c_svcs c' !! id = Some d \/ (refusal (e_out ev) = true /\ c_svcs c' !! id = c_svcs c !! id))
| sa_gone e
    (L : l_svcs st !! id = Some e) (D : se_del e = true) (N' : l_svcs st' !! id = None)
    (Row : c_svcs c' !! id = None) (K : e_kind ev = KDelSvc) (Id : e_id ev = id)
| sa_kept e
    (L : l_svcs st !! id = Some e) (D : se_del e = true) (L' : l_svcs st' !! id = Some (se_set_sync true e))
    (Row : c_svcs c' !! id = c_svcs c !! id) (R : refusal (e_out ev) = true)
    (K : e_kind ev = KDelSvc) (Id : e_id ev = id).

Lemma Step_svc_at {g st c st' c' ev} id : Step g st c st' c' ev -> svc_at st c st' c' ev id.
Proof.
  intros H. destruct H; try (apply sa_same; auto; fail).
  - (* St_svc_ok *) apply cat_register_Some in R as (_ & Hs & _). cbn in Hs. destruct (decide (id0 = id)) as [->|Hne].
    + eapply sa_push; eauto; cbn; [apply lookup_insert|left; rewrite Hs; apply lookup_insert].
    + apply sa_same; cbn; [apply lookup_insert_ne; exact Hne|left; rewrite Hs; apply lookup_insert_ne; exact Hne].
  - (* St_svc_refused *) destruct (decide (id0 = id)) as [->|Hne].
    + eapply sa_push; eauto; cbn. apply lookup_insert.
    + apply sa_same; cbn; [apply lookup_insert_ne; exact Hne|auto].
  - (* St_delsvc_ok *) destruct (decide (id0 = id)) as [->|Hne].
    + eapply sa_gone; eauto; cbn; [apply lookup_delete|rewrite dereg_svc_svcs, decide_True; reflexivity].
    + apply sa_same; cbn; [apply lookup_delete_ne; exact Hne|left; rewrite dereg_svc_svcs, decide_False by exact Hne; reflexivity].
  - (* St_delsvc_unknown *) destruct (decide (id0 = id)) as [->|Hne].
    + eapply sa_gone; eauto; cbn. apply lookup_delete.
    + apply sa_same; cbn; [apply lookup_delete_ne; exact Hne|auto].
  - (* St_delsvc_refused *) destruct (decide (id0 = id)) as [->|Hne].
    + eapply sa_kept; eauto; cbn. apply lookup_insert.
    + apply sa_same; cbn; [apply lookup_insert_ne; exact Hne|auto].
  - (* St_chk_ok: the service row carried by a check push *) apply sa_same; [reflexivity|]. apply cat_register_Some in R as (_ & -> & _). rewrite reg_svcs_lookup.
    destruct (sync_sv st d) as [[sid sd]|] eqn:SV; [|auto].
    destruct (decide (sid = id)) as [->|Hne]; [|auto].
    apply sync_sv_Some in SV as (s & Ls & Ds & Fs). right. eauto 6.
Qed.

(* the same for the check entry [id] and the check row [id].  A live entry out of sync is pushed by
   its own registration or rides on the registration of its service; a row disappears by its own
   deregistration or by the cascade of a service deregistration; an entry marked deleted also
   disappears with its (deleted) service *)
Inductive chk_at (st : lstate) (c : cat) (st' : lstate) (c' : cat) (ev : event) (id : N) : Prop :=
| ca_same
    (Same : l_chks st' !! id = l_chks st !! id)
    (Row : c_chks c' !! id = c_chks c !! id \/
           (c_chks c' !! id = None /\
            exists s r, c_chks c !! id = Some r /\ l_svcs st !! ck_sid r = Some s /\ se_del s = true))
| ca_push e e' d
    (L : l_chks st !! id = Some e) (D : ce_del e = false) (S : ce_sync e = false) (F : ce_def e = Some d)
    (L' : l_chks st' !! id = Some e') (C' : cle e' e) (S' : ce_sync e' = true)
    (K : (e_kind ev = KSyncChk /\ e_id ev = id) \/ (e_kind ev = KSyncSvc /\ In id (e_pig ev)))
    (Row : (exists r, c_chks c' !! id = Some r /\ chk_core r = chk_core d) \/
           (refusal (e_out ev) = true /\ c_chks c' !! id = c_chks c !! id))
| ca_fail e
    (L : l_chks st !! id = Some e) (D : ce_del e = false) (S : ce_sync e = false)
    (L' : l_chks st' !! id = Some (ce_clear_defer e)) (Row : c_chks c' !! id = c_chks c !! id)
    (K : e_kind ev = KSyncChk) (Id : e_id ev = id)
| ca_gone e
    (L : l_chks st !! id = Some e) (D : ce_del e = true) (N' : l_chks st' !! id = None)
    (Row : (e_kind ev = KDelChk /\ e_id ev = id /\ c_chks c' !! id = None) \/
           exists d s, ce_def e = Some d /\ l_svcs st !! ck_sid d = Some s /\ se_del s = true /\
                       (c' = cat_dereg_svc (ck_sid d) c \/ (c' = c /\ c_svcs c !! ck_sid d = None)))
| ca_kept e
    (L : l_chks st !! id = Some e) (D : ce_del e = true) (L' : l_chks st' !! id = Some (ce_set_sync true e))
    (Row : c_chks c' !! id = c_chks c !! id) (R : refusal (e_out ev) = true)
    (K : e_kind ev = KDelChk) (Id : e_id ev = id).

Arguments ca_push {_ _ _ _ _ _} e e' d.

Lemma Step_chk_at {g st c st' c' ev} id : Step g st c st' c' ev -> chk_at st c st' c' ev id.
Proof.
  intros H. destruct H; try (apply ca_same; auto; fail).
  - (* St_svc_ok, a service registration: the checks riding on it *)
    pose proof (cat_register_chks id R) as Hc.
    destruct (pig_cases g id0 tok (l_chks st) id) as [[E P]|(x & dx & Lx & Dx & Sx & Fx & E & P)]; rewrite P in Hc.
    + apply ca_same; auto.
    + destruct Hc as (r & Lr & Cr & _).
      apply (ca_push x (ce_set_sync true x) dx); auto using cle_mark; cbn; [|eauto].
      right. split; [reflexivity|]. apply In_keys. rewrite P. eauto.
  - (* St_svc_refused *) destruct (pig_cases g id0 tok (l_chks st) id) as [[E P]|(x & dx & Lx & Dx & Sx & Fx & E & P)].
    + apply ca_same; auto.
    + apply (ca_push x (ce_set_sync true x) dx); auto using cle_mark; cbn.
      right. split; [reflexivity|]. apply In_keys. rewrite P. eauto.
  - (* St_delsvc_ok, a service deregistration: the local prune and the catalog's cascade *)
    destruct (prune_cases id0 (l_chks st) id) as [E|(E & x & dx & Lx & Dx & Fx & <-)].
    + apply ca_same; [exact E|]. destruct (dereg_svc_chks_cases id0 c id) as [?|(? & r & Lr & <-)]; [auto|].
      right. split; [assumption|]. eauto.
    + eapply ca_gone; eauto. right. exists dx, e. auto.
  - (* St_delsvc_unknown *) destruct (prune_cases id0 (l_chks st) id) as [E|(E & x & dx & Lx & Dx & Fx & <-)].
    + apply ca_same; auto.
    + eapply ca_gone; eauto. right. exists dx, e. auto 6.
  - (* St_chk_ok *) pose proof (cat_register_chks id R) as Hc.
    destruct (decide (id0 = id)) as [->|Hne].
    + rewrite lookup_singleton in Hc. destruct Hc as (r & Lr & Cr & _).
      apply (ca_push e (ce_set_sync true (ce_clear_defer e)) d); auto using cle_mark_clear; cbn; eauto.
      apply lookup_insert.
    + rewrite lookup_singleton_ne in Hc by exact Hne.
      apply ca_same; cbn; [apply lookup_insert_ne; exact Hne|auto].
  - (* St_chk_fail *) destruct (decide (id0 = id)) as [->|Hne].
    + eapply ca_fail; eauto; cbn. apply lookup_insert.
    + apply ca_same; cbn; [apply lookup_insert_ne; exact Hne|auto].
  - (* St_chk_refused *) destruct (decide (id0 = id)) as [->|Hne].
    + apply (ca_push e (ce_set_sync true (ce_clear_defer e)) d); auto using cle_mark_clear; cbn; auto.
      apply lookup_insert.
    + apply ca_same; cbn; [apply lookup_insert_ne; exact Hne|auto].
  - (* St_delchk_ok *) destruct (decide (id0 = id)) as [->|Hne].
    + eapply ca_gone; eauto; cbn; [apply lookup_delete|left; rewrite lookup_delete; auto].
    + apply ca_same; cbn; [apply lookup_delete_ne; exact Hne|left; apply lookup_delete_ne; exact Hne].
  - (* St_delchk_unknown *) destruct (decide (id0 = id)) as [->|Hne].
    + eapply ca_gone; eauto; cbn. apply lookup_delete.
    + apply ca_same; cbn; [apply lookup_delete_ne; exact Hne|auto].
  - (* St_delchk_refused *) destruct (decide (id0 = id)) as [->|Hne].
    + eapply ca_kept; eauto; cbn. apply lookup_insert.
    + apply ca_same; cbn; [apply lookup_insert_ne; exact Hne|auto].
Qed.

Lemma svc_at_back {st c st' c' ev id e} :
  svc_at st c st' c' ev id -> l_svcs st' !! id = Some e -> exists e1, l_svcs st !! id = Some e1 /\ sle e e1.
Proof.
  intros V Le. destruct V as [|e1 d|e1|e1].
  - rewrite Same in Le. eauto using sle_refl.
  - exists e1. split; [exact L|right; congruence].
  - congruence.
  - exists e1. split; [exact L|right; congruence].
Qed.

Lemma chk_at_back {st c st' c' ev id e} :
  chk_at st c st' c' ev id -> l_chks st' !! id = Some e -> exists e1, l_chks st !! id = Some e1 /\ cle e e1.
Proof.
  intros V Le. destruct V as [|e1 e' d|e1|e1|e1].
  - rewrite Same in Le. eauto using cle_refl.
  - exists e1. split; [exact L|congruence].
  - exists e1. split; [exact L|]. assert (e = ce_clear_defer e1) as -> by congruence. apply cle_clear. exact S.
  - congruence.
  - exists e1. split; [exact L|]. assert (e = ce_set_sync true e1) as -> by congruence. apply cle_mark.
Qed.

Lemma svc_at_gone {st c st' c' ev id e} :
  svc_at st c st' c' ev id -> l_svcs st !! id = Some e -> l_svcs st' !! id = None ->
  se_del e = true /\ c_svcs c' !! id = None.
Proof. intros V Le N. destruct V; split; congruence. Qed.

Lemma chk_at_gone {st c st' c' ev id e} :
  chk_at st c st' c' ev id -> l_chks st !! id = Some e -> l_chks st' !! id = None -> ce_del e = true.
Proof. intros V Le N. destruct V; congruence. Qed.

(* the RPC that a visit of check [id] waits for *)
Definition chk_rpc (del : bool) (id : N) (ev : event) : Prop :=
  if del then e_kind ev = KDelChk /\ e_id ev = id
  else (e_kind ev = KSyncChk /\ e_id ev = id) \/ (e_kind ev = KSyncSvc /\ In id (e_pig ev)).

Lemma svc_at_touch {st c st' c' ev id e} :
  svc_at st c st' c' ev id -> l_svcs st !! id = Some e ->
  l_svcs st' !! id = Some e \/ (e_kind ev = kind_s e /\ e_id ev = id).
Proof.
  unfold kind_s. intros V Le. destruct V as [|e1 d|e1|e1];
    [left; congruence|right..]; assert (e1 = e) by congruence; subst e1; rewrite D; auto.
Qed.

Lemma chk_at_touch {st c st' c' ev id e} :
  chk_at st c st' c' ev id -> l_chks st !! id = Some e ->
  l_chks st' !! id = Some e \/ chk_rpc (ce_del e) id ev \/ (ce_del e = true /\ l_chks st' !! id = None).
Proof.
  unfold chk_rpc. intros V Le. destruct V as [|e1 e' d|e1|e1|e1];
    [left; congruence|right..]; assert (e1 = e) by congruence; subst e1; rewrite D; auto.
Qed.

Lemma Step_own_svc {g st c st' c' ev e} :
  Step g st c st' c' ev -> l_svcs st !! e_id ev = Some e -> e_kind ev = KSyncSvc \/ e_kind ev = KDelSvc ->
  e_out ev = OFail \/ l_svcs st' !! e_id ev = None \/
  (l_svcs st' !! e_id ev = Some (se_set_sync true e) /\ (se_del e = true -> refusal (e_out ev) = true)).
Proof.
  intros H. destruct H; cbn; intros Le [K|K]; try discriminate K; auto;
    rewrite ?lookup_insert, ?lookup_delete; auto; right; right; (split; [congruence|intros; congruence]).
Qed.

Lemma Step_own_chk {g st c st' c' ev e} :
  Step g st c st' c' ev -> l_chks st !! e_id ev = Some e -> e_kind ev = KSyncChk \/ e_kind ev = KDelChk ->
  e_out ev = OFail \/ l_chks st' !! e_id ev = None \/
  (exists e', l_chks st' !! e_id ev = Some e' /\ ce_sync e' = true /\ ce_del e' = ce_del e /\
              (ce_del e = true -> refusal (e_out ev) = true)).
Proof.
  intros H. destruct H; cbn; intros Le [K|K]; try discriminate K; auto;
    rewrite ?lookup_insert, ?lookup_delete; auto; right; right;
    (eexists; split; [reflexivity|cbn; split; [reflexivity|split; [congruence|intros; congruence]]]).
Qed.

Lemma step_wf_local {g st c st' c' ev} : Step g st c st' c' ev -> wf_local st -> wf_local st'.
Proof.
  intros H (W1 & W2 & W3).
  assert (Bs : forall id e, l_svcs st' !! id = Some e -> exists e1, l_svcs st !! id = Some e1 /\ sle e e1)
    by (intros id e; exact (svc_at_back (Step_svc_at id H))).
  split; [|split].
  - intros id e L D. destruct (Bs id e L) as (e1 & L1 & S).
    apply sle_def in S as (Sd & Sl & _). rewrite Sd. apply (W1 id e1 L1). congruence.
  - intros id e L D. destruct (chk_at_back (Step_chk_at id H) L) as (e1 & L1 & S).
    apply cle_def in S as (Sd & Sl). rewrite Sd.
    destruct (W2 id e1 L1) as (d & Hd & Hs); [congruence|]. exists d. split; [exact Hd|].
    destruct Hs as [Hs|(s & Ls & Ds)]; [auto|]. right.
    destruct (l_svcs st' !! ck_sid d) as [s'|] eqn:L'.
    + destruct (Bs _ s' L') as (s1 & Ls1 & S1).
      apply sle_def in S1 as (_ & Sl1 & _). exists s'. split; [reflexivity|]. congruence.
    + destruct (svc_at_gone (Step_svc_at _ H) Ls L'). congruence.
  - destruct (l_svcs st' !! 0%N) as [e|] eqn:L; [|reflexivity].
    destruct (Bs _ e L) as (e1 & L1 & _). congruence.
Qed.

Lemma iteration_wf g a a' : iteration g a a' -> wf_local (st_of a) -> wf_local (st_of a').
Proof. intros [->|(ev & Hs & _)]; [auto|]. eapply step_wf_local; eauto. Qed.

Lemma cat_register_wf {ni skip sv chks c c'} :
  wf_cat c -> (forall id d, sv = Some (id, d) -> id <> 0%N) ->
  cat_register ni skip sv chks c = Some c' -> wf_cat c'.
Proof.
  intros (W1 & W2) Hsv R. pose proof (cat_register_Some R) as (_ & Hs & _). split.
  - intros id r L. pose proof (cat_register_chks id R) as Hc.
    destruct (chks !! id) as [d|].
    + destruct Hc as (r' & Lr' & Cr & Hd). assert (r' = r) by congruence. subst r'.
      rewrite (chk_core_sid _ _ Cr). exact Hd.
    + rewrite Hc in L. rewrite Hs. destruct (W1 id r L) as [?|?]; [auto|right; apply reg_svcs_mono; assumption].
  - rewrite Hs, reg_svcs_lookup. destruct sv as [[id d]|]; [|exact W2].
    destruct (decide (id = 0%N)) as [E|E]; [exfalso; exact (Hsv id d eq_refl E)|exact W2].
Qed.

Lemma dereg_svc_wf id c : wf_cat c -> wf_cat (cat_dereg_svc id c).
Proof.
  intros (W1 & W2). split.
  - intros k r L. rewrite dereg_svc_chks in L. rewrite dereg_svc_svcs.
    destruct (c_svcs c !! id) eqn:Ls.
    + destruct (c_chks c !! k) as [r'|] eqn:Lr; [|discriminate].
      destruct (decide (ck_sid r' = id)) as [E|E]; [discriminate|]. injection L as <-.
      destruct (decide (id = ck_sid r')) as [E'|E']; [congruence|]. exact (W1 k r' Lr).
    + destruct (decide (id = ck_sid r)) as [E'|E']; [|exact (W1 k r L)].
      destruct (W1 k r L) as [?|[s Hs]]; [auto|]. congruence.
  - rewrite dereg_svc_svcs. destruct (decide (id = 0%N)); [reflexivity|exact W2].
Qed.

Lemma dereg_chk_wf id c : wf_cat c -> wf_cat (cat_dereg_chk id c).
Proof.
  intros (W1 & W2). split; [|exact W2]. intros k r L. cbn in *.
  apply lookup_delete_Some in L as [_ L]. exact (W1 k r L).
Qed.

Lemma step_wf_cat {g st c st' c' ev} : Step g st c st' c' ev -> wf_local st -> wf_cat c -> wf_cat c'.
Proof.
  intros H (W1 & W2 & W3) Wc. destruct H; auto using dereg_svc_wf, dereg_chk_wf.
  - eapply cat_register_wf; [exact Wc| |eassumption]. intros i x [= <- <-] ->. congruence.
  - eapply cat_register_wf; [exact Wc| |eassumption]. intros i x SV ->.
    apply sync_sv_Some in SV as (s & Ls & _). congruence.
Qed.

Lemma step_bind_ok {g st c st' c' ev} : Step g st c st' c' ev -> bind_ok st c -> bind_ok st' c'.
Proof.
  intros H B id x d r Lx Dx Fx Lr.
  destruct (Step_chk_at id H) as [|e e2 d2|e|e|e].
  - (* ca_same *) rewrite Same in Lx. destruct Row as [E|[E _]]; [rewrite E in Lr; eauto|congruence].
  - (* ca_push *) apply cle_def in C' as (_ & C'). congruence.
  - (* ca_fail *) assert (x = ce_clear_defer e) by congruence. subst x. cbn in Dx. congruence.
  - (* ca_gone *) congruence.
  - (* ca_kept *) assert (x = ce_set_sync true e) by congruence. subst x. rewrite Row in Lr. exact (B id e d r L D Fx Lr).
Qed.

Lemma sle_trans e e1 e0 : sle e e1 -> sle e1 e0 -> sle e e0.
Proof. intros [->| ->] [->| ->]; unfold sle; auto. Qed.
Lemma cle_trans e e1 e0 : cle e e1 -> cle e1 e0 -> cle e e0.
Proof.
  intros [->|(S1 & A1 & B1 & F1)] H; [exact H|]. destruct H as [->|(S0 & A0 & B0 & F0)].
  - right. auto 10.
  - right. repeat split; try congruence. auto.
Qed.

(* service [id], from the start [st0], [c0] of the pass to the current step; needs no hypothesis on the states *)
Record inv_s (st0 : lstate) (c0 : cat) (st : lstate) (c : cat) (log : list event) (id : N) : Prop := {
  is_back : forall e, l_svcs st !! id = Some e -> exists e0, l_svcs st0 !! id = Some e0 /\ sle e e0;
  is_gone : forall e0, l_svcs st0 !! id = Some e0 -> l_svcs st !! id = None ->
              se_del e0 = true /\ c_svcs c !! id = None;
  is_foreign : l_svcs st0 !! id = None -> c_svcs c !! id = c_svcs c0 !! id;
  is_held : forall e d, l_svcs st !! id = Some e -> se_sync e = true -> se_del e = false -> se_def e = Some d ->
              holds_svc c id d \/ refused_svc log id \/ (l_svcs st0 !! id = Some e /\ ~ holds_svc c0 id d)
}.

Arguments is_back {_ _ _ _ _ _}. Arguments is_gone {_ _ _ _ _ _}.
Arguments is_foreign {_ _ _ _ _ _}. Arguments is_held {_ _ _ _ _ _}.

Lemma inv_s_init st0 c0 id : inv_s st0 c0 st0 c0 [] id.
Proof.
  split; [intros e L; exists e; split; [exact L|apply sle_refl]|congruence|reflexivity|].
  intros e d L S D F. destruct (decide (holds_svc c0 id d)); auto.
Qed.

Lemma inv_s_step st0 c0 st c log st' c' ev id :
  svc_at st c st' c' ev id -> inv_s st0 c0 st c log id -> inv_s st0 c0 st' c' (log ++ [ev]) id.
Proof.
  intros V [Ib Ig If Ih]. split.
  - intros e L'. destruct (svc_at_back V L') as (e1 & L1 & S1).
    destruct (Ib e1 L1) as (e0 & L0 & S0). eauto using sle_trans.
  - intros e0 L0 N'. destruct (l_svcs st !! id) as [e|] eqn:L.
    + destruct (svc_at_gone V L N') as [D Cn]. split; [|exact Cn].
      destruct (Ib e eq_refl) as (e0' & L0' & S0). apply sle_def in S0 as (_ & Sl & _). congruence.
    + destruct (Ig e0 L0 eq_refl) as [D Cn]. split; [exact D|].
      destruct V as [_ [->|(e & d & Le & _)]|e d Le|e Le|e Le]; congruence.
  - intros L0. rewrite <- (If L0).
    assert (N : l_svcs st !! id = None).
    { destruct (l_svcs st !! id) as [e|] eqn:L; [|reflexivity]. destruct (Ib e eq_refl) as (e0 & L0' & _). congruence. }
    destruct V as [_ [E|(e & d & Le & _)]|e d Le|e Le|e Le]; congruence.
  - intros e' d' L' S' D' F'. unfold holds_svc in *.
    destruct V as [Same Row|e d L D S F L1 K Id Row|e L D N1 Row K Id|e L D L1 Row R K Id].
    + rewrite Same in L'. destruct (Ih e' d' L' S' D' F') as [Hh|[Hr|Ho]]; [left|right; left|auto].
      * destruct Row as [->|(e1 & d1 & Le & _ & F1 & ->)]; congruence.
      * eapply logged_incl; [|exact Hr]. intros x Hx. apply in_or_app. auto.
    + assert (e' = se_set_sync true e) by congruence. subst e'. cbn in F'.
      assert (d' = d) by congruence. subst d'.
      destruct Row as [Hc|[R _]]; [left; exact Hc|right; left; apply logged_last; auto].
    + congruence.
    + assert (e' = se_set_sync true e) by congruence. subst e'. cbn in D'. congruence.
Qed.

(* check [id], local side; the catalog's cascade is harmless to a live check because its service
   is live ([wf_local]) *)
Record inv_c (st0 : lstate) (c0 : cat) (st : lstate) (c : cat) (log : list event) (id : N) : Prop := {
  ic_back : forall e, l_chks st !! id = Some e -> exists e0, l_chks st0 !! id = Some e0 /\ cle e e0;
  ic_gone : forall e0, l_chks st0 !! id = Some e0 -> l_chks st !! id = None -> ce_del e0 = true;
  ic_held : forall e d, l_chks st !! id = Some e -> ce_sync e = true -> ce_del e = false -> ce_def e = Some d ->
              holds_ce c id e d \/ refused_chk log id \/ (l_chks st0 !! id = Some e /\ ~ holds_ce c0 id e d)
}.

Arguments ic_back {_ _ _ _ _ _}. Arguments ic_gone {_ _ _ _ _ _}. Arguments ic_held {_ _ _ _ _ _}.

Lemma inv_c_init st0 c0 id : inv_c st0 c0 st0 c0 [] id.
Proof.
  split; [intros e L; exists e; split; [exact L|apply cle_refl]|congruence|].
  intros e d L S D F. destruct (holds_chk_dec (ce_defer e) c0 id d); auto.
Qed.

Lemma inv_c_step st0 c0 st c log st' c' ev id :
  chk_at st c st' c' ev id -> wf_local st -> inv_c st0 c0 st c log id -> inv_c st0 c0 st' c' (log ++ [ev]) id.
Proof.
  intros V (W1 & W2 & W3) [Ib Ig Ih]. split.
  - intros e L'. destruct (chk_at_back V L') as (e1 & L1 & S1).
    destruct (Ib e1 L1) as (e0 & L0 & S0). eauto using cle_trans.
  - intros e0 L0 N'. destruct (l_chks st !! id) as [e|] eqn:L; [|eauto].
    destruct (Ib e eq_refl) as (e0' & L0' & S0). apply cle_def in S0 as (_ & Sl).
    pose proof (chk_at_gone V L N'). congruence.
  - intros e' d' L' S' D' F'. unfold holds_ce, holds_chk_upto in *.
    destruct V as [Same Row|e e2 d L D S F L2 C2 S2 K Row|e L D S L2 Row K Id|e L D N2 Row|e L D L2 Row R K Id].
    + rewrite Same in L'. destruct (Ih e' d' L' S' D' F') as [Hh|[Hr|Ho]]; [left|right; left|auto].
      * destruct Row as [->|(_ & s & r & Lr & Ls & Ds)]; [exact Hh|]. exfalso.
        destruct Hh as (r' & Lr' & Cr). assert (r' = r) by congruence. subst r'.
        assert (Hsid : ck_sid r = ck_sid d') by (unfold chk_core_upto in Cr; congruence).
        destruct (W2 id e' L' D') as (d1 & F1 & [Z|(s1 & Ls1 & Ds1)]); congruence.
      * eapply logged_incl; [|exact Hr]. intros x Hx. apply in_or_app. auto.
    + assert (e2 = e') by congruence. subst e2. apply cle_def in C2 as (C2 & _).
      assert (d' = d) by congruence. subst d'.
      destruct Row as [(r & Lr & Cr)|[R _]]; [left|right; left; apply logged_last; auto].
      apply (holds_chk_upto_mono false); [discriminate|]. exists r. auto.
    + assert (e' = ce_clear_defer e) by congruence. subst e'. cbn in S'. congruence.
    + congruence.
    + assert (e' = ce_set_sync true e) by congruence. subst e'. cbn in D'. congruence.
Qed.

(* check [id], catalog side: needs the catalog well-formed and removed checks bound in the catalog
   to the service they were bound to locally, so that the local prune and the cascade agree *)
Record inv_k (st0 : lstate) (c0 : cat) (st : lstate) (c : cat) (id : N) : Prop := {
  ik_gone : forall e0, l_chks st0 !! id = Some e0 -> l_chks st !! id = None -> c_chks c !! id = None;
  ik_foreign : l_chks st0 !! id = None -> c_chks c !! id = c_chks c0 !! id \/ c_chks c !! id = None
}.

Arguments ik_gone {_ _ _ _ _}. Arguments ik_foreign {_ _ _ _ _}.

Lemma inv_k_step st0 c0 st c st' c' ev id :
  chk_at st c st' c' ev id -> wf_local st -> wf_cat c -> bind_ok st c ->
  (forall e, l_chks st !! id = Some e -> is_Some (l_chks st0 !! id)) ->
  inv_k st0 c0 st c id -> inv_k st0 c0 st' c' id.
Proof.
  intros V (W1 & W2 & W3) (C1 & C2) B Back [Ig If].
  assert (Absent : l_chks st !! id = None -> c_chks c !! id = None -> c_chks c' !! id = None).
  { intros N Cn. destruct V as [_ [->|[? _]]|e ? ? L|e L|e L|e L]; congruence. }
  split.
  - intros e0 L0 Gone. destruct (l_chks st !! id) as [cur|] eqn:Lcur; [|eauto].
    (* only [ca_gone] leaves no entry *)
    destruct V as [|? ? ?|?|e1|?]; try congruence.
    destruct Row as [(_ & _ & Cn)|(d & s & F & Ls & Ds & Hc)]; [exact Cn|].
    destruct (c_chks c !! id) as [r|] eqn:Lr.
    + (* the row is bound to the same (non-empty) service id, which the catalog therefore has *)
      assert (Hb : ck_sid r = ck_sid d) by (apply (B id e1 d r); congruence).
      assert (Hs : is_Some (c_svcs c !! ck_sid d)) by (destruct (C1 id r Lr) as [Z|Hs]; congruence).
      destruct Hc as [->|[_ Cn]]; [|destruct Hs; congruence]. rewrite dereg_svc_chks, Lr.
      destruct Hs as [x ->]. destruct (decide (ck_sid r = ck_sid d)); [reflexivity|contradiction].
    + destruct Hc as [->|[-> _]]; [|exact Lr]. destruct (dereg_svc_chks_cases (ck_sid d) c id) as [->|[-> _]]; auto.
  - intros L0.
    assert (N : l_chks st !! id = None).
    { destruct (l_chks st !! id) as [e|] eqn:L; [|reflexivity]. destruct (Back e eq_refl). congruence. }
    destruct V as [_ [->|[? _]]|e ? ? L|e L|e L|e L]; auto; congruence.
Qed.

Definition INVS (st0 : lstate) (c0 : cat) (st : lstate) (c : cat) (log : list event) : Prop :=
  forall id, inv_s st0 c0 st c log id.
Definition INV (st0 : lstate) (c0 : cat) (st : lstate) (c : cat) (log : list event) : Prop :=
  INVS st0 c0 st c log /\ (forall id, inv_c st0 c0 st c log id) /\ wf_local st.
Definition INVK (st0 : lstate) (c0 : cat) (st : lstate) (c : cat) : Prop :=
  wf_cat c /\ bind_ok st c /\ forall id, inv_k st0 c0 st c id.

Lemma INVS_step g st0 c0 st c log st' c' ev :
  INVS st0 c0 st c log -> Step g st c st' c' ev -> INVS st0 c0 st' c' (log ++ [ev]).
Proof. intros I H id. eapply inv_s_step; [exact (Step_svc_at id H)|apply I]. Qed.

Lemma INV_init st0 c0 : wf_local st0 -> INV st0 c0 st0 c0 [].
Proof. intros W. split; [intros id; apply inv_s_init|split; [intros id; apply inv_c_init|exact W]]. Qed.

Lemma INV_step g st0 c0 st c log st' c' ev :
  INV st0 c0 st c log -> Step g st c st' c' ev -> INV st0 c0 st' c' (log ++ [ev]).
Proof.
  intros (Is & Ic & W) H. split; [eapply INVS_step; eauto|split; [|eapply step_wf_local; eauto]].
  intros id. eapply inv_c_step; [exact (Step_chk_at id H)|exact W|apply Ic].
Qed.

Lemma INVK_init st0 c0 : wf_cat c0 -> bind_ok st0 c0 -> INVK st0 c0 st0 c0.
Proof. intros W B. split; [exact W|split; [exact B|]]. intros id. split; auto. congruence. Qed.

Lemma INVK_step g st0 c0 st c log st' c' ev :
  INV st0 c0 st c log -> INVK st0 c0 st c -> Step g st c st' c' ev -> INVK st0 c0 st' c'.
Proof.
  intros (_ & Ic & W) (Wc & B & Ik) H. split; [eapply step_wf_cat; eauto|split; [eapply step_bind_ok; eauto|]].
  intros id. eapply inv_k_step; eauto using (Step_chk_at id H).
  intros e L. destruct (ic_back (Ic id) e L) as (e0 & L0 & _). eauto.
Qed.
