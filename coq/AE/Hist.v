(* C16 — local changes and whole histories: the facts behind the C16_local_* theorems of
   Properties/C16.v (what an add may mark in sync; an overwritten entry keeps [honest]), adding over
   a placeholder, agent-style histories keep the hypotheses of the sync theorems true. *)
From Verif Require Import Base.Prelude AE.Model AE.Basics AE.Steps AE.Inv AE.Proofs.
From stdpp Require Import gmap.

(* every live entry marked in sync is held by the catalog (a check up to its Output while its
   deferred-output timer is pending) *)
Definition honest (st : lstate) (c : cat) : Prop :=
  (forall id e d, l_svcs st !! id = Some e -> se_sync e = true -> se_del e = false -> se_def e = Some d -> holds_svc c id d) /\
  (forall id e d, l_chks st !! id = Some e -> ce_sync e = true -> ce_del e = false -> ce_def e = Some d -> holds_ce c id e d).

(* every local mutator overwrites one entry: honesty is kept when the new entry is *)
Lemma honest_insert_svc st c id e :
  honest st c ->
  (se_sync e = true -> se_del e = false -> forall d, se_def e = Some d -> holds_svc c id d) ->
  honest (LS (l_node st) (<[id := e]> (l_svcs st)) (l_chks st)) c.
Proof.
  intros [Hs Hc] He. split; [|exact Hc]. cbn. intros k e' d L S D F.
  apply lookup_insert_Some in L as [[<- <-]|[_ L]]; eauto.
Qed.

Lemma honest_insert_chk st c id e :
  honest st c ->
  (ce_sync e = true -> ce_del e = false -> forall d, ce_def e = Some d -> holds_ce c id e d) ->
  honest (LS (l_node st) (l_svcs st) (<[id := e]> (l_chks st))) c.
Proof.
  intros [Hs Hc] He. split; [exact Hs|]. cbn. intros k e' d L S D F.
  apply lookup_insert_Some in L as [[<- <-]|[_ L]]; eauto.
Qed.

(* setServiceStateLocked: the new entry is in sync only when it replaces a live, in-sync entry
   that carried the same definition *)
Lemma add_service_flag {id d tok loc st st' r k e'} :
  add_service id d tok loc st = (st', r) -> l_svcs st' !! k = Some e' -> se_sync e' = true ->
  l_svcs st !! k = Some e' \/
  (k = id /\ se_def e' = Some d /\ se_del e' = false /\
   exists old, l_svcs st !! id = Some old /\ se_def old = Some d /\ se_sync old = true /\ se_del old = false).
Proof.
  unfold add_service. destruct (l_svcs st !! id) as [old|] eqn:L.
  - intros [= <- _]. cbn. intros L' S. apply lookup_insert_Some in L' as [[<- <-]|[_ L']]; [|auto].
    right. cbn in *. apply andb_true_iff in S as [S Sm]. apply andb_true_iff in S as [So Sd].
    apply negb_true_iff in Sd. unfold same_svc in Sm. destruct (se_def old) as [od|] eqn:F; [|discriminate].
    apply bool_decide_eq_true in Sm. subst od. eauto 10.
  - intros [= <- _]. cbn. intros L' S. apply lookup_insert_Some in L' as [[<- <-]|[_ L']]; [discriminate|auto].
Qed.

Lemma add_check_flag {id d tok loc st st' r k e'} :
  add_check id d tok loc st = (st', r) -> l_chks st' !! k = Some e' -> ce_sync e' = true ->
  l_chks st !! k = Some e' \/
  (k = id /\ ce_def e' = Some d /\ ce_del e' = false /\ ce_defer e' = false /\
   exists old od, l_chks st !! id = Some old /\ ce_def old = Some od /\ chk_isame d od = true /\
                  ce_sync old = true /\ ce_del old = false /\ ce_defer old = false).
Proof.
  unfold add_check. destruct (negb (N.eqb (ck_sid d) 0) && negb (is_some (l_svcs st !! ck_sid d))); [intros [= <- _]; auto|].
  destruct (l_chks st !! id) as [old|] eqn:L.
  - intros [= <- _]. cbn. intros L' S. apply lookup_insert_Some in L' as [[<- <-]|[_ L']]; [|auto].
    right. cbn in *. apply andb_true_iff in S as [Sf S]. apply negb_true_iff in Sf.
    apply andb_true_iff in S as [S Sm]. apply andb_true_iff in S as [So Sd].
    apply negb_true_iff in Sd. unfold same_chk in Sm. destruct (ce_def old) as [od|] eqn:F; [|discriminate].
    repeat split; auto. exists old, od. auto 10.
  - intros [= <- _]. cbn. intros L' S. apply lookup_insert_Some in L' as [[<- <-]|[_ L']]; [discriminate|auto].
Qed.

Lemma add_service_chks {id d tok loc st st' r} : add_service id d tok loc st = (st', r) -> l_chks st' = l_chks st.
Proof. unfold add_service. destruct (l_svcs st !! id) as [old|]; intros [= <- _]; reflexivity. Qed.
Lemma add_check_svcs {id d tok loc st st' r} : add_check id d tok loc st = (st', r) -> l_svcs st' = l_svcs st.
Proof.
  unfold add_check. destruct (_ && _); [intros [= <- _]; reflexivity|].
  destruct (l_chks st !! id) as [old|]; intros [= <- _]; reflexivity.
Qed.

(* a local add over a placeholder (definition nil) replaces it by a live entry that is out of
   sync (before 9a2a9bf this was a nil dereference in IsSame) *)
Theorem add_check_over_placeholder id d tok loc st e :
  ck_sid d = 0%N -> l_chks st !! id = Some e -> ce_def e = None ->
  add_check id d tok loc st =
  (LS (l_node st) (l_svcs st) (<[id := CE (Some d) tok false false loc (ce_defer e)]> (l_chks st)), ROk).
Proof.
  intros Z L F. unfold add_check, same_chk. rewrite Z, L, F. cbn. rewrite !andb_false_r. reflexivity.
Qed.

Lemma wf_local_insert_svc st id e :
  wf_local st -> id <> 0%N -> se_del e = false -> is_Some (se_def e) ->
  wf_local (LS (l_node st) (<[id := e]> (l_svcs st)) (l_chks st)).
Proof.
  intros (W1 & W2 & W3) Z De Fe. split; [|split]; cbn.
  - intros k x L D. apply lookup_insert_Some in L as [[<- <-]|[_ L]]; eauto.
  - intros k x L D. destruct (W2 k x L D) as (dk & Fk & Hs). exists dk. split; [exact Fk|].
    destruct Hs as [?|(s & Ls & Ds)]; [auto|]. right.
    destruct (decide (id = ck_sid dk)) as [<-|Hne]; [exists e; rewrite lookup_insert; auto|].
    exists s. rewrite lookup_insert_ne by exact Hne. auto.
  - rewrite lookup_insert_ne by exact Z. exact W3.
Qed.

Lemma wf_local_insert_chk st id e :
  wf_local st ->
  (ce_del e = false -> exists d, ce_def e = Some d /\
     (ck_sid d = 0%N \/ exists s, l_svcs st !! ck_sid d = Some s /\ se_del s = false)) ->
  wf_local (LS (l_node st) (l_svcs st) (<[id := e]> (l_chks st))).
Proof.
  intros (W1 & W2 & W3) He. split; [exact W1|split; [|exact W3]]. cbn.
  intros k x L D. apply lookup_insert_Some in L as [[<- <-]|[_ L]]; eauto.
Qed.

Lemma add_service_wf {id d tok loc st st' r} :
  id <> 0%N -> wf_local st -> add_service id d tok loc st = (st', r) ->
  wf_local st' /\ (r = ROk -> exists s, l_svcs st' !! id = Some s /\ se_del s = false).
Proof.
  intros Z W. unfold add_service.
  destruct (l_svcs st !! id) as [old|]; intros [= <- <-];
    (split; [apply wf_local_insert_svc; cbn; eauto|intros _; cbn; rewrite lookup_insert; eauto]).
Qed.

Lemma add_check_wf {id d tok loc st st' r} :
  (ck_sid d = 0%N \/ exists s, l_svcs st !! ck_sid d = Some s /\ se_del s = false) ->
  wf_local st -> add_check id d tok loc st = (st', r) -> wf_local st' /\ l_svcs st' = l_svcs st.
Proof.
  intros Hb W. unfold add_check. destruct (_ && _); [intros [= <- <-]; auto|].
  destruct (l_chks st !! id) as [old|]; intros [= <- <-];
    (split; [apply wf_local_insert_chk; cbn; eauto|reflexivity]).
Qed.

Lemma add_checks_wf cs tok loc st st' r id :
  (forall k d, In (k, d) cs -> ck_sid d = id) ->
  (exists s, l_svcs st !! id = Some s /\ se_del s = false) ->
  wf_local st -> add_checks cs tok loc st = (st', r) -> wf_local st'.
Proof.
  revert st. induction cs as [|[k d] cs IH]; intros st Hb Hs W; cbn [add_checks]; [intros [= <- _]; exact W|].
  destruct (add_check k d tok loc st) as [st1 r1] eqn:A.
  assert (Hk : ck_sid d = id) by (apply (Hb k d); left; reflexivity).
  assert (Hs' : exists s, l_svcs st !! ck_sid d = Some s /\ se_del s = false) by (rewrite Hk; exact Hs).
  destruct (add_check_wf (or_intror Hs') W A) as [W1 Es].
  destruct r1; try (intros [= <- _]; exact W1).
  apply IH; [intros k' d' Hin; apply (Hb k' d'); right; exact Hin|rewrite Es; exact Hs|exact W1].
Qed.

Lemma remove_check_spec {id st st' r} :
  remove_check id st = (st', r) ->
  l_svcs st' = l_svcs st /\
  ((r = ROk /\ exists e, l_chks st !! id = Some e /\ ce_del e = false /\
                         l_chks st' = <[id := CE (ce_def e) (ce_tok e) false true (ce_loc e) (ce_defer e)]> (l_chks st)) \/
   (r = RErr /\ st' = st)).
Proof.
  unfold remove_check. destruct (l_chks st !! id) as [e|] eqn:L; [destruct (ce_del e) eqn:D|];
    intros [= <- <-]; split; auto. left. split; [reflexivity|]. exists e. auto.
Qed.

Lemma remove_checks_all ids st :
  NoDup ids -> (forall k, In k ids -> exists e, l_chks st !! k = Some e /\ ce_del e = false) ->
  exists st', remove_checks ids st = (st', ROk) /\ l_svcs st' = l_svcs st /\
    (forall k e', l_chks st' !! k = Some e' ->
       exists e, l_chks st !! k = Some e /\ ce_def e' = ce_def e /\ (ce_del e' = false -> ce_del e = false /\ ~ In k ids)).
Proof.
  revert st. induction ids as [|id ids IH]; intros st ND Hl; cbn [remove_checks].
  - exists st. repeat split; auto. intros k e' L. exists e'. repeat split; auto.
  - apply NoDup_cons in ND as [Nin ND]. rewrite elem_of_list_In in Nin.
    destruct (Hl id (or_introl eq_refl)) as (e & L & D).
    destruct (remove_check id st) as [st1 r1] eqn:R. pose proof (remove_check_spec R) as (Es & [(-> & e1 & L1 & D1 & Ec)|(-> & ->)]).
    + assert (e1 = e) by congruence. subst e1.
      destruct (IH st1 ND) as (st' & R' & Es' & Hc').
      { intros k Hk. destruct (Hl k (or_intror Hk)) as (ek & Lk & Dk). exists ek. split; [|exact Dk].
        rewrite Ec. rewrite lookup_insert_ne; [exact Lk|]. intros <-. contradiction. }
      exists st'. split; [exact R'|]. split; [congruence|].
      intros k e' L'. destruct (Hc' k e' L') as (x & Lx & Fx & Hx). rewrite Ec in Lx.
      apply lookup_insert_Some in Lx as [[<- <-]|[Hne Lx]].
      * exists e. cbn in *. split; [exact L|]. split; [exact Fx|]. intros D'. destruct (Hx D'). discriminate.
      * exists x. split; [exact Lx|]. split; [exact Fx|]. intros D'. destruct (Hx D') as [? ?]. split; [assumption|].
        intros [?|?]; [congruence|contradiction].
    + unfold remove_check in R. rewrite L, D in R. discriminate.
Qed.

Lemma live_checks_of_spec id st k :
  In k (live_checks_of id st) <-> exists e, l_chks st !! k = Some e /\ live_of id e = true.
Proof.
  unfold live_checks_of. rewrite In_keys. split.
  - intros [e H]. apply map_filter_lookup_Some in H as [L P]. eauto.
  - intros (e & L & P). exists e. apply map_filter_lookup_Some. auto.
Qed.

Lemma remove_service_agent_wf {id st st' r} :
  wf_local st -> remove_service_agent id st = (st', r) -> wf_local st'.
Proof.
  intros W. pose proof W as (W1 & W2 & W3). unfold remove_service_agent, remove_service_with_checks, remove_service.
  destruct (l_svcs st !! id) as [e|] eqn:L; [|intros [= <- _]; exact W].
  destruct (se_del e) eqn:D; [intros [= <- _]; exact W|].
  set (st1 := LS (l_node st) (<[id := SE (se_def e) (se_tok e) false true (se_loc e)]> (l_svcs st)) (l_chks st)).
  destruct (remove_checks_all (live_checks_of id st) st1) as (st2 & R & Es & Hc); [apply NoDup_fst_map_to_list|..].
  { intros k Hk. apply live_checks_of_spec in Hk as (x & Lx & P). exists x. split; [exact Lx|].
    unfold live_of in P. apply andb_true_iff in P as [P _]. apply negb_true_iff in P. exact P. }
  rewrite R. intros [= <- _]. split; [|split].
  - intros k x Lx Dx. rewrite Es in Lx. cbn in Lx. apply lookup_insert_Some in Lx as [[<- <-]|[_ Lx]]; [discriminate|eauto].
  - intros k x Lx Dx. destruct (Hc k x Lx) as (x0 & L0 & F0 & H0). destruct (H0 Dx) as [D0 Nin]. cbn in L0.
    destruct (W2 k x0 L0 D0) as (dk & Fk & Hs). exists dk. split; [congruence|].
    destruct Hs as [?|(s & Ls & Ds)]; [auto|]. right. rewrite Es. cbn.
    assert (Hne : id <> ck_sid dk).
    { intros E. apply Nin. apply live_checks_of_spec. exists x0. split; [exact L0|].
      unfold live_of. rewrite D0, Fk, <- E. cbn. apply N.eqb_refl. }
    exists s. rewrite lookup_insert_ne by exact Hne. auto.
  - rewrite Es. cbn. rewrite lookup_insert_ne; [exact W3|]. intros E. congruence.
Qed.

Lemma remove_check_wf {id st st' r} : wf_local st -> remove_check id st = (st', r) -> wf_local st'.
Proof.
  intros W. unfold remove_check.
  destruct (l_chks st !! id) as [e|]; [destruct (ce_del e)|]; intros [= <- _]; try exact W.
  apply wf_local_insert_chk; [exact W|discriminate].
Qed.

Lemma update_check_wf interval id status out st : wf_local st -> wf_local (update_check interval id status out st).
Proof.
  intros W. pose proof W as (_ & W2 & _). unfold update_check.
  destruct (l_chks st !! id) as [e|] eqn:L; [|exact W].
  destruct (ce_del e) eqn:D; [exact W|]. destruct (ce_def e) as [d|] eqn:F; [|exact W].
  destruct (N.eqb (ck_status d) status && N.eqb (ck_out d) out); [exact W|].
  destruct (W2 id e L D) as (d0 & F0 & Hs). assert (d0 = d) by congruence. subst d0.
  destruct (interval && N.eqb (ck_status d) status); (apply wf_local_insert_chk; [exact W|cbn; eauto]).
Qed.

Lemma timer_fires_wf id st : wf_local st -> wf_local (timer_fires id st).
Proof.
  intros W. pose proof W as (_ & W2 & _). unfold timer_fires.
  destruct (l_chks st !! id) as [e|] eqn:L; [|exact W]. destruct (ce_defer e); [|exact W].
  apply wf_local_insert_chk; [exact W|]. cbn. exact (W2 id e L).
Qed.

Lemma add_service_with_checks_wf {id d tok loc cs st st' r} :
  id <> 0%N -> (forall k dk, In (k, dk) cs -> ck_sid dk = id) -> wf_local st ->
  add_service_with_checks id d tok loc cs st = (st', r) -> wf_local st'.
Proof.
  intros Z Hb W. unfold add_service_with_checks. destruct (add_service id d tok loc st) as [st1 r1] eqn:E1.
  destruct (add_service_wf Z W E1) as [W1 Hl]. destruct r1; try (intros [= <- _]; exact W1).
  intros E2. eapply add_checks_wf; eauto.
Qed.

Lemma add_check_agent_wf {id d tok loc st st' r} :
  wf_local st -> add_check_agent id d tok loc st = (st', r) -> wf_local st'.
Proof.
  intros W. unfold add_check_agent.
  destruct (N.eqb_spec (ck_sid d) 0) as [Z|Z]; [intros A; exact (proj1 (add_check_wf (or_introl Z) W A))|].
  destruct (l_svcs st !! ck_sid d) as [s|] eqn:Ls; [|intros [= <- _]; exact W].
  destruct (se_del s) eqn:Ds; [intros [= <- _]; exact W|].
  intros A. exact (proj1 (add_check_wf (or_intror (ex_intro _ s (conj Ls Ds))) W A)).
Qed.

(* the side conditions under which a step is something the agent layer (or the servers) does *)
Definition agent_step (st : lstate) (s : step) : Prop :=
  match s with
  | SAddSvc id _ _ _ cs => id <> 0%N /\ forall k d, In (k, d) cs -> ck_sid d = id
  | SAddChk _ d _ _ => ck_sid d = 0%N \/ exists s, l_svcs st !! ck_sid d = Some s /\ se_del s = false
  | SRemoveSvcRaw _ _ => False
  | DReg _ _ sv _ => forall id d, sv = Some (id, d) -> id <> 0%N
  | _ => True
  end.

Theorem wf_step {g s st c fs st' c' fs' log r} :
  wf_local st -> wf_cat c -> agent_step st s -> do_step g s st c fs = (st', c', fs', log, r) ->
  wf_local st' /\ wf_cat c'.
Proof.
  intros W Wc A. destruct s; cbn [do_step agent_step] in *.
  - (* SAddSvc *) destruct A as [Z Hb]. destruct (add_service_with_checks id d tok loc cs st) as [st1 r1] eqn:E1. intros [= <- <- _ _ _].
    split; [exact (add_service_with_checks_wf Z Hb W E1)|exact Wc].
  - (* SRemoveSvc *) destruct (remove_service_agent id st) as [st1 r1] eqn:E1. intros [= <- <- _ _ _].
    split; [exact (remove_service_agent_wf W E1)|exact Wc].
  - (* SRemoveSvcRaw *) destruct A.
  - (* SAddChk *) destruct (add_check id d tok loc st) as [st1 r1] eqn:E1. intros [= <- <- _ _ _].
    split; [exact (proj1 (add_check_wf A W E1))|exact Wc].
  - (* SAddChkAgent *) destruct (add_check_agent id d tok loc st) as [st1 r1] eqn:E1. intros [= <- <- _ _ _].
    split; [exact (add_check_agent_wf W E1)|exact Wc].
  - (* SRemoveChk *) destruct (remove_check id st) as [st1 r1] eqn:E1. intros [= <- <- _ _ _].
    split; [exact (remove_check_wf W E1)|exact Wc].
  - (* SUpdChk *) intros [= <- <- _ _ _]. split; [apply update_check_wf; exact W|exact Wc].
  - (* STimer *) intros [= <- <- _ _ _]. split; [apply timer_fires_wf; exact W|exact Wc].
  - (* SUpdateSyncState *) destruct (update_sync_state_cases g st c fs) as [(fs1 & la & ->)|(fs1 & la & ->)]; intros [= <- <- _ _ _];
      (split; [|exact Wc]); [exact W|apply uss_wf_local; [exact W|exact (proj2 Wc)]].
  - (* SSyncChanges *) destruct (sync_changes g os oc st c fs) as [[[[st1 c1] fs1] l1] e1] eqn:E1. intros [= <- <- _ _ _].
    eapply sync_changes_wf; eauto.
  - (* SSyncFull *) destruct (sync_full g os oc st c fs) as [[[[st1 c1] fs1] l1] e1] eqn:E1. intros [= <- <- _ _ _].
    eapply sync_full_wf; eauto.
  - (* DReg *) destruct (cat_register ni skip sv (list_to_map cs) c) as [c1|] eqn:E1; intros [= <- <- _ _ _]; [|auto].
    split; [exact W|]. eapply cat_register_wf; eauto.
  - (* DDelSvc *) intros [= <- <- _ _ _]. split; [exact W|apply dereg_svc_wf; exact Wc].
  - (* DDelChk *) intros [= <- <- _ _ _]. split; [exact W|apply dereg_chk_wf; exact Wc].
  - (* DDelNode *) intros [= <- <- _ _ _]. split; [exact W|]. split; [intros id r0 L; cbn in L; rewrite lookup_empty in L; discriminate|reflexivity].
Qed.

Fixpoint run_hist (g : cfg) (ss : list step) (st : lstate) (c : cat) (fs : list outcome) : lstate * cat * list outcome :=
  match ss with
  | [] => (st, c, fs)
  | s :: r => let '(st', c', fs', _, _) := do_step g s st c fs in run_hist g r st' c' fs'
  end.

Fixpoint agent_hist (g : cfg) (ss : list step) (st : lstate) (c : cat) (fs : list outcome) : Prop :=
  match ss with
  | [] => True
  | s :: r => agent_step st s /\ let '(st', c', fs', _, _) := do_step g s st c fs in agent_hist g r st' c' fs'
  end.

Lemma wf_local0 : wf_local lstate0.
Proof. split; [|split]; cbn; intros; try rewrite lookup_empty in *; try discriminate; reflexivity. Qed.
Lemma wf_cat0 : wf_cat cat0.
Proof. split; cbn; intros; try rewrite lookup_empty in *; try discriminate; reflexivity. Qed.

Theorem wf_reachable {g ss fs st c fs'} :
  agent_hist g ss lstate0 cat0 fs -> run_hist g ss lstate0 cat0 fs = (st, c, fs') -> wf_local st /\ wf_cat c.
Proof.
  generalize wf_local0 wf_cat0. generalize lstate0 cat0. revert fs.
  induction ss as [|s ss IH]; intros fs st0 c0 W Wc A R; cbn in *.
  - injection R as <- <- _. auto.
  - destruct A as [A1 A2]. destruct (do_step g s st0 c0 fs) as [[[[st1 c1] fs1] l1] r1] eqn:E.
    destruct (wf_step W Wc A1 E) as [W1 Wc1]. eapply IH; eauto.
Qed.

(* side conditions that do not depend on the state (no check added to a service) *)
Definition static_ok (s : step) : Prop :=
  match s with
  | SAddSvc id _ _ _ cs => id <> 0%N /\ forall k d, In (k, d) cs -> ck_sid d = id
  | SAddChk _ d _ _ => ck_sid d = 0%N
  | SRemoveSvcRaw _ _ => False
  | DReg _ _ sv _ => forall id d, sv = Some (id, d) -> id <> 0%N
  | _ => True
  end.

Lemma static_agent_hist g ss st c fs : List.Forall static_ok ss -> agent_hist g ss st c fs.
Proof.
  intros H. revert st c fs. induction H as [|s ss Hs _ IH]; intros st c fs; cbn [agent_hist]; [exact I|].
  split.
  - destruct s; cbn in *; auto.
  - destruct (do_step g s st c fs) as [[[[st' c'] fs'] l'] r']. apply IH.
Qed.
