(* C16 — concrete reachable states: witnesses that refute the unrestricted statements, and
   non-trivial states on which the hypotheses of the theorems hold.  Each history is run once
   ([*_eval]); what is agent-style about it is decided by [static_okb]. *)
From Verif Require Import Base.Prelude AE.Model AE.Basics AE.Steps AE.Inv AE.Proofs AE.Conv AE.Hist.
From stdpp Require Import gmap.

Definition bind_okb (st : lstate) (c : cat) : bool :=
  forallb_kv (fun id e => negb (ce_del e) ||
                          match ce_def e, c_chks c !! id with
                          | Some d, Some r => N.eqb (ck_sid r) (ck_sid d)
                          | _, _ => true
                          end) (l_chks st).

Lemma bind_okb_ok st c : bind_okb st c = true -> bind_ok st c.
Proof.
  intros H id e d r L D F Lr. apply (forallb_kv_lookup _ _ id e) in H; [|exact L]. cbv beta in H.
  rewrite D, F, Lr in H. cbn in H. apply N.eqb_eq. exact H.
Qed.

Definition coversb {A} (m : gmap N A) (l : list N) : bool := forallb_kv (fun k _ => existsb (N.eqb k) l) m.

Lemma coversb_ok {A} (m : gmap N A) l : coversb m l = true -> covers m l.
Proof.
  intros H id [v L]. apply (forallb_kv_lookup _ _ id v) in H; [|exact L]. cbv beta in H.
  apply existsb_exists in H as (x & Hx & E). apply N.eqb_eq in E. subst x. exact Hx.
Qed.

Definition chk_core_eqb (blank : bool) (a b : chk) : bool := bool_decide (chk_core_upto blank a = chk_core_upto blank b).

Definition honestb (st : lstate) (c : cat) : bool :=
  forallb_kv (fun id e => negb (se_sync e) || se_del e ||
                          match se_def e with Some d => bool_decide (c_svcs c !! id = Some d) | None => true end) (l_svcs st)
  && forallb_kv (fun id e => negb (ce_sync e) || ce_del e ||
                             match ce_def e, c_chks c !! id with
                             | Some d, Some r => chk_core_eqb (ce_defer e) r d
                             | Some _, None => false
                             | None, _ => true
                             end) (l_chks st).

Lemma honestb_ok st c : honestb st c = true -> honest st c.
Proof.
  intros H. apply andb_true_iff in H as [H1 H2]. split.
  - intros id e d L S D F. apply (forallb_kv_lookup _ _ id e) in H1; [|exact L]. cbv beta in H1.
    rewrite S, D, F in H1. cbn in H1. apply bool_decide_eq_true in H1. exact H1.
  - intros id e d L S D F. apply (forallb_kv_lookup _ _ id e) in H2; [|exact L]. cbv beta in H2.
    rewrite S, D, F in H2. cbn in H2. destruct (c_chks c !! id) as [r|] eqn:Lr; [|discriminate].
    apply bool_decide_eq_true in H2. exists r. auto.
Qed.

Definition static_okb (s : step) : bool :=
  match s with
  | SAddSvc id _ _ _ cs => negb (N.eqb id 0) && forallb (fun kd : N * chk => N.eqb (ck_sid (snd kd)) id) cs
  | SAddChk _ d _ _ => N.eqb (ck_sid d) 0
  | SRemoveSvcRaw _ _ => false
  | DReg _ _ (Some (id, _)) _ => negb (N.eqb id 0)
  | _ => true
  end.

Lemma static_okb_ok h : forallb static_okb h = true -> List.Forall static_ok h.
Proof.
  intros H. apply List.Forall_forall. intros s Hin. rewrite forallb_forall in H. specialize (H s Hin).
  destruct s; cbn in *; auto; try discriminate.
  - apply andb_true_iff in H as [Z F]. split; [intros ->; discriminate|].
    intros k d0 Hk. rewrite forallb_forall in F. apply N.eqb_eq. exact (F (k, d0) Hk).
  - apply N.eqb_eq. exact H.
  - intros id d [= ->] ->. discriminate.
Qed.

Definition g0 : cfg := Cfg 1 0 0 1 9 9 false.
Definition g0d : cfg := Cfg 1 0 0 1 9 9 true.   (* CheckUpdateInterval > 0 *)
Definition web : svc := Svc 1 1 false 0 true [] [].
Definition web_eto : svc := Svc 1 1 true 0 true [] [].
Definition web_drift : svc := Svc 1 2 false 1 false [] [(11, 1)]%N.
Definition db : svc := Svc 2 0 false 0 false [(1, 1)]%N [].
Definition chk_web : chk := Chk 1 1 0 0 1 1 0.
Definition chk_db : chk := Chk 2 1 0 0 2 0 0.
Definition all_s : list N := [1; 2; 3; 4; 9]%N.
Definition all_c : list N := [1; 2; 3; 4; 5; 6; 9]%N.

Definition state_of (h : list step) (fs : list outcome) : lstate * cat :=
  let '(st, c, _) := run_hist g0 h lstate0 cat0 fs in (st, c).

Definition chk_web_out2 : chk := Chk 1 1 2 0 1 1 0.
Definition chk_web_aux1 : chk := Chk 1 1 0 0 1 1 1.

(* CheckUpdateInterval > 0 (the agent's default): "web" with a check is synced, then the check's
   Output changes (status unchanged): UpdateCheck defers the push and starts a timer *)
Definition h_defer : list step :=
  [SAddSvc 1 web 0 false [(1%N, chk_web)]; SSyncFull all_s all_c; SUpdChk 1 1 2].
(* a check is re-registered with only its Type/Interval/Timeout/ExposedPort changed *)
Definition h_aux : list step :=
  [SAddSvc 1 web 0 false [(1%N, chk_web)]; SSyncFull all_s all_c; SAddChkAgent 1 chk_web_aux1 0 false].

Definition state_of_g (g : cfg) (h : list step) (fs : list outcome) : lstate * cat :=
  let '(st, c, _) := run_hist g h lstate0 cat0 fs in (st, c).

Definition coveredb (p : lstate * cat) : bool :=
  coversb (l_svcs (fst p)) all_s && coversb (c_svcs (snd p)) all_s &&
  coversb (l_chks (fst p)) all_c && coversb (c_chks (snd p)) all_c.

Lemma reached_wf g h fs :
  forallb static_okb h = true -> wf_local (fst (state_of_g g h fs)) /\ wf_cat (snd (state_of_g g h fs)).
Proof.
  intros S. unfold state_of_g. destruct (run_hist g h lstate0 cat0 fs) as [[st c] fs'] eqn:E.
  exact (wf_reachable (static_agent_hist g h _ _ fs (static_okb_ok h S)) E).
Qed.

Lemma coveredb_ok p :
  coveredb p = true ->
  covers (l_svcs (fst p)) all_s /\ covers (c_svcs (snd p)) all_s /\
  covers (l_chks (fst p)) all_c /\ covers (c_chks (snd p)) all_c.
Proof. unfold coveredb. intros H. repeat (apply andb_true_iff in H as [H ?]). auto using coversb_ok. Qed.

(* the hypotheses of C16_converges on such a state, in the order the witness theorems list them *)
Lemma reached_hyps g h fs (Rest : Prop) :
  forallb static_okb h = true -> coveredb (state_of_g g h fs) = true ->
  bind_okb (fst (state_of_g g h fs)) (snd (state_of_g g h fs)) = true -> Rest ->
  let st := fst (state_of_g g h fs) in let c := snd (state_of_g g h fs) in
  wf_local st /\ wf_cat c /\ bind_ok st c /\
  covers (l_svcs st) all_s /\ covers (c_svcs c) all_s /\ covers (l_chks st) all_c /\ covers (c_chks c) all_c /\ Rest.
Proof.
  intros S Cv B R. destruct (reached_wf g h fs S) as [W Wc]. destruct (coveredb_ok _ Cv) as (C1 & C2 & C3 & C4).
  cbv zeta. auto 10 using bind_okb_ok.
Qed.

(* web(1) with check 1 and db(2) are registered and synced; then somebody re-registers check 1
   in the catalog under db; then the agent removes web together with its check 1 *)
Definition h_rebound : list step :=
  [SAddSvc 1 web 0 false [(1%N, chk_web)]; SAddSvc 2 db 0 false []; SSyncFull all_s all_c;
   DReg 1 true None [(1%N, chk_db)]; SRemoveSvc 1].

(* the full sync deregisters web, which prunes the local (deleted) entry of check 1; the
   catalog keeps check 1, under db *)
Lemma rebound_eval :
  let p := state_of h_rebound [] in let r := sync_full g0 all_s all_c (fst p) (snd p) [] in
  coveredb p = true /\
  l_chks (fst p) !! 1%N = Some (CE (Some chk_web) 0 false true false false) /\
  l_chks (st_of r) !! 1%N = None /\
  c_chks (cat_of r) !! 1%N = Some chk_db.
Proof. vm_compute. repeat split. Qed.

(* web is registered and the push fails (any error); [readd_eval] then registers it again with the same definition *)
Definition h_readd : list step := [SAddSvc 1 web 0 false []; SSyncChanges all_s all_c].

(* the behaviour since 9a2a9bf (which repaired two defects): the state is honest, the
   re-registered entry is out of sync, the catalog does not have it *)
Lemma readd_eval :
  let p := state_of h_readd [OFail] in
  honestb (fst p) (snd p) = true /\
  l_svcs (fst (add_service 1 web 0 false (fst p))) !! 1%N = Some (SE (Some web) 0 false false false) /\
  c_svcs (snd p) !! 1%N = None.
Proof. vm_compute. repeat split. Qed.

(* a placeholder is reachable (foreign catalog entry, then the diff alone); adding over it is an
   ordinary registration (since 9a2a9bf) *)
Definition h_placeholder : list step := [DReg 1 false (Some (1%N, web)) []; SUpdateSyncState].

Lemma placeholder_eval :
  let st := fst (state_of h_placeholder []) in
  l_svcs st !! 1%N = Some (SE None 0 false true false) /\
  snd (add_service 1 web 0 false st) = ROk /\
  l_svcs (fst (add_service 1 web 0 false st)) !! 1%N = Some (SE (Some web) 0 false false false).
Proof. vm_compute. repeat split. Qed.

(* a drifted catalog (a foreign service with its check, an altered "web" with a reserved tagged
   address), a local "web" with tag override and a check, a full sync, a status change, a partial
   sync, then "web" is removed locally: deleted entries, server-owned fields, all present *)
Definition h_rich : list step :=
  [DReg 2 false (Some (2%N, db)) [(3%N, chk_db)]; DReg 2 true (Some (1%N, web_drift)) [];
   SAddSvc 1 web_eto 0 false [(1%N, chk_web)]; SAddSvc 3 db 4 true [];
   SSyncFull all_s all_c; SUpdChk 1 3 2; SSyncChanges all_s all_c; SRemoveSvc 1].

(* fault-free: "web" is marked deleted locally and still in the catalog, with its check *)
Lemma rich_eval :
  let p := state_of h_rich [] in
  coveredb p = true /\
  bind_okb (fst p) (snd p) = true /\
  se_del <$> l_svcs (fst p) !! 1%N = Some true /\
  is_some (c_svcs (snd p) !! 1%N) = true /\
  is_some (c_chks (snd p) !! 1%N) = true.
Proof. vm_compute. repeat split. Qed.

(* with a refusal and an error: "db" (id 3) is marked in sync by the ACL refusal, and not registered *)
Lemma rich_faulty_eval :
  let p := state_of h_rich [OOk; OOk; OOk; OOk; OOk; ODenied; OFail] in
  l_svcs (fst p) !! 3%N = Some (SE (Some db) 4 true false true) /\
  c_svcs (snd p) !! 3%N = None.
Proof. vm_compute. repeat split. Qed.

(* after a fault-free full sync the check is in sync with a timer pending, and the catalog has the
   old Output *)
Lemma defer_eval :
  let p := state_of_g g0d h_defer [] in let r := sync_full g0d all_s all_c (fst p) (snd p) [] in
  coveredb p = true /\
  bind_okb (fst p) (snd p) = true /\
  err_of r = false /\
  l_chks (st_of r) !! 1%N = Some (CE (Some chk_web_out2) 0 true false false true) /\
  c_chks (cat_of r) !! 1%N = Some chk_web.
Proof. vm_compute. repeat split. Qed.

(* once the timer has fired, a fault-free partial sync pushes the Output *)
Lemma defer_timer_eval :
  let p := state_of_g g0d (h_defer ++ [STimer 1; SSyncChanges all_s all_c]) [] in
  l_chks (fst p) !! 1%N = Some (CE (Some chk_web_out2) 0 true false false false) /\
  c_chks (snd p) !! 1%N = Some chk_web_out2.
Proof. vm_compute. repeat split. Qed.

(* the entry is in sync, no timer is pending, and the catalog row carries the OLD Type/Interval/... *)
Lemma aux_eval :
  let p := state_of_g g0 h_aux [] in let r := sync_full g0 all_s all_c (fst p) (snd p) [] in
  coveredb p = true /\
  bind_okb (fst p) (snd p) = true /\
  err_of r = false /\
  l_chks (st_of r) !! 1%N = Some (CE (Some chk_web_aux1) 0 true false false false) /\
  c_chks (cat_of r) !! 1%N = Some chk_web.
Proof. vm_compute. repeat split. Qed.
