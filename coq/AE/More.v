(* C16 — the log vocabulary of deregistrations (retried; refused in a full sync that returns nil), beside
   [refused_*] of Inv.v and [pushed_*], [node_failed] of Conv.v; and the deferred-output timers. *)
From Verif Require Import Base.Prelude AE.Model AE.Basics AE.Steps AE.Inv.
From stdpp Require Import gmap.

Definition del_svc_rpc (log : list event) (id : N) : Prop :=
  exists ev, In ev log /\ e_kind ev = KDelSvc /\ e_id ev = id.
Definition del_chk_rpc (log : list event) (id : N) : Prop :=
  exists ev, In ev log /\ e_kind ev = KDelChk /\ e_id ev = id.

Definition refused_del_svc (log : list event) (id : N) : Prop :=
  exists ev, In ev log /\ e_kind ev = KDelSvc /\ e_id ev = id /\ refusal (e_out ev) = true.
Definition refused_del_chk (log : list event) (id : N) : Prop :=
  exists ev, In ev log /\ e_kind ev = KDelChk /\ e_id ev = id /\ refusal (e_out ev) = true.

Definition no_defer (st : lstate) : Prop := forall id e, l_chks st !! id = Some e -> ce_defer e = false.

Lemma uss_chks_defer {g st c id e} :
  l_chks (uss_apply g st c) !! id = Some e -> ce_defer e = true ->
  exists e0, l_chks st !! id = Some e0 /\ ce_defer e0 = true.
Proof.
  intros L Df. apply uss_chks_Some in L. unfold uss_chk in L.
  destruct (l_chks st !! id) as [e0|], (c_chks c !! id) as [r|]; try discriminate.
  - exists e0. split; [reflexivity|]. destruct (ce_del e0); [congruence|].
    destruct (ce_def e0); injection L as <-; exact Df.
  - exists e0. split; [reflexivity|]. injection L as <-. exact Df.
  - injection L as <-. discriminate.
Qed.

Lemma no_defer_sync_changes g os oc st c fs st' c' fs' log err :
  no_defer st -> sync_changes g os oc st c fs = (st', c', fs', log, err) -> no_defer st'.
Proof.
  intros ND. apply (sync_changes_inv g (fun st _ _ => no_defer st)); [|exact ND].
  intros s k l s' k' ev Hn Hs id e L. destruct (ce_defer e) eqn:Df; [|reflexivity].
  destruct (chk_at_back (Step_chk_at id Hs) L) as (e1 & L1 & S1).
  rewrite <- (Hn id e1 L1). symmetry. exact (cle_defer _ _ S1 Df).
Qed.
