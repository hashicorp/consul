(* C16 — the RPC-issuing steps of SyncChanges, classified once, and the loops over them.
   [Step g st c st' c' ev]: one RPC took the local state from [st] to [st'], the catalog from [c]
   to [c'] and logged [ev]; the constructors are the places where state.go flips flags. *)
From Verif Require Import Base.Prelude AE.Model AE.Basics.
From stdpp Require Import gmap.

Definition st_of (a : acc) : lstate := fst (fst (fst (fst a))).
Definition cat_of (a : acc) : cat := snd (fst (fst (fst a))).
Definition fs_of (a : acc) : list outcome := snd (fst (fst a)).
Definition log_of (a : acc) : list event := snd (fst a).
Definition err_of (a : acc) : bool := snd a.

Lemma acc_eta (a : acc) : a = (st_of a, cat_of a, fs_of a, log_of a, err_of a).
Proof. destruct a as [[[[? ?] ?] ?] ?]. reflexivity. Qed.

(* the predicates on logs of the theorems ([refused_svc], [pushed_chk], [node_failed], [del_svc_rpc], ...)
   are fixed definitions written out as [exists ev, In ev log /\ ...]: each is [logged P] unfolded, so
   [logged_incl], [logged_app], [logged_last] apply to them as they stand, by conversion *)
Definition logged (P : event -> Prop) (log : list event) : Prop := exists ev, In ev log /\ P ev.

Lemma logged_incl (P : event -> Prop) l l' : (forall x, In x l -> In x l') -> logged P l -> logged P l'.
Proof. intros Hl (x & Hx & Px). exists x. auto. Qed.
Lemma logged_app (P : event -> Prop) la lb : logged P la \/ logged P lb -> logged P (la ++ lb).
Proof. intros [H|H]; (eapply logged_incl; [|exact H]); intros x Hx; apply in_or_app; auto. Qed.
Lemma logged_last (P : event -> Prop) l ev : P ev -> logged P (l ++ [ev]).
Proof. intros H. exists ev. split; [apply in_or_app; right; left; reflexivity|exact H]. Qed.

Definition sync_sv (st : lstate) (d : chk) : option (N * svc) :=
  match l_svcs st !! ck_sid d with
  | Some s => if se_del s then None
              else match se_def s with Some sd => Some (ck_sid d, sd) | None => None end
  | None => None
  end.

Lemma sync_sv_Some st d sid sd :
  sync_sv st d = Some (sid, sd) -> exists s, l_svcs st !! sid = Some s /\ se_del s = false /\ se_def s = Some sd.
Proof.
  unfold sync_sv. destruct (l_svcs st !! ck_sid d) as [s|] eqn:L; [|discriminate].
  destruct (se_del s) eqn:D; [discriminate|]. destruct (se_def s) as [x|] eqn:F; [|discriminate].
  intros [= <- <-]. eauto.
Qed.

(* the hypotheses are named: [destruct] on a [Step] introduces them under these names *)
Inductive Step (g : cfg) : lstate -> cat -> lstate -> cat -> event -> Prop :=
| St_fail st c ev (O : e_out ev = OFail) : Step g st c st c ev
| St_node_ok st c :
    Step g st c (LS true (l_svcs st) (l_chks st))
         (Cat (reg_node (g_ni g) false (c_node c)) (c_svcs c) (c_chks c))
         (Ev KNodeInfo 0 (agent_token g) false false OOk [])
| St_node_refused st c o (O : refusal o = true) :
    Step g st c (LS true (l_svcs st) (l_chks st)) c (Ev KNodeInfo 0 (agent_token g) false false o [])
| St_svc_ok st c c' id e d tok
    (L : l_svcs st !! id = Some e) (D : se_del e = false) (S : se_sync e = false) (F : se_def e = Some d)
    (T : tok = reg_token g (se_tok e) (se_loc e))
    (R : cat_register (g_ni g) (l_node st) (Some (id, d)) (pig_of g id tok (l_chks st)) c = Some c') :
    Step g st c
         (LS true (<[id := se_set_sync true e]> (l_svcs st)) (mark_pig g id tok (l_chks st))) c'
         (Ev KSyncSvc id tok (l_node st) false OOk (keys (pig_of g id tok (l_chks st))))
| St_svc_refused st c id e d tok o
    (L : l_svcs st !! id = Some e) (D : se_del e = false) (S : se_sync e = false) (F : se_def e = Some d)
    (T : tok = reg_token g (se_tok e) (se_loc e)) (O : refusal o = true) :
    Step g st c
         (LS (l_node st) (<[id := se_set_sync true e]> (l_svcs st)) (mark_pig g id tok (l_chks st))) c
         (Ev KSyncSvc id tok (l_node st) false o (keys (pig_of g id tok (l_chks st))))
| St_delsvc_ok st c id e (L : l_svcs st !! id = Some e) (D : se_del e = true) :
    Step g st c (LS (l_node st) (delete id (l_svcs st)) (prune_chks id (l_chks st))) (cat_dereg_svc id c)
         (Ev KDelSvc id (agent_token g) false false OOk [])
| St_delsvc_unknown st c id e (L : l_svcs st !! id = Some e) (D : se_del e = true) (C : c_svcs c !! id = None) :
    Step g st c (LS (l_node st) (delete id (l_svcs st)) (prune_chks id (l_chks st))) c
         (Ev KDelSvc id (agent_token g) false false OUnknown [])
| St_delsvc_refused st c id e o (L : l_svcs st !! id = Some e) (D : se_del e = true) (O : refusal o = true) :
    Step g st c (LS (l_node st) (<[id := se_set_sync true e]> (l_svcs st)) (l_chks st)) c
         (Ev KDelSvc id (agent_token g) false false o [])
| St_chk_ok st c c' id e d tok
    (L : l_chks st !! id = Some e) (D : ce_del e = false) (S : ce_sync e = false) (F : ce_def e = Some d)
    (T : tok = reg_token g (ce_tok e) (ce_loc e))
    (R : cat_register (g_ni g) (l_node st) (sync_sv st d) {[id := d]} c = Some c') :
    Step g st c (LS true (l_svcs st) (<[id := ce_set_sync true (ce_clear_defer e)]> (l_chks st))) c'
         (Ev KSyncChk id tok (l_node st) (is_some (sync_sv st d)) OOk [])
| St_chk_fail st c id e d tok
    (* the push failed; SyncChanges had already forgotten the pending deferred-output timer *)
    (L : l_chks st !! id = Some e) (D : ce_del e = false) (S : ce_sync e = false) (F : ce_def e = Some d)
    (T : tok = reg_token g (ce_tok e) (ce_loc e)) :
    Step g st c (LS (l_node st) (l_svcs st) (<[id := ce_clear_defer e]> (l_chks st))) c
         (Ev KSyncChk id tok (l_node st) (is_some (sync_sv st d)) OFail [])
| St_chk_refused st c id e d tok o
    (L : l_chks st !! id = Some e) (D : ce_del e = false) (S : ce_sync e = false) (F : ce_def e = Some d)
    (T : tok = reg_token g (ce_tok e) (ce_loc e)) (O : refusal o = true) :
    Step g st c (LS (l_node st) (l_svcs st) (<[id := ce_set_sync true (ce_clear_defer e)]> (l_chks st))) c
         (Ev KSyncChk id tok (l_node st) (is_some (sync_sv st d)) o [])
| St_delchk_ok st c id e (L : l_chks st !! id = Some e) (D : ce_del e = true) :
    Step g st c (LS (l_node st) (l_svcs st) (delete id (l_chks st))) (cat_dereg_chk id c)
         (Ev KDelChk id (agent_token g) false false OOk [])
| St_delchk_unknown st c id e (L : l_chks st !! id = Some e) (D : ce_del e = true) (C : c_chks c !! id = None) :
    Step g st c (LS (l_node st) (l_svcs st) (delete id (l_chks st))) c
         (Ev KDelChk id (agent_token g) false false OUnknown [])
| St_delchk_refused st c id e o (L : l_chks st !! id = Some e) (D : ce_del e = true) (O : refusal o = true) :
    Step g st c (LS (l_node st) (l_svcs st) (<[id := ce_set_sync true e]> (l_chks st))) c
         (Ev KDelChk id (agent_token g) false false o []).

Definition failed (o : outcome) : bool := match o with OFail => true | _ => false end.

Definition stepped (g : cfg) (a a' : acc) (ev : event) : Prop :=
  Step g (st_of a) (cat_of a) (st_of a') (cat_of a') ev /\ log_of a' = log_of a ++ [ev] /\
  err_of a' = err_of a || failed (e_out ev).

Lemma stepped_intro g st c fs log err st' c' fs' ev :
  Step g st c st' c' ev ->
  stepped g (st, c, fs, log, err) (st', c', fs', log ++ [ev], err || failed (e_out ev)) ev.
Proof. intros H. split; [exact H|split; reflexivity]. Qed.

Definition iteration (g : cfg) (a a' : acc) : Prop := a' = a \/ exists ev, stepped g a a' ev.

Lemma logged_iteration g a a' (P : event -> Prop) : iteration g a a' -> logged P (log_of a) -> logged P (log_of a').
Proof.
  intros [->|(ev & _ & -> & _)] H; [exact H|]. eapply logged_incl; [|exact H]. intros x Hx. apply in_or_app. auto.
Qed.

Lemma stepped_err {g a a' ev} : stepped g a a' ev -> err_of a = true -> err_of a' = true.
Proof. intros (_ & _ & ->) ->. reflexivity. Qed.

Lemma stepped_not_failed {g a a' ev} : stepped g a a' ev -> err_of a' = false -> e_out ev <> OFail.
Proof. intros (_ & _ & ->) H E. rewrite E in H. destruct (err_of a); discriminate. Qed.

Definition rpc_s (e : sentry) : bool := se_del e || negb (se_sync e) && is_some (se_def e).
Definition rpc_c (e : centry) : bool := ce_del e || negb (ce_sync e) && is_some (ce_def e).
Definition kind_s (e : sentry) : rkind := if se_del e then KDelSvc else KSyncSvc.
Definition kind_c (e : centry) : rkind := if ce_del e then KDelChk else KSyncChk.

Lemma visit_intro g st c fs log err st' c' fs' ev K id :
  Step g st c st' c' ev -> e_kind ev = K -> e_id ev = id ->
  exists ev', stepped g (st, c, fs, log, err) (st', c', fs', log ++ [ev], err || failed (e_out ev)) ev' /\
              e_kind ev' = K /\ e_id ev' = id.
Proof. intros H HK Hid. exists ev. split; [apply stepped_intro; exact H|auto]. Qed.

Lemma step_svc_spec g a id :
  match l_svcs (st_of a) !! id with
  | Some e => if rpc_s e
              then exists ev, stepped g a (step_svc g a id) ev /\ e_kind ev = kind_s e /\ e_id ev = id
              else step_svc g a id = a
  | None => step_svc g a id = a
  end.
Proof.
  destruct a as [[[[st c] fs] log] err]. unfold step_svc, rpc_s, kind_s. cbn [st_of fst].
  destruct (l_svcs st !! id) as [e|] eqn:L; [|reflexivity].
  destruct (se_del e) eqn:D; cbn [orb].
  - (* marked deleted: the outcome of the Deregister; OFail and OUnknown are the [try] *)
    unfold delete_service, push. destruct (next fs) as [o fs'].
    destruct o; cbn; try (apply visit_intro; [apply St_fail| |]; reflexivity).
    + (* OOk *) apply visit_intro; [eapply St_delsvc_ok; eassumption|reflexivity..].
    + (* ODenied *) destruct (c_svcs c !! id) eqn:C; (apply visit_intro; [|reflexivity..]).
      * eapply St_delsvc_refused; eauto.
      * eapply St_delsvc_unknown; eauto.
    + (* ONotFound *) apply visit_intro; [eapply St_delsvc_refused; eauto|reflexivity..].
  - destruct (se_sync e) eqn:S; [reflexivity|]. destruct (se_def e) as [d|] eqn:F; [|reflexivity]. cbn.
    unfold sync_service, push. destruct (next fs) as [o fs'].
    destruct o; cbn; try (apply visit_intro; [apply St_fail| |]; reflexivity).
    + (* OOk *) destruct (cat_register _ _ _ _ _) as [c'|] eqn:R; (apply visit_intro; [|reflexivity..]).
      * eapply St_svc_ok; eauto.
      * apply St_fail. reflexivity.
    + (* ODenied *) apply visit_intro; [eapply St_svc_refused; eauto|reflexivity..].
    + (* ONotFound *) apply visit_intro; [eapply St_svc_refused; eauto|reflexivity..].
Qed.

Lemma step_chk_spec g a id :
  match l_chks (st_of a) !! id with
  | Some e => if rpc_c e
              then exists ev, stepped g a (step_chk g a id) ev /\ e_kind ev = kind_c e /\ e_id ev = id
              else step_chk g a id = a
  | None => step_chk g a id = a
  end.
Proof.
  destruct a as [[[[st c] fs] log] err]. unfold step_chk, rpc_c, kind_c. cbn [st_of fst].
  destruct (l_chks st !! id) as [e|] eqn:L; [|reflexivity].
  destruct (ce_del e) eqn:D; cbn [orb].
  - (* marked deleted: the outcome of the Deregister; OFail and OUnknown are the [try] *)
    unfold delete_check, push. destruct (next fs) as [o fs'].
    destruct o; cbn; try (apply visit_intro; [apply St_fail| |]; reflexivity).
    + (* OOk *) apply visit_intro; [eapply St_delchk_ok; eassumption|reflexivity..].
    + (* ODenied *) destruct (c_chks c !! id) eqn:C; (apply visit_intro; [|reflexivity..]).
      * eapply St_delchk_refused; eauto.
      * eapply St_delchk_unknown; eauto.
    + (* ONotFound *) apply visit_intro; [eapply St_delchk_refused; eauto|reflexivity..].
  - destruct (ce_sync e) eqn:S; [reflexivity|]. destruct (ce_def e) as [d|] eqn:F; [|reflexivity]. cbn.
    unfold sync_check, push. fold (sync_sv st d). destruct (next fs) as [o fs'].
    destruct o; cbn; try (apply visit_intro; [eapply St_chk_fail; eauto| |]; reflexivity).
    + (* OOk *) destruct (cat_register _ _ _ _ _) as [c'|] eqn:R; (apply visit_intro; [|reflexivity..]).
      * eapply St_chk_ok; eauto.
      * eapply St_chk_fail; eauto.
    + (* ODenied *) apply visit_intro; [eapply St_chk_refused; eauto|reflexivity..].
    + (* ONotFound *) apply visit_intro; [eapply St_chk_refused; eauto|reflexivity..].
Qed.

Lemma step_svc_iteration g a id : iteration g a (step_svc g a id).
Proof.
  unfold iteration. generalize (step_svc_spec g a id). destruct (l_svcs (st_of a) !! id) as [e|]; [|auto].
  destruct (rpc_s e); [intros (ev & H & _); eauto|auto].
Qed.

Lemma step_chk_iteration g a id : iteration g a (step_chk g a id).
Proof.
  unfold iteration. generalize (step_chk_spec g a id). destruct (l_chks (st_of a) !! id) as [e|]; [|auto].
  destruct (rpc_c e); [intros (ev & H & _); eauto|auto].
Qed.

Lemma fold_keep {X} (f : acc -> X -> acc) (Q : acc -> Prop) l a :
  (forall a x, Q a -> Q (f a x)) -> Q a -> Q (fold_left f l a).
Proof. intros HQ. revert a. induction l as [|x l IH]; intros a Ha; cbn; auto. Qed.

Lemma fold_visit {X} (f : acc -> X -> acc) (IV R : acc -> Prop) (id : X) l a :
  (forall a x, IV a -> IV (f a x)) -> (forall a x, IV a -> R a -> R (f a x)) -> (forall a, IV a -> R (f a id)) ->
  IV a -> In id l -> R (fold_left f l a).
Proof.
  intros Hi Hs Hv. revert a. induction l as [|x l IH]; intros a Ia Hin; [destruct Hin|]. cbn [fold_left].
  destruct Hin as [->|Hin]; [|apply IH; auto].
  apply (fold_keep f (fun b => IV b /\ R b)); [intros b y [Ib Rb]; auto|auto].
Qed.

(* SyncChanges: the node-info registration when the node is out of sync (its failure ends the
   pass), then the loop over the services, then the loop over the checks *)
Lemma sync_changes_cases g os oc st c fs :
  exists a1, iteration g (st, c, fs, [], false) a1 /\
    ((sync_changes g os oc st c fs = a1 /\ err_of a1 = true /\
      logged (fun ev => e_kind ev = KNodeInfo /\ e_out ev = OFail) (log_of a1)) \/
     (sync_changes g os oc st c fs = fold_left (step_chk g) oc (fold_left (step_svc g) os a1) /\ err_of a1 = false)).
Proof.
  unfold sync_changes. destruct (l_node st).
  { exists (st, c, fs, [], false). split; [left; reflexivity|right; split; reflexivity]. }
  assert (H : exists ev, stepped g (st, c, fs, [], false) (sync_node_info g st c fs) ev /\ e_kind ev = KNodeInfo).
  { unfold sync_node_info. destruct (next fs) as [o fs1].
    destruct o; eexists; (split; [apply (stepped_intro g st c fs [] false)|reflexivity]);
      [apply St_node_ok|apply St_fail|apply St_node_refused|apply St_node_refused|apply St_fail]; reflexivity. }
  destruct H as (ev & Hs & K). exists (sync_node_info g st c fs). split; [right; eauto|].
  pose proof Hs as (_ & Hl & He).
  destruct (sync_node_info g st c fs) as [[[[st1 c1] fs1] log1] stop]. cbn in Hl, He. subst log1 stop.
  destruct (e_out ev) eqn:O; cbn; [right|left|right|right|right]; (split; [reflexivity|]); try reflexivity.
  split; [reflexivity|]. exists ev. cbn. auto.
Qed.

Lemma sync_changes_inv g (Q : lstate -> cat -> list event -> Prop) {os oc st c fs st' c' fs' log err} :
  (forall st c log st' c' ev, Q st c log -> Step g st c st' c' ev -> Q st' c' (log ++ [ev])) ->
  Q st c [] -> sync_changes g os oc st c fs = (st', c', fs', log, err) -> Q st' c' log.
Proof.
  intros HQ H0 E. set (P := fun a : acc => Q (st_of a) (cat_of a) (log_of a)).
  assert (It : forall a a', iteration g a a' -> P a -> P a').
  { intros a a' [->|(ev & Hs & Hl & _)] Ha; [exact Ha|]. unfold P. rewrite Hl. eauto. }
  enough (P (sync_changes g os oc st c fs)) as H by (rewrite E in H; exact H).
  destruct (sync_changes_cases g os oc st c fs) as (a1 & H1 & H2).
  assert (P a1) by (apply (It _ _ H1), H0).
  destruct H2 as [(-> & _)|(-> & _)]; [assumption|].
  apply fold_keep; [intros a x; apply It, step_chk_iteration|].
  apply fold_keep; [intros a x; apply It, step_svc_iteration|assumption].
Qed.
